(* MapSet/Refuted.v — holds no refutation itself: the input on which FromMap before fix 7184c35 (seeded/D5: singleton
   inserted last) loses an entry of hm ({a:1} FromMap {a:2, b:3}: a stays 1) is run here through fromMap as it is.
   The refutation of the earlier variant is C17_D5_frommap_singleton_last_refuted in Properties/C17.v. *)
From SV Require Import Base.Bytes Base.OrdMap MapSet.Model MapSet.OrdLemmas MapSet.Proofs.
Open Scope N_scope.

Example frommap_fixed_witness : mget (fromMap (MSingle [97] 1) [([97], 2); ([98], 3)]) [97] = Some 2.
Proof. vm_compute. reflexivity. Qed.
