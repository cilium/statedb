(* MapSet/Machine.v — the register-file machine (branching histories): persistence of every value
   already obtained, and the representation invariants of everything reachable. *)
From SV Require Import Base.Bytes Base.OrdMap MapSet.Model MapSet.OrdLemmas MapSet.Proofs MapSet.SetProofs.
Open Scope N_scope.

Section Regs.
Context {A : Type}.
Lemma rget_app (r r' : regs A) i a : rget r i = Some a -> rget (r ++ r') i = Some a.
Proof. induction r as [|[j b] r IH]; simpl; [discriminate|]. destruct (i =? j); auto. Qed.

Lemma rget_app_none (r r' : regs A) i : rget r i = None -> rget (r ++ r') i = rget r' i.
Proof. induction r as [|[j b] r IH]; simpl; auto. destruct (i =? j); [discriminate|auto]. Qed.

Lemma rget_rput (r : regs A) d a i :
  rget (rput r d a) i = match rget r d with Some _ => rget r i | None => if i =? d then Some a else rget r i end.
Proof.
  unfold rput. destruct (rget r d) eqn:E; auto. destruct (N.eqb_spec i d) as [->|Hne].
  - rewrite rget_app_none by auto. simpl. now rewrite N.eqb_refl.
  - destruct (rget r i) eqn:E2.
    + now apply rget_app.
    + rewrite rget_app_none by auto. simpl. destruct (N.eqb_spec i d); congruence.
Qed.

Lemma rget_rupd (r : regs A) t a i :
  rget (rupd r t a) i = if i =? t then match rget r t with Some _ => Some a | None => None end else rget r i.
Proof.
  induction r as [|[j b] r IH]; simpl.
  - now destruct (i =? t).
  - destruct (N.eqb_spec t j) as [->|Hne]; simpl.
    + destruct (N.eqb_spec i j); auto.
    + rewrite IH. destruct (N.eqb_spec i j) as [->|Hne2]; auto.
      destruct (N.eqb_spec j t); congruence.
Qed.

Lemma rget_rput_old (r : regs A) i j a b : rget r i = Some a -> rget (rput r j b) i = Some a.
Proof.
  intros H. rewrite rget_rput. destruct (rget r j) eqn:E; auto. destruct (N.eqb_spec i j) as [->|]; congruence.
Qed.

Lemma rget_rput_new (r : regs A) j b : rget r j = None -> rget (rput r j b) j = Some b.
Proof. intros H. now rewrite rget_rput, H, N.eqb_refl. Qed.

Lemma rput_all (P : A -> Prop) (r : regs A) j b :
  (forall i a, rget r i = Some a -> P a) -> P b -> forall i a, rget (rput r j b) i = Some a -> P a.
Proof.
  intros Hr Hb i a. rewrite rget_rput. destruct (rget r j); [apply Hr|].
  destruct (i =? j); [intros [= <-]; exact Hb | apply Hr].
Qed.

Lemma rupd_all (P : A -> Prop) (r : regs A) j b :
  (forall i a, rget r i = Some a -> P a) -> P b -> forall i a, rget (rupd r j b) i = Some a -> P a.
Proof.
  intros Hr Hb i a. rewrite rget_rupd. destruct (i =? j); [|apply Hr].
  destruct (rget r j); [intros [= <-]; exact Hb | discriminate].
Qed.
End Regs.

Lemma step_maps_persist st o i m : rget (maps st) i = Some m -> rget (maps (step st o)) i = Some m.
Proof.
  intros H. destruct o; simpl; try (now apply rget_rput_old); auto;
    destruct (rget (txns st) t); simpl; auto; now apply rget_rput_old.
Qed.

Lemma step_sets_persist st o i s : rget (sets st) i = Some s -> rget (sets (step st o)) i = Some s.
Proof.
  intros H. destruct o; simpl; try (now apply rget_rput_old); auto;
    destruct (rget (txns st) t); simpl; auto.
Qed.

Lemma run_persist ops : forall st,
  (forall i m, rget (maps st) i = Some m -> rget (maps (run st ops)) i = Some m) /\
  (forall i s, rget (sets st) i = Some s -> rget (sets (run st ops)) i = Some s).
Proof.
  induction ops as [|o r IH]; intros st; simpl; [auto|]. destruct (IH (step st o)) as [IH1 IH2]. split.
  - intros i m H. apply IH1. now apply step_maps_persist.
  - intros i s H. apply IH2. now apply step_sets_persist.
Qed.

Lemma getm_putm_new st d m : rget (maps st) d = None -> getm (putm st d m) d = m.
Proof. intros H. unfold getm, putm. simpl. now rewrite rget_rput_new. Qed.
Lemma gets_puts_new st d s : rget (sets st) d = None -> gets (puts st d s) d = s.
Proof. intros H. unfold gets, puts. simpl. now rewrite rget_rput_new. Qed.

Definition st_inv (st : state) : Prop :=
  (forall i m, rget (maps st) i = Some m -> minv m) /\
  (forall i s, rget (sets st) i = Some s -> sinv s) /\
  (forall i t, rget (txns st) i = Some t -> om_sorted t).

(* raw decoding of hand-made input is inside the strong invariant only without duplicate keys *)
Definition op_ok (o : op) : Prop :=
  match o with OMDecJ _ l | OMDecY _ l => NoDup (map fst l) | _ => True end.

Lemma st0_inv : st_inv st0.
Proof. repeat split; intros i x H; discriminate. Qed.

Lemma getm_inv st i : st_inv st -> minv (getm st i).
Proof. intros [H _]. unfold getm. destruct (rget (maps st) i) eqn:E; [eauto|exact I]. Qed.
Lemma gets_inv st i : st_inv st -> sinv (gets st i).
Proof. intros [_ [H _]]. unfold gets. destruct (rget (sets st) i) eqn:E; [eauto|exact I]. Qed.

Lemma putm_inv st d m : st_inv st -> minv m -> st_inv (putm st d m).
Proof. intros [H1 H23] Hm. exact (conj (rput_all minv _ _ _ H1 Hm) H23). Qed.
Lemma puts_inv st d s : st_inv st -> sinv s -> st_inv (puts st d s).
Proof. intros [H1 [H2 H3]] Hs. exact (conj H1 (conj (rput_all sinv _ _ _ H2 Hs) H3)). Qed.

(* every operation writes a value for which its own lemma gives the invariant *)
Lemma step_inv st o : st_inv st -> op_ok o -> st_inv (step st o).
Proof.
  intros H Hok. pose proof (getm_inv st) as GM. pose proof (gets_inv st) as GS. pose proof H as [H1 [H2 H3]].
  destruct o; simpl in *;
    auto 6 using putm_inv, puts_inv, mset_inv, mdelete_inv, fromMap_inv, hm_of_list_nodup, mdecode_inv,
                 snew_inv, sset_inv, sdelete_inv, sunion_inv, sdifference_inv, sdecode_json_inv, sdecode_yaml_inv.
  - refine (conj H1 (conj H2 (rput_all _ _ _ _ H3 _))). rewrite mtxn_abs. apply minv_sorted, GM, H.
  - destruct (rget (txns st) t) eqn:E; [|exact H].
    refine (conj H1 (conj H2 (rupd_all _ _ _ _ H3 _))). apply om_insert_sorted. eauto.
  - destruct (rget (txns st) t) eqn:E; [|exact H].
    refine (conj H1 (conj H2 (rupd_all _ _ _ _ H3 _))). apply om_delete_sorted. eauto.
  - destruct (rget (txns st) t) eqn:E; [|exact H]. apply putm_inv, tcommit_inv; eauto.
  - apply putm_inv; [exact H|]. rewrite mdecode_mencode; auto.
  - apply putm_inv; [exact H|]. rewrite mdecode_yaml_json, mdecode_mencode; auto.
Qed.

Lemma run_inv ops : forall st, st_inv st -> Forall op_ok ops -> st_inv (run st ops).
Proof.
  induction ops as [|o r IH]; intros st H Hok; simpl; auto. inversion Hok; subst.
  apply IH; auto. now apply step_inv.
Qed.
