(* MapSet/SetProofs.v — part.Set refines the ordered map key -> element. *)
From SV Require Import Base.Bytes Base.OrdMap MapSet.Model MapSet.OrdLemmas.
Open Scope N_scope.

(* the mathematical set (as key -> stored element) denoted by a part.Set *)
Definition sabs (s : pset) : tree := stree s.
Definition sinv (s : pset) : Prop := om_sorted (sabs s).

Lemma sinv_none tb : sinv (SNone tb). Proof. exact I. Qed.

Lemma snew_abs l : sabs (snew l) = ins_all l [].
Proof. destruct l; reflexivity. Qed.
Lemma snew_inv l : sinv (snew l).
Proof. unfold sinv. rewrite snew_abs. apply ins_all_sorted. exact I. Qed.

Lemma sset_abs s k v : sabs (sset s k v) = om_insert k v (sabs s).
Proof. reflexivity. Qed.
Lemma sset_inv s k v : sinv s -> sinv (sset s k v).
Proof. unfold sinv. rewrite sset_abs. apply om_insert_sorted. Qed.

Lemma sdelete_abs s k : sabs (sdelete s k) = om_delete k (sabs s).
Proof. destruct s as [tb|t]; simpl; auto. destruct (om_delete k t); reflexivity. Qed.
Lemma sdelete_inv s k : sinv s -> sinv (sdelete s k).
Proof. unfold sinv. rewrite sdelete_abs. apply om_delete_sorted. Qed.

Lemma shas_abs s k : shas s k = match om_get k (sabs s) with Some _ => true | None => false end.
Proof. destruct s; reflexivity. Qed.
Lemma slen_abs s : slen s = N.of_nat (length (sabs s)).
Proof. reflexivity. Qed.
Lemma sall_abs s : sall s = sabs s.
Proof. reflexivity. Qed.

(* Union: the elements of s2 are written over s (for a key in both, s2's element is kept) *)
Lemma sunion_abs s s2 : sinv s2 -> sabs (sunion s s2) = ins_all (sabs s2) (sabs s).
Proof.
  intros H2. destruct s2 as [tb2|t2]; simpl; auto. destruct s as [tb|t1]; simpl; auto.
  symmetry. now apply ins_all_sorted_id.
Qed.
Lemma sunion_inv s s2 : sinv s -> sinv s2 -> sinv (sunion s s2).
Proof. intros H H2. unfold sinv. rewrite sunion_abs by auto. now apply ins_all_sorted. Qed.
Lemma sunion_get s s2 k : sinv s -> sinv s2 ->
  om_get k (sabs (sunion s s2)) = match om_get k (sabs s2) with Some v => Some v | None => om_get k (sabs s) end.
Proof.
  intros H H2. rewrite sunion_abs by auto. rewrite ins_all_get by auto. now rewrite assoc_last_sorted.
Qed.

Lemma sdifference_abs s s2 : sabs (sdifference s s2) = del_all (om_keys (sabs s2)) (sabs s).
Proof.
  destruct s as [tb|t1], s2 as [tb2|t2]; simpl; auto; now rewrite del_all_nil.
Qed.
Lemma sdifference_inv s s2 : sinv s -> sinv (sdifference s s2).
Proof. intros H. unfold sinv. rewrite sdifference_abs. now apply del_all_sorted. Qed.
Lemma sdifference_get s s2 k : sinv s -> sinv s2 ->
  om_get k (sabs (sdifference s s2)) = match om_get k (sabs s2) with Some _ => None | None => om_get k (sabs s) end.
Proof.
  intros H H2. rewrite sdifference_abs, del_all_get by auto. rewrite existsb_keys by auto.
  now destruct (om_get k (sabs s2)).
Qed.

(* Equal decides equality of the key sets (no invariant needed) *)
Lemma sequal_spec s o : sequal s o = true <-> om_keys (sabs s) = om_keys (sabs o).
Proof.
  destruct s as [tb|t1], o as [tb2|t2]; unfold sequal, slen, sabs; simpl stree;
    try (apply len_guard; [apply keys_eq_loop_spec | apply keys_eq_length]).
  simpl. tauto.
Qed.

Lemma sdecode_json_abs l : sabs (sdecode_json l) = ins_all l [].
Proof. unfold sdecode_json. destruct (ins_all l []); reflexivity. Qed.
Lemma sdecode_yaml_abs l : sabs (sdecode_yaml l) = ins_all l [].
Proof. reflexivity. Qed.
Lemma sdecode_json_inv l : sinv (sdecode_json l).
Proof. unfold sinv. rewrite sdecode_json_abs. apply ins_all_sorted. exact I. Qed.
Lemma sdecode_yaml_inv l : sinv (sdecode_yaml l).
Proof. unfold sinv. rewrite sdecode_yaml_abs. apply ins_all_sorted. exact I. Qed.
Lemma sdecode_sencode s : sinv s ->
  sabs (sdecode_json (sencode s)) = sabs s /\ sabs (sdecode_yaml (sencode s)) = sabs s.
Proof.
  intros H. rewrite sdecode_json_abs, sdecode_yaml_abs. unfold sencode. rewrite sall_abs.
  split; now apply ins_all_sorted_id.
Qed.
