(* MapSet/Proofs.v — part.Map / part.MapTxn refine the ordered map `omap` (Base/OrdMap.v):
   representation invariant, abstraction function, every operation against its specification. *)
From SV Require Import Base.Bytes Base.OrdMap MapSet.Model MapSet.OrdLemmas.
Open Scope N_scope.

(* the mathematical map denoted by a part.Map *)
Definition abs (m : pmap) : tree :=
  match m with MEmpty => [] | MSingle k v => [(k, v)] | MTree t => t end.

(* representation invariant of values built through the API: a tree holds at least two entries *)
Definition minv (m : pmap) : Prop :=
  match m with MTree t => om_sorted t /\ (2 <= length t)%nat | _ => True end.
(* what decoding arbitrary input still guarantees *)
Definition minv_weak (m : pmap) : Prop := om_sorted (abs m).

Lemma minv_sorted m : minv m -> om_sorted (abs m).
Proof. destruct m as [|k v|t]; simpl; [auto|intros _; exact (sorted_single k v)|tauto]. Qed.

Lemma minv_empty : minv MEmpty. Proof. exact I. Qed.

Lemma mset_abs m k v : abs (mset m k v) = om_insert k v (abs m).
Proof.
  destruct m as [|k' v'|t]; simpl; auto. rewrite (bytes_eqb_sym k' k).
  destruct (bytes_cmp_cases k k') as [[E ->]|[[E [L Hl]]|[E [L Hl]]]]; rewrite E; [reflexivity| |]; simpl; rewrite L.
  - now rewrite (proj2 (lex_lt_cmp k k' Hl)).
  - now rewrite (proj2 (bytes_ltb_spec k' k) Hl).
Qed.

Lemma mset_inv m k v : minv m -> minv (mset m k v).
Proof.
  destruct m as [|k' v'|t]; [intros _; exact I| |].
  - intros _. cbn [mset]. destruct (bytes_eqb k k') eqn:E; [exact I|].
    split; [apply om_insert_sorted, om_insert_sorted; exact I|].
    simpl. rewrite (bytes_eqb_sym k' k), E. now destruct (bytes_ltb k' k).
  - intros [Hs Hl]. cbn [mset minv]. split; [now apply om_insert_sorted|]. pose proof (om_insert_length_ge k v t). lia.
Qed.

Lemma mdelete_abs m k : abs (mdelete m k) = om_delete k (abs m).
Proof.
  destruct m as [|k' v'|t]; simpl; auto.
  - rewrite (bytes_eqb_sym k' k). destruct (bytes_eqb k k'); simpl; auto. now destruct (bytes_ltb k k').
  - destruct (om_delete k t) as [|[k1 v1] [|q r]]; reflexivity.
Qed.

Lemma mdelete_inv m k : minv m -> minv (mdelete m k).
Proof.
  destruct m as [|k' v'|t]; simpl; auto.
  - intros _. destruct (bytes_eqb k' k); simpl; auto.
  - intros [Hs _]. pose proof (om_delete_sorted k t Hs) as H.
    destruct (om_delete k t) as [|[k1 v1] [|q r]]; simpl; auto. split; [exact H|simpl; lia].
Qed.

Lemma mget_abs m k : mget m k = om_get k (abs m).
Proof.
  destruct m as [|k' v'|t]; simpl; auto.
  rewrite (bytes_eqb_sym k' k). destruct (bytes_eqb k k'); auto. now destruct (bytes_ltb k k').
Qed.

Lemma mlen_abs m : mlen m = N.of_nat (length (abs m)).
Proof. destruct m; reflexivity. Qed.

Lemma mall_abs m : mall m = abs m.
Proof. destruct m; reflexivity. Qed.

Lemma mprefix_abs m p : mprefix m p = om_prefix p (abs m).
Proof. destruct m as [|k v|t]; simpl; auto. Qed.

Lemma mlower_abs m from : mlower m from = om_lower_bound from (abs m).
Proof. destruct m as [|k v|t]; simpl; auto. now destruct (bytes_ltb k from). Qed.

Lemma mall_sorted m : minv m -> om_sorted (mall m).
Proof. rewrite mall_abs. apply minv_sorted. Qed.

Lemma mprefix_sorted m p : minv m -> om_sorted (mprefix m p).
Proof. intros H. rewrite mprefix_abs. apply om_prefix_sorted, minv_sorted, H. Qed.

Lemma mlower_sorted m from : minv m -> om_sorted (mlower m from) /\
  forall e, In e (mlower m from) <-> In e (abs m) /\ bytes_ltb (fst e) from = false.
Proof.
  intros H. apply minv_sorted in H. rewrite mlower_abs.
  split; [apply om_lower_bound_sorted | apply om_lower_bound_spec]; exact H.
Qed.

Lemma take_abs m lim : take lim (mall m) = firstn lim (abs m).
Proof. unfold take. now rewrite mall_abs. Qed.

Lemma mget_mset m k v k' : minv m -> mget (mset m k v) k' = if bytes_eqb k' k then Some v else mget m k'.
Proof.
  intros H. rewrite !mget_abs, mset_abs. destruct (bytes_eqb k' k) eqn:E.
  - apply bytes_eqb_spec in E. subst. apply om_get_insert_same.
  - apply om_get_insert_other; [now apply bytes_eqb_false|now apply minv_sorted].
Qed.

Lemma mget_mdelete m k k' : minv m -> mget (mdelete m k) k' = if bytes_eqb k' k then None else mget m k'.
Proof.
  intros H. rewrite !mget_abs, mdelete_abs. destruct (bytes_eqb k' k) eqn:E.
  - apply bytes_eqb_spec in E. subst. apply om_get_delete_same. now apply minv_sorted.
  - apply om_get_delete_other; [now apply bytes_eqb_false|now apply minv_sorted].
Qed.

Lemma mtxn_abs m : mtxn m = abs m.
Proof. destruct m; reflexivity. Qed.

Lemma fromMap_abs m hm : abs (fromMap m hm) = ins_all hm (abs m).
Proof.
  destruct hm as [|[k v] [|q r]]; simpl fromMap; auto.
  apply mset_abs.
Qed.

Lemma fromMap_get m hm k : minv m ->
  mget (fromMap m hm) k = match assoc_last k hm with Some v => Some v | None => mget m k end.
Proof.
  intros H. rewrite !mget_abs, fromMap_abs. apply ins_all_get. now apply minv_sorted.
Qed.

Lemma fromMap_get_in m hm k v : minv m -> NoDup (map fst hm) -> In (k, v) hm -> mget (fromMap m hm) k = Some v.
Proof. intros H Hn Hin. rewrite fromMap_get by auto. now rewrite (assoc_last_nodup k v hm). Qed.

Lemma fromMap_get_notin m hm k : minv m -> ~ In k (map fst hm) -> mget (fromMap m hm) k = mget m k.
Proof. intros H Hn. rewrite fromMap_get by auto. now rewrite assoc_last_notin. Qed.

Lemma fromMap_inv m hm : minv m -> NoDup (map fst hm) -> minv (fromMap m hm).
Proof.
  intros H Hn. destruct hm as [|[k1 v1] [|[k2 v2] r]]; simpl fromMap; auto.
  - now apply mset_inv.
  - (* the tree the entries go into is the one Map.Txn() starts from *)
    change (minv (MTree (ins_all ((k1, v1) :: (k2, v2) :: r) (mtxn m)))). rewrite mtxn_abs.
    pose proof (minv_sorted m H) as Hs. split; [now apply ins_all_sorted|].
    apply (ins_all_two_keys _ _ k1 k2); simpl; auto.
    inversion Hn as [|x xs Hnin Hnd]; subst. intros ->. apply Hnin. now left.
Qed.

Lemma hm_of_list_nodup l : NoDup (map fst (hm_of_list l)).
Proof. apply sorted_nodup. apply ins_all_sorted. exact I. Qed.

Lemma tcommit_abs t : abs (tcommit t) = t.
Proof. destruct t as [|[k v] [|q r]]; reflexivity. Qed.

Lemma tcommit_inv t : om_sorted t -> minv (tcommit t).
Proof. destruct t as [|[k v] [|q r]]; simpl; auto. intros H. split; [exact H|lia]. Qed.

Inductive txop := TSet (k : bytes) (v : val) | TDel (k : bytes).
(* what the MapTxn method does to the transaction *)
Definition apply_txop (t : maptxn) (o : txop) : maptxn :=
  match o with TSet k v => tset t k v | TDel k => fst (tdelete t k) end.
(* what it means on the mathematical map *)
Definition spec_txop (t : tree) (o : txop) : tree :=
  match o with TSet k v => om_insert k v t | TDel k => om_delete k t end.

Lemma apply_txops_spec ops : forall t, fold_left apply_txop ops t = fold_left spec_txop ops t.
Proof. induction ops as [|[k v|k] r IH]; intros t; simpl; auto. Qed.

Lemma spec_txops_sorted ops : forall t, om_sorted t -> om_sorted (fold_left spec_txop ops t).
Proof.
  induction ops as [|[k v|k] r IH]; intros t H; simpl; auto; apply IH;
    [now apply om_insert_sorted|now apply om_delete_sorted].
Qed.

(* m.Txn(); ops…; Commit() is the fold of the mathematical operations over abs m *)
Lemma txn_commit_abs m ops :
  abs (tcommit (fold_left apply_txop ops (mtxn m))) = fold_left spec_txop ops (abs m).
Proof. now rewrite tcommit_abs, apply_txops_spec, mtxn_abs. Qed.

Lemma txn_commit_inv m ops : minv m -> minv (tcommit (fold_left apply_txop ops (mtxn m))).
Proof.
  intros H. apply tcommit_inv. rewrite apply_txops_spec, mtxn_abs. apply spec_txops_sorted. now apply minv_sorted.
Qed.

(* the transaction used again after a Commit continues from the committed contents *)
Lemma txn_reuse_abs m ops1 ops2 :
  let t1 := fold_left apply_txop ops1 (mtxn m) in
  abs (tcommit (fold_left apply_txop ops2 t1)) = fold_left spec_txop ops2 (abs (tcommit t1)).
Proof. simpl. now rewrite !tcommit_abs, !apply_txops_spec. Qed.

Lemma tdelete_found t k : snd (tdelete t k) = true <-> om_get k t <> None.
Proof. unfold tdelete. simpl. destruct (om_get k t); split; congruence. Qed.

Lemma mequalKeys_spec m o : minv m -> minv o ->
  (mequalKeys m o = true <-> om_keys (abs m) = om_keys (abs o)).
Proof.
  intros Hm Ho. unfold mequalKeys. rewrite !mlen_abs. apply len_guard; [|apply keys_eq_length].
  intros El. destruct m as [|k1 v1|t1], o as [|k2 v2|t2]; simpl in *; try discriminate; try lia; try tauto.
  - rewrite bytes_eqb_spec. split; [now intros ->|congruence].
  - now apply keys_eq_loop_spec.
Qed.

Lemma mslowEqual_spec m o : minv m -> minv o -> (mslowEqual m o = true <-> abs m = abs o).
Proof.
  intros Hm Ho. unfold mslowEqual. rewrite !mlen_abs. apply len_guard; [|now intros ->].
  intros El. destruct m as [|k1 v1|t1], o as [|k2 v2|t2]; simpl in *; try discriminate; try lia; try tauto.
  - rewrite andb_true_iff, bytes_eqb_spec, N.eqb_eq. split; [now intros [-> ->]|]. intros H. injection H. auto.
  - now apply kvs_eq_loop_spec.
Qed.

(* under the invariant the abstraction is injective: equal contents = equal representation *)
Lemma abs_inj m o : minv m -> minv o -> abs m = abs o -> m = o.
Proof.
  destruct m as [|k1 v1|t1], o as [|k2 v2|t2]; simpl; intros Hm Ho H; subst; simpl in *;
    try reflexivity; try discriminate; try lia; try (destruct Hm; simpl in *; lia); try (destruct Ho; simpl in *; lia).
  now injection H as -> ->.
Qed.

Lemma mdecode_json_fromMap l : mdecode_json l = fromMap MEmpty l.
Proof. destruct l as [|[k v] [|q r]]; reflexivity. Qed.
Lemma mdecode_yaml_json l : mdecode_yaml l = mdecode_json l.
Proof. reflexivity. Qed.

Lemma mdecode_abs l : abs (mdecode_json l) = ins_all l [].
Proof. rewrite mdecode_json_fromMap. apply fromMap_abs. Qed.

Lemma mdecode_get l k : mget (mdecode_json l) k = assoc_last k l.
Proof.
  rewrite mdecode_json_fromMap, fromMap_get by exact I. simpl. now destruct (assoc_last k l).
Qed.

Lemma mdecode_weak_inv l : minv_weak (mdecode_json l).
Proof. unfold minv_weak. rewrite mdecode_abs. apply ins_all_sorted. exact I. Qed.

Lemma mdecode_inv l : NoDup (map fst l) -> minv (mdecode_json l).
Proof. intros H. rewrite mdecode_json_fromMap. apply fromMap_inv; auto. exact I. Qed.

Lemma mdecode_mencode m : minv m -> mdecode_json (mencode m) = m.
Proof.
  intros H. apply abs_inj; auto.
  - apply mdecode_inv. unfold mencode. rewrite mall_abs. apply sorted_nodup. now apply minv_sorted.
  - rewrite mdecode_abs. unfold mencode. rewrite mall_abs. apply ins_all_sorted_id. now apply minv_sorted.
Qed.

Lemma mdecode_mencode_abs m : minv_weak m -> abs (mdecode_json (mencode m)) = abs m.
Proof. intros H. rewrite mdecode_abs. unfold mencode. rewrite mall_abs. now apply ins_all_sorted_id. Qed.
