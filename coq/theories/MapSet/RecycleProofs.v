(* MapSet/RecycleProofs.v — with MapTxn.Commit calling Txn.commit (no offer for reuse, fix b3f1606) every step
   of the mechanism model of RecycleModel.v simulates the step of the pure register machine of Model.v
   (step_sim): a Txn object wrapped by a live MapTxn is never handed out by Tree.Txn(). Properties/C17.v
   draws the conclusion over runs, and gives the witness against Txn.Commit (before the fix). *)
From SV Require Import Base.Bytes Base.OrdMap MapSet.Model MapSet.OrdLemmas MapSet.Proofs MapSet.Machine MapSet.RecycleModel.
Open Scope N_scope.

Definition held (ms : mstate) (x : N) : Prop := exists t, xtxns ms t = Some x.
Definition free (ms : mstate) (x : N) : Prop := forall s, slot ms s <> Some x.

(* ownership invariant of the heap *)
Record hinv (ms : mstate) : Prop := mkH {
  h_slot : forall s x, slot ms s = Some x -> x < nxt ms /\ ~ held ms x;   (* offered objects are not held by a MapTxn *)
  h_inj : forall s s' x, slot ms s = Some x -> slot ms s' = Some x -> s = s';
  h_held : forall x, held ms x -> x < nxt ms;
  h_distinct : forall t t' x, xtxns ms t = Some x -> xtxns ms t' = Some x -> t = t'
}.

(* ms' has the same registers as ms and did not touch the objects held by MapTxns *)
Definition frame (ms ms' : mstate) : Prop :=
  xmaps ms' = xmaps ms /\ xtxns ms' = xtxns ms /\ nxt ms <= nxt ms' /\
  (forall y, held ms y -> obj ms' y = obj ms y).

(* the state ms inside an API call that started in ms0: so far the call kept the invariant and the frame *)
Definition ok (ms0 ms : mstate) : Prop := frame ms0 ms /\ hinv ms.
(* ... and x is the transaction object the call works on: allocated, neither offered for reuse nor
   wrapped by a MapTxn *)
Definition priv (ms0 ms : mstate) (x : N) : Prop := ok ms0 ms /\ ~ held ms x /\ free ms x /\ x < nxt ms.

Lemma frame_refl ms : frame ms ms.
Proof. unfold frame. repeat split; auto. lia. Qed.

Lemma held_frame ms ms' x : xtxns ms' = xtxns ms -> (held ms' x <-> held ms x).
Proof. intros E. unfold held. now rewrite E. Qed.

Lemma frame_trans a b c : frame a b -> frame b c -> frame a c.
Proof.
  intros [A1 [A2 [A3 A4]]] [B1 [B2 [B3 B4]]]. unfold frame. repeat split; try congruence; try lia.
  intros y Hy. rewrite B4, A4; auto. now apply (held_frame a b).
Qed.

Lemma ok_refl ms : hinv ms -> ok ms ms.
Proof. split; [apply frame_refl | assumption]. Qed.

Lemma ok_step ms0 ms ms' : ok ms0 ms -> frame ms ms' -> hinv ms' -> ok ms0 ms'.
Proof. intros [F _] F' H'. split; [exact (frame_trans _ _ _ F F') | exact H']. Qed.

Lemma upd_same {A} (f : N -> A) i a : upd f i a i = a.
Proof. unfold upd. now rewrite N.eqb_refl. Qed.
Lemma upd_other {A} (f : N -> A) i j a : j <> i -> upd f i a j = f j.
Proof. unfold upd. intros H. destruct (N.eqb_spec j i); congruence. Qed.
Lemma upd_Some {A} (f : N -> option A) i a j x :
  upd f i a j = Some x -> (j = i /\ a = Some x) \/ (j <> i /\ f j = Some x).
Proof. unfold upd. destruct (N.eqb_spec j i); auto. Qed.

(* a heap operation that offers nothing new, allocates at most, and leaves registers and held objects alone *)
Lemma ok_mono ms0 ms sl ob n : ok ms0 ms -> nxt ms <= n ->
  (forall s x, sl s = Some x -> slot ms s = Some x) -> (forall y, held ms y -> ob y = obj ms y) ->
  ok ms0 (mkM sl ob n (xmaps ms) (xtxns ms)).
Proof.
  intros O Hn Hs Ho. apply (ok_step _ _ _ O); [exact (conj eq_refl (conj eq_refl (conj Hn Ho)))|].
  destruct O as [_ [H1 H2 H3 H4]]. constructor; simpl; eauto.
  - intros s x Hx. destruct (H1 s x (Hs _ _ Hx)). split; [lia|auto].
  - intros x Hx. specialize (H3 x Hx). lia.
Qed.

Lemma new_tree_ok ms0 ms : ok ms0 ms -> ok ms0 (snd (new_tree ms)).
Proof. intros O. apply ok_mono; auto. lia. Qed.

(* Tree.Txn() hands out an object that no MapTxn holds: the one offered at the tree's slot, which it
   takes from there, or a new one *)
Lemma tree_txn_priv ms0 ms tv x ms' : ok ms0 ms -> tree_txn ms tv = (x, ms') ->
  priv ms0 ms' x /\ obj ms' x = (t_c tv, t_slot tv).
Proof.
  intros O E. pose proof O as [_ [H1 H2 H3 H4]]. unfold tree_txn in E.
  assert (Hobj : forall x, ~ held ms x -> forall y, held ms y -> upd (obj ms) x (t_c tv, t_slot tv) y = obj ms y).
  { intros x0 Hnh y Hy. apply upd_other. intros ->. contradiction. }
  destruct (slot ms (t_slot tv)) as [x0|] eqn:S; injection E as <- <-; (split; [|apply upd_same]).
  - destruct (H1 _ _ S) as [Hlt Hnh].
    split; [apply ok_mono; auto; [lia | intros s x Hs; apply upd_Some in Hs as [[_ [=]] | [_ Hs]]; exact Hs]|].
    repeat split; [exact Hnh | | exact Hlt].
    intros s Hs. apply upd_Some in Hs as [[_ [=]] | [Hne Hs]]. exact (Hne (H2 _ _ _ Hs S)).
  - assert (Hnh : ~ held ms (nxt ms)). { intros Hh. specialize (H3 _ Hh). lia. }
    split; [apply ok_mono; auto; lia|].
    repeat split; [exact Hnh | | simpl; lia]. intros s Hs. destruct (H1 _ _ Hs). lia.
Qed.

Lemma txn_mod_free ms x f y : free ms y -> free (txn_mod ms x f) y.
Proof. auto. Qed.

Lemma txn_mod_hinv ms x f : hinv ms -> hinv (txn_mod ms x f).
Proof. intros [H1 H2 H3 H4]. constructor; assumption. Qed.

Lemma txn_mod_priv ms0 ms x f : priv ms0 ms x -> priv ms0 (txn_mod ms x f) x.
Proof.
  intros [O [Hnh [Hfr Hlt]]]. split; [|exact (conj Hnh (conj Hfr Hlt))].
  apply ok_mono; auto; [lia|]. intros y Hy. apply upd_other. intros ->. contradiction.
Qed.

(* Txn.Commit may offer a private object for reuse: it stays unheld ... *)
Lemma txn_commit_ok ms0 ms x : priv ms0 ms x -> ok ms0 (snd (txn_commit true ms x)).
Proof.
  intros [O [Hnh [Hfree Hlt]]]. apply (ok_step _ _ _ O); destruct O as [_ [H1 H2 H3 H4]].
  - unfold frame. repeat split; simpl; auto. lia.
  - constructor; simpl; auto.
    + intros s y Hs. apply upd_Some in Hs as [[_ [= <-]] | [_ Hs]]; [auto | exact (H1 s y Hs)].
    + intros s s' y Hs Hs'. apply upd_Some in Hs as [[-> Hs] | [_ Hs]], Hs' as [[-> Hs'] | [_ Hs']]; auto.
      * injection Hs as <-. destruct (Hfree _ Hs').
      * injection Hs' as <-. destruct (Hfree _ Hs).
      * eauto.
Qed.

(* ... and a MapTxn register may take it: it stays unoffered *)
Lemma hold_hinv ms0 ms x t : priv ms0 ms x ->
  hinv (mkM (slot ms) (obj ms) (nxt ms) (xmaps ms) (upd (xtxns ms) t (Some x))).
Proof.
  intros [[_ [I1 I2 I3 I4]] [Hnh [Hfr Hlt]]]. constructor; simpl; auto.
  - intros s y Hs. destruct (I1 _ _ Hs) as [Hl Hn]. split; [exact Hl|]. intros [t' Ht'].
    apply upd_Some in Ht' as [[_ [= <-]] | [_ Ht']]; [exact (Hfr _ Hs) | apply Hn; now exists t'].
  - intros y [t' Ht']. apply upd_Some in Ht' as [[_ [= <-]] | [_ Ht']]; [exact Hlt | apply I3; now exists t'].
  - intros t1 t2 y Ht1 Ht2. apply upd_Some in Ht1 as [[-> Ht1] | [_ Ht1]], Ht2 as [[-> Ht2] | [_ Ht2]]; auto.
    + injection Ht1 as <-. destruct Hnh. now exists t2.
    + injection Ht2 as <-. destruct Hnh. now exists t1.
    + eauto.
Qed.

Lemma txn_mod_fst ms x f : fst (obj (txn_mod ms x f) x) = f (fst (obj ms x)).
Proof. simpl. now rewrite upd_same. Qed.

(* the tail of Set and Delete: Commit, and wrap the committed tree *)
Lemma commit_spec ms0 ms x : priv ms0 ms x ->
  let r := let (tv, ms') := txn_commit true ms x in (XTree tv, ms') in
  erase (fst r) = MTree (fst (obj ms x)) /\ ok ms0 (snd r).
Proof. intros P. split; [reflexivity | exact (txn_commit_ok _ _ _ P)]. Qed.

Lemma x_mset_spec ms m k v : hinv ms ->
  erase (fst (x_mset ms m k v)) = mset (erase m) k v /\ ok ms (snd (x_mset ms m k v)).
Proof.
  intros H. pose proof (ok_refl ms H) as O. destruct m as [|k' v'|tv]; unfold x_mset; cbn [erase mset].
  - auto.
  - destruct (bytes_eqb k k'); [auto|]. apply new_tree_ok in O. unfold new_tree in *. cbv beta iota. cbn [snd] in O.
    match goal with |- context [tree_txn ?a ?b] => destruct (tree_txn a b) as [x ms2] eqn:T end.
    destruct (tree_txn_priv _ _ _ _ _ O T) as [P Ho].
    apply (txn_mod_priv _ _ _ (om_insert k v)), (txn_mod_priv _ _ _ (om_insert k' v')) in P.
    destruct (commit_spec _ _ _ P) as [E1 E2]. split; [|exact E2]. rewrite E1, !txn_mod_fst, Ho. reflexivity.
  - destruct (tree_txn ms tv) as [x ms2] eqn:T. destruct (tree_txn_priv _ _ _ _ _ O T) as [P Ho].
    apply (txn_mod_priv _ _ _ (om_insert k v)) in P.
    destruct (commit_spec _ _ _ P) as [E1 E2]. split; [|exact E2]. rewrite E1, txn_mod_fst, Ho. reflexivity.
Qed.

Lemma x_mdelete_spec ms m k : hinv ms ->
  erase (fst (x_mdelete ms m k)) = mdelete (erase m) k /\ ok ms (snd (x_mdelete ms m k)).
Proof.
  intros H. pose proof (ok_refl ms H) as O. destruct m as [|k' v'|tv]; unfold x_mdelete; cbn [erase mdelete].
  - auto.
  - destruct (bytes_eqb k' k); auto.
  - destruct (tree_txn ms tv) as [x ms2] eqn:T. destruct (tree_txn_priv _ _ _ _ _ O T) as [P Ho].
    apply (txn_mod_priv _ _ _ (om_delete k)) in P. pose proof (commit_spec _ _ _ P) as C.
    rewrite txn_mod_fst, Ho in *. cbn [fst] in *. destruct P as [O' _].
    destruct (om_delete k (t_c tv)) as [|[k1 v1] [|q r]]; auto.
Qed.

Lemma x_txn_spec ms m : hinv ms ->
  priv ms (snd (x_txn ms m)) (fst (x_txn ms m)) /\
  fst (obj (snd (x_txn ms m)) (fst (x_txn ms m))) = mtxn (erase m).
Proof.
  intros H. pose proof (ok_refl ms H) as O. unfold x_txn.
  assert (G : ok ms (snd (ensure_tree ms m)) /\ t_c (fst (ensure_tree ms m)) = tree_of (erase m)).
  { destruct m; (split; [|reflexivity]); try exact O; exact (new_tree_ok _ _ O). }
  destruct G as [O1 C1]. destruct (ensure_tree ms m) as [tv ms1]. cbn [fst snd] in O1, C1.
  destruct (tree_txn ms1 tv) as [x ms2] eqn:T. destruct (tree_txn_priv _ _ _ _ _ O1 T) as [P Ho].
  destruct m as [|k v|tv0]; cbn [fst snd].
  2: split; [exact (txn_mod_priv _ _ _ _ P) | rewrite txn_mod_fst].
  all: try (split; [exact P|]); rewrite Ho, C1; reflexivity.
Qed.

Lemma x_tcommit_nostore_spec ms x :
  erase (fst (x_tcommit false ms x)) = tcommit (fst (obj ms x)) /\ snd (x_tcommit false ms x) = ms.
Proof. unfold x_tcommit. destruct (fst (obj ms x)) as [|[k v] [|q r]] eqn:E; simpl; auto. now rewrite E. Qed.

Definition sim (ms : mstate) (st : state) : Prop :=
  (forall i, xobs_map ms i = rget (maps st) i) /\ (forall t, xobs_txn ms t = rget (txns st) t).

Lemma sim_getm ms st s : sim ms st -> erase (xgetm ms s) = getm st s.
Proof.
  intros [S1 _]. unfold xgetm, getm. rewrite <- S1. unfold xobs_map. now destruct (xmaps ms s).
Qed.

Lemma frame_obs_txn ms ms' t : frame ms ms' -> xobs_txn ms' t = xobs_txn ms t.
Proof.
  intros [_ [F2 [_ F4]]]. unfold xobs_txn. rewrite F2. destruct (xtxns ms t) as [x|] eqn:E; simpl; auto.
  rewrite F4; auto. now exists t.
Qed.

Lemma xputm_hinv ms d m : hinv ms -> hinv (xputm ms d m).
Proof. intros [H1 H2 H3 H4]. unfold xputm. destruct (xmaps ms d); constructor; auto. Qed.

(* an API call r = (result, heap) whose result goes to the Map register d, unless that exists *)
Lemma putm_step ms st d (r : xmap * mstate) pm : hinv ms -> sim ms st -> erase (fst r) = pm /\ ok ms (snd r) ->
  let ms1 := match xmaps ms d with Some _ => ms | None => let (m, ms') := r in xputm ms' d m end in
  hinv ms1 /\ sim ms1 (putm st d pm).
Proof.
  intros H [S1 S2] [Em [F I]]. destruct r as [m ms']. cbn [fst snd] in Em, F, I. cbv zeta.
  pose proof (S1 d) as Hd. unfold xobs_map in Hd. destruct (xmaps ms d) eqn:Ed.
  - split; [exact H|]. split; [|exact S2]. intros i. simpl. rewrite rget_rput, <- Hd. apply S1.
  - split; [apply xputm_hinv; exact I|]. split.
    + intros i. simpl. rewrite rget_rput, <- Hd, <- S1. destruct F as [F1 _].
      unfold xputm, xobs_map. rewrite F1, Ed. simpl. unfold upd. destruct (i =? d); simpl; congruence.
    + intros t. simpl. rewrite <- S2, <- (frame_obs_txn ms ms' t F). unfold xputm. destruct (xmaps ms' d); reflexivity.
Qed.

(* MapTxn.Set / Delete: the object wrapped by register t is modified in place; no other register wraps it *)
Lemma txn_step ms st t f : hinv ms -> sim ms st ->
  let ms1 := match xtxns ms t with Some x => txn_mod ms x f | None => ms end in
  hinv ms1 /\ sim ms1 (match rget (txns st) t with
                       | Some y => mkState (maps st) (sets st) (rupd (txns st) t (f y))
                       | None => st end).
Proof.
  intros H [S1 S2]. pose proof (S2 t) as S2t. unfold xobs_txn in S2t. cbv zeta.
  destruct (xtxns ms t) as [x|] eqn:Et; simpl in S2t; rewrite <- S2t; [|exact (conj H (conj S1 S2))].
  split; [apply txn_mod_hinv, H|]. split; [exact S1|].
  intros t'. simpl. rewrite rget_rupd, <- S2t, <- S2. unfold xobs_txn. simpl.
  destruct (N.eqb_spec t' t) as [->|Hne].
  - rewrite Et. simpl. now rewrite upd_same.
  - destruct (xtxns ms t') as [y|] eqn:Ey; simpl; auto. rewrite upd_other; auto.
    intros ->. apply Hne. destruct H as [_ _ _ H4]. eauto.
Qed.

(* Map.Txn(): the private object of the call becomes the one wrapped by the new MapTxn register *)
Lemma newtxn_step ms st t (r : N * mstate) c : hinv ms -> sim ms st ->
  priv ms (snd r) (fst r) /\ fst (obj (snd r) (fst r)) = c ->
  let ms1 := match xtxns ms t with
             | Some _ => ms
             | None => let (x, ms') := r in mkM (slot ms') (obj ms') (nxt ms') (xmaps ms') (upd (xtxns ms') t (Some x))
             end in
  hinv ms1 /\ sim ms1 (mkState (maps st) (sets st) (rput (txns st) t c)).
Proof.
  intros H [S1 S2] [P Hc]. destruct r as [x ms']. cbn [fst snd] in *. cbv zeta.
  pose proof (S2 t) as S2t. unfold xobs_txn in S2t. destruct (xtxns ms t) as [x0|] eqn:Et; simpl in S2t.
  - split; [exact H|]. split; [exact S1|]. intros t'. simpl. rewrite rget_rput, <- S2t. apply S2.
  - split; [exact (hold_hinv _ _ _ t P)|]. destruct P as [[[F1 [F2 [F3 F4]]] _] _].
    split.
    + intros i. simpl. rewrite <- S1. unfold xobs_map. simpl. now rewrite F1.
    + intros t'. simpl. rewrite rget_rput, <- S2t, <- S2. unfold xobs_txn. simpl. unfold upd.
      destruct (t' =? t); simpl; [now rewrite Hc|].
      rewrite F2. destruct (xtxns ms t') as [y|] eqn:Ey; simpl; auto. rewrite F4; auto. now exists t'.
Qed.

Lemma step_sim ms st o : hinv ms -> sim ms st -> txn_op o = true ->
  hinv (xstep false ms o) /\ sim (xstep false ms o) (step st o).
Proof.
  intros H S Ho. destruct o; try discriminate; simpl xstep; simpl step; try rewrite <- (sim_getm ms st s S).
  - exact (putm_step ms st d _ _ H S (x_mset_spec ms _ k v H)).
  - exact (putm_step ms st d _ _ H S (x_mdelete_spec ms _ k H)).
  - exact (newtxn_step ms st t _ _ H S (x_txn_spec ms _ H)).
  - exact (txn_step ms st t (om_insert k v) H S).
  - exact (txn_step ms st t (om_delete k) H S).
  - pose proof (proj2 S t) as S2t. unfold xobs_txn in S2t.
    destruct (xtxns ms t) as [x|]; simpl in S2t; rewrite <- S2t; [|exact (conj H S)].
    apply putm_step; auto. destruct (x_tcommit_nostore_spec ms x) as [E1 E2]. rewrite E2. auto using ok_refl.
Qed.

Lemma ms0_hinv : hinv ms0.
Proof. constructor; simpl; try discriminate. intros x [t Ht]. discriminate. Qed.
Lemma ms0_sim : sim ms0 st0.
Proof. split; reflexivity. Qed.

(* from any pair of related states, not only the initial ones *)
Lemma run_sim ops : forall ms st, Forall (fun o => txn_op o = true) ops -> hinv ms -> sim ms st ->
  sim (xrun false ms ops) (run st ops).
Proof.
  induction ops as [|o r IH]; intros ms st Hf H S; simpl; auto. inversion Hf; subst.
  destruct (step_sim ms st o H S) as [H' S']; auto.
Qed.
