(* MapSet/OrdLemmas.v — further lemmas about Base/OrdMap.v needed by the Map/Set proofs:
   sequences of inserts/deletes ("later writes win"), re-inserting a sorted list, lengths. *)
From SV Require Import Base.Bytes Base.OrdMap MapSet.Model.
Open Scope N_scope.

Lemma lex_lt_cmp k' k : lex_lt k' k -> bytes_eqb k k' = false /\ bytes_ltb k k' = false.
Proof.
  intros H. destruct (bytes_cmp_cases k k') as [[_ ->]|[[_ [_ Hl]]|[E [L _]]]];
    [destruct (lex_lt_irrefl _ H) | destruct (lex_lt_asym _ _ H Hl) | auto].
Qed.

Section L.
Notation tree := (omap val).

Lemma sorted_single (k : bytes) (v : val) : om_sorted [(k, v)].
Proof. simpl. split; [constructor|exact I]. Qed.

Lemma om_get_singleton_some k1 k (v a : val) : om_get k1 [(k, v)] = Some a -> k1 = k /\ a = v.
Proof.
  simpl. destruct (bytes_eqb k1 k) eqn:E.
  - apply bytes_eqb_spec in E. intros H. injection H as ->. auto.
  - destruct (bytes_ltb k1 k); discriminate.
Qed.

Lemma two_keys_length k1 k2 (t : tree) a b :
  om_get k1 t = Some a -> om_get k2 t = Some b -> k1 <> k2 -> (2 <= length t)%nat.
Proof.
  destruct t as [|[k v] [|q r]]; simpl length; try lia.
  - discriminate.
  - intros H1 H2 Hne. apply om_get_singleton_some in H1, H2. destruct H1, H2. congruence.
Qed.

Lemma om_insert_length_ge k v (t : tree) : (length t <= length (om_insert k v t))%nat.
Proof.
  induction t as [|[k' v'] r IH]; simpl; [lia|].
  destruct (bytes_eqb k k'); simpl; [lia|]. destruct (bytes_ltb k k'); simpl; lia.
Qed.

Lemma sorted_nodup (t : tree) : om_sorted t -> NoDup (om_keys t).
Proof.
  induction t as [|[k v] r IH]; simpl; intros H; [constructor|]. destruct H as [Ha Hs].
  constructor; auto. intros Hin. apply om_keys_sorted_above in Ha. rewrite Forall_forall in Ha.
  exact (lex_lt_irrefl _ (Ha _ Hin)).
Qed.

Fixpoint assoc_last (k : bytes) (l : list kv) : option val :=
  match l with
  | [] => None
  | (k', v) :: r => match assoc_last k r with
                    | Some x => Some x
                    | None => if bytes_eqb k k' then Some v else None
                    end
  end.

Lemma ins_all_cons k v r (t : tree) : ins_all ((k, v) :: r) t = ins_all r (om_insert k v t).
Proof. reflexivity. Qed.

Lemma ins_all_sorted l : forall t, om_sorted t -> om_sorted (ins_all l t).
Proof.
  induction l as [|[k v] r IH]; intros t H; [exact H|]. rewrite ins_all_cons. apply IH. now apply om_insert_sorted.
Qed.

Lemma ins_all_get k l : forall t, om_sorted t ->
  om_get k (ins_all l t) = match assoc_last k l with Some v => Some v | None => om_get k t end.
Proof.
  induction l as [|[k' v] r IH]; intros t H; [reflexivity|].
  rewrite ins_all_cons. rewrite IH by now apply om_insert_sorted. simpl.
  destruct (assoc_last k r); auto.
  destruct (bytes_eqb k k') eqn:E.
  - apply bytes_eqb_spec in E. subst. apply om_get_insert_same.
  - apply om_get_insert_other; auto. now apply bytes_eqb_false.
Qed.

Lemma assoc_last_in k l : In k (map fst l) -> exists v, assoc_last k l = Some v.
Proof.
  induction l as [|[k' v] r IH]; simpl; [tauto|]. intros [H|H].
  - subst. rewrite bytes_eqb_refl. destruct (assoc_last k r); eauto.
  - destruct (IH H) as [x ->]. eauto.
Qed.

(* writing two different keys leaves at least two entries *)
Lemma ins_all_two_keys l (t : tree) k1 k2 : om_sorted t -> In k1 (map fst l) -> In k2 (map fst l) -> k1 <> k2 ->
  (2 <= length (ins_all l t))%nat.
Proof.
  intros Hs H1 H2 Hne. destruct (assoc_last_in k1 l H1) as [a Ha], (assoc_last_in k2 l H2) as [b Hb].
  apply (two_keys_length k1 k2 _ a b); auto; rewrite ins_all_get by auto; [now rewrite Ha | now rewrite Hb].
Qed.

Lemma assoc_last_notin k l : ~ In k (map fst l) -> assoc_last k l = None.
Proof.
  induction l as [|[k' v] r IH]; simpl; auto. intros H.
  rewrite IH by tauto. destruct (bytes_eqb k k') eqn:E; auto.
  apply bytes_eqb_spec in E. subst. tauto.
Qed.

Lemma assoc_last_app l1 k v l2 : ~ In k (map fst l2) -> assoc_last k (l1 ++ (k, v) :: l2) = Some v.
Proof.
  intros H. induction l1 as [|[k1 v1] l1 IH]; simpl.
  - rewrite assoc_last_notin by auto. now rewrite bytes_eqb_refl.
  - now rewrite IH.
Qed.

Lemma assoc_last_nodup k v l : NoDup (map fst l) -> In (k, v) l -> assoc_last k l = Some v.
Proof.
  induction l as [|[k' v'] r IH]; simpl; [tauto|]. intros Hn [H|H]; inversion Hn; subst.
  - injection H as -> ->. rewrite assoc_last_notin by auto. now rewrite bytes_eqb_refl.
  - now rewrite IH.
Qed.

Lemma assoc_last_sorted k (t : tree) : om_sorted t -> assoc_last k t = om_get k t.
Proof.
  induction t as [|[k' v] r IH]; simpl; auto. intros [Ha Hs]. rewrite IH by auto.
  destruct (om_get k r) eqn:G.
  - apply om_get_Some_In in G. destruct (lex_lt_cmp k' k (proj1 (Forall_forall _ _) Ha _ G)) as [E L].
    rewrite E, L. reflexivity.
  - destruct (bytes_eqb k k'); auto. now destruct (bytes_ltb k k').
Qed.

Lemma om_insert_last k v r : forall acc : tree, om_sorted (acc ++ (k, v) :: r) -> om_insert k v acc = acc ++ [(k, v)].
Proof.
  induction acc as [|[k' v'] acc IH]; simpl; auto. intros [Ha Hs].
  destruct (lex_lt_cmp k' k) as [E L].
  { apply (proj1 (Forall_forall _ _) Ha (k, v)). apply in_or_app. right. now left. }
  rewrite E, L. f_equal. auto.
Qed.

Lemma ins_all_sorted_app l : forall acc : tree, om_sorted (acc ++ l) -> ins_all l acc = acc ++ l.
Proof.
  induction l as [|[k v] r IH]; intros acc H.
  - simpl. now rewrite app_nil_r.
  - rewrite ins_all_cons. rewrite (om_insert_last k v r) by auto.
    rewrite IH; rewrite <- app_assoc; auto.
Qed.

Lemma ins_all_sorted_id (t : tree) : om_sorted t -> ins_all t [] = t.
Proof. intros H. now rewrite (ins_all_sorted_app t []). Qed.

Lemma del_all_sorted ks : forall t : tree, om_sorted t -> om_sorted (del_all ks t).
Proof.
  induction ks as [|k r IH]; intros t H; simpl; auto. apply IH. now apply om_delete_sorted.
Qed.

Lemma del_all_nil ks : del_all ks ([] : tree) = [].
Proof. induction ks; simpl; auto. Qed.

Lemma del_all_get k ks : forall t : tree, om_sorted t ->
  om_get k (del_all ks t) = if existsb (bytes_eqb k) ks then None else om_get k t.
Proof.
  induction ks as [|k' r IH]; intros t H; simpl; auto.
  rewrite IH by now apply om_delete_sorted.
  destruct (bytes_eqb k k') eqn:E; simpl.
  - apply bytes_eqb_spec in E. subst. rewrite om_get_delete_same by auto. now destruct (existsb _ r).
  - rewrite om_get_delete_other; auto. now apply bytes_eqb_false.
Qed.

Lemma existsb_keys k (t : tree) : om_sorted t ->
  existsb (bytes_eqb k) (om_keys t) = match om_get k t with Some _ => true | None => false end.
Proof.
  intros Hs. destruct (om_get k t) eqn:G.
  - apply om_get_Some_In in G. apply existsb_exists. exists k. split; [|apply bytes_eqb_refl].
    unfold om_keys. change k with (fst (k, v)). now apply in_map.
  - destruct (existsb (bytes_eqb k) (om_keys t)) eqn:E; auto.
    apply existsb_exists in E. destruct E as [k' [Hin E]]. apply bytes_eqb_spec in E. subst k'.
    unfold om_keys in Hin. apply in_map_iff in Hin. destruct Hin as [[k2 v2] [Hf Hin]]. simpl in Hf. subst k2.
    rewrite (proj1 (om_in_get k v2 t Hs) Hin) in G. discriminate.
Qed.

(* the shape of EqualKeys / SlowEqual / Set.Equal: lengths are compared first, the loop b decides P
   between equally long trees, and P implies equal lengths *)
Lemma len_guard (b : bool) (P : Prop) n1 n2 : (n1 = n2 -> (b = true <-> P)) -> (P -> n1 = n2) ->
  ((if negb (N.of_nat n1 =? N.of_nat n2) then false else b) = true <-> P).
Proof.
  intros H1 H2. destruct (N.eqb_spec (N.of_nat n1) (N.of_nat n2)) as [E|E]; simpl.
  - apply H1. lia.
  - split; [discriminate|]. intros HP. destruct E. now rewrite (H2 HP).
Qed.

Lemma keys_eq_length (t1 t2 : tree) : om_keys t1 = om_keys t2 -> length t1 = length t2.
Proof. intros H. rewrite <- (map_length fst t1), <- (map_length fst t2). exact (f_equal _ H). Qed.

Lemma keys_eq_loop_spec (t1 : tree) : forall t2 : tree, length t1 = length t2 ->
  (keys_eq_loop t1 t2 = true <-> om_keys t1 = om_keys t2).
Proof.
  induction t1 as [|[k1 v1] r1 IH]; intros [|[k2 v2] r2]; simpl; try discriminate; [tauto|].
  intros H. injection H as H. rewrite andb_true_iff, bytes_eqb_spec, (IH r2 H).
  split; [intros [-> ->]; reflexivity|]. intros E. injection E as -> E. auto.
Qed.

Lemma kvs_eq_loop_spec (t1 : tree) : forall t2 : tree, length t1 = length t2 ->
  (kvs_eq_loop t1 t2 = true <-> t1 = t2).
Proof.
  induction t1 as [|[k1 v1] r1 IH]; intros [|[k2 v2] r2]; simpl; try discriminate; [tauto|].
  intros H. injection H as H. rewrite !andb_true_iff, bytes_eqb_spec, N.eqb_eq, (IH r2 H).
  split; [intros [[-> ->] ->]; reflexivity|]. intros E. injection E as -> -> ->. auto.
Qed.
End L.
