(* MapSet/Summary.v — persistence over branching histories (Properties/C17.v). *)
From SV Require Import Base.Bytes Base.OrdMap MapSet.Model MapSet.OrdLemmas MapSet.Proofs MapSet.SetProofs MapSet.Machine.
Open Scope N_scope.

Lemma persistence : forall st ops,
  (forall i m, rget (maps st) i = Some m ->
     rget (maps (run st ops)) i = Some m /\ abs (getm (run st ops) i) = abs m) /\
  (forall i s, rget (sets st) i = Some s ->
     rget (sets (run st ops)) i = Some s /\ sabs (gets (run st ops) i) = sabs s) /\
  (st_inv st -> Forall op_ok ops -> st_inv (run st ops)).
Proof.
  intros st ops. destruct (run_persist ops st) as [P1 P2]. split; [|split; [|apply run_inv]].
  - intros i m H. unfold getm. rewrite (P1 i m H). auto.
  - intros i s H. unfold gets. rewrite (P2 i s H). auto.
Qed.
