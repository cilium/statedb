(* Lpm/HeapProofs.v — transaction-level theorems about the heap model Lpm/Heap.v:
   (a) refinement: Insert / Delete on the heap compute what Lpm/Model.v computes on the denoted tree;
   (b) ownership: reachable cells carrying the txn id are exactly the cells the txn allocated since
       its last id bump; in-place writes hit only those; everything else is append;
   (c) persistence: whatever is reachable outside the own-sets of the live transactions denotes the
       same tree after any interleaving of operations of two transactions on the same heap.
   The statements Properties/C13.v makes of (a)-(c), and the refutations of the variants without the id
   bump, are proved there from the lemmas of this file. *)
From SV Require Import Base.Bytes Lpm.Model Lpm.Cow Lpm.Heap Lpm.HeapBase Lpm.HeapIns Lpm.HeapDel Lpm.HeapIds.
From Coq Require Import ZArith List Bool Lia ZifyN ZifyNat ZifyBool.
Import ListNotations.
Open Scope N_scope.

Definition own_cell (h : heap) (tid : N) (a : nat) : Prop :=
  exists n, nth_error h a = Some n /\ h_id n = tid.

(* P: a predicate satisfied by the frozen cells under the root (cells of other owners excluded) *)
Definition hinv (P : nat -> Prop) (h : heap) (x : htxn) : Prop :=
  exists t F, @trep P h (x_id x) (x_root x) t F /\ (forall a, In a F -> In a (x_own x)) /\
              (forall a, In a (x_own x) -> own_cell h (x_id x) a).

(* what an operation of transaction x does to the heap *)
Definition frame (h h' : heap) (own : list nat) : Prop :=
  (length h <= length h')%nat /\
  forall a, (a < length h)%nat -> ~ In a own -> nth_error h' a = nth_error h a.

Lemma frame_refl h own : frame h h own.
Proof. split; [lia|auto]. Qed.

Lemma in_fresh h h' a : In a (fresh h h') <-> (length h <= a < length h')%nat.
Proof. unfold fresh. rewrite in_seq. lia. Qed.

Lemma hinv_empty P h sz id : hinv P h (mkHTxn None sz id []).
Proof. exists Nil, []. split; [constructor|split; intros a []]. Qed.

Lemma hinv_den P h x : hinv P h x -> exists t F, @trep P h (x_id x) (x_root x) t F /\ den h (x_root x) = t.
Proof. intros (t & F & T & _). exists t, F. split; [exact T|exact (trep_den T)]. Qed.

Lemma tpost_den {P h tid F h' q t'} : @tpost P h tid F h' q t' -> den h' q = t'.
Proof. intros (F' & T' & _). exact (trep_den T'). Qed.

(* what an operation of transaction x that leads from h to h' and x' does, seen from x *)
Definition op_ok P h x h' x' : Prop :=
  hinv P h' x' /\ frame h h' (x_own x) /\ x_id x' = x_id x /\ x_own x' = x_own x ++ fresh h h'.

Lemma op_ok_refl P h x : hinv P h x -> op_ok P h x h x.
Proof.
  intros HI. split; [exact HI|]. split; [apply frame_refl|]. split; [reflexivity|].
  unfold fresh. rewrite Nat.sub_diag. cbn [seq]. now rewrite app_nil_r.
Qed.

Lemma op_finish P h x F h' r' t' sz :
  (forall a, In a F -> In a (x_own x)) -> (forall a, In a (x_own x) -> own_cell h (x_id x) a) ->
  @tpost P h (x_id x) F h' r' t' -> op_ok P h x h' (mkHTxn r' sz (x_id x) (x_own x ++ fresh h h')).
Proof.
  intros SubO OC (F' & T' & SubF & Fr). pose proof (tframe_length Fr) as L.
  split; [|split; [|split; reflexivity]].
  - exists t', F'. cbn [x_id x_root x_own]. split; [exact T'|]. split; intros a Ha.
    + apply in_or_app. destruct (SubF _ Ha) as [H|H]; [left; auto|right].
      apply in_fresh. pose proof (trep_F_lt T' Ha). lia.
    + apply in_app_or in Ha as [Ha|Ha].
      * destruct (OC _ Ha) as (n & Hn & Hi). destruct (proj1 Fr _ _ Hn) as (n' & Hn' & Hd). exists n'. split; [exact Hn'|].
        destruct Hd as [->|(_ & _ & Hi')]; assumption.
      * apply in_fresh in Ha. destruct (nth_error h' a) as [n'|] eqn:E; [|apply nth_error_None in E; lia].
        exists n'. split; [exact E|]. eapply (proj2 Fr); eauto. lia.
  - split; [exact L|]. intros a La Na. destruct (nth_error h a) as [n|] eqn:E; [|apply nth_error_None in E; lia].
    eapply tframe_out; eauto.
Qed.

Theorem htxn_insert_spec P h x k v : hinv P h x ->
  op_ok P h x (fst (htxn_insert h x k v)) (snd (htxn_insert h x k v)) /\
  habs (fst (htxn_insert h x k v)) (snd (htxn_insert h x k v)) = txn_insert (habs h x) k v.
Proof.
  intros (t & F & T & SubO & OC). unfold htxn_insert.
  destruct (hins (x_id x) (fst k) (snd k) v h (x_root x)) as [[h' r'] inc] eqn:E. cbn [fst snd].
  destruct (hins_spec _ _ _ _ _ _ _ _ T _ _ _ E) as (Ei & Dp).
  split; [eapply op_finish; eauto|].
  unfold habs, txn_insert. cbn [x_root x_size x_id t_root t_size t_id].
  rewrite (trep_den T), (tpost_den Dp), Ei.
  destruct (ins (x_id x) (fst k) (snd k) v 0 t). reflexivity.
Qed.

Theorem htxn_delete_spec P h x k : hinv P h x ->
  op_ok P h x (fst (fst (htxn_delete h x k))) (snd (fst (htxn_delete h x k))) /\
  (habs (fst (fst (htxn_delete h x k))) (snd (fst (htxn_delete h x k))), snd (htxn_delete h x k)) = txn_delete (habs h x) k.
Proof.
  intros HI. pose proof HI as (t & F & T & SubO & OC). unfold htxn_delete.
  pose proof (hdel_spec (P := P) (x_id x) (fst k) (snd k) h (x_root x) t F T) as S.
  unfold habs at 2, txn_delete. cbn [t_root t_size t_id].
  rewrite (trep_den T).
  destruct (del (x_id x) (fst k) (snd k) 0 t) as [[[t' v] st]|].
  - destruct S as (h' & r' & E & Dp). rewrite E. cbn [fst snd]. split; [eapply op_finish; eauto|].
    unfold habs. cbn [x_root x_size x_id]. now rewrite (tpost_den Dp).
  - rewrite S. cbn [fst snd]. split; [now apply op_ok_refl|].
    unfold habs. rewrite (trep_den T). destruct x; reflexivity.
Qed.

Theorem owned_iff_id P h x : hinv P h x -> forall a, reach h (x_root x) a ->
  (h_id (hget h a) = x_id x <-> In a (x_own x)).
Proof.
  intros (t & F & T & SubO & OC) a R. split.
  - intros Hi. destruct (trep_reach T a R) as [H|(_ & n & Hn & Hlt)]; [auto|].
    rewrite (hget_some Hn) in Hi. lia.
  - intros Ha. destruct (OC _ Ha) as (n & Hn & Hi). now rewrite (hget_some Hn).
Qed.

Lemma frame_rep {h h' own p t} : frame h h' own -> rep h p t -> (forall a, reach h p a -> ~ In a own) ->
  rep h' p t /\ (forall a, reach h' p a -> reach h p a).
Proof.
  intros (L & Fr) R S. apply rep_frame; [exact R|]. intros a Ha. apply Fr; [eapply reach_lt; eauto|auto].
Qed.

(* s_pubs: every root handed out so far: committed tries (root, size, prevTxnID) and the roots
   held by iterators (recorded with the txn id at hand-out); transactions may begin from any of them *)
Record sys := mkSys { s_heap : heap; s_a : htxn; s_b : htxn; s_pubs : list htrie }.

(* what one transaction can do; Commit is followed by Reuse/Txn on any handed-out trie (contract:
   a Txn is not used after Commit until Reuse/Clear); ts_begin = abandon, then Reuse/Txn.
   ts_iter records the iterator's root as htxn_commit x (prevTxnID = the id before the bump), like a
   committed trie: a transaction may then also begin from an iterator root, which the code does not
   offer; persistence is proved for this larger set of histories *)
Inductive tstep : heap -> htxn -> list htrie -> heap -> htxn -> list htrie -> Prop :=
| ts_insert h x ps k v : tstep h x ps (fst (htxn_insert h x k v)) (snd (htxn_insert h x k v)) ps
| ts_delete h x ps k : tstep h x ps (fst (fst (htxn_delete h x k))) (snd (fst (htxn_delete h x k))) ps
| ts_iter h x ps : tstep h x ps h (htxn_freeze x) (htxn_commit x :: ps)        (* All / Prefix / LowerBound *)
| ts_commit h x ps t : In t (htxn_commit x :: ps) -> tstep h x ps h (htrie_txn t) (htxn_commit x :: ps)
| ts_begin h x ps t : In t ps -> tstep h x ps h (htrie_txn t) ps
| ts_clear h x ps : tstep h x ps h (htxn_clear x) ps.                           (* abandon, then Clear *)

Inductive sstep : sys -> sys -> Prop :=
| ss_a h a b ps h' a' ps' : tstep h a ps h' a' ps' -> sstep (mkSys h a b ps) (mkSys h' a' b ps')
| ss_b h a b ps h' b' ps' : tstep h b ps h' b' ps' -> sstep (mkSys h a b ps) (mkSys h' a b' ps').
Inductive ssteps : sys -> sys -> Prop :=
| ssteps_refl s : ssteps s s
| ssteps_cons s1 s2 s3 : sstep s1 s2 -> ssteps s2 s3 -> ssteps s1 s3.

Definition notin (l : list nat) (a : nat) : Prop := ~ In a l.
Definition notin2 (l1 l2 : list nat) (a : nat) : Prop := ~ In a l1 /\ ~ In a l2.
Definition pub_ok (h : heap) (oa ob : list nat) (t : htrie) : Prop :=
  exists tr, @trep (notin2 oa ob) h (hr_prev t + 1) (hr_root t) tr [].

Definition SInv (s : sys) : Prop :=
  hinv (notin (x_own (s_b s))) (s_heap s) (s_a s) /\
  hinv (notin (x_own (s_a s))) (s_heap s) (s_b s) /\
  disj (x_own (s_a s)) (x_own (s_b s)) /\
  Forall (pub_ok (s_heap s) (x_own (s_a s)) (x_own (s_b s))) (s_pubs s).

Lemma trep_survive (P Q : nat -> Prop) h h' own tid p t F :
  @trep P h tid p t F -> frame h h' own -> (forall x, reach h p x -> ~ In x own) ->
  (forall x, reach h p x -> (x < length h)%nat -> P x -> Q x) -> @trep Q h' tid p t F.
Proof.
  intros T (L & Fr) S PQ. eapply trep_transfer; [exact T|]. intros a Ha.
  pose proof (reach_lt (trep_rep T) Ha) as La. split; [apply Fr; auto|apply PQ; auto].
Qed.

Lemma hinv_reach_notin own h x : hinv (notin own) h x -> disj (x_own x) own ->
  forall a, reach h (x_root x) a -> ~ In a own.
Proof.
  intros (t & F & T & SubO & _) D a R. destruct (trep_reach T a R) as [H|(H & _)]; [|exact H].
  intros Hi. exact (D a (SubO _ H) Hi).
Qed.

Lemma hinv_other own own' h h' x : hinv (notin own) h x -> disj (x_own x) own -> frame h h' own ->
  within h own own' -> hinv (notin own') h' x.
Proof.
  intros HI D Fr Sub. pose proof (hinv_reach_notin _ _ _ HI D) as S.
  destruct HI as (t & F & T & SubO & OC). exists t, F. split; [|split; [exact SubO|]].
  - eapply trep_survive; eauto. intros a Ha La Pa Hi. destruct (Sub _ Hi); [auto|lia].
  - intros a Ha. destruct (OC _ Ha) as (n & Hn & Hi). exists n. split; [|exact Hi].
    destruct Fr as (_ & Fr). rewrite Fr; [exact Hn|eapply nth_error_lt; eauto|].
    intros Hx. exact (D a Ha Hx).
Qed.

Lemma pub_other oa oa' ob h h' t : pub_ok h oa ob t -> frame h h' oa ->
  within h oa oa' -> pub_ok h' oa' ob t.
Proof.
  intros (tr & T) Fr Sub. exists tr.
  assert (S : forall a, reach h (hr_root t) a -> notin2 oa ob a).
  { intros a R. destruct (trep_reach T a R) as [[]|(H & _)]. exact H. }
  eapply trep_survive; eauto.
  - intros a Ha. apply S. exact Ha.
  - intros a Ha La (P1 & P2). split; [|exact P2]. intros Hi. destruct (Sub _ Hi); [auto|lia].
Qed.

Lemma disj_sym A B : disj A B -> disj B A.
Proof. intros D x H1 H2. exact (D x H2 H1). Qed.

Lemma pub_swap h oa ob t : pub_ok h oa ob t -> pub_ok h ob oa t.
Proof. intros (tr & T). exists tr. eapply trep_P_impl; [exact T|]. intros a _ (H1 & H2). split; auto. Qed.

(* handing out the current root of a: legal for every later owner set [] of a *)
Lemma publish_ok h a ob : hinv (notin ob) h a -> disj (x_own a) ob -> pub_ok h [] ob (htxn_commit a).
Proof.
  intros (t & F & T & SubO & _) D. exists t. cbn [htxn_commit hr_prev hr_root].
  eapply trep_bump; [exact T| | |lia].
  - intros x Hx. split; [intros []|]. intros Hi. exact (D x (SubO _ Hx) Hi).
  - intros x _ Hx. split; [intros []|exact Hx].
Qed.

Lemma pub_reset h oa ob t : pub_ok h oa ob t -> pub_ok h [] ob t.
Proof. intros (tr & T). exists tr. eapply trep_P_impl; [exact T|]. intros a _ (H1 & H2). split; [intros []|exact H2]. Qed.

Lemma begin_ok h ob t : pub_ok h [] ob t -> hinv (notin ob) h (htrie_txn t).
Proof.
  intros (tr & T). exists tr, []. cbn [htrie_txn x_id x_root x_own]. split; [|split; intros a []].
  eapply trep_P_impl; [exact T|]. intros a _ (_ & H). exact H.
Qed.

Lemma hinv_P_impl (P Q : nat -> Prop) h x : hinv P h x -> (forall a, P a -> Q a) -> hinv Q h x.
Proof.
  intros (t & F & T & R) PQ. exists t, F. split; [|exact R]. eapply trep_P_impl; [exact T|]. intros a _. apply PQ.
Qed.

(* what one step of transaction a does to the system: the invariant holds again, only cells a owned are
   overwritten, a's new own-set is old or appended, nothing handed out is taken back *)
Definition tstep_ok h a b ps h' a' ps' : Prop :=
  SInv (mkSys h' a' b ps') /\ frame h h' (x_own a) /\
  within h (x_own a) (x_own a') /\ (forall t, In t ps -> In t ps').

Section Step.
Variables (h : heap) (a b : htxn) (ps : list htrie).
Hypothesis I : SInv (mkSys h a b ps).

(* Insert / Delete *)
Lemma step_mut h1 a1 : op_ok (notin (x_own b)) h a h1 a1 -> tstep_ok h a b ps h1 a1 ps.
Proof.
  destruct I as (HA & HB & D & PS). cbn [s_heap s_a s_b s_pubs] in *. intros (HA1 & Fr & _ & Eo).
  assert (Sub : within h (x_own a) (x_own a1)).
  { intros y Hy. rewrite Eo in Hy. apply in_app_or in Hy as [Hy|Hy]; [auto|]. apply in_fresh in Hy. lia. }
  split; [|auto]. unfold SInv. cbn [s_heap s_a s_b s_pubs]. split; [exact HA1|]. split; [|split].
  - eapply hinv_other; eauto. apply disj_sym. exact D.
  - intros y Hy Hb. destruct (Sub _ Hy) as [H|H]; [exact (D y H Hb)|].
    destruct HB as (_ & _ & _ & _ & OC). destruct (OC _ Hb) as (n & Hn & _). apply nth_error_lt in Hn. lia.
  - eapply Forall_impl; [|exact PS]. intros t Ht. eapply pub_other; eauto.
Qed.

(* a's root and everything handed out so far, for a owning nothing *)
Lemma reset_pubs : Forall (pub_ok h [] (x_own b)) (htxn_commit a :: ps).
Proof.
  destruct I as (HA & _ & D & PS). cbn [s_heap s_a s_b s_pubs] in *.
  constructor; [apply publish_ok; auto|]. eapply Forall_impl; [|exact PS]. intros t. apply pub_reset.
Qed.

(* the steps that leave the heap alone and a with nothing owned *)
Lemma step_still a1 ps1 : x_own a1 = [] -> hinv (notin (x_own b)) h a1 ->
  Forall (pub_ok h [] (x_own b)) ps1 -> (forall t, In t ps -> In t ps1) -> tstep_ok h a b ps h a1 ps1.
Proof.
  destruct I as (_ & HB & _). cbn [s_heap s_a s_b] in HB.
  intros E HA1 P1 M. unfold tstep_ok, SInv. cbn [s_heap s_a s_b s_pubs]. rewrite E.
  split; [|split; [apply frame_refl|split; [intros y []|exact M]]].
  split; [exact HA1|]. split; [eapply hinv_P_impl; [exact HB|intros y _ []]|]. split; [intros y []|exact P1].
Qed.

End Step.

Lemma tstep_inv {h a b ps h' a' ps'} : SInv (mkSys h a b ps) -> tstep h a ps h' a' ps' -> tstep_ok h a b ps h' a' ps'.
Proof.
  intros I St. pose proof (reset_pubs _ _ _ _ I) as Reset. pose proof I as (HA & HB & D & PS). cbn [s_heap s_a s_b s_pubs] in *.
  inversion St; subst.
  - apply (step_mut _ _ _ _ I), htxn_insert_spec, HA.
  - apply (step_mut _ _ _ _ I), htxn_delete_spec, HA.
  - (* iterator handed out *)
    unfold htxn_freeze. destruct (x_root a) as [r|] eqn:Er.
    + apply (step_still _ _ _ _ I); [reflexivity| |exact Reset|intros t Ht; now right].
      destruct HA as (t & F & T & SubO & _). exists t, []. cbn [x_id x_root x_own]. rewrite <- Er.
      split; [|split; intros y []]. eapply trep_bump; [exact T| |auto|lia].
      intros y Hy Hb. exact (D y (SubO _ Hy) Hb).
    + split; [|split; [apply frame_refl|split; [apply within_incl, incl_refl|intros t Ht; now right]]].
      unfold SInv. cbn [s_heap s_a s_b s_pubs].
      split; [exact HA|]. split; [exact HB|]. split; [exact D|]. constructor; [|exact PS].
      exists Nil. cbn [htxn_commit hr_root hr_prev]. rewrite Er. constructor.
  - (* commit, then Txn/Reuse on a handed-out trie *)
    apply (step_still _ _ _ _ I); [reflexivity| |exact Reset|intros t' Ht; now right].
    apply begin_ok. rewrite Forall_forall in Reset. apply Reset. assumption.
  - (* abandon, then Txn/Reuse *)
    inversion Reset as [|? ? _ Reset']. apply (step_still _ _ _ _ I); [reflexivity| |exact Reset'|auto].
    apply begin_ok. rewrite Forall_forall in Reset'. apply Reset'. assumption.
  - (* abandon, then Clear *)
    inversion Reset as [|? ? _ Reset']. apply (step_still _ _ _ _ I); [reflexivity|apply hinv_empty|exact Reset'|auto].
Qed.

(* r is outside what the two live transactions own *)
Definition safe (s : sys) (r : option nat) : Prop :=
  forall x, reach (s_heap s) r x -> ~ In x (x_own (s_a s)) /\ ~ In x (x_own (s_b s)).

(* one step of transaction a: the invariant, every safe pointer, the handed-out roots *)
Lemma tstep_sys {h a b ps h' a' ps'} : SInv (mkSys h a b ps) -> tstep h a ps h' a' ps' ->
  SInv (mkSys h' a' b ps') /\
  (forall r t, rep h r t -> safe (mkSys h a b ps) r -> rep h' r t /\ safe (mkSys h' a' b ps') r) /\
  (forall t, In t ps -> In t ps').
Proof.
  intros I St. destruct (tstep_inv I St) as (I' & Fr & Sub & Hp).
  split; [exact I'|]. split; [|exact Hp]. unfold safe. cbn [s_heap s_a s_b]. intros r t R S.
  destruct (frame_rep Fr R (fun x Hx => proj1 (S x Hx))) as (R' & Rb).
  split; [exact R'|]. intros x Hx. specialize (Rb _ Hx). destruct (S _ Rb) as (S1 & S2). split; [|exact S2].
  intros Hi. destruct (Sub _ Hi) as [H|H]; [auto|]. pose proof (reach_lt R Rb). lia.
Qed.

(* the two transactions play the same part *)
Definition swap (s : sys) : sys := mkSys (s_heap s) (s_b s) (s_a s) (s_pubs s).
Lemma SInv_swap s : SInv s -> SInv (swap s).
Proof.
  intros (HA & HB & D & PS). split; [exact HB|]. split; [exact HA|]. split; [exact (disj_sym _ _ D)|].
  eapply Forall_impl; [|exact PS]. intros t. apply pub_swap.
Qed.
Lemma safe_swap s r : safe s r -> safe (swap s) r.
Proof. intros S x Hx. destruct (S x Hx). auto. Qed.

Lemma sstep_all s s' : SInv s -> sstep s s' ->
  SInv s' /\ (forall r t, rep (s_heap s) r t -> safe s r -> rep (s_heap s') r t /\ safe s' r) /\
  (forall t, In t (s_pubs s) -> In t (s_pubs s')).
Proof.
  intros I St. destruct St as [h a b ps h' a' ps' St|h a b ps h' b' ps' St].
  - exact (tstep_sys I St).
  - destruct (tstep_sys (SInv_swap _ I) St) as (I' & Pp & Q).
    split; [exact (SInv_swap _ I')|]. split; [|exact Q]. intros r t R S.
    destruct (Pp r t R (safe_swap _ _ S)) as (R' & S'). split; [exact R'|exact (safe_swap _ _ S')].
Qed.

Theorem sstep_inv s s' : SInv s -> sstep s s' -> SInv s'.
Proof. intros I St. exact (proj1 (sstep_all _ _ I St)). Qed.

(* (c) PERSISTENCE over arbitrary interleavings *)
Theorem ssteps_persist s s' : SInv s -> ssteps s s' ->
  SInv s' /\
  (forall r t, rep (s_heap s) r t -> safe s r -> den (s_heap s') r = den (s_heap s) r /\ safe s' r) /\
  (forall t, In t (s_pubs s) -> In t (s_pubs s')).
Proof.
  intros I St. induction St as [s|s1 s2 s3 S1 _ IH].
  - split; [exact I|]. split; [intros r t R S; split; [reflexivity|exact S]|auto].
  - destruct (sstep_all _ _ I S1) as (I2 & P2 & Q2). destruct (IH I2) as (I3 & P3 & Q3).
    split; [exact I3|]. split; [|auto].
    intros r t R S. destruct (P2 r t R S) as (R2 & S2). destruct (P3 r t R2 S2) as (E & S3).
    split; [|exact S3]. rewrite E. rewrite (rep_den _ _ _ R), (rep_den _ _ _ R2). reflexivity.
Qed.

(* every handed-out root, and every node below it (iterator stacks), is safe *)
Theorem pubs_safe s t : SInv s -> In t (s_pubs s) ->
  forall r, reach (s_heap s) (hr_root t) r -> exists tr, rep (s_heap s) (Some r) tr /\ safe s (Some r).
Proof.
  intros (_ & _ & _ & PS) Ht r Hr. rewrite Forall_forall in PS. destruct (PS _ Ht) as (tr & T).
  destruct (rep_reach (trep_rep T) Hr) as (tr' & R'). exists tr'. split; [exact R'|].
  intros x Hx. pose proof (reach_trans _ _ _ Hr _ Hx) as Hx'.
  destruct (trep_reach T x Hx') as [[]|(H & _)]. exact H.
Qed.

Theorem pubs_root_safe s t : SInv s -> In t (s_pubs s) ->
  exists tr, rep (s_heap s) (hr_root t) tr /\ safe s (hr_root t).
Proof.
  intros (_ & _ & _ & PS) Ht. rewrite Forall_forall in PS. destruct (PS _ Ht) as (tr & T).
  exists tr. split; [eapply trep_rep; eauto|].
  intros x Hx. destruct (trep_reach T x Hx) as [[]|(H & _)]. exact H.
Qed.

(* the initial system: empty heap, New(), two transactions begun from it *)
Definition sys0 : sys := mkSys [] (htrie_txn htrie_new) (htrie_txn htrie_new) [htrie_new].
Lemma SInv_sys0 : SInv sys0.
Proof.
  unfold sys0, SInv. cbn [s_heap s_a s_b s_pubs htrie_txn htrie_new x_own hr_root hr_size hr_prev].
  split; [apply hinv_empty|]. split; [apply hinv_empty|]. split; [intros x []|].
  constructor; [|constructor]. exists Nil. constructor.
Qed.

Lemma ssteps_trans s1 s2 s3 : ssteps s1 s2 -> ssteps s2 s3 -> ssteps s1 s3.
Proof. induction 1; auto. intros H'. econstructor; eauto. Qed.

Theorem reachable_SInv s : ssteps sys0 s -> SInv s.
Proof. intros St. exact (proj1 (ssteps_persist _ _ SInv_sys0 St)). Qed.

Inductive act := AIns (k : lkey) (v : N) | ADel (k : lkey) | AIter | ACommit (i : nat) | ABegin (i : nat) | AClear.

Definition tact (h : heap) (x : htxn) (ps : list htrie) (c : act) : heap * htxn * list htrie :=
  match c with
  | AIns k v => (fst (htxn_insert h x k v), snd (htxn_insert h x k v), ps)
  | ADel k => (fst (fst (htxn_delete h x k)), snd (fst (htxn_delete h x k)), ps)
  | AIter => (h, htxn_freeze x, htxn_commit x :: ps)
  | ACommit i => let ps' := htxn_commit x :: ps in (h, htrie_txn (nth i ps' (htxn_commit x)), ps')
  | ABegin i => match nth_error ps i with Some t => (h, htrie_txn t, ps) | None => (h, htxn_freeze x, htxn_commit x :: ps) end
  | AClear => (h, htxn_clear x, ps)
  end.

Lemma tact_tstep h x ps c : let '(h', x', ps') := tact h x ps c in tstep h x ps h' x' ps'.
Proof.
  destruct c as [k v|k|  |i|i| ]; cbn [tact]; try constructor.
  - destruct (Nat.lt_ge_cases i (length (htxn_commit x :: ps))) as [H|H].
    + now apply nth_In.
    + rewrite nth_overflow by exact H. now left.
  - destruct (nth_error ps i) as [t|] eqn:E; [|constructor]. constructor. eapply nth_error_In; eauto.
Qed.

(* who = false: transaction a, true: transaction b *)
Definition sact (s : sys) (wc : bool * act) : sys :=
  let (who, c) := wc in
  if who then let '(h', b', ps') := tact (s_heap s) (s_b s) (s_pubs s) c in mkSys h' (s_a s) b' ps'
  else let '(h', a', ps') := tact (s_heap s) (s_a s) (s_pubs s) c in mkSys h' a' (s_b s) ps'.
Definition srun (ops : list (bool * act)) (s : sys) : sys := fold_left sact ops s.

Lemma sact_sstep s wc : sstep s (sact s wc).
Proof.
  destruct s as [h a b ps], wc as [[|] c]; cbn [sact s_heap s_a s_b s_pubs].
  - pose proof (tact_tstep h b ps c) as T. destruct (tact h b ps c) as [[h' b'] ps']. now constructor.
  - pose proof (tact_tstep h a ps c) as T. destruct (tact h a ps c) as [[h' a'] ps']. now constructor.
Qed.

Lemma srun_ssteps ops : forall s, ssteps s (srun ops s).
Proof.
  induction ops as [|wc ops IH]; intros s; [constructor|]. cbn [srun fold_left].
  econstructor; [apply sact_sstep|apply IH].
Qed.

(* computable reachability (for examples) *)
Fixpoint addrs (f : nat) (h : heap) (p : option nat) : list nat :=
  match f with
  | O => []
  | S f' => match p with
            | None => []
            | Some a => match nth_error h a with
                        | None => [a]
                        | Some n => a :: addrs f' h (h_c0 n) ++ addrs f' h (h_c1 n)
                        end
            end
  end.
Lemma addrs_reach f : forall h p a, In a (addrs f h p) -> reach h p a.
Proof.
  induction f as [|f IH]; intros h p a Ha; [destruct Ha|]. cbn [addrs] in Ha.
  destruct p as [b|]; [|destruct Ha]. destruct (nth_error h b) as [n|] eqn:E.
  - destruct Ha as [<-|Ha]; [constructor|]. apply in_app_or in Ha as [Ha|Ha].
    + apply (reach_child _ _ _ false _ E). cbn [get_c]. auto.
    + apply (reach_child _ _ _ true _ E). cbn [get_c]. auto.
  - destruct Ha as [<-|[]]. constructor.
Qed.

Module HeapExample.
Import HeapSanity.
(* a: three inserts, commit (trie 0 of the list after the step) and continue from it; b begins from
   that trie; both write; a hands out an iterator, deletes, commits; b commits and restarts from a's trie *)
Definition ops : list (bool * act) :=
  [(false, AIns k1 1); (false, AIns k2 2); (false, AIns k3 3); (false, ACommit 0);
   (true, ABegin 0); (false, AIns k4 4); (true, AIns k5 5); (true, ADel k2); (false, AIter);
   (false, ADel k1); (false, AIns k2 22); (false, ACommit 0); (true, ACommit 1); (true, AIns k1 11)].
Definition s_mid : sys := srun (firstn 5 ops) sys0.
Definition s_end : sys := srun ops sys0.

Example reachable_mid_end : ssteps sys0 s_mid /\ ssteps s_mid s_end /\ SInv s_mid /\ SInv s_end.
Proof.
  assert (A : ssteps sys0 s_mid) by apply srun_ssteps.
  assert (B : ssteps s_mid s_end).
  { unfold s_end, s_mid. rewrite <- (firstn_skipn 5 ops) at 2. unfold srun. rewrite fold_left_app. apply srun_ssteps. }
  split; [exact A|]. split; [exact B|]. split; apply reachable_SInv; [exact A|eapply ssteps_trans; eauto].
Qed.

(* the tries handed out up to s_mid read the same in s_end although cells are shared and both
   transactions wrote in place in between *)
Example tries_persist_computed :
  map (fun t => habs_trie (s_heap s_end) t) (s_pubs s_mid) = map (fun t => habs_trie (s_heap s_mid) t) (s_pubs s_mid) /\
  length (s_heap s_mid) = 4%nat /\ length (s_heap s_end) = 18%nat /\ length (s_pubs s_end) = 5%nat.
Proof. vm_compute. repeat split; reflexivity. Qed.

(* two different handed-out tries of s_end share a cell; the two live transactions belong to
   different lineages and carry the same id number *)
Example tries_share_cells :
  exists t1 t2 a, In t1 (s_pubs s_end) /\ In t2 (s_pubs s_end) /\ hr_root t1 <> hr_root t2 /\
    reach (s_heap s_end) (hr_root t1) a /\ reach (s_heap s_end) (hr_root t2) a.
Proof.
  exists (nth 0 (s_pubs s_end) htrie_new), (nth 3 (s_pubs s_end) htrie_new), 0%nat.
  split; [apply nth_In; vm_compute; lia|]. split; [apply nth_In; vm_compute; lia|].
  split; [vm_compute; discriminate|].
  split; apply (addrs_reach 20); vm_compute; tauto.
Qed.
Example lineages_same_id :
  x_id (s_a s_end) = x_id (s_b s_end) /\ x_root (s_a s_end) <> x_root (s_b s_end) /\ x_own (s_b s_end) <> [].
Proof. vm_compute. repeat split; discriminate. Qed.
End HeapExample.
