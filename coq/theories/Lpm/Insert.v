(* Lpm/Insert.v — Txn.Insert preserves the invariant and acts as a map update. *)
From SV Require Import Base.Bytes Lpm.Model Lpm.Bits Lpm.Inv.
From Coq Require Import ZArith ZifyN ZifyNat ZifyBool.
Open Scope N_scope.

(* what Insert returns from a subtree below p: the entry for q is put in place of the old one,
   if there was one (the flag says there was none) *)
Definition insert_post (p : list bool) (q : lkey) (v : N) (n : node) (r : node * bool) : Prop :=
  inv p (fst r) /\ fst r <> Nil /\
  exists w, keyslot q (if snd r then [] else [(q, w)]) [(q, v)] (entries n) (entries (fst r)).

(* the way back up through a node below which q continues with the bit b *)
Lemma ins_up tid {p q v k w i t c0 c1 b r} : inv p (Node k w i t c0 c1) ->
  is_pre (bits k ++ [b]) (bits q) -> insert_post (bits k ++ [b]) q v (child b c0 c1) r ->
  insert_post p q v (Node k w i t c0 c1)
    (Node k w i tid (fst (set_child b (fst r) c0 c1)) (snd (set_child b (fst r) c0 c1)), snd r).
Proof.
  intros I Hb (J1 & J2 & w' & J3). pose proof I as (Ck & Pk & Him & I0 & I1).
  split; [|split; [discriminate|exists w'; exact (keyslot_child _ I Hb J3)]].
  destruct b; apply inv_node; auto; intros Hi; apply Him in Hi; tauto.
Qed.

(* a new node for q beside or above a subtree that does not hold q *)
Lemma ins_new p q v n k w i t d0 d1 : let n' := Node k w i t d0 d1 in
  inv p n' -> absent q (entries n) ->
  entries n' = (q, v) :: entries n \/ entries n' = entries n ++ [(q, v)] -> insert_post p q v n (n', true).
Proof.
  intros n' I' F E. split; [exact I'|]. split; [discriminate|]. exists v. cbn [fst snd].
  destruct E as [-> | ->]; [exact (keyslot_new_l F)|exact (keyslot_new_r F)].
Qed.

Lemma leaf_inv tid p q v : canon q -> is_pre p (bits q) -> inv p (Node q v false tid Nil Nil).
Proof. intros Cq Pq. apply inv_node; simpl; auto. discriminate. Qed.

(* the new node as parent of a subtree below q *)
Lemma ins_above tid p q v old (b : bool) : canon q -> is_pre p (bits q) ->
  inv (bits q ++ [b]) old -> absent q (entries old) ->
  insert_post p q v old (if b then (Node q v false tid Nil old, true) else (Node q v false tid old Nil, true)).
Proof.
  intros Cq Pq Iold Fq. destruct b; apply ins_new; try exact Fq;
    [apply inv_node; simpl; auto; discriminate|left|apply inv_node; simpl; auto; discriminate|left];
    cbn [entries app]; now rewrite ?app_nil_r.
Qed.

(* the new node and a subtree that parts ways with q after c, under an imaginary node with a key for c *)
Lemma ins_fork tid p q v ik old c (b : bool) : canon q -> canon ik -> bits ik = c -> is_pre p c ->
  inv (c ++ [negb b]) old -> old <> Nil -> is_pre (c ++ [b]) (bits q) -> absent q (entries old) ->
  insert_post p q v old (if b then (Node ik 0 true tid old (Node q v false tid Nil Nil), true)
                      else (Node ik 0 true tid (Node q v false tid Nil Nil) old, true)).
Proof.
  intros Cq Cik Bik Pc Iold Hold HQ Fq. pose proof (leaf_inv tid _ _ v Cq HQ) as Inew.
  assert (Iim : forall d0 d1, inv (c ++ [false]) d0 -> inv (c ++ [true]) d1 -> d0 <> Nil -> d1 <> Nil ->
            inv p (Node ik 0 true tid d0 d1)) by (intros; apply inv_node; rewrite ?Bik; auto).
  destruct b; cbn [negb] in *; apply ins_new; try exact Fq.
  - apply Iim; auto; discriminate.
  - right; reflexivity.
  - apply Iim; auto; discriminate.
  - left; reflexivity.
Qed.

(* EncodeLPMKey(node.key, matchLen) at a node that parts ways with q after c is a key for c *)
Lemma encodeKey_pre nk c x : canon nk -> is_pre (c ++ [x]) (bits nk) ->
  canon (encodeKey (key_bytes nk) (N.of_nat (length c))) /\
  bits (encodeKey (key_bytes nk) (N.of_nat (length c))) = c.
Proof.
  intros Ck HK. destruct (encodeKey_spec nk (length c) Ck) as [Cik Bik].
  { apply is_pre_len in HK. rewrite app_length in HK. simpl in HK. lia. }
  split; [exact Cik|]. rewrite Bik. destruct HK as [r ->].
  now rewrite <- app_assoc, firstn_app, Nat.sub_diag, firstn_all, app_nil_r.
Qed.

Lemma ins_spec tid q v : canon q -> forall n p ml0,
  inv p n -> is_pre p (bits q) -> (N.to_nat ml0 <= length p)%nat ->
  insert_post p q v n (ins tid (fst q) (snd q) v ml0 n).
Proof.
  intros Cq.
  apply (along_walk q (fun p ml0 n => insert_post p q v n (ins tid (fst q) (snd q) v ml0 n)) Cq);
    cbn [ins]; rewrite <- ?surjective_pairing. (* the key ins stores, (fst q, snd q), is q *)
  - intros p ml0 Pq. apply ins_new; [now apply leaf_inv|intros ? []|left; reflexivity].
  - intros p ml0 nk nv ni nt c0 c1 I Pq W IH. pose proof I as (Ck & Pk & Him & I0 & I1).
    destruct W as [->|Hb|Hb|c b Pc HK HQ Hb]; cbn [orb negb].
    + (* same prefix: the node is replaced *)
      split; [apply inv_node; auto; discriminate|]. split; [discriminate|].
      exists nv. exact (keyslot_app_r (absent_children I) (keyslot_here _ _ _)).
    + (* q is a proper prefix of the node's key: the new node becomes its parent *)
      exact (ins_above tid p q v _ _ Cq Pq (inv_at tid I Hb) (absent_node I (snoc_not_pre Hb))).
    + (* the node's key is a proper prefix of q: descend *)
      specialize (IH _ Hb). destruct (getBitAt (fst q) (kplen nk)); cbn [child] in IH.
      * destruct (ins tid (fst q) (snd q) v (kplen nk) c1) as [c inc]. exact (ins_up tid I Hb IH).
      * destruct (ins tid (fst q) (snd q) v (kplen nk) c0) as [c inc]. exact (ins_up tid I Hb IH).
    + (* the keys part ways: fork at an imaginary node with the common prefix as key *)
      destruct (encodeKey_pre nk c _ Ck HK) as [Cik Bik]. rewrite Hb.
      refine (ins_fork tid p q v _ _ c b Cq Cik Bik Pc (inv_at tid I HK) _ HQ (absent_node I _)); [discriminate|].
      intros H. exact (fork_apart HK HQ H (is_pre_refl _)).
Qed.
