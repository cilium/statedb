(* Lpm/Order.v — entries are strictly ascending in the bit-string order; the entry list
   as a finite map (abs). *)
From SV Require Import Base.Bytes Lpm.Model Lpm.Bits Lpm.Inv.
From Coq Require Import ZArith ZifyN ZifyNat ZifyBool.
Open Scope N_scope.

Definition key_lt (e1 e2 : lkey * N) : Prop := blt (bits (fst e1)) (bits (fst e2)).
(* strictly ascending: every earlier entry is below every later one *)
Definition ascending (l : list (lkey * N)) : Prop := ForallOrdPairs key_lt l.

Lemma FOP_app {A} (R : A -> A -> Prop) a : forall b, ForallOrdPairs R a -> ForallOrdPairs R b ->
  (forall x y, In x a -> In y b -> R x y) -> ForallOrdPairs R (a ++ b).
Proof.
  induction a as [|x a IH]; intros b Ha Hb H; simpl; auto.
  inversion Ha; subst. constructor.
  - apply Forall_app. split; auto. apply Forall_forall. intros y Hy. apply H; simpl; auto.
  - apply IH; auto. intros; apply H; simpl; auto.
Qed.

Lemma FOP_app_inv {A} (R : A -> A -> Prop) a : forall b, ForallOrdPairs R (a ++ b) ->
  ForallOrdPairs R a /\ ForallOrdPairs R b /\ (forall x y, In x a -> In y b -> R x y).
Proof.
  induction a as [|x a IH]; intros b H; simpl in *.
  - split; [constructor|]. split; auto. intros ? ? [].
  - inversion H; subst. apply IH in H3 as (H3 & H4 & H5). apply Forall_app in H2 as [F1 F2].
    split; [constructor; auto|]. split; auto. intros u y [<-|Hu] Hy; auto.
    rewrite Forall_forall in F2. auto.
Qed.

Lemma entries_ascending n : forall p, inv p n -> ascending (entries n).
Proof.
  unfold ascending.
  induction n as [|nk nv ni nt c0 IH0 c1 IH1]; intros p I; cbn [entries]; [constructor|].
  destruct I as (Ck & Pk & Him & I0 & I1).
  assert (H01 : ForallOrdPairs key_lt (entries c0 ++ entries c1)).
  { apply FOP_app; eauto. intros [k w] [k' w'] Hx Hy. unfold key_lt. cbn [fst].
    apply (blt_fork (bits nk)); [eapply (entries_pre c0); eauto|eapply (entries_pre c1); eauto]. }
  destruct ni; [exact H01|]. apply FOP_app; [repeat constructor|exact H01|].
  intros x [k' w'] [<-|[]] Hy. unfold key_lt. cbn [fst].
  apply in_app_iff in Hy.
  assert (Hp : exists b, is_pre (bits nk ++ [b]) (bits k')).
  { destruct Hy as [Hy|Hy]; [exists false; eapply (entries_pre c0); eauto|exists true; eapply (entries_pre c1); eauto]. }
  destruct Hp as [b Hp]. apply blt_pre.
  - eapply is_pre_trans; [apply is_pre_app|exact Hp].
  - apply is_pre_len in Hp. rewrite app_length in Hp. simpl in Hp. lia.
Qed.

Lemma lkey_eqb_spec a b : lkey_eqb a b = true <-> a = b.
Proof.
  destruct a as [da pa], b as [db pb]. unfold lkey_eqb. cbn [fst snd].
  rewrite andb_true_iff, bytes_eqb_spec, N.eqb_eq. split; [intros [-> ->]; reflexivity|intros H; injection H; auto].
Qed.

Fixpoint assoc (l : list (lkey * N)) (k : lkey) : option N :=
  match l with
  | [] => None
  | (k', v) :: r => if lkey_eqb k' k then Some v else assoc r k
  end.

(* abs : trie -> finite map from prefixes to values *)
Definition abs (r : node) (k : lkey) : option N := assoc (entries r) k.

Lemma lkey_eqb_false a b : lkey_eqb a b = false -> a <> b.
Proof. intros E ->. now rewrite (proj2 (lkey_eqb_spec b b) eq_refl) in E. Qed.

Lemma assoc_none l k : assoc l k = None <-> forall w, ~ In (k, w) l.
Proof.
  induction l as [|[k' v] l IH]; simpl; [split; auto|].
  destruct (lkey_eqb k' k) eqn:E.
  - apply lkey_eqb_spec in E. subst. split; [discriminate|]. intros H. destruct (H v). auto.
  - apply lkey_eqb_false in E. rewrite IH. split.
    + intros H w [[= -> _]|Hw]; [congruence|eapply H; eauto].
    + intros H w Hw. apply (H w). auto.
Qed.

Lemma assoc_in l k v : assoc l k = Some v -> In (k, v) l.
Proof.
  induction l as [|[k' v'] l IH]; simpl; [discriminate|].
  destruct (lkey_eqb k' k) eqn:E; [|auto]. apply lkey_eqb_spec in E. intros [= ->]. subst. auto.
Qed.

Lemma ascending_key_unique l k v w : ascending l -> In (k, v) l -> In (k, w) l -> v = w.
Proof.
  induction l as [|e l IH]; intros A Hv Hw; [destruct Hv|]. inversion A; subst.
  rewrite Forall_forall in H1.
  destruct Hv as [->|Hv], Hw as [Hw|Hw].
  - congruence.
  - apply H1 in Hw. unfold key_lt in Hw. simpl in Hw. exfalso. eapply blt_irrefl; eauto.
  - subst e. apply H1 in Hv. unfold key_lt in Hv. simpl in Hv. exfalso. eapply blt_irrefl; eauto.
  - auto.
Qed.

Lemma assoc_some l k v : ascending l -> (assoc l k = Some v <-> In (k, v) l).
Proof.
  intros A. split; [apply assoc_in|]. intros Hin. destruct (assoc l k) as [w|] eqn:E.
  - f_equal. eapply ascending_key_unique; eauto using assoc_in.
  - rewrite assoc_none in E. destruct (E _ Hin).
Qed.

Lemma assoc_eq l l' k k2 : ascending l -> ascending l' ->
  (forall v, In (k, v) l <-> In (k2, v) l') -> assoc l k = assoc l' k2.
Proof.
  intros A A' H. destruct (assoc l k) as [v|] eqn:E.
  - symmetry. apply assoc_some; auto. apply H. apply assoc_some in E; auto.
  - symmetry. apply assoc_none. intros w Hw. apply H in Hw. rewrite assoc_none in E. eapply E; eauto.
Qed.
