(* Lpm/Cow.v — the txn-id (copy-on-write) discipline of lpm.Txn.
   In the Go code Txn.clone(n) returns n itself, which is then written in place, exactly when
   n.txnID = txn.txnID; otherwise it copies n and stamps the copy with txn.txnID. In the model
   every node that Insert/Delete visit for writing is rebuilt with txnID := tid (Model.v ins, del);
   [clone_inplace] below is the test of Txn.clone. The theorems:
   (1) ids_ok: every node of a txn's tree has id <= the txn id and no child has a larger id than
       its parent (lpm/validate.go) — preserved by Insert and Delete, including Delete's early exit,
       which relies on the parent/child clause;
   (2) every root handed out (All, Prefix, LowerBound: txnID++; Commit followed by Txn/Reuse:
       prevTxnID+1) reaches only ids strictly below the txn id from then on;
   (3) consequently Txn.clone never takes the in-place branch on a node of a handed-out root. *)
From SV Require Import Base.Bytes Lpm.Model.
From Coq Require Import ZArith ZifyN ZifyNat ZifyBool.
Open Scope N_scope.

Definition node_id (n : node) : N := match n with Nil => 0 | Node _ _ _ t _ _ => t end.

(* ids bounded by T, and children never above their parent *)
Fixpoint ids_ok (T : N) (n : node) : Prop :=
  match n with
  | Nil => True
  | Node _ _ _ t c0 c1 => t <= T /\ ids_ok t c0 /\ ids_ok t c1
  end.

Lemma ids_ok_mono T T' n : T <= T' -> ids_ok T n -> ids_ok T' n.
Proof. destruct n; simpl; auto. intros H (H1 & H2 & H3). repeat split; auto; lia. Qed.

Lemma ids_ok_node_id T n : ids_ok T n -> node_id n <= T.
Proof. destruct n; simpl; [lia|tauto]. Qed.

Lemma ids_ok_compress T n : ids_ok T n -> ids_ok T (compress n).
Proof.
  destruct n as [|k v i t c0 c1]; simpl; auto. intros (H1 & H2 & H3).
  destruct i; [|simpl; auto]. destruct c0, c1; simpl in *; auto; repeat split; try tauto; lia.
Qed.

Lemma ins_ids tid kd kpl v : forall n ml, ids_ok tid n ->
  ids_ok tid (fst (ins tid kd kpl v ml n)) /\ node_id (fst (ins tid kd kpl v ml n)) = tid.
Proof.
  induction n as [|nk nv ni nt c0 IH0 c1 IH1]; intros ml H.
  - simpl. repeat split; lia.
  - destruct H as (H1 & H2 & H3).
    assert (G0 : ids_ok tid c0) by (eapply ids_ok_mono; eauto).
    assert (G1 : ids_ok tid c1) by (eapply ids_ok_mono; eauto).
    cbn [ins]. set (m := longestMatch ml nk kd kpl).
    destruct ((m =? kpl) || negb (m =? kplen nk))%bool.
    + destruct (m =? kpl).
      * destruct (m =? kplen nk); [|destruct (getBitAt (key_bytes nk) m)]; simpl; repeat split; auto; lia.
      * destruct (getBitAt kd m); simpl; repeat split; auto; lia.
    + destruct (getBitAt kd (kplen nk)).
      * destruct (IH1 m G1) as [J1 J2]. destruct (ins tid kd kpl v m c1) as [c inc]. simpl in *. repeat split; auto; lia.
      * destruct (IH0 m G0) as [J1 J2]. destruct (ins tid kd kpl v m c0) as [c inc]. simpl in *. repeat split; auto; lia.
Qed.

(* Delete: B is the bound inherited from the parent (the parent's id, or the txn id at the root).
   The early exit ("stopped") is taken only below nodes that the txn owns: every node above the point
   of exit has id = tid, so leaving them as they are is what cloning them would have done. *)
Definition del_ids_post (tid B : N) (n : node) (r : option (node * N * bool)) : Prop :=
  match r with
  | None => True
  | Some (n', _, true) => ids_ok B n' /\ node_id n = tid /\ node_id n' = tid
  | Some (n', _, false) => ids_ok tid n'
  end.

Lemma ids_ok_set_child T b c c0 c1 : ids_ok T c -> ids_ok T c0 -> ids_ok T c1 ->
  ids_ok T (fst (set_child b c c0 c1)) /\ ids_ok T (snd (set_child b c c0 c1)).
Proof. destruct b; auto. Qed.

Lemma del_ids_owned tid kd kpl : forall n B ml, ids_ok B n -> B <= tid ->
  del_ids_post tid B n (del tid kd kpl ml n).
Proof.
  induction n as [|nk nv ni nt c0 IH0 c1 IH1]; intros B ml H HB; [exact I|].
  destruct H as (H1 & H2 & H3). cbn [del]. set (m := longestMatch ml nk kd kpl).
  assert (G0 : ids_ok tid c0) by (eapply ids_ok_mono; [|exact H2]; lia).
  assert (G1 : ids_ok tid c1) by (eapply ids_ok_mono; [|exact H3]; lia).
  destruct ((m =? kpl) && (m =? kplen nk))%bool; [destruct ni; [exact I|simpl; auto using N.le_refl]|].
  destruct (m <? kplen nk); [exact I|].
  set (b := getBitAt kd m).
  assert (IH : del_ids_post tid nt (child b c0 c1) (del tid kd kpl m (child b c0 c1)))
    by (destruct b; [apply IH1|apply IH0]; auto; lia).
  assert (Hc : node_id (child b c0 c1) <= nt) by (destruct b; apply ids_ok_node_id; assumption).
  destruct (del tid kd kpl m (child b c0 c1)) as [[[c w] [|]]|]; cbn [del_ids_post] in IH; [| |exact I].
  - (* stopped below: this node is the txn's own and stays *)
    destruct IH as (J1 & J2 & J3). destruct (ids_ok_set_child nt b c c0 c1 J1 H2 H3) as [D0 D1].
    destruct (set_child b c c0 c1) as [d0 d1]. simpl in *. repeat split; auto; lia.
  - apply ids_ok_compress in IH. destruct (ids_ok_set_child tid b _ c0 c1 IH G0 G1) as [D0 D1].
    destruct (set_child b (compress c) c0 c1) as [d0 d1]. cbn [fst snd] in *.
    destruct ((nt =? tid) && ni && negb (is_nil d0) && negb (is_nil d1))%bool eqn:Es; simpl; [|auto using N.le_refl].
    (* it stops here only if this node carries the txn id *)
    rewrite !andb_true_iff, N.eqb_eq in Es. destruct Es as [[[-> _] _] _]. auto using N.le_refl.
Qed.

Definition txn_ids_ok (x : txn) : Prop := ids_ok (t_id x) (t_root x).
(* every node of a committed trie has id <= prevTxnID < the id of any txn begun from it *)
Definition trie_ids_ok (t : trie) : Prop := ids_ok (r_prev t) (r_root t).

Lemma txn_insert_ids x k v : txn_ids_ok x -> txn_ids_ok (txn_insert x k v) /\ t_id (txn_insert x k v) = t_id x.
Proof.
  unfold txn_ids_ok, txn_insert. intros H.
  pose proof (ins_ids (t_id x) (fst k) (snd k) v (t_root x) 0 H) as [J _].
  destruct (ins (t_id x) (fst k) (snd k) v 0 (t_root x)) as [r inc]. simpl in *. auto.
Qed.

Lemma txn_delete_ids x k : txn_ids_ok x -> txn_ids_ok (fst (txn_delete x k)) /\ t_id (fst (txn_delete x k)) = t_id x.
Proof.
  unfold txn_ids_ok, txn_delete. intros H.
  pose proof (del_ids_owned (t_id x) (fst k) (snd k) (t_root x) (t_id x) 0 H (N.le_refl _)) as J.
  destruct (del (t_id x) (fst k) (snd k) 0 (t_root x)) as [[[r v] [|]]|]; simpl in *; [tauto| |auto].
  split; auto. now apply ids_ok_compress.
Qed.

(* a root (or iterator stack) handed out: all ids strictly below the txn id *)
Definition below (T : N) (n : node) : Prop := n = Nil \/ (0 < T /\ ids_ok (T - 1) n).
Definition published (x : txn) (it : iterator) : Prop := Forall (below (t_id x)) it.

Lemma below_mono T T' n : T <= T' -> below T n -> below T' n.
Proof. intros H [->|[H1 H2]]; [left; auto|right]. split; [lia|]. eapply ids_ok_mono; [|exact H2]. lia. Qed.
Lemma published_mono x x' it : t_id x <= t_id x' -> published x it -> published x' it.
Proof. intros H. apply Forall_impl. intros n. now apply below_mono. Qed.

Lemma ids_ok_children T k v i t c0 c1 : ids_ok T (Node k v i t c0 c1) -> ids_ok T c0 /\ ids_ok T c1.
Proof. intros (H1 & H2 & H3). split; eapply ids_ok_mono; eauto. Qed.

(* iterators only hold nodes of the tree they were taken from *)
Lemma prefix_go_ids g T kd kpl : forall n ml, ids_ok T n -> Forall (ids_ok T) (prefix_go g kd kpl ml n).
Proof.
  induction n as [|nk nv ni nt c0 IH0 c1 IH1]; intros ml H; [constructor|].
  destruct (ids_ok_children _ _ _ _ _ _ _ H) as [G0 G1]. cbn [prefix_go].
  set (m := longestMatch ml nk kd kpl).
  destruct ((m =? kpl) || (m <? kplen nk))%bool.
  - destruct (g && (m <? kpl))%bool; [constructor|constructor; [exact H|constructor]].
  - destruct (getBitAt kd (kplen nk)); cbn [child]; auto.
Qed.
Lemma lowerBound_go_ids T kd kpl : forall n ml st, ids_ok T n -> Forall (ids_ok T) st ->
  Forall (ids_ok T) (lowerBound_go kd kpl ml st n).
Proof.
  induction n as [|nk nv ni nt c0 IH0 c1 IH1]; intros ml st H Hs; [exact Hs|].
  destruct (ids_ok_children _ _ _ _ _ _ _ H) as [G0 G1]. cbn [lowerBound_go].
  set (m := longestMatch ml nk kd kpl).
  destruct (m =? kpl); [constructor; auto|].
  destruct (m <? kplen nk); [destruct (bytes_ltb (key_bytes nk) kd); [auto|constructor; auto]|].
  destruct (getBitAt kd (kplen nk)); [auto|]. apply IH0; auto. destruct (is_nil c1); auto.
Qed.

Lemma freeze_below x n : t_root x <> Nil -> ids_ok (t_id x) n -> below (t_id (txn_freeze x)) n.
Proof.
  intros Hr H. right. unfold txn_freeze. destruct (t_root x); [congruence|]. simpl.
  split; [lia|]. replace (t_id x + 1 - 1) with (t_id x) by lia. exact H.
Qed.

Lemma freeze_ids x : txn_ids_ok x -> txn_ids_ok (txn_freeze x).
Proof.
  unfold txn_ids_ok, txn_freeze. intros H. destruct (t_root x) eqn:E; [rewrite E; exact I|]. cbn [t_root t_id].
  eapply ids_ok_mono; [|exact H]. lia.
Qed.

(* All / Prefix / LowerBound on a txn: the iterator is published by the id bump, the txn stays ok *)
Lemma txn_iter_publishes x q : txn_ids_ok x ->
  (published (fst (txn_all x)) (snd (txn_all x)) /\ txn_ids_ok (fst (txn_all x))) /\
  (published (fst (txn_prefix x q)) (snd (txn_prefix x q)) /\ txn_ids_ok (fst (txn_prefix x q))) /\
  (published (fst (txn_lowerBound x q)) (snd (txn_lowerBound x q)) /\ txn_ids_ok (fst (txn_lowerBound x q))).
Proof.
  intros H. unfold txn_all, txn_prefix, txn_lowerBound, published. cbn [fst snd].
  pose proof (freeze_ids x H) as Hf.
  destruct (t_root x) as [|k v i t c0 c1] eqn:Er.
  - unfold all, prefix, lowerBound. simpl. repeat split; auto; constructor.
  - assert (Hn : t_root x <> Nil) by (rewrite Er; discriminate).
    unfold txn_ids_ok in H. rewrite Er in H.
    assert (G : forall st, Forall (ids_ok (t_id x)) st -> Forall (below (t_id (txn_freeze x))) st).
    { intros st. apply Forall_impl. intros n Hn'. now apply freeze_below. }
    repeat split; auto; apply G.
    + unfold all. constructor; [exact H|constructor].
    + apply prefix_go_ids; auto.
    + apply lowerBound_go_ids; auto.
Qed.

(* Commit, then Txn() or Reuse: the new txn starts above every id of the committed trie *)
Lemma commit_ids x : txn_ids_ok x -> trie_ids_ok (txn_commit x).
Proof. auto. Qed.
Lemma trie_txn_ids t : trie_ids_ok t ->
  txn_ids_ok (trie_txn t) /\ below (t_id (trie_txn t)) (r_root t) /\
  (forall x, txn_ids_ok (txn_reuse x t) /\ below (t_id (txn_reuse x t)) (r_root t)).
Proof.
  unfold trie_ids_ok, txn_ids_ok, txn_reuse, trie_txn. simpl. intros H.
  assert (A : ids_ok (r_prev t + 1) (r_root t)) by (eapply ids_ok_mono; [|exact H]; lia).
  assert (B : below (r_prev t + 1) (r_root t)).
  { right. split; [lia|]. now replace (r_prev t + 1 - 1) with (r_prev t) by lia. }
  auto.
Qed.
Lemma new_clear_ids x : trie_ids_ok trie_new /\ txn_ids_ok (txn_clear x).
Proof. split; exact I. Qed.

(* Txn.clone(n) returns n itself (to be written in place) iff n.txnID = txn.txnID *)
Definition clone_inplace (tid : N) (n : node) : bool :=
  match n with Nil => false | Node _ _ _ t _ _ => t =? tid end.
(* no node of the subtree would be written in place by a txn with id tid *)
Fixpoint no_inplace (tid : N) (n : node) : Prop :=
  match n with
  | Nil => True
  | Node _ _ _ _ c0 c1 => clone_inplace tid n = false /\ no_inplace tid c0 /\ no_inplace tid c1
  end.

Lemma ids_lt_no_inplace tid : forall n T, T < tid -> ids_ok T n -> no_inplace tid n.
Proof.
  induction n as [|k v i t c0 IH0 c1 IH1]; intros T HT H; [exact I|].
  destruct H as (H1 & H2 & H3). cbn [no_inplace clone_inplace].
  split; [apply N.eqb_neq; lia|]. split; [eapply IH0; [|exact H2]; lia|eapply IH1; [|exact H3]; lia].
Qed.

(* a node handed out below the id T is written in place by no transaction with an id from T on *)
Lemma below_no_inplace T T' n : below T n -> T <= T' -> no_inplace T' n.
Proof. intros [->|[H1 H2]] H; [exact I|]. eapply ids_lt_no_inplace; [|exact H2]. lia. Qed.

Theorem published_never_mutated x it : published x it -> Forall (no_inplace (t_id x)) it.
Proof. apply Forall_impl. intros n H. exact (below_no_inplace _ _ n H (N.le_refl _)). Qed.

Inductive step : txn -> txn -> Prop :=
| step_insert x k v : step x (txn_insert x k v)
| step_delete x k : step x (fst (txn_delete x k))
| step_all x : step x (fst (txn_all x))
| step_prefix x q : step x (fst (txn_prefix x q))
| step_lowerBound x q : step x (fst (txn_lowerBound x q)).
Inductive steps : txn -> txn -> Prop :=
| steps_refl x : steps x x
| steps_cons x y z : step x y -> steps y z -> steps x z.

Lemma freeze_id x : t_id x <= t_id (txn_freeze x).
Proof. unfold txn_freeze. destruct (t_root x); simpl; lia. Qed.

Lemma step_ids x y : step x y -> txn_ids_ok x -> txn_ids_ok y /\ t_id x <= t_id y.
Proof.
  intros S H. destruct S.
  - destruct (txn_insert_ids x k v H) as [A B]. split; [exact A|lia].
  - destruct (txn_delete_ids x k H) as [A B]. split; [exact A|lia].
  - split; [exact (freeze_ids x H)|apply freeze_id].
  - split; [exact (freeze_ids x H)|apply freeze_id].
  - split; [exact (freeze_ids x H)|apply freeze_id].
Qed.

Lemma steps_ids x z : steps x z -> txn_ids_ok x -> txn_ids_ok z /\ t_id x <= t_id z.
Proof.
  induction 1 as [x|x y z S _ IH]; intros H; [split; [exact H|lia]|].
  destruct (step_ids _ _ S H) as [A B]. destruct (IH A) as [C D]. split; [exact C|lia].
Qed.

(* whatever a transaction does after handing out an iterator, it never writes one of its nodes in place *)
Theorem iterator_never_mutated x it z : txn_ids_ok x -> published x it -> steps x z ->
  txn_ids_ok z /\ Forall (no_inplace (t_id z)) it.
Proof.
  intros H P S. destruct (steps_ids _ _ S H) as [A B]. split; [exact A|].
  revert P. apply Forall_impl. intros n Hn. exact (below_no_inplace _ _ n Hn B).
Qed.

(* a transaction begun (Txn or Reuse) from a committed trie never writes one of the trie's nodes in place *)
Theorem committed_never_mutated t x0 z : trie_ids_ok t -> (x0 = trie_txn t \/ exists x, x0 = txn_reuse x t) ->
  steps x0 z -> txn_ids_ok z /\ no_inplace (t_id z) (r_root t).
Proof.
  intros H E S. destruct (trie_txn_ids t H) as (A & B & C).
  assert (G : txn_ids_ok x0 /\ below (t_id x0) (r_root t)).
  { destruct E as [->|[x ->]]; [auto|apply C]. }
  destruct G as [G1 G2]. destruct (steps_ids _ _ S G1) as [Z1 Z2]. split; [exact Z1|].
  exact (below_no_inplace _ _ _ G2 Z2).
Qed.
