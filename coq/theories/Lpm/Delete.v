(* Lpm/Delete.v — Txn.Delete preserves the invariant and acts as a map removal. *)
From SV Require Import Base.Bytes Lpm.Model Lpm.Bits Lpm.Inv.
From Coq Require Import ZArith ZifyN ZifyNat ZifyBool.
Open Scope N_scope.

(* the invariant without the two-children requirement at the root node: what Delete has in
   hand while it walks back up *)
Definition winv (p : list bool) (n : node) : Prop :=
  match n with
  | Nil => True
  | Node k v i _ c0 c1 => canon k /\ is_pre p (bits k) /\ (i = true -> v = 0) /\
                          inv (bits k ++ [false]) c0 /\ inv (bits k ++ [true]) c1
  end.

Lemma inv_winv p n : inv p n -> winv p n.
Proof. destruct n; simpl; auto. intros (C & P & Him & I0 & I1). repeat (split; auto). intros Hi. apply Him in Hi. tauto. Qed.

Lemma compress_spec p n : winv p n -> inv p (compress n) /\ entries (compress n) = entries n.
Proof.
  destruct n as [|k v i t c0 c1]; [simpl; auto|]. intros (C & P & Hv & I0 & I1).
  assert (P0 : is_pre p (bits k ++ [false])) by (eapply is_pre_trans; [exact P|apply is_pre_app]).
  assert (P1 : is_pre p (bits k ++ [true])) by (eapply is_pre_trans; [exact P|apply is_pre_app]).
  destruct i; [|simpl; split; [|reflexivity]; split; [exact C|]; split; [exact P|]; split; [discriminate|tauto]].
  destruct c0 as [|k0 v0 i0 t0 a0 b0], c1 as [|k1 v1 i1 t1 a1 b1]; cbn [compress].
  - simpl. auto.
  - split; [eapply inv_weaken; [exact P1|exact I1]|reflexivity].
  - split; [eapply inv_weaken; [exact P0|exact I0]|]. cbn [entries app]. now rewrite app_nil_r.
  - split; [|reflexivity]. cbn [inv]. split; [exact C|]. split; [exact P|].
    split; [intros _; split; [discriminate|split; [discriminate|auto]]|]. split; [exact I0|exact I1].
Qed.

Lemma winv_inv p k v i t d0 d1 : winv p (Node k v i t d0 d1) -> (i = true -> d0 <> Nil /\ d1 <> Nil) ->
  inv p (Node k v i t d0 d1).
Proof. simpl. intuition. Qed.

(* what Delete has established when it returns from a subtree below p *)
Definition delete_post (p : list bool) (q : lkey) (n : node) (r : option (node * N * bool)) : Prop :=
  match r with
  | None => absent q (entries n)
  | Some (n', v, stopped) =>
    keyslot q [(q, v)] [] (entries n) (entries n') /\
    (if stopped then inv p n' /\ n' <> Nil else winv p n')
  end.

(* the way back up through a node below which q continues with the bit b *)
Lemma del_up tid {p q k v i t c0 c1 b r} : inv p (Node k v i t c0 c1) ->
  is_pre (bits k ++ [b]) (bits q) -> delete_post (bits k ++ [b]) q (child b c0 c1) r ->
  delete_post p q (Node k v i t c0 c1)
    match r with
    | None => None
    | Some (c, w, true) => let (d0, d1) := set_child b c c0 c1 in Some (Node k v i t d0 d1, w, true)
    | Some (c, w, false) =>
      let (d0, d1) := set_child b (compress c) c0 c1 in
      Some (Node k v i tid d0 d1, w, (t =? tid) && i && negb (is_nil d0) && negb (is_nil d1))
    end.
Proof.
  intros I Hb R. pose proof I as (Ck & Pk & Him & I0 & I1).
  destruct r as [[[c w] [|]]|]; cbn [delete_post] in *.
  - destruct R as (R1 & R2 & R3).
    destruct b; cbn [set_child delete_post]; (split; [exact (keyslot_child t I Hb R1)|]); (split; [|discriminate]);
      apply inv_node; auto; intros Hi; apply Him in Hi; tauto.
  - destruct R as (R1 & R2). destruct (compress_spec _ _ R2) as [X1 X2]. rewrite <- X2 in R1.
    assert (W : forall d0 d1, inv (bits k ++ [false]) d0 -> inv (bits k ++ [true]) d1 ->
      let stop := (t =? tid) && i && negb (is_nil d0) && negb (is_nil d1) in
      if stop then inv p (Node k v i tid d0 d1) /\ Node k v i tid d0 d1 <> Nil else winv p (Node k v i tid d0 d1)).
    { intros d0 d1 J0 J1 stop.
      assert (W : winv p (Node k v i tid d0 d1)) by (simpl; intuition).
      destruct stop eqn:Es; [|exact W]. split; [|discriminate]. apply winv_inv; [exact W|]. intros _.
      apply andb_true_iff in Es as [Es E1]. apply andb_true_iff in Es as [_ E0].
      destruct d0, d1; try discriminate; split; discriminate. }
    destruct b; cbn [set_child delete_post]; (split; [exact (keyslot_child tid I Hb R1)|]); apply W; assumption.
  - eapply absent_child; eauto.
Qed.

Lemma del_spec tid q : canon q -> forall n p ml0,
  inv p n -> is_pre p (bits q) -> (N.to_nat ml0 <= length p)%nat ->
  delete_post p q n (del tid (fst q) (snd q) ml0 n).
Proof.
  intros Cq. apply (along_walk q (fun p ml0 n => delete_post p q n (del tid (fst q) (snd q) ml0 n)) Cq); cbn [del].
  - intros ? ? _ ? [].
  - intros p ml0 nk nv ni nt c0 c1 I _ W IH. destruct W as [->|Hb|Hb|c b Pc HK HQ Hb]; cbn [andb].
    + pose proof (absent_children I) as F.
      destruct ni; [exact F|]. split; [exact (keyslot_app_r F (keyslot_here q [(q, nv)] []))|].
      simpl in *. tauto.
    + exact (absent_node I (snoc_not_pre Hb)).
    + exact (del_up tid I Hb (IH _ Hb)).
    + apply (absent_node I). intros H. exact (fork_apart HK HQ H (is_pre_refl _)).
Qed.
