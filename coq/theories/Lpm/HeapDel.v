(* Lpm/HeapDel.v — Txn.Delete on the heap (Lpm/Heap.v hdel: find loop, clone + mark, parents loop with
   compression and the early return) refines Lpm/Model.v del / txn_delete, writes in place only cells of
   the transaction's footprint, otherwise appends. *)
From SV Require Import Base.Bytes Lpm.Model Lpm.Cow Lpm.Heap Lpm.HeapBase Lpm.HeapIds Lpm.HeapIns.
From Coq Require Import ZArith List Bool Lia ZifyN ZifyNat ZifyBool.
Import ListNotations.
Open Scope N_scope.

Section Del.
Context {P : nat -> Prop}.
Local Notation trep := (@trep P).
Local Notation tpost := (@tpost P).
Local Notation kids := (@kids P).

Lemma trep_nil_or_node h tid p t F : trep h tid p t F ->
  (p = None /\ t = Nil /\ F = []) \/ exists a k v i d c0 c1, p = Some a /\ t = Node k v i d c0 c1.
Proof. intros T. inversion T; subst; [now left|right; eauto 10..]. Qed.

Lemma trep_is_some h tid p t F : trep h tid p t F -> is_some p = negb (is_nil t).
Proof. intros T. inversion T; reflexivity. Qed.

Lemma hcompress_spec {h tid a t F} : trep h tid (Some a) t F ->
  exists F', trep h tid (hcompress h a) (compress t) F' /\ (forall x, In x F' -> In x F).
Proof.
  intros T. destruct (trep_inv T) as (n & c0 & c1 & Hn & -> & K).
  destruct (K false) as (F0 & F1 & KK). pose proof (kids_sub KK) as Sub.
  destruct KK as (T0 & T1 & _). cbn [get_c child negb] in T0, T1.
  unfold hcompress. rewrite (hget_some Hn). cbn [compress].
  destruct (h_imag n); [|exists F; auto].
  destruct (trep_nil_or_node _ _ _ _ _ T0) as [(E0 & -> & ->)|(a0 & k0 & v0 & i0 & d0 & c00 & c01 & E0 & ->)];
    destruct (trep_nil_or_node _ _ _ _ _ T1) as [(E1 & -> & ->)|(a1 & k1 & v1 & i1 & d1 & c10 & c11 & E1 & ->)];
    rewrite E0, E1 in *.
  - exists []. split; [constructor|intros x []].
  - exists F1. auto.
  - exists F0. auto.
  - exists F. auto.
Qed.

Lemma del_frozen_nostop h tid kd kpl p t F : trep h tid p t F -> F = [] -> forall ml,
  match del tid kd kpl ml t with Some (_, _, true) => False | _ => True end.
Proof.
  induction 1 as [|a n c0 c1 Hn Hi HP _ IH0 _ IH1|a n c0 c1 F0 F1 Hn Hi _ IH0 _ IH1 Na Dj]; intros EF ml;
    [exact I| |discriminate].
  cbn [del]. set (m := longestMatch ml (h_key n) kd kpl).
  destruct ((m =? kpl) && (m =? kplen (h_key n)))%bool; [destruct (h_imag n); exact I|].
  destruct (m <? kplen (h_key n)); [exact I|].
  destruct (getBitAt kd m); cbn [child set_child].
  - specialize (IH1 eq_refl m). destruct (del tid kd kpl m c1) as [[[c v'] [|]]|]; [exact IH1| |exact I].
    rewrite (proj2 (N.eqb_neq _ _) (N.lt_neq _ _ Hi)). exact I.
  - specialize (IH0 eq_refl m). destruct (del tid kd kpl m c0) as [[[c v'] [|]]|]; [exact IH0| |exact I].
    rewrite (proj2 (N.eqb_neq _ _) (N.lt_neq _ _ Hi)). exact I.
Qed.

Lemma set_child_eq (b : bool) c c0 c1 :
  set_child b c c0 c1 = (if b then child (negb b) c0 c1 else c, if b then c else child (negb b) c0 c1).
Proof. destruct b; reflexivity. Qed.

(* The parents loop at the cell n at address a, after the run below its child idx. *)
Section Up.
Variables (h : heap) (tid : N) (a : nat) (n : hnode) (F : list nat) (idx : bool)
  (tb : node) (Fb : list nat) (to : node) (Fo : list nat).
Hypotheses (Hn : nth_error h a = Some n) (KK : kids h tid a n F idx tb Fb to Fo).

(* the early return was taken below: the cell is owned, stays as it is and sees the new child *)
Lemma hdel_kept h' c' : h_id n = tid -> tpost h tid Fb h' (get_c n idx) c' ->
  tpost h tid F h' (Some a) (Node (h_key n) (h_val n) (h_imag n) tid (if idx then to else c') (if idx then c' else to)).
Proof.
  intros Hi (F' & T' & SubF & Fr). pose proof (kids_sub KK) as Sub. pose proof (kids_self KK Hi) as Ia.
  destruct KK as (_ & To & Dj & NaB & NaO & _). pose proof (nth_error_lt Hn) as La.
  assert (Hn' : nth_error h' a = Some (set_c n idx (get_c n idx))) by (rewrite set_c_get; eapply tframe_out; eauto).
  destruct (trep_node_after h tid Fb h' a n idx (get_c n idx) c' F' to Fo Fr To Dj T' SubF Hn' Hi) as (F'' & T'' & HF''); auto.
  { exact (within_old SubF La NaB). }
  exists F''. split; [exact T''|]. split; [|eapply tframe_weaken; [exact Fr|apply within_incl; intros x Hx; auto]].
  intros x Hx. apply HF'' in Hx as [->|[Hx|Hx]]; [now left| |auto]. destruct (SubF _ Hx); auto.
Qed.

(* parent := txn.clone(oldParent): the cell itself if owned, else an appended copy *)
Lemma hdel_parent h' q c' F' h1 parent : tframe tid Fb h h' -> trep h' tid q c' F' -> within h Fb F' ->
  hclone_a h' tid a = (h1, parent) ->
  nth_error h1 parent = Some (set_id n tid) /\ tframe tid [] h' h1 /\
  (In parent F \/ (length h <= parent)%nat) /\ ~ In parent F' /\ ~ In parent Fo /\ (h_id n = tid -> parent = a).
Proof.
  intros Fr T' SubF Ec. destruct KK as (_ & To & _ & NaB & NaO & _).
  pose proof (nth_error_lt Hn) as La. pose proof (tframe_length Fr) as L'.
  assert (Hn' : nth_error h' a = Some n) by (eapply tframe_out; eauto).
  destruct (hclone_a_spec Hn' Ec) as (Hp & Fr1 & [(Hi & _ & ->)|(Hi & _ & ->)]); (split; [exact Hp|]; split; [exact Fr1|]).
  - split; [left; exact (kids_self KK Hi)|]. split; [exact (within_old SubF La NaB)|auto].
  - split; [right; exact L'|]. split; [|split; [|congruence]]; intros Hx.
    + apply (trep_F_lt T'), Nat.lt_irrefl in Hx. exact Hx.
    + apply (trep_F_lt To) in Hx. clear - Hx L'. lia.
Qed.

(* one round: clone the parent, compress the child, write the pointer, test for the early return *)
Lemma hdel_step h' node' c' : tpost h tid Fb h' (Some node') c' ->
  forall root ps, exists h'' parent,
    let d := compress c' in
    let t'' := Node (h_key n) (h_val n) (h_imag n) tid (if idx then to else d) (if idx then d else to) in
    let stop := (h_id n =? tid) && h_imag n && negb (is_nil (if idx then to else d)) && negb (is_nil (if idx then d else to)) in
    hdel_up tid h' root node' ((a, idx) :: ps) = (if stop then (h'', root) else hdel_up tid h'' root parent ps) /\
    (stop = true -> parent = a) /\ tpost h tid F h'' (Some parent) t''.
Proof.
  intros (F' & T' & SubF & Fr) root ps. pose proof (kids_sub KK) as Sub.
  assert (Hn' : nth_error h' a = Some n) by (destruct KK as (_ & _ & _ & NaB & _); eapply tframe_out; eauto).
  cbn [hdel_up]. rewrite (hget_some Hn').
  destruct (hclone_a h' tid a) as [h1 parent] eqn:Ec.
  destruct (hdel_parent h' _ c' F' h1 parent Fr T' SubF Ec) as (Hp & Fr1 & PF & NpF' & NpO & POwn).
  destruct KK as (_ & To & Dj & _). rewrite (hget_some Hp).
  assert (T1 : trep h1 tid (Some node') c' F') by (eapply trep_tframe; [exact T'|exact Fr1|intros x []]).
  destruct (hcompress_spec T1) as (Fd & Td & SubD).
  set (c := hcompress h1 node') in *.
  (* parent.children[idx] = node *)
  set (np := set_c (set_id n tid) idx c).
  assert (Hnp : h_id np = tid) by exact (h_id_set_c (set_id n tid) idx c).
  set (h2 := upd h1 parent np).
  assert (Fr2 : tframe tid [parent] h1 h2) by (eapply tframe_upd; [exact Hp|reflexivity|exact Hnp]).
  assert (Hp2 : nth_error h2 parent = Some np) by (apply nth_error_upd_eq; eapply nth_error_lt; eauto).
  rewrite (hget_some Hp2).
  assert (Fr02 : tframe tid (parent :: Fb) h h2).
  { eapply tframe_trans; [eapply (tframe_trans _ (parent :: Fb)); [exact Fr|exact Fr1|apply incl_tl, incl_refl|intros x []]
                         |exact Fr2|apply incl_refl|]. intros x [<-|[]]. left. now left. }
  assert (NpD : ~ In parent Fd) by (intros Hx; exact (NpF' (SubD _ Hx))).
  destruct (trep_node_after h tid (parent :: Fb) h2 parent (set_id n tid) idx c (compress c') Fd to Fo Fr02 To)
    as (F'' & T'' & HF''); auto.
  { intros x [<-|Hx] Ho; [exact (NpO Ho)|exact (Dj x Hx Ho)]. }
  { eapply trep_upd; [exact Td|exact Hp|reflexivity|exact Hnp|exact NpD]. }
  { intros x Hx. destruct (SubF _ (SubD _ Hx)); [left; now right|now right]. }
  exists h2, parent. cbn zeta. split; [|split].
  - assert (Ic : is_some c = negb (is_nil (compress c'))) by (eapply trep_is_some; eauto).
    assert (Io : is_some (get_c n (negb idx)) = negb (is_nil to)) by (eapply trep_is_some; eauto).
    unfold np. destruct idx; cbn [set_c set_id h_imag h_c0 h_c1 negb get_c] in *; rewrite Ic, Io; reflexivity.
  - intros Hs. apply POwn. destruct (h_id n =? tid) eqn:Eid; [now apply N.eqb_eq|discriminate].
  - exists F''. split; [exact T''|]. split.
    + intros x Hx. apply HF'' in Hx as [->|[Hx|Hx]]; [exact PF| |left; auto].
      destruct (SubF _ (SubD _ Hx)); auto.
    + eapply tframe_weaken; [exact Fr02|]. intros x [<-|Hx]; [exact PF|auto].
Qed.
End Up.

(* node = txn.clone(node); node.value = zero; node.imaginary = true *)
Definition hmark (h : heap) (tid : N) (a : nat) : heap * nat :=
  let (h1, a1) := hclone_a h tid a in
  let n1 := hget h1 a1 in
  (upd h1 a1 (mkH (h_key n1) 0 true (h_id n1) (h_c0 n1) (h_c1 n1)), a1).

Lemma hdel_unfold tid kd kpl h root :
  hdel tid kd kpl h root =
  match hdel_find (length h) kd kpl h root 0 [] with
  | None => None
  | Some (a, parents) =>
    let (h2, a1) := hmark h tid a in
    let (h3, r) := hdel_up tid h2 root a1 parents in Some (h3, r, h_val (hget h a))
  end.
Proof.
  unfold hdel, hmark. destruct (hdel_find (length h) kd kpl h root 0 []) as [[a ps]|]; [|reflexivity].
  destruct (hclone_a h tid a) as [h1 a1]. reflexivity.
Qed.

Lemma hmark_spec h tid a k v i d c0 c1 F : trep h tid (Some a) (Node k v i d c0 c1) F ->
  forall h2 a1, hmark h tid a = (h2, a1) -> tpost h tid F h2 (Some a1) (Node k 0 true tid c0 c1).
Proof.
  intros T h2 a1 E. unfold hmark in E. destruct (hclone_a h tid a) as [h1 a1'] eqn:Ec.
  destruct (hclone_spec T (h1 := h1) (c := Some a1')) as (Fc & Tc & SubC & Fr1); [cbn [hclone]; now rewrite Ec|].
  cbn [restamp] in Tc.
  destruct (trep_inv Tc) as (n1 & c0' & c1' & Hn1 & Et & K). injection Et as -> -> -> Hi <- <-.
  destruct (K false) as (F0 & F1 & T0 & T1 & Dj & N0 & N1 & [(Hlt & _)|(_ & HF)]); [rewrite Hi in Hlt; destruct (N.lt_irrefl _ Hlt)|].
  cbn [get_c child negb] in T0, T1.
  rewrite (hget_some Hn1) in E. injection E as <- <-.
  set (n' := mkH (h_key n1) 0 true (h_id n1) (h_c0 n1) (h_c1 n1)).
  assert (Up : forall p t G, trep h1 tid p t G -> ~ In a1' G -> trep (upd h1 a1' n') tid p t G).
  { intros p t G Tp NG. eapply trep_upd; eauto. }
  assert (In a1' F \/ (length h <= a1')%nat) by (apply SubC, HF; auto).
  exists (a1' :: F0 ++ F1). split; [|split].
  - apply (tr_own _ _ a1' n' c0 c1 F0 F1); [|exact (eq_sym Hi)|now apply Up|now apply Up| |exact Dj].
    + apply nth_error_upd_eq. eapply nth_error_lt; eauto.
    + intros Hx. apply in_app_or in Hx as [Hx|Hx]; auto.
  - intros x Hx. apply SubC, HF. destruct Hx as [<-|Hx]; [auto|]. apply in_app_or in Hx. auto.
  - eapply tframe_trans; [exact Fr1|eapply tframe_upd; eauto|apply incl_refl|]. intros x [<-|[]]. exact H.
Qed.

Lemma hdel_find_none f kd kpl h ml ps : hdel_find f kd kpl h None ml ps = None.
Proof. destruct f; reflexivity. Qed.

(* the find loop and the parents loop against Model.del: the find loop, continued from p with the
   parents ps collected so far, finds the target below p; after the target is marked the parents loop
   runs up to p (early return) or until the parents ps are left (and has then rebuilt the subtree at p) *)
Lemma hdel_main h tid kd kpl : forall fuel t p F ml ps, trep h tid p t F -> (height t <= fuel)%nat ->
  match del tid kd kpl ml t with
  | None => hdel_find fuel kd kpl h p ml ps = None
  | Some (t', v, stopped) =>
    exists tgt ps' ntg, hdel_find fuel kd kpl h p ml ps = Some (tgt, ps' ++ ps) /\
      nth_error h tgt = Some ntg /\ h_val ntg = v /\
      forall root h2 a1, hmark h tid tgt = (h2, a1) ->
        if stopped then exists h', hdel_up tid h2 root a1 (ps' ++ ps) = (h', root) /\ tpost h tid F h' p t'
        else exists h' node', hdel_up tid h2 root a1 (ps' ++ ps) = hdel_up tid h' root node' ps /\
                              tpost h tid F h' (Some node') t'
  end.
Proof.
  induction fuel as [|f IH]; intros t p F ml ps T Hh;
    (destruct t as [|nk nv ni nt c0' c1']; [inversion T; subst; cbn [del]; apply hdel_find_none|]).
  { destruct (Nat.nle_succ_0 _ Hh). }
  destruct p as [a|]; [|inversion T].
  destruct (trep_inv T) as (n & c0 & c1 & Hn & Et & K).
  injection Et as -> -> -> -> -> ->.
  cbn [del hdel_find]. rewrite (hget_some Hn).
  set (m := longestMatch ml (h_key n) kd kpl).
  destruct ((m =? kpl) && (m =? kplen (h_key n)))%bool.
  { destruct (h_imag n); [reflexivity|].
    exists a, [], n. cbn [app]. split; [reflexivity|]. split; [exact Hn|]. split; [reflexivity|].
    intros root h2 a1 Em. exists h2, a1. split; [reflexivity|]. eapply hmark_spec; eauto. }
  destruct (m <? kplen (h_key n)); [reflexivity|].
  set (idx := getBitAt kd m).
  destruct (K idx) as (Fb & Fo & KK). pose proof KK as (Tb & _ & _ & _ & _ & Hc).
  set (tb := child idx c0 c1) in *. set (to := child (negb idx) c0 c1) in *.
  assert (Hhb : (height tb <= f)%nat).
  { pose proof (height_child idx (h_key n) (h_val n) (h_imag n) (h_id n) c0 c1). fold tb in H. clear - H Hh. lia. }
  specialize (IH tb (get_c n idx) Fb m ((a, idx) :: ps) Tb Hhb).
  pose proof (fun E => del_frozen_nostop h tid kd kpl _ _ _ Tb E m) as NoStop.
  destruct (del tid kd kpl m tb) as [[[c' v'] st]|]; [|exact IH].
  destruct IH as (tgt & ps' & ntg & Ef & Hntg & Hv & Hup).
  destruct st; rewrite set_child_eq; fold to;
    (exists tgt, (ps' ++ [(a, idx)]), ntg; rewrite <- app_assoc; cbn [app];
     split; [exact Ef|]; split; [exact Hntg|]; split; [exact Hv|]; intros root h2 a1 Em;
     specialize (Hup root h2 a1 Em)).
  - destruct Hup as (h' & Eup & Dp). exists h'. split; [exact Eup|].
    destruct Hc as [(_ & _ & EB & _)|(Hi & _)]; [destruct (NoStop EB)|]. rewrite Hi. exact (hdel_kept h tid a n F idx tb Fb to Fo Hn KK h' c' Hi Dp).
  - destruct Hup as (h' & node' & Eup & Dp).
    destruct (hdel_step h tid a n F idx tb Fb to Fo Hn KK h' node' c' Dp root ps)
      as (h'' & parent & Estep & Pa & Dp'').
    cbn zeta in Estep, Pa, Dp''. rewrite Eup, Estep.
    destruct ((h_id n =? tid) && h_imag n && negb (is_nil (if idx then to else compress c')) &&
              negb (is_nil (if idx then compress c' else to)))%bool.
    + exists h''. split; [reflexivity|]. rewrite <- (Pa eq_refl). exact Dp''.
    + exists h'', parent. split; [reflexivity|exact Dp''].
Qed.

Theorem hdel_spec tid kd kpl h root t F : trep h tid root t F ->
  match del tid kd kpl 0 t with
  | None => hdel tid kd kpl h root = None
  | Some (t', v, stopped) =>
    exists h' r', hdel tid kd kpl h root = Some (h', r', v) /\
                  tpost h tid F h' r' (if stopped then t' else compress t')
  end.
Proof.
  intros T. rewrite hdel_unfold.
  assert (Hh : (height t <= length h)%nat) by (eapply rep_height, trep_rep; eauto).
  pose proof (hdel_main h tid kd kpl (length h) t root F 0 [] T Hh) as M.
  destruct (del tid kd kpl 0 t) as [[[t' v] st]|]; [|rewrite M; reflexivity].
  destruct M as (tgt & ps' & ntg & Ef & Hntg & Hv & Hup). rewrite Ef.
  destruct (hmark h tid tgt) as [h2 a1] eqn:Em. specialize (Hup root h2 a1 eq_refl).
  rewrite (hget_some Hntg), Hv. destruct st.
  - destruct Hup as (h' & Eup & Dp). rewrite Eup. exists h', root. auto.
  - destruct Hup as (h' & node' & Eup & (F' & T' & SubF & Fr)). rewrite Eup. cbn [hdel_up].
    destruct (hcompress_spec T') as (Fd & Td & SubD).
    exists h', (hcompress h' node'). split; [reflexivity|]. exists Fd.
    split; [exact Td|]. split; [intros x Hx; exact (SubF _ (SubD _ Hx))|exact Fr].
Qed.
End Del.
