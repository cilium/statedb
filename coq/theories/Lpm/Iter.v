(* Lpm/Iter.v — the iterator stack machine yields the pre-order entries; Prefix(q) yields
   exactly the stored prefixes covered by q. *)
From SV Require Import Base.Bytes Lpm.Model Lpm.Bits Lpm.Inv.
From Coq Require Import ZArith ZifyN ZifyNat ZifyBool.
Open Scope N_scope.

Definition stack_nodes (st : iterator) : nat := fold_right (fun n a => (nodes n + a)%nat) 0%nat st.
Definition no_nil (st : iterator) : Prop := Forall (fun n => n <> Nil) st.

(* pushing a child that is not nil, as Iterator.Next and LowerBound do *)
Definition push (n : node) (st : iterator) : iterator := if is_nil n then st else n :: st.
Lemma push_spec n st : no_nil st ->
  flat_map entries (push n st) = entries n ++ flat_map entries st /\
  stack_nodes (push n st) = (nodes n + stack_nodes st)%nat /\ no_nil (push n st).
Proof. intros NS. destruct n; simpl; repeat split; auto. constructor; [discriminate|exact NS]. Qed.

Lemma it_all_spec fuel : forall st, no_nil st -> (stack_nodes st < fuel)%nat ->
  it_all fuel st = flat_map entries st.
Proof.
  induction fuel as [|f IH]; intros st NF H; [lia|].
  destruct st as [|[|k v i t c0 c1] st']; cbn [it_all it_pop]; [reflexivity|inversion NF; congruence|].
  inversion NF as [|? ? _ NF']; subst.
  destruct (push_spec c1 st' NF') as (E1 & M1 & N1). destruct (push_spec c0 _ N1) as (E0 & M0 & N0).
  change (S (nodes c0 + nodes c1) + stack_nodes st' < S f)%nat in H.
  cbn [flat_map entries]. rewrite <- !app_assoc, <- E1, <- E0.
  assert (Hf : (stack_nodes (push c0 (push c1 st')) < f)%nat) by lia.
  destruct i; cbn [app]; [|f_equal]; exact (IH _ N0 Hf).
Qed.

Lemma it_entries_spec st : no_nil st -> it_entries st = flat_map entries st.
Proof. intros NF. unfold it_entries. apply it_all_spec; auto. Qed.

Fixpoint bpre (a b : list bool) : bool :=
  match a, b with
  | [], _ => true
  | x :: a', y :: b' => Bool.eqb x y && bpre a' b'
  | _ :: _, [] => false
  end.
Lemma bpre_spec a : forall b, bpre a b = true <-> is_pre a b.
Proof.
  induction a as [|x a IH]; intros b; simpl; [split; auto using is_pre_nil|].
  destruct b as [|y b]; [split; [discriminate|intros [r H]; discriminate]|].
  rewrite andb_true_iff, eqb_true_iff, IH. split.
  - intros [-> [r ->]]. now exists r.
  - intros [r H]. injection H as -> ->. split; auto. now exists r.
Qed.
Definition covered_by (q : lkey) (e : lkey * N) : bool := bpre (bits q) (bits (fst e)).

Lemma filter_all {A} (f : A -> bool) l : (forall x, In x l -> f x = true) -> filter f l = l.
Proof. induction l as [|x l IH]; intros H; simpl; auto. rewrite H, IH; simpl; auto. intros; apply H; simpl; auto. Qed.
Lemma filter_none {A} (f : A -> bool) l : (forall x, In x l -> f x = false) -> filter f l = [].
Proof. induction l as [|x l IH]; intros H; simpl; auto. rewrite H, IH; simpl; auto. intros; apply H; simpl; auto. Qed.

(* the iterator r yields the entries of n that pass f, then those of stack *)
Definition yields (f : lkey * N -> bool) (n : node) (stack r : iterator) : Prop :=
  no_nil r /\ flat_map entries r = filter f (entries n) ++ flat_map entries stack.

Lemma yields_all f n stack : n <> Nil -> no_nil stack -> filter f (entries n) = entries n ->
  yields f n stack (n :: stack).
Proof. intros Hn NS E. split; [constructor; assumption|]. cbn [flat_map]. now rewrite E. Qed.
Lemma yields_none f n stack : no_nil stack -> filter f (entries n) = [] -> yields f n stack stack.
Proof. intros NS E. split; [exact NS|]. now rewrite E. Qed.

Section YieldsBelow.
(* below a node whose own entry does not pass: all that passes comes from one child, or
   from child 0 and then all of child 1, pushed before the descent *)
Variables (f : lkey * N -> bool) (k : lkey) (v : N) (i : bool) (t : N) (c0 c1 : node) (stack r : iterator).
Hypothesis Es : filter f (if i then [] else [(k, v)]) = [].
Lemma yields_c1 : filter f (entries c0) = [] -> yields f c1 stack r -> yields f (Node k v i t c0 c1) stack r.
Proof using Es. intros E0 [N E]. split; [exact N|]. cbn [entries]. now rewrite !filter_app, Es, E0. Qed.
Lemma yields_c0 : filter f (entries c1) = [] -> yields f c0 stack r -> yields f (Node k v i t c0 c1) stack r.
Proof using Es. intros E1 [N E]. split; [exact N|]. cbn [entries]. now rewrite !filter_app, Es, E1, app_nil_r. Qed.
Lemma yields_c0_push : filter f (entries c1) = entries c1 -> no_nil stack ->
  yields f c0 (push c1 stack) r -> yields f (Node k v i t c0 c1) stack r.
Proof using Es.
  intros E1 NS [N E]. split; [exact N|]. destruct (push_spec c1 stack NS) as (P & _).
  cbn [entries]. rewrite !filter_app, Es, E1, E, P. cbn [app]. now rewrite app_assoc.
Qed.
End YieldsBelow.

Lemma covered_none q a n : inv a n -> (forall z, is_pre a z -> is_pre (bits q) z -> False) ->
  filter (covered_by q) (entries n) = [].
Proof.
  intros I H. apply filter_none. intros [k w] Hin. destruct (covered_by q (k, w)) eqn:E; [|reflexivity].
  apply bpre_spec in E. destruct (H (bits k)); [eapply entries_pre; eauto|exact E].
Qed.

Lemma covered_all q a n : inv a n -> is_pre (bits q) a -> filter (covered_by q) (entries n) = entries n.
Proof.
  intros I Ha. apply filter_all. intros [k w] Hin. apply bpre_spec.
  eapply is_pre_trans; [exact Ha|eapply entries_pre; eauto].
Qed.

Lemma prefix_go_spec q : canon q -> forall n p ml0,
  inv p n -> is_pre p (bits q) -> (N.to_nat ml0 <= length p)%nat ->
  yields (covered_by q) n [] (prefix_go true (fst q) (snd q) ml0 n).
Proof.
  intros Cq. apply (along_walk q (fun p ml0 n => yields (covered_by q) n [] (prefix_go true (fst q) (snd q) ml0 n)) Cq);
    cbn [prefix_go].
  - intros. apply yields_none; [constructor|reflexivity].
  - intros p ml0 nk nv ni nt c0 c1 I _ W IH. pose proof (inv_self I) as IK.
    destruct W as [->|Hb|Hb|c b Pc HK HQ Hb]; cbn [orb andb].
    + apply yields_all; [discriminate|constructor|]. exact (covered_all q _ _ IK (is_pre_refl _)).
    + apply yields_all; [discriminate|constructor|].
      exact (covered_all q _ _ IK (is_pre_trans _ _ _ (is_pre_app _ _) Hb)).
    + (* below: only the child that q's next bit names holds covered keys *)
      set (b := getBitAt (fst q) (kplen nk)) in *.
      assert (Hs : filter (covered_by q) (if ni then [] else [(nk, nv)]) = []).
      { destruct ni; [reflexivity|]. cbn [filter]. destruct (covered_by q (nk, nv)) eqn:E; [|reflexivity].
        apply bpre_spec in E. destruct (snoc_not_pre Hb E). }
      assert (Ho : filter (covered_by q) (entries (child (negb b) c0 c1)) = []).
      { apply (covered_none q (bits nk ++ [negb b])); [exact (inv_child _ I)|].
        intros z H H'. pose proof (snoc_pre_inj H (is_pre_trans _ _ _ Hb H')). now destruct b. }
      specialize (IH _ Hb). destruct b; cbn [child negb] in *; [apply yields_c1|apply yields_c0]; assumption.
    + apply yields_none; [constructor|]. apply (covered_none q (bits nk) _ IK).
      intros z. exact (fork_apart HK HQ).
Qed.

Lemma prefix_exact r q : canon q -> inv [] r ->
  it_entries (prefix r q) = filter (covered_by q) (entries r).
Proof.
  intros Cq I. unfold prefix.
  destruct (prefix_go_spec q Cq r [] 0 I (is_pre_nil _) (Nat.le_refl 0)) as [N E].
  rewrite it_entries_spec, E by exact N. apply app_nil_r.
Qed.
