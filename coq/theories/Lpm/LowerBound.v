(* Lpm/LowerBound.v — LowerBound(q) yields exactly the entries not below q. *)
From SV Require Import Base.Bytes KeyEnc.Model Lpm.Model Lpm.Bits Lpm.Inv Lpm.Iter.
From Coq Require Import ZArith ZifyN ZifyNat ZifyBool.
Open Scope N_scope.

Fixpoint bltb (a b : list bool) : bool :=
  match a, b with
  | [], _ :: _ => true
  | false :: _, true :: _ => true
  | x :: a', y :: b' => Bool.eqb x y && bltb a' b'
  | _, _ => false
  end.
Lemma bltb_spec a : forall b, bltb a b = true <-> blt a b.
Proof.
  induction a as [|x a IH]; intros [|y b]; simpl.
  - split; [discriminate|inversion 1].
  - split; [constructor|reflexivity].
  - destruct x; split; try discriminate; inversion 1.
  - destruct x, y; simpl; rewrite ?IH; split; intros H; try discriminate; try constructor; auto; inversion H; subst; auto.
Qed.

Definition not_below (q : lkey) (e : lkey * N) : bool := negb (bltb (bits (fst e)) (bits q)).

(* the number a big-endian bit string denotes *)
Fixpoint val (l : list bool) : N :=
  match l with [] => 0 | b :: r => (if b then 2 ^ N.of_nat (length r) else 0) + val r end.
Lemma val_bound l : val l < 2 ^ N.of_nat (length l).
Proof.
  induction l as [|b r IH]; [reflexivity|]. cbn [val length]. rewrite Nat2N.inj_succ, N.pow_succ_r'.
  destruct b; lia.
Qed.
Lemma val_lt_blt x : forall y, length x = length y -> val x < val y -> blt x y.
Proof.
  induction x as [|a x IH]; intros [|b y] Hl H; try discriminate; cbn [val] in H.
  injection Hl as Hl. pose proof (val_bound x). pose proof (val_bound y). rewrite Hl in *.
  destruct a, b; [apply blt_tl, IH; auto; lia|lia|constructor|apply blt_tl, IH; auto; lia].
Qed.
Lemma val_byte_bits a : a < 256 -> val (byte_bits a) = a.
Proof.
  assert (T : forallb (fun a => val (byte_bits a) =? a) range256 = true) by (vm_compute; reflexivity).
  intros H. rewrite forallb_forall in T. apply N.eqb_eq, T, in_range256, H.
Qed.
Lemma byte_lt_bits a b : a < 256 -> b < 256 -> a < b -> blt (byte_bits a) (byte_bits b).
Proof. intros Ha Hb H. apply val_lt_blt; [reflexivity|]. now rewrite !val_byte_bits. Qed.

Lemma bytes_ltb_bits a : forall b, is_bytes a -> is_bytes b ->
  (bytes_ltb a b = true <-> blt (bytes_bits a) (bytes_bits b)).
Proof.
  induction a as [|x a IH]; intros [|y b] Ha Hb; cbn [bytes_ltb bytes_bits].
  - split; [discriminate|inversion 1].
  - split; [intros _; unfold byte_bits; simpl; constructor|reflexivity].
  - split; [discriminate|]. unfold byte_bits. simpl. inversion 1.
  - inversion Ha; inversion Hb; subst.
    destruct (N.ltb_spec x y) as [Hlt|Hge].
    + split; [intros _|reflexivity]. apply blt_app_lt; [reflexivity|]. now apply byte_lt_bits.
    + destruct (N.eqb_spec x y) as [->|Hne].
      * rewrite IH by assumption. split; [apply blt_app|apply blt_app_inv].
      * split; [discriminate|]. intros H. exfalso.
        assert (Hgt : y < x) by lia.
        eapply blt_asym; [exact H|]. apply blt_app_lt; [reflexivity|]. now apply byte_lt_bits.
Qed.

(* the byte comparison of LowerBound at a node whose key parts ways with the query:
   bytes.Compare(node.key, data) < 0 iff the query goes on with the 1 bit *)
Lemma cmp_fork q nk c b : canon q -> canon nk ->
  is_pre (c ++ [negb b]) (bits nk) -> is_pre (c ++ [b]) (bits q) -> bytes_ltb (key_bytes nk) (fst q) = b.
Proof.
  intros Cq Cn HK HQ.
  pose proof (bytes_ltb_bits _ _ (key_bytes_bytes nk Cn) (proj1 Cq)) as Hiff.
  (* bits q is a prefix of the bits of q's data bytes, bits nk of those of nk's undecoded key *)
  assert (HQ' : is_pre (c ++ [b]) (bytes_bits (fst q))) by exact (is_pre_trans _ _ _ HQ (is_pre_firstn _ _)).
  assert (HK' : is_pre (c ++ [negb b]) (bytes_bits (key_bytes nk))).
  { unfold key_bytes. rewrite bytes_bits_app.
    exact (is_pre_trans _ _ _ HK (is_pre_trans _ _ _ (is_pre_firstn _ _) (is_pre_app _ _))). }
  destruct b; cbn [negb] in HK'.
  - apply Hiff. exact (blt_fork _ _ _ HK' HQ').
  - destruct (bytes_ltb (key_bytes nk) (fst q)); [|reflexivity].
    destruct (blt_asym _ _ (proj1 Hiff eq_refl) (blt_fork _ _ _ HQ' HK')).
Qed.

Lemma not_below_all q l : (forall k w, In (k, w) l -> ~ blt (bits k) (bits q)) -> filter (not_below q) l = l.
Proof.
  intros H. apply filter_all. intros [k w] Hin. unfold not_below. cbn [fst].
  destruct (bltb (bits k) (bits q)) eqn:E; [|reflexivity]. apply bltb_spec in E. destruct (H _ _ Hin E).
Qed.
Lemma not_below_none q l : (forall k w, In (k, w) l -> blt (bits k) (bits q)) -> filter (not_below q) l = [].
Proof.
  intros H. apply filter_none. intros [k w] Hin. unfold not_below. cbn [fst].
  apply H, bltb_spec in Hin. now rewrite Hin.
Qed.

(* a subtree below a, where a and q part ways after c: all of it is below q if q takes the 1 side,
   none of it if q takes the 0 side; nor is anything that extends q below q *)
Lemma smaller_side q c a n : inv a n -> is_pre (c ++ [false]) a -> is_pre (c ++ [true]) (bits q) ->
  filter (not_below q) (entries n) = [].
Proof.
  intros I Ha Hq. apply not_below_none. intros k w Hin.
  eapply blt_fork; [eapply is_pre_trans; [exact Ha|eapply entries_pre; eauto]|exact Hq].
Qed.
Lemma greater_side q c a n : inv a n -> is_pre (c ++ [true]) a -> is_pre (c ++ [false]) (bits q) ->
  filter (not_below q) (entries n) = entries n.
Proof.
  intros I Ha Hq. apply not_below_all. intros k w Hin. apply blt_asym.
  eapply blt_fork; [exact Hq|eapply is_pre_trans; [exact Ha|eapply entries_pre; eauto]].
Qed.
Lemma extension_not_smaller q a n : inv a n -> is_pre (bits q) a -> filter (not_below q) (entries n) = entries n.
Proof.
  intros I Ha. apply not_below_all. intros k w Hin. apply pre_not_below.
  eapply is_pre_trans; [exact Ha|eapply entries_pre; eauto].
Qed.

Lemma lowerBound_go_spec q : canon q -> forall n p ml0,
  inv p n -> is_pre p (bits q) -> (N.to_nat ml0 <= length p)%nat -> forall stack, no_nil stack ->
  yields (not_below q) n stack (lowerBound_go (fst q) (snd q) ml0 stack n).
Proof.
  intros Cq. apply (along_walk q (fun p ml0 n => forall stack, no_nil stack ->
    yields (not_below q) n stack (lowerBound_go (fst q) (snd q) ml0 stack n)) Cq); cbn [lowerBound_go].
  - intros. now apply yields_none.
  - intros p ml0 nk nv ni nt c0 c1 I _ W IH stack NS. pose proof I as (Ck & _ & _ & I0 & I1).
    pose proof (inv_self I) as IK.
    destruct W as [->|Hb|Hb|c b Pc HK HQ Hb].
    + apply yields_all; [discriminate|exact NS|]. exact (extension_not_smaller q _ _ IK (is_pre_refl _)).
    + apply yields_all; [discriminate|exact NS|].
      exact (extension_not_smaller q _ _ IK (is_pre_trans _ _ _ (is_pre_app _ _) Hb)).
    + (* the node's own key is a proper prefix of q, hence below q *)
      assert (Hs : filter (not_below q) (if ni then [] else [(nk, nv)]) = []).
      { apply not_below_none. intros k w Hin. destruct ni; [destruct Hin|]. destruct Hin as [[= <- _]|[]].
        apply blt_pre; [eapply is_pre_trans; [apply is_pre_app|exact Hb]|].
        apply is_pre_len in Hb. rewrite app_length in Hb. simpl in Hb. lia. }
      specialize (IH _ Hb). destruct (getBitAt (fst q) (kplen nk)); cbn [child] in IH.
      * apply yields_c1; [exact Hs|exact (smaller_side q _ _ _ I0 (is_pre_refl _) Hb)|now apply IH].
      * apply yields_c0_push; [exact Hs|exact (greater_side q _ _ _ I1 (is_pre_refl _) Hb)|exact NS|].
        apply IH. now apply push_spec.
    + rewrite (cmp_fork q nk c b Cq Ck HK HQ). destruct b; cbn [negb] in HK.
      * apply yields_none; [exact NS|exact (smaller_side q _ _ _ IK HK HQ)].
      * apply yields_all; [discriminate|exact NS|exact (greater_side q _ _ _ IK HK HQ)].
Qed.
