(* Lpm/HeapIns.v — Txn.Insert on the heap (Lpm/Heap.v hins) refines Lpm/Model.v ins, writes in place
   only cells of the transaction's footprint (and the fresh newNode), otherwise appends. *)
From SV Require Import Base.Bytes Lpm.Model Lpm.Cow Lpm.Heap Lpm.HeapBase Lpm.HeapIds.
From Coq Require Import ZArith List Bool Lia ZifyN ZifyNat ZifyBool.
Import ListNotations.
Open Scope N_scope.

(* what Txn.clone does to the tree a pointer denotes *)
Definition restamp (tid : N) (t : node) : node :=
  match t with Nil => Nil | Node k v i _ c0 c1 => Node k v i tid c0 c1 end.
Lemma set_id_same n : set_id n (h_id n) = n.
Proof. destruct n; reflexivity. Qed.

Lemma ins_fork_eq (b : bool) k v i tid x y :
  (if b then (Node k v i tid x y, true) else (Node k v i tid y x, true)) =
  (Node k v i tid (if b then x else y) (if b then y else x), true).
Proof. destruct b; reflexivity. Qed.

Lemma ins_descend_eq tid kd kpl v m nk nv ni (b : bool) c0 c1 :
  (if b then let (c, inc) := ins tid kd kpl v m c1 in (Node nk nv ni tid c0 c, inc)
   else let (c, inc) := ins tid kd kpl v m c0 in (Node nk nv ni tid c c1, inc)) =
  (Node nk nv ni tid (if b then child (negb b) c0 c1 else fst (ins tid kd kpl v m (child b c0 c1)))
                     (if b then fst (ins tid kd kpl v m (child b c0 c1)) else child (negb b) c0 c1),
   snd (ins tid kd kpl v m (child b c0 c1))).
Proof. destruct b; cbn [child negb]; destruct (ins tid kd kpl v m _); reflexivity. Qed.

Lemma hclone_a_spec {h tid a n} : nth_error h a = Some n -> forall {h1 a1}, hclone_a h tid a = (h1, a1) ->
  nth_error h1 a1 = Some (set_id n tid) /\ tframe tid [] h h1 /\
  ((h_id n = tid /\ h1 = h /\ a1 = a) \/ (h_id n <> tid /\ h1 = h ++ [set_id n tid] /\ a1 = length h)).
Proof.
  intros Hn h1 a1 E. unfold hclone_a in E. rewrite (hget_some Hn) in E.
  destruct (h_id n =? tid) eqn:Ei; injection E as <- <-.
  - apply N.eqb_eq in Ei as Hi. split; [now rewrite <- Hi, set_id_same|]. split; [apply tframe_refl|auto].
  - split; [apply nth_error_app_new|]. split; [now apply tframe_app|]. right. repeat split. now apply N.eqb_neq.
Qed.

Section Ins.
Context {P : nat -> Prop}.
Local Notation trep := (@trep P).
Local Notation tpost := (@tpost P).
Local Notation kids := (@kids P).

Lemma hclone_spec {h tid p t F} : trep h tid p t F -> forall {h1 c}, hclone h tid p = (h1, c) ->
  tpost h tid F h1 c (restamp tid t).
Proof.
  intros T h1 c E. destruct p as [a|]; cbn [hclone] in E.
  2:{ injection E as <- <-. inversion T; subst. now apply tpost_refl. }
  destruct (hclone_a h tid a) as [h1' a1] eqn:Ec. injection E as <- <-.
  destruct (trep_inv T) as (n & c0 & c1 & Hn & -> & K).
  destruct (K false) as (F0 & F1 & T0 & T1 & _ & _ & _ & Hc). cbn [get_c child negb restamp] in *.
  destruct (hclone_a_spec Hn Ec) as (Hn1 & Fr & [(Hi & -> & ->)|(Hi & -> & ->)]).
  - rewrite Hi in T. now apply tpost_refl.
  - destruct Hc as [(_ & -> & -> & ->)|(Hi' & _)]; [|congruence].
    assert (Ap : forall p t, trep h tid p t [] -> trep (h ++ [set_id n tid]) tid p t []).
    { intros p t Tp. apply trep_app; [exact Tp|]. intros m [<-|[]]. reflexivity. }
    exists [length h]. split; [|split; [intros x [<-|[]]; auto|eapply tframe_weaken; [exact Fr|intros x []]]].
    apply (tr_own _ _ _ (set_id n tid) c0 c1 [] [] Hn1); [reflexivity|apply Ap, T0|apply Ap, T1|intros []|intros x []].
Qed.

(* the slot holds [node]; a child slot belongs to an owned cell outside W *)
Definition slot_ok (h : heap) (tid : N) (root : option nat) (s : slot) (node : option nat) (W : list nat) : Prop :=
  match s with
  | SRoot => root = node
  | SChild ap b => ~ In ap W /\ exists np, nth_error h ap = Some np /\ h_id np = tid /\ get_c np b = node
  end.
(* the slot holds p' and nothing else of its cell has changed *)
Definition slot_post (tid : N) (h h' : heap) (root r' : option nat) (s : slot) (p' : option nat) (W : list nat) : Prop :=
  match s with
  | SRoot => r' = p' /\ tframe tid W h h'
  | SChild ap b => r' = root /\ tframe tid (ap :: W) h h' /\
                   exists np, nth_error h ap = Some np /\ nth_error h' ap = Some (set_c np b p')
  end.
(* what the loop, started in h with slot s on a subtree whose footprint and newNode lie in W,
   leaves behind: the slot holds a pointer representing res *)
Definition slot_result (h : heap) (tid : N) (root : option nat) (s : slot) (W : list nat)
    (h' : heap) (r' : option nat) (res : node) : Prop :=
  exists p' F', trep h' tid p' res F' /\ within h W F' /\ slot_post tid h h' root r' s p' W.

Lemma wslot_spec h hx tid root s node W p' t' : tpost h tid W hx p' t' -> slot_ok h tid root s node W ->
  forall h' r', wslot hx root s p' = (h', r') -> slot_result h tid root s W h' r' t'.
Proof.
  intros (F' & T & Sub & Fr) S h' r' E. exists p', F'. destruct s as [|ap b]; cbn [wslot] in E; injection E as <- <-.
  { cbn [slot_post]. auto. }
  destruct S as (NW & np & Hp & Hi & _). pose proof (nth_error_lt Hp) as Lp.
  assert (Hx : nth_error hx ap = Some np) by (eapply tframe_out; eauto).
  rewrite (hget_some Hx).
  assert (Fu : tframe tid [ap] hx (upd hx ap (set_c np b p'))).
  { eapply tframe_upd; eauto. rewrite h_id_set_c. exact Hi. }
  split; [|split; [exact Sub|]].
  - eapply trep_tframe; [exact T|exact Fu|]. intros x [<-|[]]. exact (within_old Sub Lp NW).
  - cbn [slot_post]. split; [reflexivity|]. split.
    + eapply tframe_trans; [exact Fr|exact Fu|apply incl_tl, incl_refl|intros x [<-|[]]; left; now left].
    + exists np. split; [exact Hp|]. apply nth_error_upd_eq. eapply nth_error_lt; eauto.
Qed.

Section Loop.
Variables (tid : N) (kd : bytes) (kpl v : N) (nn : nat).
Local Notation leaf := (mkH (kd, kpl) v false tid None None).
Local Notation lf := (Node (kd, kpl) v false tid Nil Nil).

(* The loop has stopped at the owned cell n at address a (subtree old, children c0 c1), newNode is
   allocated at nn: the three subtrees Insert may put into the slot. *)
Section Fin.
Variables (h : heap) (a : nat) (n : hnode) (c0 c1 : node) (F0 F1 F : list nat).
Local Notation old := (Node (h_key n) (h_val n) (h_imag n) tid c0 c1).
Hypotheses (T : trep h tid (Some a) old F) (KK : kids h tid a n F false c0 F0 c1 F1)
  (Hnn : nth_error h nn = Some leaf) (Nn : ~ In nn F).

(* writing newNode disturbs nothing that does not contain it *)
Lemma newnode_upd nw p t G : h_id nw = tid -> trep h tid p t G -> ~ In nn G -> trep (upd h nn nw) tid p t G.
Proof. intros Hw Tp NG. exact (trep_upd _ _ _ _ _ _ _ nw Tp Hnn eq_refl Hw NG). Qed.
Lemma newnode_frame nw : h_id nw = tid -> tframe tid (nn :: F) h (upd h nn nw).
Proof.
  intros Hw. eapply tframe_weaken; [exact (tframe_upd _ _ _ _ nw Hnn eq_refl Hw)|]. intros x [<-|[]]. left. now left.
Qed.

(* same key: newNode takes the children and the node's place *)
Lemma ins_replace : tpost h tid (nn :: F) (upd h nn (mkH (kd, kpl) v false tid (h_c0 n) (h_c1 n))) (Some nn)
  (Node (kd, kpl) v false tid c0 c1).
Proof.
  pose proof (kids_sub KK) as Sub. destruct KK as (T0 & T1 & Dj & _). cbn [get_c negb] in T0, T1.
  assert (NnF : forall x, In x F0 \/ In x F1 -> x <> nn) by (intros x Hx ->; exact (Nn (Sub _ Hx))).
  exists (nn :: F0 ++ F1). split; [|split; [|now apply newnode_frame]].
  - apply (tr_own _ _ nn (mkH (kd, kpl) v false tid (h_c0 n) (h_c1 n)) c0 c1 F0 F1);
      [apply nth_error_upd_eq; eapply nth_error_lt; eauto|reflexivity| | | |exact Dj].
    + apply newnode_upd; [reflexivity|exact T0|]. intros Hx. exact (NnF _ (or_introl Hx) eq_refl).
    + apply newnode_upd; [reflexivity|exact T1|]. intros Hx. exact (NnF _ (or_intror Hx) eq_refl).
    + intros Hx. exact (NnF _ (in_app_or _ _ _ Hx) eq_refl).
  - intros x [<-|Hx]; left; [now left|]. right. apply Sub. now apply in_app_or.
Qed.

(* the key is a proper prefix of the node's: newNode becomes its parent, on the side idx *)
Lemma ins_parent idx : tpost h tid (nn :: F) (upd h nn (set_c leaf idx (Some a))) (Some nn)
  (Node (kd, kpl) v false tid (if idx then Nil else old) (if idx then old else Nil)).
Proof.
  set (nw := set_c leaf idx (Some a)). assert (Hw : h_id nw = tid) by apply h_id_set_c.
  destruct (trep_rebuild (P := P) (upd h nn nw) tid nn leaf idx (Some a) old F Nil []) as (F' & T' & HF');
    [apply nth_error_upd_eq; eapply nth_error_lt; eauto|reflexivity|exact (newnode_upd nw _ _ _ Hw T Nn)
    |destruct idx; constructor|exact Nn|intros []|intros x _ []|].
  exists F'. split; [exact T'|]. split; [|exact (newnode_frame nw Hw)].
  intros x Hx. left. apply HF' in Hx as [->|[Hx|[]]]; [now left|now right].
Qed.

(* the keys diverge: an imaginary node with key ik is appended; it points to newNode on the side bit *)
Lemma ins_fork ik bit :
  tpost h tid (nn :: F) (h ++ [set_c (set_c (mkH ik 0 true tid None None) bit (Some nn)) (negb bit) (Some a)])
    (Some (length h)) (Node ik 0 true tid (if bit then old else lf) (if bit then lf else old)).
Proof.
  set (n1 := set_c (mkH ik 0 true tid None None) bit (Some nn)). set (im := set_c n1 (negb bit) (Some a)).
  pose proof (nth_error_lt Hnn) as Lnn.
  assert (Hw : h_id im = tid) by (unfold im, n1; now rewrite !h_id_set_c).
  assert (Ap : forall p t G, trep h tid p t G -> trep (h ++ [im]) tid p t G).
  { intros p t G Tp. apply trep_app; [exact Tp|]. intros x [<-|[]]. exact Hw. }
  destruct (trep_rebuild (P := P) (h ++ [im]) tid (length h) n1 (negb bit) (Some a) old F lf [nn]) as (F' & T' & HF').
  - apply nth_error_app_new.
  - apply h_id_set_c.
  - exact (Ap _ _ _ T).
  - rewrite negb_involutive. unfold n1. rewrite get_set_c_same. now apply Ap, trep_leaf.
  - intros Hx. apply (trep_F_lt T), Nat.lt_irrefl in Hx. exact Hx.
  - intros [Hx|[]]. clear - Hx Lnn. lia.
  - intros x Hx [<-|[]]. exact (Nn Hx).
  - exists F'. split; [unfold n1 in T'; destruct bit; exact T'|]. split.
    + intros x Hx. apply HF' in Hx as [->|[Hx|[<-|[]]]]; [right; apply le_n|left; now right|left; now left].
    + eapply tframe_weaken; [exact (tframe_app tid [] h im Hw)|intros x []].
Qed.

(* the code after the loop (node != nil) *)
Lemma hins_fin_spec root s ml0 nt : nth_error h a = Some n ->
  slot_ok h tid root s (Some a) (nn :: F) ->
  let m := longestMatch ml0 (h_key n) kd kpl in
  (m =? kpl) || negb (m =? kplen (h_key n)) = true ->
  forall h' r' inc, hins_fin tid kd kpl nn h root s a m = (h', r', inc) ->
  let res := ins tid kd kpl v ml0 (Node (h_key n) (h_val n) (h_imag n) nt c0 c1) in
  inc = snd res /\ slot_result h tid root s (nn :: F) h' r' (fst res).
Proof.
  intros Hn S m Hb h' r' inc E res. subst res. cbn [ins]. fold m. rewrite Hb.
  unfold hins_fin in E. rewrite (hget_some Hn), (hget_some Hnn) in E. cbn [h_key h_val h_imag h_id] in E.
  destruct (m =? kpl); [destruct (m =? kplen (h_key n))|]; try rewrite ins_fork_eq;
    destruct (wslot _ root s _) as [h2 r2] eqn:Ew;
    injection E as <- <- <-; (split; [reflexivity|]); cbn [fst]; (eapply wslot_spec; [|exact S|exact Ew]).
  - exact ins_replace.
  - apply ins_parent.
  - apply ins_fork.
Qed.
End Fin.

Lemma hins_loop_nil f h root s ml : nth_error h nn = Some leaf -> slot_ok h tid root s None [nn] ->
  forall h' r' inc, hins_loop f tid kd kpl nn h root s None ml = (h', r', inc) ->
  inc = true /\ slot_result h tid root s [nn] h' r' lf.
Proof.
  intros Hnn S h' r' inc E.
  assert (E' : (let (h2, r) := wslot h root s (Some nn) in (h2, r, true)) = (h', r', inc)) by (destruct f; exact E).
  destruct (wslot h root s (Some nn)) as [h2 r2] eqn:Ew. injection E' as <- <- <-. split; [reflexivity|].
  eapply wslot_spec; [apply tpost_refl, trep_leaf, Hnn|exact S|exact Ew].
Qed.

(* One round of the loop at the owned cell n at address a, going to its child b. *)
Section Round.
Variables (h : heap) (a : nat) (n : hnode) (F : list nat) (b : bool) (tb : node) (Fb : list nat) (to : node) (Fo : list nat).
Hypotheses (Hn : nth_error h a = Some n) (Hi : h_id n = tid) (KK : kids h tid a n F b tb Fb to Fo).

(* child := txn.clone(node.children[b]); node.children[b] = child *)
Lemma hins_down h1 c : hclone h tid (get_c n b) = (h1, c) ->
  let h2 := upd h1 a (set_c (hget h1 a) b c) in
  exists Fc, trep h2 tid c (restamp tid tb) Fc /\ within h Fb Fc /\ tframe tid (a :: Fb) h h2 /\
    nth_error h2 a = Some (set_c n b c).
Proof.
  intros Ec. destruct KK as (Tb & _ & _ & NaB & _). pose proof (nth_error_lt Hn) as La.
  destruct (hclone_spec Tb Ec) as (Fc & Tc & SubC & Fr1).
  assert (Hn1 : nth_error h1 a = Some n) by (eapply tframe_out; eauto).
  rewrite (hget_some Hn1). cbn zeta. exists Fc.
  assert (Fr2 : tframe tid [a] h1 (upd h1 a (set_c n b c))) by (eapply tframe_upd; eauto; now rewrite h_id_set_c).
  split; [|split; [exact SubC|split]].
  - eapply trep_upd; eauto; [now rewrite h_id_set_c|exact (within_old SubC La NaB)].
  - eapply tframe_trans; [exact Fr1|exact Fr2|apply incl_tl, incl_refl|intros x [<-|[]]; left; now left].
  - apply nth_error_upd_eq. eapply nth_error_lt; eauto.
Qed.

(* the rest of the loop, run from h2 on the slot &node.children[b], seen from h and the slot that holds node *)
Lemma hins_up root s h2 c Fc h' r' res : ~ In nn F ->
  slot_ok h tid root s (Some a) (nn :: F) ->
  within h Fb Fc -> tframe tid (a :: Fb) h h2 -> nth_error h2 a = Some (set_c n b c) ->
  slot_result h2 tid root (SChild a b) (nn :: Fc) h' r' res ->
  slot_result h tid root s (nn :: F) h' r' (Node (h_key n) (h_val n) (h_imag n) tid (if b then to else res) (if b then res else to)).
Proof.
  intros Nn S SubC Fr2 Hn2 (p' & F' & T' & SubF & -> & Fr3 & np & Hnp & Hnp').
  rewrite Hn2 in Hnp. injection Hnp as <-. rewrite set_c_set_c in Hnp'.
  pose proof (kids_sub KK) as SubK. pose proof (kids_self KK Hi) as Ia. destruct KK as (_ & To & Dj & NaB & NaO & _).
  pose proof (nth_error_lt Hn) as La. pose proof (tframe_length Fr2) as L2.
  assert (Ann : a <> nn) by (intros ->; exact (Nn Ia)).
  (* seen from h: written are newNode, this cell and cells below child b *)
  set (W := nn :: a :: Fb).
  assert (WC : within h W (nn :: Fc)).
  { intros x [<-|Hx]; [left; now left|]. destruct (SubC _ Hx); [left; now do 2 right|now right]. }
  assert (Fr : tframe tid W h h').
  { eapply tframe_trans; [exact Fr2|exact Fr3|apply incl_tl, incl_refl|].
    intros x [<-|Hx]; [left; right; now left|exact (WC x Hx)]. }
  destruct (trep_node_after h tid W h' a n b p' res F' to Fo Fr To) as (F'' & T'' & HF''); auto.
  { intros x [<-|[<-|Hx]] Ho; [apply Nn, SubK; auto|auto|exact (Dj x Hx Ho)]. }
  { exact (within_trans WC SubF L2). }
  { apply (within_old SubF); [clear - La L2; lia|intros [Hx|Hx]; [auto|]]. exact (within_old SubC La NaB Hx). }
  assert (Sub : incl W (nn :: F)).
  { intros x [<-|[<-|Hx]]; [now left|now right|right; apply SubK; auto]. }
  exists (Some a), F''. split; [exact T''|]. split.
  { intros x Hx. apply HF'' in Hx as [->|[Hx|Hx]]; [left; now right| |left; right; apply SubK; auto].
    destruct (within_trans WC SubF L2 _ Hx) as [Hy|Hy]; [left; exact (Sub _ Hy)|now right]. }
  destruct s as [|ap bs]; cbn [slot_post slot_ok] in *.
  - split; [exact S|]. eapply tframe_weaken; [exact Fr|exact (within_incl _ _ _ Sub)].
  - destruct S as (NW & np & Hp & Hip & Hg). split; [reflexivity|]. split.
    + eapply tframe_weaken; [exact Fr|]. apply within_incl. intros x Hx. right. exact (Sub _ Hx).
    + exists np. split; [exact Hp|]. rewrite <- Hg, set_c_get.
      eapply tframe_out; [exact Fr|exact Hp|]. left. intros Hx. apply NW, Sub, Hx.
Qed.
End Round.

Lemma hins_loop_spec : forall fuel h root s node ml t F,
  trep h tid node (restamp tid t) F -> (height t <= fuel)%nat ->
  nth_error h nn = Some leaf -> ~ In nn F -> slot_ok h tid root s node (nn :: F) ->
  forall h' r' inc, hins_loop fuel tid kd kpl nn h root s node ml = (h', r', inc) ->
  inc = snd (ins tid kd kpl v ml t) /\ slot_result h tid root s (nn :: F) h' r' (fst (ins tid kd kpl v ml t)).
Proof.
  induction fuel as [|f IH]; intros h root s node ml t F T Hh Hnn Nn S h' r' inc E;
    (destruct t as [|nk nv ni nt c0' c1']; [inversion T; subst; eapply hins_loop_nil; eauto|]).
  { destruct (Nat.nle_succ_0 _ Hh). }
  destruct node as [a|]; [|inversion T].
  destruct (trep_inv T) as (n & c0 & c1 & Hn & Et & K). cbn [restamp] in Et.
  injection Et as -> -> -> Hi -> ->. symmetry in Hi.
  cbn [hins_loop] in E. rewrite (hget_some Hn) in E.
  set (m := longestMatch ml (h_key n) kd kpl) in *.
  destruct ((m =? kpl) || negb (m =? kplen (h_key n)))%bool eqn:Hb.
  { destruct (K false) as (F0 & F1 & KK). eapply hins_fin_spec; eauto. }
  cbn [ins]. fold m. rewrite Hb, ins_descend_eq. cbn [fst snd]. clear Hb.
  set (b := getBitAt kd (kplen (h_key n))) in *.
  destruct (K b) as (Fb & Fo & KK). pose proof KK as (Tb & _ & _ & NaB & _).
  pose proof (kids_sub KK) as SubK. pose proof (nth_error_lt Hn) as La. pose proof (nth_error_lt Hnn) as Lnn.
  destruct (hclone h tid (get_c n b)) as [h1 c] eqn:Ec.
  destruct (hins_down h a n F b _ Fb _ Fo Hn Hi KK h1 c Ec) as (Fc & Tc & SubC & Fr2 & Hn2).
  set (h2 := upd h1 a (set_c (hget h1 a) b c)) in *.
  assert (NnB : ~ In nn Fb) by (intros Hx; apply Nn, SubK; auto).
  assert (Ann : nn <> a) by (intros ->; exact (Nn (kids_self KK Hi))).
  destruct (IH h2 root (SChild a b) c m (child b c0 c1) Fc Tc) with (h' := h') (r' := r') (inc := inc) as (Ei & Post).
  - pose proof (height_child b (h_key n) (h_val n) (h_imag n) nt c0 c1). clear - H Hh. lia.
  - eapply tframe_out; [exact Fr2|exact Hnn|]. left. intros [Hx|Hx]; auto.
  - exact (within_old SubC Lnn NnB).
  - cbn [slot_ok]. split; [intros [Hx|Hx]; [auto|exact (within_old SubC La NaB Hx)]|].
    exists (set_c n b c). split; [exact Hn2|]. split; [now rewrite h_id_set_c|apply get_set_c_same].
  - exact E.
  - split; [exact Ei|]. eapply hins_up; eauto.
Qed.
End Loop.

Theorem hins_spec tid kd kpl v h root t F : trep h tid root t F ->
  forall h' r' inc, hins tid kd kpl v h root = (h', r', inc) ->
  inc = snd (ins tid kd kpl v 0 t) /\ tpost h tid F h' r' (fst (ins tid kd kpl v 0 t)).
Proof.
  intros T h' r' inc E. unfold hins in E.
  set (nw := mkH (kd, kpl) v false tid None None) in *.
  set (h0 := h ++ [nw]) in *.
  destruct (hclone h0 tid root) as [h1 r1] eqn:Ec.
  assert (T0 : trep h0 tid root t F) by (apply trep_app; [exact T|intros x [<-|[]]; reflexivity]).
  assert (L0 : length h0 = S (length h)) by (unfold h0; rewrite app_length; simpl; lia).
  destruct (hclone_spec T0 Ec) as (Fc & Tc & SubC & Fr1).
  assert (NF : ~ In (length h) F) by (intros Hx; apply (trep_F_lt T), Nat.lt_irrefl in Hx; exact Hx).
  assert (Hnn : nth_error h1 (length h) = Some nw) by (eapply tframe_out; [exact Fr1|apply nth_error_app_new|auto]).
  assert (Nn : ~ In (length h) Fc) by (apply (within_old SubC); [lia|exact NF]).
  destruct (hins_loop_spec tid kd kpl v (length h) (length h) h1 r1 SRoot r1 0 t Fc Tc)
    with (h' := h') (r' := r') (inc := inc) as (Ei & p' & F' & T' & SubF & -> & Fr2); auto.
  { eapply rep_height, trep_rep; eauto. }
  { reflexivity. }
  split; [exact Ei|]. apply (tpost_trans h tid F h1 (length h :: Fc)).
  - eapply tframe_trans; [exact (tframe_app tid F h nw eq_refl)|exact Fr1|apply incl_refl|apply within_incl, incl_refl].
  - intros x [<-|Hx]; [now right|]. destruct (SubC _ Hx); [auto|right; lia].
  - exists F'. auto.
Qed.
End Ins.
