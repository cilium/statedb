(* Lpm/MapThm.v — transaction-level statements: the invariant and the size are preserved,
   Insert / Delete change the entry list at the one key only. *)
From SV Require Import Base.Bytes Lpm.Model Lpm.Bits Lpm.Inv Lpm.Insert Lpm.Delete Lpm.Order.
From Coq Require Import ZArith ZifyN ZifyNat ZifyBool.
Open Scope N_scope.

(* well-formed root: the invariant from the empty bit string *)
Definition wf_root (r : node) : Prop := inv [] r.
(* size = number of real nodes *)
Definition wf_txn (x : txn) : Prop := wf_root (t_root x) /\ t_size x = N.of_nat (length (entries (t_root x))).
Definition wf_trie (t : trie) : Prop := wf_root (r_root t) /\ r_size t = N.of_nat (length (entries (r_root t))).

Lemma wf_new : wf_trie trie_new.
Proof. split; [exact I|reflexivity]. Qed.
Lemma wf_trie_txn t : wf_trie t -> wf_txn (trie_txn t).
Proof. auto. Qed.
Lemma wf_commit x : wf_txn x -> wf_trie (txn_commit x).
Proof. auto. Qed.
Lemma wf_reuse x t : wf_trie t -> wf_txn (txn_reuse x t).
Proof. auto. Qed.
Lemma wf_clear x : wf_txn (txn_clear x).
Proof. split; [exact I|reflexivity]. Qed.
Lemma wf_freeze x : wf_txn x -> wf_txn (txn_freeze x).
Proof. unfold txn_freeze. destruct (t_root x) eqn:E; auto. unfold wf_txn. simpl. rewrite E. auto. Qed.

Lemma insert_spec x k v : canon k -> wf_txn x ->
  wf_txn (txn_insert x k v) /\
  (forall k' w, In (k', w) (entries (t_root (txn_insert x k v))) <->
                (k' = k /\ w = v) \/ (k' <> k /\ In (k', w) (entries (t_root x)))).
Proof.
  intros Ck [I Sz]. unfold txn_insert.
  destruct (ins_spec (t_id x) k v Ck _ [] 0 I (is_pre_nil _) (Nat.le_refl 0)) as (J1 & _ & w0 & J3).
  destruct (ins (t_id x) (fst k) (snd k) v 0 (t_root x)) as [r inc]. cbn [fst snd] in *.
  split; [split; [exact J1|]|].
  - apply keyslot_length in J3. cbn [t_root t_size]. rewrite Sz. destruct inc; simpl in J3; lia.
  - intros k' w. rewrite (keyslot_in J3).
    + simpl. intuition congruence.
    + destruct inc; simpl; intuition (subst; auto).
Qed.

Lemma delete_spec x k : canon k -> wf_txn x ->
  let '(x', (v, found)) := txn_delete x k in
  wf_txn x' /\ t_id x' = t_id x /\
  (found = true -> In (k, v) (entries (t_root x))) /\
  (found = false -> v = 0 /\ x' = x /\ forall w, ~ In (k, w) (entries (t_root x))) /\
  (forall k' w, In (k', w) (entries (t_root x')) <-> k' <> k /\ In (k', w) (entries (t_root x))).
Proof.
  intros Ck [I Sz]. unfold txn_delete.
  pose proof (del_spec (t_id x) k Ck (t_root x) [] 0 I (is_pre_nil _) (Nat.le_refl 0)) as D.
  destruct (del (t_id x) (fst k) (snd k) 0 (t_root x)) as [[[r v] st]|]; cbn [delete_post] in D.
  - destruct D as (D1 & D2).
    assert (R : inv [] (if st then r else compress r) /\ entries (if st then r else compress r) = entries r).
    { destruct st; [split; [tauto|reflexivity]|apply compress_spec; exact D2]. }
    destruct R as [R1 R2]. cbn [t_root t_size t_id]. rewrite R2.
    pose proof (keyslot_length D1) as L. pose proof (keyslot_in D1) as M. simpl in L, M.
    split; [split; [exact R1|cbn [t_root t_size]; rewrite R2; lia]|]. split; [reflexivity|].
    split; [intros _; destruct D1 as (a & b & -> & _); rewrite in_app_iff; simpl; auto|].
    split; [discriminate|]. intros k' w. rewrite M; [tauto|]. intros e [[<-|[]]|[]]. reflexivity.
  - split; [split; auto|]. split; [reflexivity|]. split; [discriminate|]. split; [auto|].
    intros k' w. split; [|tauto]. intros Hin. split; [|exact Hin]. intros ->. eapply D; eauto.
Qed.
