(* Lpm/Heap.v — heap-level (pointer) model of lpm/trie.go: nodes live at addresses of a heap,
   Txn.clone(n) returns n itself (then WRITTEN IN PLACE) iff n.txnID = txn.txnID, otherwise it
   appends a copy stamped with txn.txnID. Insert / Delete mirror the Go code line by line
   (Go statements are quoted next to the definitions). No proofs here except computed sanity
   examples; the theorems (refinement of Lpm/Model.v, ownership, persistence) are in HeapProofs.v.

   What is modelled in addition to Lpm/Model.v: node identity, allocation (append-only), aliasing
   between tries / iterators / transactions of any lineage that live on the same heap. *)
From SV Require Import Base.Bytes Lpm.Model.
From Coq Require Import ZArith List.
Import ListNotations.
Open Scope N_scope.

(* lpmNode[T]; a pointer is [option nat] (None = nil), an address is an index of the heap *)
Record hnode := mkH {
  h_key : lkey; h_val : N; h_imag : bool; h_id : N; h_c0 : option nat; h_c1 : option nat }.
Definition heap := list hnode.

Definition hdflt : hnode := mkH ([], 0) 0 false 0 None None.
Definition hget (h : heap) (a : nat) : hnode := nth a h hdflt.

(* *addr = n (in-place write) *)
Fixpoint upd (h : heap) (a : nat) (n : hnode) : heap :=
  match h, a with
  | [], _ => []
  | _ :: h', O => n :: h'
  | x :: h', S a' => x :: upd h' a' n
  end.

Definition get_c (n : hnode) (b : bool) : option nat := if b then h_c1 n else h_c0 n.
(* n.children[b] = p *)
Definition set_c (n : hnode) (b : bool) (p : option nat) : hnode :=
  if b then mkH (h_key n) (h_val n) (h_imag n) (h_id n) (h_c0 n) p
  else mkH (h_key n) (h_val n) (h_imag n) (h_id n) p (h_c1 n).
Definition set_id (n : hnode) (t : N) : hnode :=
  mkH (h_key n) (h_val n) (h_imag n) t (h_c0 n) (h_c1 n).

(* ---- denotation into the tree type of Lpm/Model.v ---- *)
Fixpoint denf (f : nat) (h : heap) (p : option nat) : node :=
  match f with
  | O => Nil
  | S f' =>
    match p with
    | None => Nil
    | Some a =>
      match nth_error h a with
      | None => Nil
      | Some n => Node (h_key n) (h_val n) (h_imag n) (h_id n) (denf f' h (h_c0 n)) (denf f' h (h_c1 n))
      end
    end
  end.
(* fuel = number of cells: enough for every acyclic pointer structure (HeapBase.v rep_den) *)
Definition den (h : heap) (p : option nat) : node := denf (length h) h p.

(* the relational denotation: p represents the tree t in h (existence = acyclic, no dangling pointer) *)
Inductive rep (h : heap) : option nat -> node -> Prop :=
| rep_nil : rep h None Nil
| rep_node a n c0 c1 : nth_error h a = Some n -> rep h (h_c0 n) c0 -> rep h (h_c1 n) c1 ->
    rep h (Some a) (Node (h_key n) (h_val n) (h_imag n) (h_id n) c0 c1).

(* addresses reachable from a pointer *)
Inductive reach (h : heap) : option nat -> nat -> Prop :=
| reach_here a : reach h (Some a) a
| reach_child a n b x : nth_error h a = Some n -> reach h (get_c n b) x -> reach h (Some a) x.

(* ---- Txn.clone ----
     if n.txnID == txn.txnID { return n }; n2 := *n; n = &n2; n.txnID = txn.txnID; return n *)
Definition hclone_a (h : heap) (tid : N) (a : nat) : heap * nat :=
  let n := hget h a in
  if h_id n =? tid then (h, a) else (h ++ [set_id n tid], length h).
(*   if n == nil { return nil } *)
Definition hclone (h : heap) (tid : N) (p : option nat) : heap * option nat :=
  match p with
  | None => (h, None)
  | Some a => let (h', a') := hclone_a h tid a in (h', Some a')
  end.

(* nodep: &txn.root or &node.children[b] *)
Inductive slot := SRoot | SChild (a : nat) (b : bool).
(* *nodep = p; returns the heap and txn.root *)
Definition wslot (h : heap) (root : option nat) (s : slot) (p : option nat) : heap * option nat :=
  match s with
  | SRoot => (h, p)
  | SChild a b => (upd h a (set_c (hget h a) b p), root)
  end.

(* ---- Txn.Insert ---- *)
(* the code after the loop when node != nil; nn = address of newNode, a = node, ml = matchLen.
   Returns heap, txn.root, "txn.size++ executed" *)
Definition hins_fin (tid : N) (kd : bytes) (kpl : N) (nn : nat)
    (h : heap) (root : option nat) (s : slot) (a : nat) (ml : N) : heap * option nat * bool :=
  let n := hget h a in
  let npl := kplen (h_key n) in
  if ml =? kpl then
    if ml =? npl then
      (* if node.imaginary { txn.size++ }; newNode.children = node.children; *nodep = newNode *)
      let nw := hget h nn in
      let h1 := upd h nn (mkH (h_key nw) (h_val nw) (h_imag nw) (h_id nw) (h_c0 n) (h_c1 n)) in
      let (h2, r) := wslot h1 root s (Some nn) in (h2, r, h_imag n)
    else
      (* txn.size++; index := getBitAt(node.key, matchLen); newNode.children[index] = node; *nodep = newNode *)
      let idx := getBitAt (key_bytes (h_key n)) ml in
      let h1 := upd h nn (set_c (hget h nn) idx (Some a)) in
      let (h2, r) := wslot h1 root s (Some nn) in (h2, r, true)
  else
    (* txn.size++; imaginary := &lpmNode{key: EncodeLPMKey(node.key, matchLen), imaginary: true, txnID};
       bit := getBitAt(data, matchLen); imaginary.children[bit] = newNode; imaginary.children[bit^1] = node;
       *nodep = imaginary *)
    let bit := getBitAt kd ml in
    let im0 := mkH (encodeKey (key_bytes (h_key n)) ml) 0 true tid None None in
    let im := set_c (set_c im0 bit (Some nn)) (negb bit) (Some a) in
    let ia := length h in
    let h1 := h ++ [im] in
    let (h2, r) := wslot h1 root s (Some ia) in (h2, r, true).

(* the loop `for node != nil { ... }` and what follows it. [fuel] bounds the number of rounds
   (the loop descends one level per round; it is never exhausted on an acyclic structure). *)
Fixpoint hins_loop (fuel : nat) (tid : N) (kd : bytes) (kpl : N) (nn : nat)
    (h : heap) (root : option nat) (s : slot) (node : option nat) (ml : N) : heap * option nat * bool :=
  match node with
  | None =>
    (* if node == nil { *nodep = newNode; txn.size++; return } *)
    let (h', r) := wslot h root s (Some nn) in (h', r, true)
  | Some a =>
    let n := hget h a in
    (* matchLen = longestMatch(matchLen, node, data, prefixLen); nodePrefixLen := node.prefixLen() *)
    let ml' := longestMatch ml (h_key n) kd kpl in
    let npl := kplen (h_key n) in
    (* if matchLen == prefixLen || matchLen != nodePrefixLen { break } *)
    if (ml' =? kpl) || negb (ml' =? npl) then hins_fin tid kd kpl nn h root s a ml'
    else
      match fuel with
      | O => (h, root, false)
      | S f =>
        (* nodep = &node.children[getBitAt(data, nodePrefixLen)]; child := txn.clone(node.children[..]); node.children[..] = child; node = child *)
        let b := getBitAt kd npl in
        let (h1, c) := hclone h tid (get_c n b) in
        let h2 := upd h1 a (set_c (hget h1 a) b c) in
        hins_loop f tid kd kpl nn h2 root (SChild a b) c ml'
      end
  end.

(* Txn.Insert: newNode := &lpmNode{key, value, txnID}; txn.root = txn.clone(txn.root); nodep := &txn.root *)
Definition hins (tid : N) (kd : bytes) (kpl : N) (v : N) (h : heap) (root : option nat) : heap * option nat * bool :=
  let nn := length h in
  let h0 := h ++ [mkH (kd, kpl) v false tid None None] in
  let (h1, r1) := hclone h0 tid root in
  hins_loop (length h) tid kd kpl nn h1 r1 SRoot r1 0.

(* ---- Txn.Delete ---- *)
(* the first loop: find the node, collecting parents (head = last appended). Read-only. *)
Fixpoint hdel_find (fuel : nat) (kd : bytes) (kpl : N) (h : heap) (node : option nat) (ml : N)
    (parents : list (nat * bool)) : option (nat * list (nat * bool)) :=
  match node with
  | None => None                                     (* if node == nil { return } *)
  | Some a =>
    let n := hget h a in
    let ml' := longestMatch ml (h_key n) kd kpl in
    let npl := kplen (h_key n) in
    if (ml' =? kpl) && (ml' =? npl) then
      (if h_imag n then None else Some (a, parents))  (* imaginary: return; else break *)
    else if ml' <? npl then None                      (* mismatching prefix: return *)
    else
      match fuel with
      | O => None
      | S f =>
        (* index = getBitAt(data, matchLen); parents = append(parents, {node, index}); node = node.children[index] *)
        let idx := getBitAt kd ml' in
        hdel_find f kd kpl h (get_c n idx) ml' ((a, idx) :: parents)
      end
  end.

(* the switch on an imaginary node: nil / promote the single child / keep *)
Definition hcompress (h : heap) (a : nat) : option nat :=
  let n := hget h a in
  if h_imag n then
    match h_c0 n, h_c1 n with
    | None, None => None
    | Some c, None => Some c
    | None, Some c => Some c
    | Some _, Some _ => Some a
    end
  else Some a.

Definition is_some {A} (o : option A) : bool := match o with Some _ => true | None => false end.

(* the second loop `for i := len(parents)-1; i >= 0; i--`, then the root compression and
   `txn.root = node`. [node] is never nil at the head of a round. Returns heap and txn.root. *)
Fixpoint hdel_up (tid : N) (h : heap) (root : option nat) (node : nat) (parents : list (nat * bool))
    : heap * option nat :=
  match parents with
  | [] => (h, hcompress h node)
  | (op, idx) :: ps =>
    (* oldParent := parents[i].node; parent := txn.clone(oldParent) *)
    let oldid := h_id (hget h op) in
    let (h1, parent) := hclone_a h tid op in
    (* if node.imaginary { switch ... } ; parent.children[index] = node; node = parent *)
    let c := hcompress h1 node in
    let h2 := upd h1 parent (set_c (hget h1 parent) idx c) in
    let pn := hget h2 parent in
    (* if oldParent.txnID == txn.txnID && parent.imaginary && both children != nil { return value, true } *)
    if (oldid =? tid) && h_imag pn && is_some (h_c0 pn) && is_some (h_c1 pn) then (h2, root)
    else hdel_up tid h2 root parent ps
  end.

(* Txn.Delete. None = not found (nothing written). Otherwise heap, txn.root, value *)
Definition hdel (tid : N) (kd : bytes) (kpl : N) (h : heap) (root : option nat) : option (heap * option nat * N) :=
  match hdel_find (length h) kd kpl h root 0 [] with
  | None => None
  | Some (a, parents) =>
    (* txn.size--; value = node.value; node = txn.clone(node); node.value = zero; node.imaginary = true *)
    let v := h_val (hget h a) in
    let (h1, a1) := hclone_a h tid a in
    let n1 := hget h1 a1 in
    let h2 := upd h1 a1 (mkH (h_key n1) 0 true (h_id n1) (h_c0 n1) (h_c1 n1)) in
    let (h3, r) := hdel_up tid h2 root a1 parents in
    Some (h3, r, v)
  end.

(* ---- Trie / Txn records on the heap ---- *)
Record htrie := mkHTrie { hr_root : option nat; hr_size : N; hr_prev : N }.
(* x_own: the addresses this transaction allocated since its id was last set/bumped *)
Record htxn := mkHTxn { x_root : option nat; x_size : N; x_id : N; x_own : list nat }.

Definition htrie_new : htrie := mkHTrie None 0 0.                                         (* New *)
(* Trie.Txn / Txn.Reuse: txnID := prevTxnID + 1 *)
Definition htrie_txn (t : htrie) : htxn := mkHTxn (hr_root t) (hr_size t) (hr_prev t + 1) [].
Definition htxn_reuse (_ : htxn) (t : htrie) : htxn := htrie_txn t.
Definition htxn_clear (_ : htxn) : htxn := mkHTxn None 0 0 [].                          (* Txn.Clear *)
(* Txn.Commit: the Txn itself is left as it is (no bump) *)
Definition htxn_commit (x : htxn) : htrie := mkHTrie (x_root x) (x_size x) (x_id x).

(* the cells appended between two heaps *)
Definition fresh (h h' : heap) : list nat := seq (length h) (length h' - length h).

Definition htxn_insert (h : heap) (x : htxn) (k : lkey) (v : N) : heap * htxn :=
  let '(h', r, inc) := hins (x_id x) (fst k) (snd k) v h (x_root x) in
  (h', mkHTxn r (if inc then x_size x + 1 else x_size x) (x_id x) (x_own x ++ fresh h h')).

Definition htxn_delete (h : heap) (x : htxn) (k : lkey) : heap * htxn * (N * bool) :=
  match hdel (x_id x) (fst k) (snd k) h (x_root x) with
  | None => (h, x, (0, false))
  | Some (h', r, v) => (h', mkHTxn r (x_size x - 1) (x_id x) (x_own x ++ fresh h h'), (v, true))
  end.

(* Txn.All / Prefix / LowerBound: `if txn.root == nil { return nil }; txn.txnID++`; the iterator
   holds txn.root (All) or nodes reachable from it (Prefix, LowerBound); nothing is written *)
Definition htxn_freeze (x : htxn) : htxn :=
  match x_root x with
  | None => x
  | Some _ => mkHTxn (x_root x) (x_size x) (x_id x + 1) []
  end.
(* the variant WITHOUT the bump (refuted in Properties/C13.v, C13_iterator_nobump_refuted) *)
Definition htxn_freeze_nobump (x : htxn) : htxn := x.

(* abstraction of a heap transaction / trie to the tree-level records of Lpm/Model.v *)
Definition habs (h : heap) (x : htxn) : txn := mkTxn (den h (x_root x)) (x_size x) (x_id x).
Definition habs_trie (h : heap) (t : htrie) : trie := mkTrie (den h (hr_root t)) (hr_size t) (hr_prev t).

(* ---- computed sanity check: a branching history on one heap against the tree model ---- *)
Module HeapSanity.
Definition k1 : lkey := ([10; 128], 9).
Definition k2 : lkey := ([10; 0; 64], 18).
Definition k3 : lkey := ([10], 8).
Definition k4 : lkey := ([10; 0], 16).
Definition k5 : lkey := ([11; 0], 16).

Definition run_h (ops : list (bool * lkey * N)) (h : heap) (x : htxn) : heap * htxn :=
  fold_left (fun (s : heap * htxn) (o : bool * lkey * N) =>
               let '(ins, k, v) := o in
               if ins then htxn_insert (fst s) (snd s) k v
               else fst (htxn_delete (fst s) (snd s) k)) ops (h, x).
Definition run_m (ops : list (bool * lkey * N)) (x : txn) : txn :=
  fold_left (fun (s : txn) (o : bool * lkey * N) =>
               let '(ins, k, v) := o in
               if ins then txn_insert s k v else fst (txn_delete s k)) ops x.

Definition ops1 := [(true, k1, 1); (true, k2, 2); (true, k3, 3); (false, k1, 0); (true, k4, 4);
                    (true, k5, 5); (false, k3, 0); (false, k2, 0); (true, k1, 7); (false, k5, 0)].
Definition ops2 := [(false, k4, 0); (true, k3, 9); (true, k2, 8); (false, k1, 0); (false, k5, 0); (false, k2, 0)].

Example sanity_single :
  let '(h, x) := run_h ops1 [] (htrie_txn htrie_new) in
  habs h x = run_m ops1 (trie_txn trie_new).
Proof. vm_compute. reflexivity. Qed.

(* commit, then a second transaction from the committed trie, with a freeze in the middle *)
Example sanity_two :
  let '(h, x) := run_h ops1 [] (htrie_txn htrie_new) in
  let t := htxn_commit x in
  let '(h1, y) := run_h ops2 h (htrie_txn t) in
  let y' := htxn_freeze y in
  let '(h2, z) := run_h ops1 h1 y' in
  let m := run_m ops1 (trie_txn trie_new) in
  let m1 := run_m ops2 (trie_txn (txn_commit m)) in
  let m2 := run_m ops1 (txn_freeze m1) in
  habs h1 y = m1 /\ habs h2 z = m2 /\
  habs_trie h2 t = txn_commit m /\ den h2 (x_root y') = t_root m1.
Proof. vm_compute. repeat split; reflexivity. Qed.
End HeapSanity.
