(* Lpm/HeapIds.v — what a run of Insert / Delete of the transaction with id tid may do to a heap:
   cells are kept, overwritten in place without changing their txnID (and then only cells carrying
   tid), or appended with txnID = tid.  tframe records this together with a bound W on the cells
   overwritten; tpost adds what the run returns: a pointer representing a tree whose footprint lies
   within W and the cells appended. *)
From SV Require Import Base.Bytes Lpm.Model Lpm.Heap Lpm.HeapBase.
From Coq Require Import ZArith List Bool Lia ZifyN ZifyNat ZifyBool.
Import ListNotations.
Open Scope N_scope.

Definition tframe (tid : N) (W : list nat) (h h' : heap) : Prop :=
  (forall a n, nth_error h a = Some n -> exists n', nth_error h' a = Some n' /\
     (n' = n \/ (In a W /\ h_id n = tid /\ h_id n' = tid))) /\
  (forall a n', nth_error h' a = Some n' -> (length h <= a)%nat -> h_id n' = tid).

Lemma tframe_refl tid W h : tframe tid W h h.
Proof. split; [eauto|]. intros a n' H L. apply nth_error_lt in H. lia. Qed.

Lemma tframe_length {tid W h h'} : tframe tid W h h' -> (length h <= length h')%nat.
Proof.
  intros (A & _). destruct (length h) as [|l] eqn:E; [lia|].
  destruct (nth_error h l) as [n|] eqn:En; [|apply nth_error_None in En; lia].
  destruct (A _ _ En) as (n' & Hn' & _). apply nth_error_lt in Hn'. lia.
Qed.

Lemma tframe_out {tid W h h' a n} : tframe tid W h h' -> nth_error h a = Some n ->
  ~ In a W \/ h_id n <> tid -> nth_error h' a = Some n.
Proof. intros (A & _) Hn Ho. destruct (A _ _ Hn) as (n' & Hn' & [->|(Hi & Hd & _)]); [exact Hn'|tauto]. Qed.

(* of the cells overwritten in the second run only those that exist in h matter for W *)
Lemma tframe_trans tid W W1 W2 h h1 h2 : tframe tid W1 h h1 -> tframe tid W2 h1 h2 ->
  incl W1 W -> within h W W2 -> tframe tid W h h2.
Proof.
  intros F1 F2 Sub1 Sub2. pose proof (tframe_length F1) as L1.
  destruct F1 as (A1 & B1), F2 as (A2 & B2). split.
  - intros a n H. destruct (A1 _ _ H) as (n1 & H1 & E1). destruct (A2 _ _ H1) as (n2 & H2 & E2).
    exists n2. split; [exact H2|]. apply nth_error_lt in H.
    destruct E1 as [->|(I1 & D1 & D1')]; [|destruct E2 as [->|(_ & _ & D2')]; auto 6].
    destruct E2 as [->|(I2 & D2 & D2')]; auto. destruct (Sub2 _ I2); [auto|lia].
  - intros a n2 H2 L. destruct (nth_error h1 a) as [n1|] eqn:E.
    + destruct (A2 _ _ E) as (n2' & H2' & E2). assert (n2' = n2) by congruence. subst n2'.
      pose proof (B1 _ _ E L). destruct E2 as [->|(_ & _ & D)]; auto.
    + apply nth_error_None in E. eauto.
Qed.

Lemma tframe_weaken tid W W' h h' : tframe tid W' h h' -> within h W W' -> tframe tid W h h'.
Proof. intros F Sub. exact (tframe_trans _ _ [] _ _ _ _ (tframe_refl _ _ _) F (incl_nil_l _) Sub). Qed.

Lemma tframe_app tid W h n : h_id n = tid -> tframe tid W h (h ++ [n]).
Proof.
  intros Hi. split.
  - intros a m H. exists m. split; [now apply nth_error_app_old|auto].
  - intros a n' H L. assert (La : (a < length (h ++ [n]))%nat) by (eapply nth_error_lt; eauto).
    rewrite app_length in La. cbn [length] in La. assert (a = length h) by lia. subst a.
    rewrite nth_error_app_new in H. congruence.
Qed.

Lemma tframe_upd tid h a n n' : nth_error h a = Some n -> h_id n = tid -> h_id n' = tid ->
  tframe tid [a] h (upd h a n').
Proof.
  intros Hn Hi Hi'. split.
  - intros b m H. destruct (Nat.eq_dec a b) as [<-|Hne].
    + exists n'. split; [apply nth_error_upd_eq; eapply nth_error_lt; eauto|].
      right. assert (m = n) by congruence. subst m. cbn [In]. auto.
    + exists m. split; [rewrite nth_error_upd_neq; auto|auto].
  - intros b m H L. apply nth_error_lt in H. rewrite upd_length in H. lia.
Qed.

Section TFrame.
Context {P : nat -> Prop}.
Local Notation trep := (@trep P).

(* writes outside the footprint do not matter: frozen cells do not carry tid *)
Lemma trep_tframe h h' tid W p t F : trep h tid p t F -> tframe tid W h h' -> disj W F -> trep h' tid p t F.
Proof.
  intros T Fr. induction T as [|a n c0 c1 Hn Hi HP _ IH0 _ IH1|a n c0 c1 F0 F1 Hn Hi _ IH0 _ IH1 Na Dj]; intros D.
  - constructor.
  - apply tr_old; auto. apply (tframe_out Fr Hn). right. lia.
  - apply tr_own; auto.
    + apply (tframe_out Fr Hn). left. intros Hw. apply (D a Hw). now left.
    + apply IH0. intros x Hw Hx. apply (D x Hw). right. apply in_or_app. auto.
    + apply IH1. intros x Hw Hx. apply (D x Hw). right. apply in_or_app. auto.
Qed.

Lemma trep_app h l tid p t F : trep h tid p t F -> (forall n, In n l -> h_id n = tid) -> trep (h ++ l) tid p t F.
Proof.
  intros T Hl. eapply (trep_tframe _ _ _ []); [exact T| |intros x []]. split.
  - intros a n H. exists n. split; [now apply nth_error_app_old|auto].
  - intros a n' H L. rewrite nth_error_app2 in H by exact L. apply Hl. eapply nth_error_In; eauto.
Qed.

Lemma trep_upd h tid p t F a n n' : trep h tid p t F -> nth_error h a = Some n -> h_id n = tid -> h_id n' = tid ->
  ~ In a F -> trep (upd h a n') tid p t F.
Proof.
  intros T Hn Hi Hi' Na. eapply trep_tframe; [exact T|eapply tframe_upd; eauto|].
  intros x [<-|[]]. exact Na.
Qed.

(* what a run started in h on a subtree with footprint F returns *)
Definition tpost (h : heap) (tid : N) (F : list nat) (h' : heap) (q : option nat) (t' : node) : Prop :=
  exists F', trep h' tid q t' F' /\ within h F F' /\ tframe tid F h h'.

Lemma tpost_refl h tid p t F : trep h tid p t F -> tpost h tid F h p t.
Proof. intros T. exists F. split; [exact T|]. split; [apply within_incl, incl_refl|apply tframe_refl]. Qed.

Lemma tpost_trans h tid F h1 F1 h2 q t : tframe tid F h h1 ->
  within h F F1 -> tpost h1 tid F1 h2 q t -> tpost h tid F h2 q t.
Proof.
  intros Fr Sub (F' & T & SubF & Fr'). pose proof (tframe_length Fr) as L.
  exists F'. split; [exact T|]. split; [exact (within_trans Sub SubF L)|].
  eapply tframe_trans; [exact Fr|exact Fr'|apply incl_refl|exact Sub].
Qed.

(* an owned cell after a run below its child b that wrote within W and then made the cell point
   to the result: the other child is untouched *)
Lemma trep_node_after h tid W h' a n b q tq Fq to Fo :
  tframe tid W h h' -> trep h tid (get_c n (negb b)) to Fo -> disj W Fo ->
  trep h' tid q tq Fq -> within h W Fq ->
  nth_error h' a = Some (set_c n b q) -> h_id n = tid -> ~ In a Fq -> ~ In a Fo ->
  exists F, trep h' tid (Some a) (Node (h_key n) (h_val n) (h_imag n) tid (if b then to else tq) (if b then tq else to)) F /\
    (forall x, In x F <-> x = a \/ In x Fq \/ In x Fo).
Proof.
  intros Fr To D Tq Sub Hn Hi Nq No. apply (trep_rebuild h' tid a n b q tq Fq to Fo); auto.
  - eapply trep_tframe; eauto.
  - intros x Hq Ho. destruct (Sub _ Hq) as [H|H]; [exact (D x H Ho)|].
    pose proof (trep_F_lt To Ho). lia.
Qed.
End TFrame.
