(* Lpm/Inv.v — the trie invariant, the abstraction to a list of (prefix, value) entries,
   and the lemmas shared by the per-operation proofs. *)
From SV Require Import Base.Bytes Lpm.Model Lpm.Bits.
From Coq Require Import ZArith ZifyN ZifyNat ZifyBool.
Open Scope N_scope.

(* pre-order list of the real (non-imaginary) nodes: what Iterator.All yields from the root *)
Fixpoint entries (n : node) : list (lkey * N) :=
  match n with
  | Nil => []
  | Node k v i _ c0 c1 => (if i then [] else [(k, v)]) ++ entries c0 ++ entries c1
  end.

(* invariant of a subtree whose keys must extend the bit string p:
   canonical keys, children extend the parent's prefix by the branching bit,
   imaginary nodes have two children and the zero value *)
Fixpoint inv (p : list bool) (n : node) : Prop :=
  match n with
  | Nil => True
  | Node k v i _ c0 c1 =>
    canon k /\ is_pre p (bits k) /\ (i = true -> c0 <> Nil /\ c1 <> Nil /\ v = 0) /\
    inv (bits k ++ [false]) c0 /\ inv (bits k ++ [true]) c1
  end.

Lemma is_pre_refl a : is_pre a a.
Proof. exists []. now rewrite app_nil_r. Qed.
Lemma is_pre_nil a : is_pre [] a.
Proof. now exists a. Qed.
Lemma is_pre_trans a b c : is_pre a b -> is_pre b c -> is_pre a c.
Proof. intros [r ->] [s ->]. exists (r ++ s). now rewrite app_assoc. Qed.
Lemma is_pre_len a b : is_pre a b -> (length a <= length b)%nat.
Proof. intros [r ->]. rewrite app_length. lia. Qed.
Lemma is_pre_app a r : is_pre a (a ++ r).
Proof. now exists r. Qed.
Lemma is_pre_snoc a x b : is_pre (a ++ [x]) b ->
  is_pre a b /\ nth (length a) b false = x /\ (length a < length b)%nat.
Proof.
  intros [r ->]. rewrite <- app_assoc. split; [apply is_pre_app|]. split.
  - rewrite app_nth2, Nat.sub_diag by lia. reflexivity.
  - rewrite !app_length. simpl. lia.
Qed.
Lemma is_pre_snoc_intro a b : is_pre a b -> (length a < length b)%nat ->
  is_pre (a ++ [nth (length a) b false]) b.
Proof.
  intros [r ->] H. rewrite app_length in H. destruct r as [|x r]; [simpl in H; lia|].
  rewrite app_nth2, Nat.sub_diag by lia. simpl. exists r. now rewrite <- app_assoc.
Qed.
Lemma is_pre_eq_len a b : is_pre a b -> length a = length b -> a = b.
Proof.
  intros [r ->] H. rewrite app_length in H. destruct r; [now rewrite app_nil_r|simpl in H; lia].
Qed.
Lemma lcp_ge_pre p a b : is_pre p a -> is_pre p b -> (length p <= lcp a b)%nat.
Proof. intros [r ->] [s ->]. rewrite lcp_app_same. lia. Qed.
Lemma is_pre_firstn n a : is_pre (firstn n a) a.
Proof. exists (skipn n a). now rewrite firstn_skipn. Qed.
Lemma is_pre_both p a n : is_pre p a -> (length p <= n)%nat -> is_pre p (firstn n a).
Proof.
  intros [r ->] H. rewrite firstn_app. exists (firstn (n - length p) r).
  now rewrite (firstn_all2 p) by lia.
Qed.

Lemma lcp_cases K Q :
  (lcp K Q = length K /\ lcp K Q = length Q /\ K = Q) \/
  (lcp K Q = length Q /\ (lcp K Q < length K)%nat /\ is_pre Q K) \/
  (lcp K Q = length K /\ (lcp K Q < length Q)%nat /\ is_pre K Q) \/
  ((lcp K Q < length K)%nat /\ (lcp K Q < length Q)%nat /\
   nth (lcp K Q) K false <> nth (lcp K Q) Q false).
Proof.
  pose proof (lcp_le_l K Q) as H1. pose proof (lcp_le_r K Q) as H2.
  destruct (Nat.eq_dec (lcp K Q) (length K)) as [E1|E1], (Nat.eq_dec (lcp K Q) (length Q)) as [E2|E2].
  - left. repeat split; auto. pose proof E1 as E3. apply lcp_pre in E3. apply is_pre_eq_len; auto. lia.
  - right; right; left. repeat split; auto; [lia|now apply lcp_pre].
  - right; left. repeat split; auto; [lia|]. rewrite lcp_comm in E2. now apply lcp_pre in E2.
  - right; right; right. repeat split; try lia. apply lcp_diverge; lia.
Qed.

Lemma inv_weaken p p' n : is_pre p' p -> inv p n -> inv p' n.
Proof.
  destruct n as [|k v i t c0 c1]; simpl; auto.
  intros Hp (C & P & R). split; [exact C|]. split; [eapply is_pre_trans; eauto|exact R].
Qed.

Lemma inv_node p k v i t c0 c1 : canon k -> is_pre p (bits k) ->
  (i = true -> c0 <> Nil /\ c1 <> Nil /\ v = 0) -> inv (bits k ++ [false]) c0 -> inv (bits k ++ [true]) c1 ->
  inv p (Node k v i t c0 c1).
Proof. simpl. auto. Qed.
Lemma inv_at {p p' k v i t} t' {c0 c1} : inv p (Node k v i t c0 c1) -> is_pre p' (bits k) ->
  inv p' (Node k v i t' c0 c1).
Proof. simpl. tauto. Qed.
Lemma inv_self {p k v i t c0 c1} : inv p (Node k v i t c0 c1) -> inv (bits k) (Node k v i t c0 c1).
Proof. intros I. exact (inv_at t I (is_pre_refl _)). Qed.

Lemma entries_pre n : forall p k w, inv p n -> In (k, w) (entries n) -> canon k /\ is_pre p (bits k).
Proof.
  induction n as [|nk nv ni nt c0 IH0 c1 IH1]; intros p k w H Hin; simpl in *; [tauto|].
  destruct H as (C & P & _ & I0 & I1). rewrite !in_app_iff in Hin. destruct Hin as [Hs|[H0|H1]].
  - destruct ni; simpl in Hs; [tauto|]. destruct Hs as [Hs|[]]. injection Hs as <- <-. auto.
  - destruct (IH0 _ _ _ I0 H0) as [Ck Pk]. split; auto.
    eapply is_pre_trans; [exact P|]. eapply is_pre_trans; [apply is_pre_app|exact Pk].
  - destruct (IH1 _ _ _ I1 H1) as [Ck Pk]. split; auto.
    eapply is_pre_trans; [exact P|]. eapply is_pre_trans; [apply is_pre_app|exact Pk].
Qed.

Lemma snoc_pre_inj {c x y a} : is_pre (c ++ [x]) a -> is_pre (c ++ [y]) a -> x = y.
Proof. intros Hx Hy. apply is_pre_snoc in Hx as (_ & <- & _). now apply is_pre_snoc in Hy as (_ & Hy & _). Qed.
Lemma snoc_not_pre {a x b} : is_pre (a ++ [x]) b -> ~ is_pre b a.
Proof. intros H H'. apply is_pre_len in H, H'. rewrite app_length in H. simpl in H. lia. Qed.
Lemma fork_apart {c b x y z} : is_pre (c ++ [negb b]) x -> is_pre (c ++ [b]) y -> is_pre x z -> is_pre y z -> False.
Proof.
  intros Hx Hy Hxz Hyz. pose proof (snoc_pre_inj (is_pre_trans _ _ _ Hx Hxz) (is_pre_trans _ _ _ Hy Hyz)).
  now destruct b.
Qed.

Lemma lcp_fork_intro {K Q} : (lcp K Q < length K)%nat -> (lcp K Q < length Q)%nat ->
  let c := firstn (lcp K Q) K in let b := nth (lcp K Q) Q false in
  length c = lcp K Q /\ is_pre (c ++ [negb b]) K /\ is_pre (c ++ [b]) Q.
Proof.
  intros HK HQ c b. pose proof (lcp_diverge K Q HK HQ) as D.
  assert (Hc : length c = lcp K Q) by (apply firstn_length_le; lia).
  assert (Hc' : length (firstn (lcp K Q) Q) = lcp K Q) by (apply firstn_length_le; lia).
  split; [exact Hc|]. split.
  - replace (negb b) with (nth (length c) K false) by (rewrite Hc; subst b; destruct (nth (lcp K Q) K false), (nth (lcp K Q) Q false); simpl; congruence).
    apply is_pre_snoc_intro; [apply is_pre_firstn|lia].
  - subst c b. rewrite lcp_firstn_eq. rewrite <- Hc' at 2. apply is_pre_snoc_intro; [apply is_pre_firstn|lia].
Qed.

(* What the walk for the query q finds at a node with key nk, both below p. The indices are
   the resumed longestMatch ml and the tests the code makes on it:
   ml = q's length, ml = nk's length, ml < nk's length, ml < q's length. *)
Inductive walk (p : list bool) (nk q : lkey) : N -> bool -> bool -> bool -> bool -> Prop :=
| walk_same : nk = q -> walk p nk q (snd q) true true false false
| walk_above : (* q is a proper prefix of nk *)
    is_pre (bits q ++ [getBitAt (key_bytes nk) (snd q)]) (bits nk) ->
    walk p nk q (snd q) true false true false
| walk_below : (* nk is a proper prefix of q: the walk goes on in the child the next bit of q names *)
    is_pre (bits nk ++ [getBitAt (fst q) (kplen nk)]) (bits q) ->
    walk p nk q (kplen nk) false true false true
| walk_fork c b : (* the two part ways after c, q with the bit b *)
    is_pre p c -> is_pre (c ++ [negb b]) (bits nk) -> is_pre (c ++ [b]) (bits q) ->
    getBitAt (fst q) (N.of_nat (length c)) = b ->
    walk p nk q (N.of_nat (length c)) false false true true.

Lemma walk_step p nk q ml0 : canon nk -> canon q -> is_pre p (bits nk) -> is_pre p (bits q) ->
  (N.to_nat ml0 <= length p)%nat ->
  let ml := longestMatch ml0 nk (fst q) (snd q) in
  walk p nk q ml (ml =? snd q) (ml =? kplen nk) (ml <? kplen nk) (ml <? snd q).
Proof.
  intros Cn Cq Pn Pq H ml. pose proof (lcp_ge_pre _ _ _ Pn Pq) as HpL.
  assert (Eml : ml = N.of_nat (lcp (bits nk) (bits q))) by (apply longestMatch_spec; auto; lia).
  pose proof (canon_len nk Cn) as Hn. pose proof (canon_len q Cq) as Hq. unfold kplen.
  clearbody ml. subst ml.
  destruct (lcp_cases (bits nk) (bits q)) as [(A1 & A2 & A3)|[(A1 & A2 & A3)|[(A1 & A2 & A3)|(A1 & A2 & A3)]]].
  - replace (N.of_nat (lcp (bits nk) (bits q))) with (snd q) by lia.
    replace (snd nk) with (snd q) by lia. rewrite N.eqb_refl, N.ltb_irrefl.
    apply walk_same, canon_bits_inj; auto.
  - replace (N.of_nat (lcp (bits nk) (bits q))) with (snd q) by lia.
    rewrite N.eqb_refl, N.ltb_irrefl, (proj2 (N.eqb_neq _ _)), (proj2 (N.ltb_lt _ _)) by lia.
    apply walk_above. replace (snd q) with (N.of_nat (length (bits q))) by lia.
    rewrite getBitAt_key_bits by (auto; lia). apply is_pre_snoc_intro; auto; lia.
  - replace (N.of_nat (lcp (bits nk) (bits q))) with (snd nk) by lia.
    rewrite N.eqb_refl, N.ltb_irrefl, (proj2 (N.eqb_neq _ _)), (proj2 (N.ltb_lt _ _)) by lia.
    apply (walk_below p nk q). unfold kplen. replace (snd nk) with (N.of_nat (length (bits nk))) by lia.
    rewrite getBitAt_bits by (auto; lia). apply is_pre_snoc_intro; auto; lia.
  - destruct (lcp_fork_intro A1 A2) as (Hc & HK & HQ).
    rewrite !(proj2 (N.eqb_neq _ _)), !(proj2 (N.ltb_lt _ _)) by lia. rewrite <- Hc.
    apply (walk_fork p nk q _ _ (is_pre_both _ _ _ Pn HpL) HK HQ). rewrite Hc. apply getBitAt_bits; auto; lia.
Qed.

(* the walk resumes below a child with the parent's length as start length *)
Lemma kplen_snoc k b : canon k -> (N.to_nat (kplen k) <= length (bits k ++ [b]))%nat.
Proof. intros C. rewrite app_length, canon_len by assumption. unfold kplen. lia. Qed.

(* induction along the walk for q: at a node, the view of the step and the claim for either child
   below which q may go on *)
Lemma along_walk q (P : list bool -> N -> node -> Prop) : canon q ->
  (forall p ml0, is_pre p (bits q) -> P p ml0 Nil) ->
  (forall p ml0 nk nv ni nt c0 c1, inv p (Node nk nv ni nt c0 c1) -> is_pre p (bits q) ->
     (let ml := longestMatch ml0 nk (fst q) (snd q) in
      walk p nk q ml (ml =? snd q) (ml =? kplen nk) (ml <? kplen nk) (ml <? snd q)) ->
     (forall b, is_pre (bits nk ++ [b]) (bits q) -> P (bits nk ++ [b]) (kplen nk) (child b c0 c1)) ->
     P p ml0 (Node nk nv ni nt c0 c1)) ->
  forall n p ml0, inv p n -> is_pre p (bits q) -> (N.to_nat ml0 <= length p)%nat -> P p ml0 n.
Proof.
  intros Cq HN HS. induction n as [|nk nv ni nt c0 IH0 c1 IH1]; intros p ml0 I Pq Hml; [now apply HN|].
  pose proof I as (Ck & Pk & _ & I0 & I1). apply HS; [exact I|exact Pq|now apply walk_step|].
  intros [|] Hb; [apply IH1|apply IH0]; auto using kplen_snoc.
Qed.

Definition absent (q : lkey) (l : list (lkey * N)) : Prop := forall w, ~ In (q, w) l.

Lemma absent_app q a b : absent q a -> absent q b -> absent q (a ++ b).
Proof. intros Ha Hb w H. apply in_app_iff in H as [H|H]; [eapply Ha|eapply Hb]; eauto. Qed.
Lemma absent_self q k v (i : bool) : k <> q -> absent q (if i then [] else [(k, v)]).
Proof. intros H w Hin. destruct i; [destruct Hin|]. destruct Hin as [[= E _]|[]]. auto. Qed.
(* the keys of a subtree below a extend a: if q does not, none of them is a prefix of q, let alone q *)
Lemma uncovered_outside a n q : inv a n -> ~ is_pre a (bits q) ->
  forall k w, In (k, w) (entries n) -> ~ is_pre (bits k) (bits q).
Proof. intros I H k w Hin Hk. apply H. eapply is_pre_trans; [eapply entries_pre; eauto|exact Hk]. Qed.
Lemma absent_outside a n q : inv a n -> ~ is_pre a (bits q) -> absent q (entries n).
Proof. intros I H w Hin. exact (uncovered_outside a n q I H q w Hin (is_pre_refl _)). Qed.

(* l' is l with the entries o for the key q replaced by o' *)
Definition keyslot (q : lkey) (o o' l l' : list (lkey * N)) : Prop :=
  exists a b, l = a ++ o ++ b /\ l' = a ++ o' ++ b /\ absent q a /\ absent q b.

Lemma keyslot_here q o o' : keyslot q o o' o o'.
Proof. exists [], []. rewrite !app_nil_r. repeat split; intros ? []. Qed.
Lemma keyslot_app_l {q x o o' l l'} : absent q x -> keyslot q o o' l l' -> keyslot q o o' (x ++ l) (x ++ l').
Proof.
  intros Hx (a & b & -> & -> & Ha & Hb). exists (x ++ a), b. rewrite <- !app_assoc.
  repeat split; auto using absent_app.
Qed.
Lemma keyslot_app_r {q y o o' l l'} : absent q y -> keyslot q o o' l l' -> keyslot q o o' (l ++ y) (l' ++ y).
Proof.
  intros Hy (a & b & -> & -> & Ha & Hb). exists a, (b ++ y). rewrite <- !app_assoc.
  repeat split; auto using absent_app.
Qed.
Lemma keyslot_new_l {q v l} : absent q l -> keyslot q [] [(q, v)] l ((q, v) :: l).
Proof. intros H. exact (keyslot_app_r H (keyslot_here q [] [(q, v)])). Qed.
Lemma keyslot_new_r {q v l} : absent q l -> keyslot q [] [(q, v)] l (l ++ [(q, v)]).
Proof. intros H. rewrite <- (app_nil_r l) at 1. exact (keyslot_app_l H (keyslot_here q [] [(q, v)])). Qed.
Lemma keyslot_length {q o o' l l'} : keyslot q o o' l l' -> (length l' + length o = length l + length o')%nat.
Proof. intros (a & b & -> & -> & _). rewrite !app_length. lia. Qed.
Lemma keyslot_in {q o o' l l'} : keyslot q o o' l l' -> (forall e, In e o \/ In e o' -> fst e = q) ->
  forall k w, In (k, w) l' <-> In (k, w) o' \/ (k <> q /\ In (k, w) l).
Proof.
  intros (a & b & -> & -> & Ha & Hb) Ho k w. rewrite !in_app_iff.
  assert (Fa : In (k, w) a -> k <> q) by (intros H ->; eapply Ha; eauto).
  assert (Fb : In (k, w) b -> k <> q) by (intros H ->; eapply Hb; eauto).
  assert (Fo : In (k, w) o -> k = q) by (intros H; apply (Ho (k, w)); auto).
  tauto.
Qed.

Lemma absent_node {p q k v i t c0 c1} : inv p (Node k v i t c0 c1) -> ~ is_pre (bits k) (bits q) ->
  absent q (entries (Node k v i t c0 c1)).
Proof. intros I. apply absent_outside. simpl in *. intuition auto using is_pre_refl. Qed.

Lemma absent_children {p q v i t c0 c1} : inv p (Node q v i t c0 c1) -> absent q (entries c0 ++ entries c1).
Proof.
  intros (_ & _ & _ & I0 & I1).
  apply absent_app; eapply absent_outside; eauto; apply (snoc_not_pre (is_pre_refl _)).
Qed.

Lemma absent_around {p q k v i t c0 c1 b} : inv p (Node k v i t c0 c1) -> is_pre (bits k ++ [b]) (bits q) ->
  absent q (if i then [] else [(k, v)]) /\ absent q (entries (child (negb b) c0 c1)).
Proof.
  intros (_ & _ & _ & I0 & I1) Hb. split.
  - apply absent_self. intros ->. exact (snoc_not_pre Hb (is_pre_refl _)).
  - apply (absent_outside (bits k ++ [negb b])); [destruct b; assumption|].
    intros H. destruct b; discriminate (snoc_pre_inj H Hb).
Qed.

Lemma inv_child {p k v i t c0 c1} b : inv p (Node k v i t c0 c1) -> inv (bits k ++ [b]) (child b c0 c1).
Proof. intros (_ & _ & _ & I0 & I1). destruct b; assumption. Qed.

Lemma keyslot_child {p q o o' k v i t} t' {c0 c1 b c} : inv p (Node k v i t c0 c1) ->
  is_pre (bits k ++ [b]) (bits q) -> keyslot q o o' (entries (child b c0 c1)) (entries c) ->
  keyslot q o o' (entries (Node k v i t c0 c1))
              (entries (Node k v i t' (fst (set_child b c c0 c1)) (snd (set_child b c c0 c1)))).
Proof.
  intros I Hb S. destruct (absent_around I Hb) as [Fs Fo].
  cbn [entries]. apply keyslot_app_l; [exact Fs|].
  destruct b; cbn [child set_child fst snd negb] in *; [apply keyslot_app_l|apply keyslot_app_r]; assumption.
Qed.
Lemma absent_child {p q k v i t c0 c1 b} : inv p (Node k v i t c0 c1) ->
  is_pre (bits k ++ [b]) (bits q) -> absent q (entries (child b c0 c1)) -> absent q (entries (Node k v i t c0 c1)).
Proof.
  intros I Hb F. destruct (absent_around I Hb) as [Fs Fo].
  cbn [entries]. apply absent_app; [exact Fs|]. destruct b; apply absent_app; assumption.
Qed.
Lemma in_node {e k v i t c0 c1} b : In e (entries (Node k v i t c0 c1)) ->
  (i = false /\ e = (k, v)) \/ In e (entries (child b c0 c1)) \/ In e (entries (child (negb b) c0 c1)).
Proof.
  cbn [entries]. rewrite !in_app_iff. intros [H|H]; [destruct i; [destruct H|destruct H as [<-|[]]; auto]|].
  destruct b; cbn [child negb]; tauto.
Qed.
Lemma in_child {e k v i t c0 c1} b : In e (entries (child b c0 c1)) -> In e (entries (Node k v i t c0 c1)).
Proof. intros H. cbn [entries]. rewrite !in_app_iff. destruct b; auto. Qed.

(* strict lexicographic order on bit strings (false < true, a proper prefix is smaller):
   the order "(bits padded with zeros, length)" of the property *)
Inductive blt : list bool -> list bool -> Prop :=
| blt_nil : forall y ys, blt [] (y :: ys)
| blt_hd : forall xs ys, blt (false :: xs) (true :: ys)
| blt_tl : forall x xs ys, blt xs ys -> blt (x :: xs) (x :: ys).

Lemma blt_irrefl a : ~ blt a a.
Proof. induction a as [|x a IH]; inversion 1; subst; auto. Qed.
Lemma blt_app p : forall a b, blt a b -> blt (p ++ a) (p ++ b).
Proof. induction p; simpl; auto using blt_tl. Qed.
Lemma blt_pre a b : is_pre a b -> length a <> length b -> blt a b.
Proof.
  intros [r ->] H. rewrite <- (app_nil_r a) at 1. apply blt_app. destruct r; [rewrite app_nil_r in H; congruence|constructor].
Qed.
Lemma blt_fork p a b : is_pre (p ++ [false]) a -> is_pre (p ++ [true]) b -> blt a b.
Proof. intros [r ->] [s ->]. rewrite <- !app_assoc. apply blt_app. simpl. constructor. Qed.
Lemma blt_trans a : forall b c, blt a b -> blt b c -> blt a c.
Proof.
  induction a as [|x a IH]; intros b c H1 H2; inversion H1; subst; inversion H2; subst; try constructor; eauto.
Qed.
Lemma blt_total a : forall b, blt a b \/ a = b \/ blt b a.
Proof.
  induction a as [|x a IH]; intros [|y b]; auto using blt_nil.
  destruct x, y; auto using blt_hd; destruct (IH b) as [H|[->|H]]; auto using blt_tl.
Qed.
Lemma blt_asym a b : blt a b -> ~ blt b a.
Proof. intros H1 H2. eapply blt_irrefl. eapply blt_trans; eauto. Qed.
Lemma pre_not_below a b : is_pre a b -> ~ blt b a.
Proof.
  intros H Hb. destruct (Nat.eq_dec (length a) (length b)) as [E|E].
  - apply is_pre_eq_len in H; auto. subst. eapply blt_irrefl; eauto.
  - eapply blt_asym; [apply blt_pre; eauto|exact Hb].
Qed.
Lemma blt_app_lt a : forall b x y, length a = length b -> blt a b -> blt (a ++ x) (b ++ y).
Proof.
  induction a as [|c a IH]; intros b x y Hl H; inversion H; subst; simpl in *; try discriminate.
  - constructor.
  - constructor. apply IH; auto.
Qed.
Lemma blt_app_inv p : forall a b, blt (p ++ a) (p ++ b) -> blt a b.
Proof. induction p as [|c p IH]; simpl; auto. intros a b H. inversion H; subst; auto. Qed.
