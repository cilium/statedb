(* Lpm/Lookup.v — lpmLookupExact reads the entry list; lpmLookup returns the value of the longest stored
   prefix covering the key, for keys that are stored or at least as long as every stored prefix ("full-length"). *)
From SV Require Import Base.Bytes Lpm.Model Lpm.Bits Lpm.Inv.
From Coq Require Import ZArith ZifyN ZifyNat ZifyBool.
Open Scope N_scope.

(* what lpmLookupExact returns from the subtree n *)
Definition exact_post (q : lkey) (n : node) (r : N * bool) : Prop :=
  match r with
  | (v, true) => In (q, v) (entries n)
  | (v, false) => v = 0 /\ absent q (entries n)
  end.

Lemma lookupExact_spec q : canon q -> forall n p ml0,
  inv p n -> is_pre p (bits q) -> (N.to_nat ml0 <= length p)%nat ->
  exact_post q n (lookupExact_go (fst q) (snd q) ml0 n).
Proof.
  intros Cq. apply (along_walk q (fun p ml0 n => exact_post q n (lookupExact_go (fst q) (snd q) ml0 n)) Cq);
    cbn [lookupExact_go].
  - split; [reflexivity|intros ? []].
  - intros p ml0 nk nv ni nt c0 c1 I _ W IH. destruct W as [->|Hb|Hb|c b Pc HK HQ Hb]; cbn [andb].
    + destruct ni; [split; [reflexivity|exact (absent_children I)]|left; reflexivity].
    + split; [reflexivity|]. exact (absent_node I (snoc_not_pre Hb)).
    + specialize (IH _ Hb). set (b := getBitAt (fst q) (kplen nk)) in *.
      destruct (lookupExact_go (fst q) (snd q) (kplen nk) (child b c0 c1)) as [v [|]]; cbn [exact_post] in *.
      * eapply in_child, IH.
      * split; [apply IH|]. eapply absent_child; [exact I|exact Hb|apply IH].
    + split; [reflexivity|]. apply (absent_node I). intros H.
      exact (fork_apart HK HQ H (is_pre_refl _)).
Qed.

(* k covers q: the bits of k are a prefix of the bits of q *)
Definition covers (k q : lkey) : Prop := is_pre (bits k) (bits q).

(* r is the longest-prefix-match answer for q in the entry list l *)
Definition lpm_answer (l : list (lkey * N)) (q : lkey) (r : N * bool) : Prop :=
  match r with
  | (v, true) => exists k, In (k, v) l /\ covers k q /\
                 forall k' w, In (k', w) l -> covers k' q -> (length (bits k') <= length (bits k))%nat
  | (v, false) => v = 0 /\ forall k' w, In (k', w) l -> ~ covers k' q
  end.

(* the guard: q is stored, or no stored prefix is longer than q *)
Definition lookup_guard (l : list (lkey * N)) (q : lkey) : Prop :=
  (exists v, In (q, v) l) \/ (forall k w, In (k, w) l -> (length (bits k) <= length (bits q))%nat).

Lemma entries_nonempty n : forall p, inv p n -> n <> Nil -> exists k w, In (k, w) (entries n).
Proof.
  induction n as [|nk nv ni nt c0 IH0 c1 IH1]; intros p I Hn; [congruence|].
  destruct I as (Ck & Pk & Him & I0 & I1). destruct ni.
  - destruct (Him eq_refl) as (H0 & _ & _). destruct (IH0 _ I0 H0) as (k & w & Hin).
    exists k, w. exact (in_child false Hin).
  - exists nk, nv. simpl. auto.
Qed.

Lemma entries_long {p n} : inv p n -> n <> Nil ->
  exists k w, In (k, w) (entries n) /\ (length p <= length (bits k))%nat.
Proof.
  intros I Hn. destruct (entries_nonempty _ _ I Hn) as (k & w & Hin). exists k, w. split; [exact Hin|].
  apply is_pre_len. eapply entries_pre; eauto.
Qed.

(* (k, v) is the entry of l with the longest prefix covering q *)
Definition best (l : list (lkey * N)) (q k : lkey) (v : N) : Prop :=
  In (k, v) l /\ covers k q /\
  forall k' w, In (k', w) l -> covers k' q -> (length (bits k') <= length (bits k))%nat.

(* what lpmLookup returns from a subtree with entries l, entered with the candidate [closest] *)
Definition lookup_post (l : list (lkey * N)) (q : lkey) (closest : option N) (r : N * bool) : Prop :=
  (exists k v, best l q k v /\ r = (v, true)) \/
  ((forall k w, In (k, w) l -> ~ covers k q) /\
   r = match closest with Some v => (v, true) | None => (0, false) end).

Lemma other_uncovered {p q nk nv ni nt c0 c1 b} : inv p (Node nk nv ni nt c0 c1) ->
  is_pre (bits nk ++ [b]) (bits q) ->
  forall k w, In (k, w) (entries (child (negb b) c0 c1)) -> ~ covers k q.
Proof.
  intros I Hb. apply (uncovered_outside (bits nk ++ [negb b])); [exact (inv_child _ I)|].
  intros H. destruct b; discriminate (snoc_pre_inj H Hb).
Qed.

Lemma guard_child {p q nk nv ni nt c0 c1 b} : inv p (Node nk nv ni nt c0 c1) ->
  is_pre (bits nk ++ [b]) (bits q) ->
  lookup_guard (entries (Node nk nv ni nt c0 c1)) q -> lookup_guard (entries (child b c0 c1)) q.
Proof.
  intros I Hb [[v G]|G]; [left; exists v|right; intros k w Hin; eapply G, in_child, Hin].
  destruct (in_node b G) as [[-> [= <- _]]|[G'|G']]; [|exact G'|].
  - destruct (proj1 (absent_around I Hb) nv). left; reflexivity.
  - destruct (other_uncovered I Hb _ _ G' (is_pre_refl _)).
Qed.

(* the way back up through such a node: the best below is the best, the node's own key being shorter;
   if nothing below covers q, the node itself is the best, if it is real *)
Lemma lookup_up {p q nk nv ni nt c0 c1 b closest r} : inv p (Node nk nv ni nt c0 c1) ->
  is_pre (bits nk ++ [b]) (bits q) ->
  lookup_post (entries (child b c0 c1)) q (if ni then closest else Some nv) r ->
  lookup_post (entries (Node nk nv ni nt c0 c1)) q closest r.
Proof.
  intros I Hb. pose proof (other_uncovered I Hb) as Uo.
  assert (HK : covers nk q) by (eapply is_pre_trans; [apply is_pre_app|exact Hb]).
  intros [(k & v & (H1 & H2 & H3) & H4)|[H1 H2]].
  - left. exists k, v. split; [|exact H4]. split; [eapply in_child, H1|]. split; [exact H2|].
    intros k' w Hin Hc. destruct (in_node b Hin) as [[_ [= -> _]]|[Hx|Hx]].
    + apply (entries_pre _ _ _ _ (inv_child b I)) in H1 as [_ H1].
      apply is_pre_len in H1. rewrite app_length in H1. simpl in H1. lia.
    + eapply H3; eauto.
    + destruct (Uo _ _ Hx Hc).
  - destruct ni.
    + right. split; [|exact H2]. intros k' w Hin Hc.
      destruct (in_node b Hin) as [[[=] _]|[Hx|Hx]]; [eapply H1|eapply Uo]; eauto.
    + left. exists nk, nv. split; [|exact H2]. split; [left; reflexivity|]. split; [exact HK|].
      intros k' w Hin Hc. destruct (in_node b Hin) as [[_ [= -> _]]|[Hx|Hx]];
        [lia|destruct (H1 _ _ Hx Hc)|destruct (Uo _ _ Hx Hc)].
Qed.

(* under the guard, a list that does not hold q holds no key longer than q *)
Lemma guard_short l q k w : lookup_guard l q -> absent q l -> In (k, w) l -> (length (bits k) <= length (bits q))%nat.
Proof. intros [[v G]|G] F Hin; [destruct (F v G)|exact (G _ _ Hin)]. Qed.

(* so a node with the key q is real: a child of an imaginary node would hold a longer key *)
Lemma guard_real p q nv ni nt c0 c1 : inv p (Node q nv ni nt c0 c1) ->
  lookup_guard (entries (Node q nv ni nt c0 c1)) q -> ni = false.
Proof.
  intros I G. destruct ni; [exfalso|reflexivity]. pose proof I as (_ & _ & Him & I0 & _).
  destruct (Him eq_refl) as (H0 & _). destruct (entries_long I0 H0) as (k & w & Hin & Hk).
  pose proof (guard_short _ _ _ _ G (absent_children I) (in_child false Hin)).
  rewrite app_length in Hk. simpl in Hk. lia.
Qed.
(* and the walk does not meet a node whose key properly extends q *)
Lemma guard_above p q nk nv ni nt c0 c1 b : inv p (Node nk nv ni nt c0 c1) ->
  is_pre (bits q ++ [b]) (bits nk) -> ~ lookup_guard (entries (Node nk nv ni nt c0 c1)) q.
Proof.
  intros I Hb G. destruct (entries_long (inv_self I)) as (k & w & Hin & Hk); [discriminate|].
  pose proof (guard_short _ _ _ _ G (absent_node I (snoc_not_pre Hb)) Hin).
  apply is_pre_len in Hb. rewrite app_length in Hb. simpl in Hb. lia.
Qed.

Lemma lookup_go_spec q : canon q -> forall n p cur,
  inv p n -> is_pre p (bits q) -> (N.to_nat cur <= length p)%nat -> forall closest, lookup_guard (entries n) q ->
  lookup_post (entries n) q closest (lookup_go (fst q) (snd q) cur closest n).
Proof.
  intros Cq. apply (along_walk q (fun p cur n => forall closest, lookup_guard (entries n) q ->
    lookup_post (entries n) q closest (lookup_go (fst q) (snd q) cur closest n)) Cq); cbn [lookup_go].
  - right. split; [intros ? ? []|reflexivity].
  - intros p cur nk nv ni nt c0 c1 I _ W IH closest G. destruct W as [->|Hb|Hb|c b Pc HK HQ Hb].
    + rewrite (guard_real _ _ _ _ _ _ _ I G). left. exists q, nv. split; [|reflexivity].
      split; [left; reflexivity|]. split; [apply is_pre_refl|]. intros k' w _ Hc. exact (is_pre_len _ _ Hc).
    + destruct (guard_above _ _ _ _ _ _ _ _ _ I Hb G).
    + exact (lookup_up I Hb (IH _ Hb _ (guard_child I Hb G))).
    + (* the keys part ways: nothing below covers q *)
      right. split; [|reflexivity]. apply (uncovered_outside (bits nk)); [exact (inv_self I)|].
      intros H. exact (fork_apart HK HQ H (is_pre_refl _)).
Qed.
