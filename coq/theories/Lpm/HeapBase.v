(* Lpm/HeapBase.v — basic lemmas about the heap model Lpm/Heap.v: cells, the relational denotation
   rep (deterministic; acyclic, so den with fuel = heap size computes it), reachability, and trep:
   the representation invariant of a transaction (frozen cells below the txn id, owned cells
   carrying the txn id forming an unshared tree with footprint F). *)
From SV Require Import Base.Bytes Lpm.Model Lpm.Cow Lpm.Heap.
From Coq Require Import ZArith List Bool Lia ZifyN ZifyNat ZifyBool.
Import ListNotations.
Open Scope N_scope.

Lemma upd_length h : forall a n, length (upd h a n) = length h.
Proof. induction h as [|x h IH]; intros [|a] n; simpl; auto. Qed.

Lemma nth_error_upd_eq h : forall a n, (a < length h)%nat -> nth_error (upd h a n) a = Some n.
Proof. induction h as [|x h IH]; intros [|a] n H; simpl in *; try lia; auto. apply IH. lia. Qed.

Lemma nth_error_upd_neq h : forall a b n, a <> b -> nth_error (upd h a n) b = nth_error h b.
Proof.
  induction h as [|x h IH]; intros [|a] [|b] n H; simpl; auto; try congruence.
Qed.

Lemma upd_same h : forall a n, nth_error h a = Some n -> upd h a n = h.
Proof.
  induction h as [|x h IH]; intros [|a] n H; simpl in *; try discriminate; [congruence|].
  f_equal. now apply IH.
Qed.

Lemma hget_some {h a n} : nth_error h a = Some n -> hget h a = n.
Proof. intros H. unfold hget. now apply nth_error_nth. Qed.

Lemma nth_error_lt {h : heap} {a n} : nth_error h a = Some n -> (a < length h)%nat.
Proof. intros H. apply nth_error_Some. congruence. Qed.

Lemma nth_error_app_old (h l : heap) a n : nth_error h a = Some n -> nth_error (h ++ l) a = Some n.
Proof. intros H. rewrite nth_error_app1; [exact H|]. eapply nth_error_lt; eauto. Qed.

Lemma nth_error_app_new (h : heap) n : nth_error (h ++ [n]) (length h) = Some n.
Proof. rewrite nth_error_app2 by lia. now rewrite Nat.sub_diag. Qed.

Lemma get_set_c_same n b p : get_c (set_c n b p) b = p.
Proof. destruct b; reflexivity. Qed.
Lemma get_set_c_other n b p : get_c (set_c n b p) (negb b) = get_c n (negb b).
Proof. destruct b; reflexivity. Qed.
Lemma set_c_get n b : set_c n b (get_c n b) = n.
Proof. destruct n, b; reflexivity. Qed.
Lemma set_c_set_c n b p q : set_c (set_c n b p) b q = set_c n b q.
Proof. destruct b; reflexivity. Qed.
Lemma h_id_set_c n b p : h_id (set_c n b p) = h_id n.
Proof. destruct b; reflexivity. Qed.

Lemma rep_det h p t : rep h p t -> forall t', rep h p t' -> t = t'.
Proof.
  induction 1 as [|a n c0 c1 Hn _ IH0 _ IH1]; intros t' H'; inversion H'; subst; auto.
  assert (n0 = n) by congruence. subst n0. f_equal; auto.
Qed.

Fixpoint height (t : node) : nat :=
  match t with Nil => O | Node _ _ _ _ c0 c1 => S (Nat.max (height c0) (height c1)) end.

Lemma height_child b k v i d c0 c1 : (S (height (child b c0 c1)) <= height (Node k v i d c0 c1))%nat.
Proof. destruct b; cbn [child height]; lia. Qed.

Lemma denf_rep h p t : rep h p t -> forall f, (height t <= f)%nat -> denf f h p = t.
Proof.
  induction 1 as [|a n c0 c1 Hn _ IH0 _ IH1]; intros f Hf.
  - destruct f; reflexivity.
  - destruct f as [|f]; [simpl in Hf; lia|]. cbn [denf height] in *. rewrite Hn.
    rewrite IH0, IH1 by lia. reflexivity.
Qed.

Lemma nodes_child_lt k v i t c0 c1 : (nodes c0 < nodes (Node k v i t c0 c1) /\ nodes c1 < nodes (Node k v i t c0 c1))%nat.
Proof. simpl. lia. Qed.

(* pigeonhole: a chain of distinct ancestor cells plus the height below fits in the heap *)
Lemma rep_height_aux h p t : rep h p t -> forall l, NoDup l -> (forall a, In a l -> (a < length h)%nat) ->
  (forall a t', In a l -> rep h (Some a) t' -> (nodes t < nodes t')%nat) ->
  (height t + length l <= length h)%nat.
Proof.
  induction 1 as [|a n c0 c1 Hn R0 IH0 R1 IH1]; intros l ND Hb Hs.
  - simpl. replace (length h) with (length (seq 0 (length h))) by apply seq_length.
    apply NoDup_incl_length; [exact ND|]. intros x Hx. apply in_seq. specialize (Hb x Hx). lia.
  - set (t := Node (h_key n) (h_val n) (h_imag n) (h_id n) c0 c1) in *.
    assert (Rt : rep h (Some a) t) by (constructor; auto).
    assert (Na : ~ In a l). { intros Hi. specialize (Hs a t Hi Rt). lia. }
    assert (ND' : NoDup (a :: l)) by (constructor; auto).
    assert (Hb' : forall x, In x (a :: l) -> (x < length h)%nat).
    { intros x [<-|Hx]; [eapply nth_error_lt; eauto|auto]. }
    assert (Hs' : forall c, (nodes c < nodes t)%nat -> forall x t', In x (a :: l) -> rep h (Some x) t' -> (nodes c < nodes t')%nat).
    { intros c Hc x t' [<-|Hx] Rx.
      - rewrite <- (rep_det _ _ _ Rt _ Rx). exact Hc.
      - specialize (Hs x t' Hx Rx). lia. }
    specialize (IH0 (a :: l) ND' Hb' (Hs' c0 ltac:(subst t; simpl; lia))).
    specialize (IH1 (a :: l) ND' Hb' (Hs' c1 ltac:(subst t; simpl; lia))).
    subst t. cbn [height length] in *. lia.
Qed.

Lemma rep_height h p t : rep h p t -> (height t <= length h)%nat.
Proof.
  intros R. pose proof (rep_height_aux h p t R [] (NoDup_nil _)) as H. simpl in H.
  specialize (H ltac:(intros a []) ltac:(intros a t' [])). lia.
Qed.

Theorem rep_den h p t : rep h p t -> den h p = t.
Proof. intros R. apply denf_rep; [exact R|]. eapply rep_height; eauto. Qed.

Lemma reach_trans h p a : reach h p a -> forall b, reach h (Some a) b -> reach h p b.
Proof.
  induction 1 as [a|a n b x Hn _ IH]; intros y Hy; [exact Hy|].
  eapply reach_child; [exact Hn|]. apply IH. exact Hy.
Qed.

Lemma rep_reach {h p t} : rep h p t -> forall {a}, reach h p a -> exists t', rep h (Some a) t'.
Proof.
  induction 1 as [|a n c0 c1 Hn R0 IH0 R1 IH1]; intros x Hx; inversion Hx; subst.
  - eexists. econstructor; eauto.
  - assert (n0 = n) by congruence. subst n0. destruct b; cbn [get_c] in *; auto.
Qed.

Lemma reach_lt {h p t} : rep h p t -> forall {a}, reach h p a -> (a < length h)%nat.
Proof. intros R a Ha. destruct (rep_reach R Ha) as (t' & R'). inversion R'. eapply nth_error_lt; eauto. Qed.

Lemma reach_via_child {h a n} (b : bool) {Q : nat -> Prop} : nth_error h a = Some n ->
  (forall x, reach h (Some a) x -> Q x) -> forall x, reach h (get_c n b) x -> Q x.
Proof. intros Hn H x Hx. apply H. exact (reach_child _ _ _ b _ Hn Hx). Qed.

Lemma rep_frame h h' p t : rep h p t -> (forall a, reach h p a -> nth_error h' a = nth_error h a) ->
  rep h' p t /\ forall a, reach h' p a -> reach h p a.
Proof.
  induction 1 as [|a n c0 c1 Hn _ IH0 _ IH1]; intros Hf.
  - split; [constructor|]. intros a Ha. inversion Ha.
  - destruct (IH0 (reach_via_child false Hn Hf)) as (R0 & B0).
    destruct (IH1 (reach_via_child true Hn Hf)) as (R1 & B1).
    assert (Hn' : nth_error h' a = Some n) by (rewrite Hf; [exact Hn|constructor]).
    split; [constructor; assumption|].
    intros x Hx. inversion Hx as [|a' n0 b x' Hn0 Hr]; subst; [constructor|].
    assert (n0 = n) by congruence. subst n0.
    apply (reach_child _ _ _ b _ Hn). destruct b; cbn [get_c] in *; auto.
Qed.

Definition disj (A B : list nat) : Prop := forall x, In x A -> In x B -> False.

(* F lies within W and the cells appended to h *)
Definition within (h : heap) (W F : list nat) : Prop := forall x, In x F -> In x W \/ (length h <= x)%nat.

Lemma within_incl h W F : incl F W -> within h W F.
Proof. intros I x Hx. left. exact (I x Hx). Qed.

Lemma within_trans {h h1 W F1 F2} : within h W F1 -> within h1 F1 F2 -> (length h <= length h1)%nat -> within h W F2.
Proof. intros W1 W2 L x Hx. destruct (W2 x Hx) as [H|H]; [exact (W1 x H)|right; lia]. Qed.

Lemma within_old {h W F a} : within h W F -> (a < length h)%nat -> ~ In a W -> ~ In a F.
Proof. intros Wi La Na Ha. destruct (Wi a Ha); [auto|lia]. Qed.

(* P: a predicate on addresses that every frozen cell under the root satisfies (it records
   that a transaction's frozen part stays outside the cells owned by other transactions) *)
Section TRep.
Context {P : nat -> Prop}.

Inductive trep (h : heap) (tid : N) : option nat -> node -> list nat -> Prop :=
| tr_nil : trep h tid None Nil []
| tr_old a n c0 c1 : nth_error h a = Some n -> h_id n < tid -> P a ->
    trep h tid (h_c0 n) c0 [] -> trep h tid (h_c1 n) c1 [] ->
    trep h tid (Some a) (Node (h_key n) (h_val n) (h_imag n) (h_id n) c0 c1) []
| tr_own a n c0 c1 F0 F1 : nth_error h a = Some n -> h_id n = tid ->
    trep h tid (h_c0 n) c0 F0 -> trep h tid (h_c1 n) c1 F1 ->
    ~ In a (F0 ++ F1) -> disj F0 F1 ->
    trep h tid (Some a) (Node (h_key n) (h_val n) (h_imag n) tid c0 c1) (a :: F0 ++ F1).

Lemma trep_rep {h tid p t F} : trep h tid p t F -> rep h p t.
Proof.
  induction 1 as [|a n c0 c1 Hn Hi HP _ IH0 _ IH1|a n c0 c1 F0 F1 Hn Hi _ IH0 _ IH1 Na Dj].
  - constructor.
  - constructor; auto.
  - rewrite <- Hi. constructor; auto.
Qed.

Lemma trep_den {h tid p t F} : trep h tid p t F -> den h p = t.
Proof. intros T. exact (rep_den _ _ _ (trep_rep T)). Qed.

Lemma trep_F_cell {h tid p t F} : trep h tid p t F -> forall a, In a F -> exists n, nth_error h a = Some n /\ h_id n = tid.
Proof.
  induction 1 as [|a n c0 c1 Hn Hi HP _ IH0 _ IH1|a n c0 c1 F0 F1 Hn Hi _ IH0 _ IH1 Na Dj]; intros x Hx.
  - destruct Hx.
  - destruct Hx.
  - destruct Hx as [<-|Hx]; [eauto|]. apply in_app_or in Hx as [Hx|Hx]; auto.
Qed.

Lemma trep_F_lt {h tid p t F a} : trep h tid p t F -> In a F -> (a < length h)%nat.
Proof. intros T Ha. destruct (trep_F_cell T a Ha) as (n & Hn & _). eapply nth_error_lt; eauto. Qed.

Lemma trep_F_reach h tid p t F : trep h tid p t F -> forall a, In a F -> reach h p a.
Proof.
  induction 1 as [|a n c0 c1 Hn Hi HP _ IH0 _ IH1|a n c0 c1 F0 F1 Hn Hi _ IH0 _ IH1 Na Dj]; intros x Hx.
  - destruct Hx.
  - destruct Hx.
  - destruct Hx as [<-|Hx]; [constructor|]. apply in_app_or in Hx as [Hx|Hx].
    + apply (reach_child _ _ _ false _ Hn). cbn [get_c]. auto.
    + apply (reach_child _ _ _ true _ Hn). cbn [get_c]. auto.
Qed.

Lemma trep_reach {h tid p t F} : trep h tid p t F -> forall a, reach h p a ->
  In a F \/ (P a /\ exists n, nth_error h a = Some n /\ h_id n < tid).
Proof.
  induction 1 as [|a n c0 c1 Hn Hi HP _ IH0 _ IH1|a n c0 c1 F0 F1 Hn Hi _ IH0 _ IH1 Na Dj]; intros x Hx.
  - inversion Hx.
  - inversion Hx as [|a' n0 b x' Hn0 Hr]; subst; [right; eauto|].
    assert (n0 = n) by congruence. subst n0. destruct b; cbn [get_c] in Hr; auto.
  - inversion Hx as [|a' n0 b x' Hn0 Hr]; subst; [left; now left|].
    assert (n0 = n) by congruence. subst n0. destruct b; cbn [get_c] in Hr.
    + destruct (IH1 _ Hr) as [H|H]; [left; right; apply in_or_app; auto|auto].
    + destruct (IH0 _ Hr) as [H|H]; [left; right; apply in_or_app; auto|auto].
Qed.

(* the two subtrees below the cell n at address a, seen from the direction b taken there;
   F is the footprint at a: empty if the cell is frozen, else a and the footprints below *)
Definition kids h tid a n F (b : bool) tb Fb to Fo : Prop :=
  trep h tid (get_c n b) tb Fb /\ trep h tid (get_c n (negb b)) to Fo /\
  disj Fb Fo /\ ~ In a Fb /\ ~ In a Fo /\
  ((h_id n < tid /\ F = [] /\ Fb = [] /\ Fo = []) \/
   (h_id n = tid /\ forall x, In x F <-> x = a \/ In x Fb \/ In x Fo)).

Lemma trep_inv {h tid a t F} : trep h tid (Some a) t F ->
  exists n c0 c1, nth_error h a = Some n /\ t = Node (h_key n) (h_val n) (h_imag n) (h_id n) c0 c1 /\
    forall b, exists Fb Fo, kids h tid a n F b (child b c0 c1) Fb (child (negb b) c0 c1) Fo.
Proof.
  intros T. inversion T as [|a' n c0 c1 Hn Hi HP T0 T1|a' n c0 c1 F0 F1 Hn Hi T0 T1 Na Dj]; subst;
    exists n, c0, c1; (split; [exact Hn|]); (split; [reflexivity|]); intros b.
  - exists [], []. unfold kids. destruct b; cbn [get_c child negb]; repeat split; auto; intros x [].
  - assert (N0 : ~ In a F0) by (intros H; apply Na, in_or_app; auto).
    assert (N1 : ~ In a F1) by (intros H; apply Na, in_or_app; auto).
    assert (E : forall x, In x (a :: F0 ++ F1) <-> x = a \/ In x F0 \/ In x F1).
    { intros x. cbn [In]. rewrite in_app_iff. split; [intros [<-|H]|intros [->|H]]; auto. }
    destruct b; cbn [get_c child negb].
    + exists F1, F0. repeat split; auto; [intros x H1 H0; exact (Dj x H0 H1)|].
      right. split; [reflexivity|]. intros x. rewrite E. tauto.
    + exists F0, F1. repeat split; auto.
Qed.

Lemma kids_sub {h tid a n F b tb Fb to Fo} : kids h tid a n F b tb Fb to Fo ->
  forall x, In x Fb \/ In x Fo -> In x F.
Proof.
  intros (_ & _ & _ & _ & _ & [(_ & _ & -> & ->)|(_ & HF)]) x Hx; [destruct Hx as [[]|[]]|].
  apply HF. now right.
Qed.

Lemma kids_self {h tid a n F b tb Fb to Fo} : kids h tid a n F b tb Fb to Fo -> h_id n = tid -> In a F.
Proof.
  intros (_ & _ & _ & _ & _ & [(Hlt & _)|(_ & HF)]) Hi; [rewrite Hi in Hlt; destruct (N.lt_irrefl _ Hlt)|apply HF; auto].
Qed.

Lemma trep_rebuild h tid a n b q tq Fq to Fo :
  nth_error h a = Some (set_c n b q) -> h_id n = tid ->
  trep h tid q tq Fq -> trep h tid (get_c n (negb b)) to Fo ->
  ~ In a Fq -> ~ In a Fo -> disj Fq Fo ->
  exists F, trep h tid (Some a) (Node (h_key n) (h_val n) (h_imag n) tid (if b then to else tq) (if b then tq else to)) F /\
    (forall x, In x F <-> x = a \/ In x Fq \/ In x Fo).
Proof.
  intros Hn Hi Tq To N1 N2 Dj. destruct b; cbn [negb get_c] in To.
  - exists (a :: Fo ++ Fq). split.
    + apply (tr_own _ _ a (set_c n true q) to tq Fo Fq Hn); [exact Hi|exact To|exact Tq| |].
      * intros Hx. apply in_app_or in Hx as [Hx|Hx]; auto.
      * intros x H1 H2. exact (Dj x H2 H1).
    + intros x. cbn [In]. rewrite in_app_iff. split; [intros [<-|[H|H]]; auto|intros [->|[H|H]]; auto].
  - exists (a :: Fq ++ Fo). split.
    + apply (tr_own _ _ a (set_c n false q) tq to Fq Fo Hn); [exact Hi|exact Tq|exact To| |exact Dj].
      intros Hx. apply in_app_or in Hx as [Hx|Hx]; auto.
    + intros x. cbn [In]. rewrite in_app_iff. split; [intros [<-|[H|H]]; auto|intros [->|[H|H]]; auto].
Qed.

Lemma trep_leaf h tid a k v i : nth_error h a = Some (mkH k v i tid None None) ->
  trep h tid (Some a) (Node k v i tid Nil Nil) [a].
Proof.
  intros Hn. apply (tr_own _ _ a _ Nil Nil [] [] Hn); [reflexivity|constructor|constructor|intros []|intros x []].
Qed.

Fixpoint ids_le (T : N) (t : node) : Prop :=
  match t with Nil => True | Node _ _ _ i c0 c1 => i <= T /\ ids_le T c0 /\ ids_le T c1 end.

Lemma ids_ok_le T t : ids_ok T t -> ids_le T t.
Proof.
  revert T. induction t as [|k v i t0 c0 IH0 c1 IH1]; intros T H; [exact I|].
  destruct H as (H1 & H2 & H3). cbn [ids_le]. split; [exact H1|].
  split; [apply IH0|apply IH1]; (eapply ids_ok_mono; [|eassumption]); lia.
Qed.

Lemma trep_ids_le h tid p t F : trep h tid p t F -> ids_le tid t.
Proof.
  induction 1 as [|a n c0 c1 Hn Hi HP _ IH0 _ IH1|a n c0 c1 F0 F1 Hn Hi _ IH0 _ IH1 Na Dj]; cbn [ids_le]; auto.
  - repeat split; auto. lia.
  - repeat split; auto. lia.
Qed.

Lemma frozen_intro h p t : rep h p t -> forall T tid, (forall a, reach h p a -> P a) ->
  ids_le T t -> T < tid -> trep h tid p t [].
Proof.
  induction 1 as [|a n c0 c1 Hn _ IH0 _ IH1]; intros T tid HP Hl Ht; [constructor|].
  destruct Hl as (H1 & H2 & H3). apply tr_old; auto; try lia.
  - apply HP. constructor.
  - eapply IH0; eauto. exact (reach_via_child false Hn HP).
  - eapply IH1; eauto. exact (reach_via_child true Hn HP).
Qed.

Lemma trep_frozen_F h tid p t F : trep h tid p t F -> forall a n, p = Some a -> nth_error h a = Some n ->
  h_id n <> tid -> F = [].
Proof.
  intros T a n -> Hn Hi. inversion T as [|a' n' c0 c1 Hn' Hi' HP' T0 T1|a' n' c0 c1 F0 F1 Hn' Hi' T0 T1 Na Dj]; subst; auto.
  congruence.
Qed.
End TRep.

Lemma trep_transfer (P Q : nat -> Prop) h h' tid p t F : @trep P h tid p t F ->
  (forall a, reach h p a -> nth_error h' a = nth_error h a /\ (P a -> Q a)) -> @trep Q h' tid p t F.
Proof.
  induction 1 as [|a n c0 c1 Hn Hi HP _ IH0 _ IH1|a n c0 c1 F0 F1 Hn Hi _ IH0 _ IH1 Na Dj]; intros Hf;
    [constructor| |];
    pose proof (IH0 (reach_via_child false Hn Hf)); pose proof (IH1 (reach_via_child true Hn Hf));
    destruct (Hf a (reach_here _ _)) as (E & PQ); rewrite <- E in Hn.
  - apply tr_old; auto.
  - apply tr_own; auto.
Qed.

Lemma trep_P_impl (P Q : nat -> Prop) h tid p t F : @trep P h tid p t F ->
  (forall a, reach h p a -> P a -> Q a) -> @trep Q h tid p t F.
Proof. intros T PQ. apply (trep_transfer P Q h h tid p t F T). intros a Ha. split; [reflexivity|exact (PQ a Ha)]. Qed.

(* the id bump freezes everything *)
Lemma trep_bump (P Q : nat -> Prop) h tid p t F : @trep P h tid p t F ->
  (forall a, In a F -> Q a) -> (forall a, reach h p a -> P a -> Q a) ->
  forall tid', tid < tid' -> @trep Q h tid' p t [].
Proof.
  intros T HF HQ tid' Ht. apply (frozen_intro h p t (trep_rep T) tid); [|eapply trep_ids_le; eauto|exact Ht].
  intros a Ha. destruct (trep_reach T a Ha) as [H|(H & _)]; auto.
Qed.
