(* Lpm/Bits.v — the bit-list view of LPM keys and the bridge from the byte-level
   longestMatch / getBitAt / EncodeLPMKey of the model to it. *)
From SV Require Import Base.Bytes KeyEnc.Model Lpm.Model.
From Coq Require Import ZArith ZifyN ZifyNat ZifyBool.
Open Scope N_scope.

Definition byte_bits (b : N) : list bool := map (N.testbit b) [7; 6; 5; 4; 3; 2; 1; 0].
Fixpoint bytes_bits (l : bytes) : list bool :=
  match l with [] => [] | b :: r => byte_bits b ++ bytes_bits r end.
(* the prefix denoted by a key: its first prefixLen bits *)
Definition bits (k : lkey) : list bool := firstn (N.to_nat (snd k)) (bytes_bits (fst k)).

(* canonical key = what EncodeLPMKey produces: exactly ceil(plen/8) data bytes, bits beyond plen zero *)
Definition canon (k : lkey) : Prop :=
  is_bytes (fst k) /\ length (fst k) = N.to_nat ((snd k + 7) / 8) /\
  Forall (fun b => b = false) (skipn (N.to_nat (snd k)) (bytes_bits (fst k))).

(* length of the longest common prefix *)
Fixpoint lcp (a b : list bool) : nat :=
  match a, b with
  | x :: a', y :: b' => if Bool.eqb x y then S (lcp a' b') else O
  | _, _ => O
  end.

Definition is_pre (a b : list bool) : Prop := exists r, b = a ++ r.

Lemma lcp_le_l a : forall b, (lcp a b <= length a)%nat.
Proof.
  induction a as [|x a IH]; intros [|y b]; simpl; auto using Nat.le_0_l.
  destruct (Bool.eqb x y); [apply le_n_S, IH|apply Nat.le_0_l].
Qed.
Lemma lcp_comm a : forall b, lcp a b = lcp b a.
Proof. induction a as [|x a IH]; intros [|y b]; simpl; auto. rewrite (IH b). destruct x, y; reflexivity. Qed.
Lemma lcp_le_r a b : (lcp a b <= length b)%nat.
Proof. rewrite lcp_comm. apply lcp_le_l. Qed.
Lemma lcp_refl a : lcp a a = length a.
Proof. induction a as [|x a IH]; simpl; auto. rewrite eqb_reflx, IH; reflexivity. Qed.

Lemma lcp_firstn_eq a : forall b, firstn (lcp a b) a = firstn (lcp a b) b.
Proof.
  induction a as [|x a IH]; intros [|y b]; simpl; auto.
  destruct (Bool.eqb x y) eqn:E; simpl; auto. apply eqb_prop in E. subst. now rewrite IH.
Qed.

Lemma lcp_app_same p : forall a b, lcp (p ++ a) (p ++ b) = (length p + lcp a b)%nat.
Proof. induction p as [|x p IH]; intros; simpl; auto. now rewrite eqb_reflx, IH. Qed.

Lemma lcp_pre a : forall b, lcp a b = length a <-> is_pre a b.
Proof.
  induction a as [|x a IH]; intros b; simpl.
  - split; [intros _; now exists b|reflexivity].
  - destruct b as [|y b]; [split; [discriminate|intros [r H]; discriminate]|].
    destruct (Bool.eqb x y) eqn:E.
    + apply eqb_prop in E; subst. split.
      * intros H. injection H as H. apply IH in H as [r ->]. now exists r.
      * intros [r H]. injection H as ->. f_equal. apply IH. now exists r.
    + split; [discriminate|]. intros [r H]. injection H as -> _. now rewrite eqb_reflx in E.
Qed.

Lemma lcp_diverge a : forall b, (lcp a b < length a)%nat -> (lcp a b < length b)%nat ->
  nth (lcp a b) a false <> nth (lcp a b) b false.
Proof.
  induction a as [|x a IH]; intros [|y b]; simpl; try lia.
  destruct (Bool.eqb x y) eqn:E; simpl.
  - intros; apply IH; lia.
  - intros _ _ ->. now rewrite eqb_reflx in E.
Qed.

Lemma lcp_firstn n : forall m a b, lcp (firstn n a) (firstn m b) = Nat.min (Nat.min n m) (lcp a b).
Proof.
  induction n as [|n IH]; intros m a b; [reflexivity|].
  destruct m as [|m]; [destruct a; simpl; lia|].
  destruct a as [|x a]; [simpl; lia|]. destruct b as [|y b]; [simpl; lia|].
  cbn [firstn lcp]. destruct (Bool.eqb x y); [rewrite IH|]; lia.
Qed.

Lemma lcp_skipn k : forall a b, (k <= lcp a b)%nat -> lcp a b = (k + lcp (skipn k a) (skipn k b))%nat.
Proof.
  induction k as [|k IH]; intros a b H; [reflexivity|].
  destruct a as [|x a], b as [|y b]; simpl in *; try lia.
  destruct (Bool.eqb x y); [|lia]. rewrite <- IH; lia.
Qed.

(* what is appended to a shows in lcp only beyond the length of a *)
Lemma lcp_app_min a : forall x b m, (m <= length a)%nat -> Nat.min m (lcp (a ++ x) b) = Nat.min m (lcp a b).
Proof.
  induction a as [|c a IH]; intros x b m H; simpl in *; [now replace m with 0%nat by lia|].
  destruct b as [|y b]; auto. destruct (Bool.eqb c y); auto. destruct m as [|m]; [reflexivity|].
  simpl. f_equal. apply IH. lia.
Qed.

Lemma lcp_app_blocks a : forall b x y, length a = length b ->
  lcp (a ++ x) (b ++ y) = if (lcp a b =? length a)%nat then (length a + lcp x y)%nat else lcp a b.
Proof.
  induction a as [|c a IH]; intros [|d b] x y H; simpl in *; try lia; auto.
  destruct (Bool.eqb c d); auto. rewrite IH by lia.
  destruct (Nat.eqb_spec (lcp a b) (length a)), (Nat.eqb_spec (S (lcp a b)) (S (length a))); lia.
Qed.

Definition range256 : list N := map N.of_nat (seq 0 256).
Lemma in_range256 a : a < 256 -> In a range256.
Proof. intros H. unfold range256. rewrite <- (N2Nat.id a). apply in_map, in_seq. lia. Qed.

Lemma lcp_map_xor {A} (f g : A -> bool) l :
  lcp (map f l) (map g l) = lcp (map (fun i => xorb (f i) (g i)) l) (map (fun _ => false) l).
Proof. induction l as [|i l IH]; simpl; [reflexivity|]. rewrite IH. now destruct (f i), (g i). Qed.

Lemma lxor_byte a b : a < 256 -> b < 256 -> N.lxor a b < 256.
Proof.
  assert (L : forall x, x < 256 -> N.log2 x < 8).
  { intros x H. destruct (N.eq_dec x 0) as [->|]; [reflexivity|]. apply (N.log2_lt_pow2 x 8); lia. }
  intros Ha Hb. destruct (N.eq_dec (N.lxor a b) 0) as [->|]; [reflexivity|]. apply (N.log2_lt_pow2 _ 8); [lia|].
  pose proof (N.log2_lxor a b). pose proof (L a Ha). pose proof (L b Hb). lia.
Qed.

(* the common prefix of two bytes is the run of leading zeros of their xor *)
Lemma lz8_spec a b : a < 256 -> b < 256 -> lz8 (N.lxor a b) = N.of_nat (lcp (byte_bits a) (byte_bits b)).
Proof.
  assert (T : forallb (fun x => lz8 x =? N.of_nat (lcp (byte_bits x) (repeat false 8))) range256 = true)
    by (vm_compute; reflexivity).
  intros Ha Hb. rewrite forallb_forall in T. rewrite (proj1 (N.eqb_eq _ _) (T _ (in_range256 _ (lxor_byte a b Ha Hb)))).
  unfold byte_bits. rewrite lcp_map_xor. do 2 f_equal. apply map_ext, N.lxor_spec.
Qed.

Lemma byte_bits_length b : length (byte_bits b) = 8%nat.
Proof. reflexivity. Qed.
Lemma bytes_bits_length l : length (bytes_bits l) = (8 * length l)%nat.
Proof. induction l as [|b l IH]; cbn [bytes_bits]; [reflexivity|]. rewrite app_length, IH, byte_bits_length. simpl length; lia. Qed.

Lemma byte_bits_inj a b : a < 256 -> b < 256 -> byte_bits a = byte_bits b -> a = b.
Proof.
  intros Ha Hb H. pose proof (lz8_spec a b Ha Hb) as L. rewrite H, lcp_refl, byte_bits_length in L.
  unfold lz8 in L. destruct (N.eqb_spec (N.lxor a b) 0) as [E|E]; [now apply N.lxor_eq|]. lia.
Qed.

Lemma app_inv_len {A} (a : list A) : forall b x y, length a = length b -> a ++ x = b ++ y -> a = b /\ x = y.
Proof.
  induction a as [|c a IH]; intros [|d b] x y Hl H; simpl in *; try lia; auto.
  injection H as -> H. destruct (IH b x y) as [-> ->]; auto.
Qed.

Lemma bytes_bits_inj a : forall b, is_bytes a -> is_bytes b -> bytes_bits a = bytes_bits b -> a = b.
Proof.
  induction a as [|x a IH]; intros [|y b] Ha Hb H; cbn [bytes_bits] in H; auto.
  1, 2: apply (f_equal (@length bool)) in H; rewrite app_length, byte_bits_length in H; simpl in H; lia.
  - inversion Ha; inversion Hb; subst.
    apply app_inv_len in H as [E1 E2]; [|reflexivity].
    f_equal; [apply byte_bits_inj; auto|apply IH; auto].
Qed.

Lemma lm_loop_spec nk : forall kd p m, is_bytes nk -> is_bytes kd -> p <= m ->
  lm_loop nk kd p m = N.min m (p + N.of_nat (lcp (bytes_bits nk) (bytes_bits kd))).
Proof.
  induction nk as [|a nk IH]; intros [|b kd] p m Hn Hk Hp; cbn [lm_loop bytes_bits].
  - cbn [lcp N.of_nat]. lia.
  - cbn [lcp N.of_nat]. lia.
  - rewrite lcp_comm. cbn [lcp N.of_nat]. lia.
  - inversion Hn; inversion Hk; subst.
    rewrite lcp_app_blocks by reflexivity. rewrite byte_bits_length.
    rewrite lz8_spec by assumption.
    pose proof (lcp_le_l (byte_bits a) (byte_bits b)) as Hle. rewrite byte_bits_length in Hle.
    set (c := lcp (byte_bits a) (byte_bits b)) in *.
    destruct (N.leb_spec m (p + N.of_nat c)) as [G1|G1].
    + destruct (Nat.eqb_spec c 8); lia.
    + destruct (N.ltb_spec (N.of_nat c) 8) as [G2|G2].
      * destruct (Nat.eqb_spec c 8); lia.
      * destruct (Nat.eqb_spec c 8); [|lia]. rewrite IH by (auto; lia). lia.
Qed.

Lemma bytes_bits_app a b : bytes_bits (a ++ b) = bytes_bits a ++ bytes_bits b.
Proof. induction a as [|x a IH]; cbn [bytes_bits app]; auto. now rewrite IH, app_assoc. Qed.

Lemma bytes_bits_skipn n : forall l, bytes_bits (skipn n l) = skipn (8 * n) (bytes_bits l).
Proof.
  induction n as [|n IH]; intros l; [reflexivity|].
  destruct l as [|b l]; [cbn [skipn bytes_bits]; now rewrite skipn_nil|].
  cbn [skipn bytes_bits]. rewrite IH, skipn_app, byte_bits_length.
  rewrite (skipn_all2 (byte_bits b)) by (rewrite byte_bits_length; lia).
  replace (8 * S n - 8)%nat with (8 * n)%nat by lia. reflexivity.
Qed.

Lemma is_bytes_skipn n l : is_bytes l -> is_bytes (skipn n l).
Proof.
  unfold is_bytes. revert l. induction n as [|n IH]; intros l H; [exact H|].
  destruct l; [constructor|]. inversion H; subst. simpl. auto.
Qed.

Lemma be16_bytes n : is_bytes (be16 n).
Proof. unfold be16, is_bytes, is_byte. repeat constructor; lia. Qed.
Lemma key_bytes_bytes k : canon k -> is_bytes (key_bytes k).
Proof. intros (B & _). apply Forall_app. split; [exact B|apply be16_bytes]. Qed.

Lemma canon_len k : canon k -> length (bits k) = N.to_nat (snd k).
Proof.
  intros (_ & Hl & _). unfold bits. rewrite firstn_length, bytes_bits_length, Hl. lia.
Qed.

(* longestMatch computes the length of the common bit prefix, when resumed from a
   start length that is indeed common *)
Lemma longestMatch_spec s nk q : canon nk -> canon q -> (N.to_nat s <= lcp (bits nk) (bits q))%nat ->
  longestMatch s nk (fst q) (snd q) = N.of_nat (lcp (bits nk) (bits q)).
Proof.
  intros Cn (Bq & Lq & _) Hs. pose proof (key_bytes_bytes nk Cn) as HB. destruct Cn as (Bn & Ln & _). unfold longestMatch.
  rewrite lm_loop_spec.
  2:{ now apply is_bytes_skipn. }
  2:{ now apply is_bytes_skipn. }
  2:{ unfold bits in Hs. rewrite lcp_firstn in Hs. unfold kplen. lia. }
  rewrite !bytes_bits_skipn. unfold bits in *. rewrite lcp_firstn in *.
  unfold key_bytes, kplen. rewrite bytes_bits_app.
  pose proof (bytes_bits_length (fst nk)) as LBn.
  set (Bn' := bytes_bits (fst nk)) in *. set (Bq' := bytes_bits (fst q)) in *.
  set (S' := bytes_bits (be16 (snd nk))).
  assert (Hmin : Nat.min (Nat.min (N.to_nat (snd nk)) (N.to_nat (snd q))) (lcp (Bn' ++ S') Bq') =
                 Nat.min (Nat.min (N.to_nat (snd nk)) (N.to_nat (snd q))) (lcp Bn' Bq')) by (apply lcp_app_min; lia).
  assert (E : (8 * N.to_nat (s / 8) <= lcp (Bn' ++ S') Bq')%nat) by lia.
  apply lcp_skipn in E. lia.
Qed.

Lemma nth_byte_bits b r : (r < 8)%nat -> nth r (byte_bits b) false = N.testbit b (7 - N.of_nat r).
Proof. intros H. do 8 (destruct r as [|r]; [reflexivity|]). lia. Qed.

Lemma getBitAt_spec data : forall i, (i < 8 * length data)%nat ->
  getBitAt data (N.of_nat i) = nth i (bytes_bits data) false.
Proof.
  unfold getBitAt. induction data as [|b l IH]; intros i H; [simpl in H; lia|].
  cbn [bytes_bits]. destruct (Nat.lt_ge_cases i 8) as [Hi|Hi].
  - rewrite app_nth1 by (rewrite byte_bits_length; lia). rewrite nth_byte_bits by lia.
    replace (N.to_nat (N.of_nat i / 8)) with 0%nat by lia. cbn [nth]. f_equal. lia.
  - rewrite app_nth2 by (rewrite byte_bits_length; lia). rewrite byte_bits_length.
    rewrite <- IH by (simpl in H; lia).
    replace (N.to_nat (N.of_nat i / 8)) with (S (N.to_nat (N.of_nat (i - 8) / 8))) by lia. cbn [nth].
    f_equal. lia.
Qed.

Lemma nth_firstn_lt {A} (d : A) n : forall i l, (i < n)%nat -> nth i (firstn n l) d = nth i l d.
Proof.
  induction n as [|n IH]; intros i l H; [lia|]. destruct l as [|x l]; [reflexivity|].
  destruct i as [|i]; [reflexivity|]. simpl. apply IH. lia.
Qed.

Lemma getBitAt_bits q i : canon q -> (i < length (bits q))%nat ->
  getBitAt (fst q) (N.of_nat i) = nth i (bits q) false.
Proof.
  intros C H. pose proof (canon_len q C) as L. destruct C as (_ & Hl & _).
  rewrite getBitAt_spec by lia. unfold bits. rewrite nth_firstn_lt by lia. reflexivity.
Qed.

Lemma getBitAt_key_bits q i : canon q -> (i < length (bits q))%nat ->
  getBitAt (key_bytes q) (N.of_nat i) = nth i (bits q) false.
Proof.
  intros C H. rewrite <- getBitAt_bits by assumption.
  pose proof (canon_len q C) as L. destruct C as (_ & Hl & _).
  unfold getBitAt, key_bytes. rewrite app_nth1 by lia. reflexivity.
Qed.

(* b & (0xff << (8-rem)) keeps the bits from 8-rem up *)
Lemma mask_last_bit b rem i : N.testbit (mask_last b rem) i = (8 - rem <=? i) && N.testbit b i.
Proof.
  unfold mask_last. rewrite <- N.shiftr_div_pow2, <- N.shiftl_mul_pow2.
  destruct (N.leb_spec (8 - rem) i) as [H|H].
  - rewrite N.shiftl_spec_high', N.shiftr_spec', N.sub_add by assumption. reflexivity.
  - now apply N.shiftl_spec_low.
Qed.

Lemma mask_last_bits b rem : b < 256 -> 0 < rem < 8 ->
  mask_last b rem < 256 /\
  byte_bits (mask_last b rem) = firstn (N.to_nat rem) (byte_bits b) ++ repeat false (8 - N.to_nat rem).
Proof.
  intros Hb Hr. split.
  - unfold mask_last. pose proof (N.mul_div_le b (2 ^ (8 - rem))) as H.
    rewrite N.mul_comm in H. specialize (H ltac:(apply N.pow_nonzero; lia)). lia.
  - unfold byte_bits. rewrite (map_ext _ _ (mask_last_bit b rem)).
    assert (E : rem = 1 \/ rem = 2 \/ rem = 3 \/ rem = 4 \/ rem = 5 \/ rem = 6 \/ rem = 7) by lia.
    destruct E as [->|[->|[->|[->|[->|[->| ->]]]]]]; reflexivity.
Qed.

(* EncodeLPMKey's copy + mask keeps the first m bits of d and pads with zeros to a whole byte *)
Lemma mask_data_bits d : forall m, is_bytes d -> (m <= 8 * length d)%nat ->
  let d' := mask_data d ((m + 7) / 8) (N.of_nat (m mod 8)) in
  is_bytes d' /\ bytes_bits d' = firstn m (bytes_bits d) ++ repeat false (8 * ((m + 7) / 8) - m).
Proof.
  induction d as [|b d IH]; intros m Hd Hm; [replace m with 0%nat by (simpl in Hm; lia); split; constructor|].
  destruct (Nat.eq_dec m 0) as [->|H0]; [split; constructor|]. inversion Hd; subst. cbn [bytes_bits].
  destruct (Nat.le_gt_cases m 8) as [H8|H8].
  - (* the last byte *)
    replace ((m + 7) / 8)%nat with 1%nat by lia. cbn [mask_data bytes_bits].
    rewrite app_nil_r, firstn_app, byte_bits_length. replace (m - 8)%nat with 0%nat by lia. rewrite firstn_O, app_nil_r.
    destruct (N.eqb_spec (N.of_nat (m mod 8)) 0) as [E|E].
    + replace m with 8%nat by lia. split; [repeat constructor; assumption|reflexivity].
    + destruct (mask_last_bits b (N.of_nat (m mod 8))) as [M1 M2]; [assumption|lia|].
      split; [repeat constructor; assumption|]. rewrite M2. do 2 f_equal; lia.
  - (* a whole byte, copied *)
    destruct (IH (m - 8)%nat) as [I1 I2]; [assumption|simpl in Hm; lia|].
    replace ((m - 8) mod 8)%nat with (m mod 8)%nat in * by lia.
    replace ((m + 7) / 8)%nat with (S ((m - 8 + 7) / 8)) by lia.
    destruct ((m - 8 + 7) / 8)%nat as [|k] eqn:Ek; [lia|]. cbn [mask_data bytes_bits].
    split; [constructor; assumption|]. rewrite I2, firstn_app, byte_bits_length.
    rewrite (firstn_all2 (byte_bits b)) by (rewrite byte_bits_length; lia). rewrite <- app_assoc. do 3 f_equal. lia.
Qed.

Lemma all_false_repeat l : Forall (fun b => b = false) l -> l = repeat false (length l).
Proof. induction 1 as [|x l Hx _ IH]; simpl; [reflexivity|]. now rewrite Hx, <- IH. Qed.
Lemma repeat_all_false n : Forall (fun b => b = false) (repeat false n).
Proof. induction n; simpl; constructor; auto. Qed.

(* the imaginary node's key: EncodeLPMKey(node.key, matchLen) denotes the first matchLen bits; the code passes
   the undecoded key (data and the two length bytes) as data, which is harmless as matchLen stays within the data *)
Lemma encodeKey_spec nk ml : canon nk -> (ml <= length (bits nk))%nat ->
  canon (encodeKey (key_bytes nk) (N.of_nat ml)) /\
  bits (encodeKey (key_bytes nk) (N.of_nat ml)) = firstn ml (bits nk).
Proof.
  intros C Hml. pose proof (canon_len nk C) as L. pose proof (key_bytes_bytes nk C) as HB. destruct C as (Bn & Ln & _).
  unfold encodeKey, canon, bits. cbn [fst snd]. rewrite Nat2N.id.
  replace (N.to_nat ((N.of_nat ml + 7) / 8)) with ((ml + 7) / 8)%nat by lia.
  replace (N.of_nat ml mod 8) with (N.of_nat (ml mod 8)) by lia.
  destruct (mask_data_bits (key_bytes nk) ml HB) as [M1 M2].
  { unfold key_bytes. rewrite app_length. simpl. lia. }
  assert (Hf : firstn ml (bytes_bits (key_bytes nk)) = firstn ml (bits nk)).
  { unfold key_bytes. rewrite bytes_bits_app, firstn_app, bytes_bits_length.
    replace (ml - 8 * length (fst nk))%nat with 0%nat by lia. rewrite firstn_O, app_nil_r.
    unfold bits. rewrite firstn_firstn. f_equal. lia. }
  assert (Hlen : length (firstn ml (bits nk)) = ml) by (rewrite firstn_length; lia).
  rewrite Hf in M2. repeat split.
  - exact M1.
  - apply (f_equal (@length bool)) in M2. rewrite bytes_bits_length, app_length, repeat_length, Hlen in M2. lia.
  - rewrite M2, skipn_app, Hlen, skipn_all2 by lia. rewrite Nat.sub_diag. apply repeat_all_false.
  - rewrite M2, firstn_app, Hlen, Nat.sub_diag, firstn_O, app_nil_r. rewrite firstn_all2 by lia. reflexivity.
Qed.

Lemma canon_bits_inj a b : canon a -> canon b -> bits a = bits b -> a = b.
Proof.
  intros Ca Cb H.
  assert (Hp : snd a = snd b).
  { apply (f_equal (@length bool)) in H. rewrite !canon_len in H by assumption. lia. }
  destruct a as [da pa], b as [db pb]. cbn [snd] in Hp. subst pb. f_equal.
  destruct Ca as (Ba & La & Za), Cb as (Bb & Lb & Zb). unfold bits in H. cbn [fst snd] in *.
  apply bytes_bits_inj; [assumption|assumption|].
  rewrite <- (firstn_skipn (N.to_nat pa) (bytes_bits da)), <- (firstn_skipn (N.to_nat pa) (bytes_bits db)).
  f_equal; [exact H|].
  rewrite (all_false_repeat _ Za), (all_false_repeat _ Zb). f_equal.
  rewrite !skipn_length, !bytes_bits_length. lia.
Qed.
