(* Properties/C01.v — Read transactions are frozen snapshots (model level).
   In the model a snapshot is a value; the theorem says no later step of any kind re-binds or
   alters it, so every query on it (a pure function of that value) keeps its answer. The places
   where the Go code shares memory between snapshots are tied to this model by the correspondence
   check, which re-queries every retained snapshot after every later step. *)
From SV Require Import Base.Bytes Base.OrdMap Table.Model Table.Proofs.
Open Scope N_scope.

Theorem C01_snapshot_frozen : forall ops d sid r,
  assoc sid (d_snaps d) = Some r -> forallb (fun o => negb (reassigns o sid)) ops = true ->
  assoc sid (d_snaps (fst (run d ops))) = Some r.
Proof. exact run_keeps_snapshot. Qed.
Print Assumptions C01_snapshot_frozen.

(* hence every content query on the snapshot returns what it returned when it was taken *)
Theorem C01_queries_frozen : forall ops d sid r tab t q,
  assoc sid (d_snaps d) = Some r -> forallb (fun o => negb (reassigns o sid)) ops = true ->
  nth_error r tab = Some t -> q <> QInit ->
  snd (step (fst (run d ops)) (OQuery (SSnap sid) tab q)) = snd (step d (OQuery (SSnap sid) tab q)).
Proof.
  intros ops d sid r tab t q Hs Hr Ht Hq.
  pose proof (run_keeps_snapshot ops d sid r Hs Hr) as H.
  cbn [step src_root]. rewrite H, Hs, Ht. destruct q; try reflexivity. congruence.
Qed.
Print Assumptions C01_queries_frozen.

Example C01_nonvacuous :
  let d := fst (run (init_db 2) [OBegin [0%nat]; OInsert 0 (mkP [97] 1 [] [] [] []); OCommit 7]) in
  exists r, assoc 7 (d_snaps d) = Some r /\
  snd (step (fst (run d [OBegin [0%nat]; ODelete 0 [97]; OCommit 8])) (OQuery (SSnap 7) 0 QAll))
  = OutObjs [mkO (mkP [97] 1 [] [] [] []) 1].
Proof. eexists; split; vm_compute; reflexivity. Qed.

(* ---- memory level: the slices whose backing arrays the Go code shares between snapshots ----
   (Base/Slice.v: heap of backing arrays, Go slice headers; Table/SliceProofs.v: lpmEntry.tail,
   tableInitialization.pending, the root slice in Commit — current code, pre-fix code 9ab81d8^,
   and the seeded variants S-C13-3, S-C19-1, S-C05-1) *)
From SV Require Base.Slice Table.InvDefs Table.SliceProofs.
Module C01_Slices.
Import SV.Base.Slice SV.Table.InvDefs SV.Table.SliceProofs.
Local Open Scope nat_scope.

(* lpmEntry.upsert (after fix 9ab81d8) writes only into a fresh array: every entry value that
   existed before the call (= what earlier snapshots hold) reads the same afterwards *)
Theorem C01_lpm_entry_upsert_frame : forall (h : eheap) (e : mentry) (pk : bytes) (o : object) (e' : mentry),
  me_wf h e' -> me_den (fst (upsert_new h e pk o)) e' = me_den h e'.
Proof. exact upsert_new_frame. Qed.
Print Assumptions C01_lpm_entry_upsert_frame.

Theorem C01_lpm_entry_delete_frame : forall (h : eheap) (e : mentry) (pk : bytes) (e' : mentry),
  me_wf h e' -> me_den (fst (delete_new h e pk)) e' = me_den h e'.
Proof. exact delete_new_frame. Qed.
Print Assumptions C01_lpm_entry_delete_frame.

(* and the writer's own view is the pure e_upsert / e_delete of Table/Model.v *)
Theorem C01_lpm_entry_ops_refine_model : forall (h : eheap) (e : mentry) (pk : bytes) (o : object),
  me_wf h e -> esorted (me_den h e) ->
  me_den (fst (upsert_new h e pk o)) (snd (upsert_new h e pk o)) = e_upsert pk o (me_den h e) /\
  me_den (fst (delete_new h e pk)) (snd (delete_new h e pk)) = e_delete pk (me_den h e).
Proof.
  intros h e pk o W S. split; [apply (upsert_refines_both 0 h e pk o W S)|apply (delete_refines_both h e pk W S)].
Qed.
Print Assumptions C01_lpm_entry_ops_refine_model.

(* defect D1 (fixed by 9ab81d8): the in-place upsert changes what another holder of the entry reads *)
Theorem C01_upsert_inplace_refuted :
  exists (h : eheap) (e : mentry) (k : bytes) (o : object) (e_other : mentry),
    me_wf h e /\ me_wf h e_other /\ esorted (me_den h e) /\
    forall extra, me_den h e_other <> me_den (fst (upsert_old extra h e k o)) e_other.
Proof. exact upsert_old_alias_refuted. Qed.
Print Assumptions C01_upsert_inplace_refuted.

(* seeded S-C13-3: slices.Delete in lpmEntry.delete *)
Theorem C01_delete_inplace_refuted :
  exists (h : eheap) (e : mentry) (k : bytes) (e_other : mentry),
    me_wf h e /\ me_wf h e_other /\ esorted (me_den h e) /\
    me_den h e_other <> me_den (fst (delete_inplace h e k)) e_other /\
    me_den (fst (delete_inplace h e k)) e_other = [wobj 10 1; wobj 30 1; wobj 40 1; ezero].
Proof. exact delete_inplace_alias_refuted. Qed.
Print Assumptions C01_delete_inplace_refuted.

(* RegisterInitializer (Clone + append) and the mark-done closure (Clone + DeleteFunc): any
   sequence of them leaves every pre-existing pending slice unchanged (commit or abort) *)
Theorem C01_init_pending_frame : forall (ops : list iop) (h : sheap) (init : option Slice.slice) (s : Slice.slice),
  init_wf h init -> sl_wf h s -> sl_den (fst (fold_left istep_new ops (h, init))) s = sl_den h s.
Proof. exact init_pending_frame. Qed.
Print Assumptions C01_init_pending_frame.

(* seeded S-C19-1: committed [a b]; done_b (re-slice), Register(c) (append in place), abort: [a c] *)
Theorem C01_init_pending_alias_refuted :
  exists (h : sheap) (p : Slice.slice) (a b c : bytes),
    sl_wf h p /\ sl_den h p = [a; b] /\
    forall e1 e2 e3,
      sl_den (fst (fold_left istep_seeded [IDone b e1; IReg c e2 e3] (h, Some p))) p = [a; c] /\ [a; c] <> [a; b].
Proof.
  exists [[[97%N]; [98%N]]], (mkS 0 0 2 2), [97%N], [98%N], [99%N].
  split; [split; cbn; lia|]. split; [reflexivity|].
  intros e1 e2 e3. split; [vm_compute; reflexivity|discriminate].
Qed.
Print Assumptions C01_init_pending_alias_refuted.

(* Commit: loop writing root[pos] = currentRoot[pos], THEN append: publishes the current entry of
   every unlocked table, its own entry for every locked one, then the tables registered meanwhile,
   and writes nothing outside the transaction's private clone *)
Theorem C01_commit_root_append_frame : forall extra locked (h : rheap) (entries cur : Slice.slice),
  sl_wf h entries -> sl_wf h cur -> s_arr cur <> s_arr entries -> s_len entries <= s_len cur ->
  let r := commit_root_good extra locked h entries cur in
  (forall pos, pos < s_len entries -> locked (nth pos (sl_den h entries) 0) = false ->
     nth pos (sl_den (fst r) (snd r)) 0 = nth pos (sl_den h cur) 0) /\
  (forall pos, pos < s_len entries -> locked (nth pos (sl_den h entries) 0) = true ->
     nth pos (sl_den (fst r) (snd r)) 0 = nth pos (sl_den h entries) 0) /\
  skipn (s_len entries) (sl_den (fst r) (snd r)) = skipn (s_len entries) (sl_den h cur) /\
  (forall s, sl_wf h s -> s_arr s <> s_arr entries -> sl_den (fst r) s = sl_den h s).
Proof.
  intros extra locked h entries cur. intros We Wc Hne Hlen. cbv zeta.
  destruct (commit_root_good_spec extra locked h entries cur We Wc Hne Hlen) as [D P]. rewrite D.
  split; [|split; [|split]].
  - intros pos Hp Hl. rewrite nth_map_seq by auto. unfold root_want. now rewrite Hl.
  - intros pos Hp Hl. rewrite nth_map_seq by auto. unfold root_want. now rewrite Hl.
  - rewrite skipn_app, map_length, seq_length, Nat.sub_diag, skipn_all2 by (rewrite map_length, seq_length; lia).
    reflexivity.
  - intros s Ws Hs. apply (P s Ws). now left.
Qed.
Print Assumptions C01_commit_root_append_frame.

(* seeded S-C05-1: append before the loop + loop writing through txn.tableEntries: when the
   append reallocates the stale entry of an unlocked table is published *)
Theorem C01_commit_root_append_refuted :
  exists locked (h : rheap) (entries cur : Slice.slice) pos,
    sl_wf h entries /\ sl_wf h cur /\ s_arr cur <> s_arr entries /\ s_len entries <= s_len cur /\
    pos < s_len entries /\ locked (nth pos (sl_den h entries) 0) = false /\
    forall extra,
      let r := commit_root_bad extra locked h entries cur in
      nth pos (sl_den (fst r) (snd r)) 0 <> nth pos (sl_den h cur) 0 /\
      sl_den (fst r) (snd r) = [10; 2; 4] /\
      sl_den (fst (commit_root_good extra locked h entries cur)) (snd (commit_root_good extra locked h entries cur)) = [10; 3; 4].
Proof.
  exists w_locked, w_rheap, w_entries, w_cur, 1.
  split; [split; cbn; lia|]. split; [split; cbn; lia|]. split; [cbn; lia|]. split; [cbn; lia|].
  split; [cbn; lia|]. split; [reflexivity|].
  intros extra. cbv zeta. split; [vm_compute; discriminate|]. split; vm_compute; reflexivity.
Qed.
Print Assumptions C01_commit_root_append_refuted.

End C01_Slices.
