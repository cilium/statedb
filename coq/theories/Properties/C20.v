(* Properties/C20.v — WatchSet.Wait returns exactly the closed members and keeps the rest.
   The model (WatchSet/Model.v) computes, for a member set, a timeline of close/cancel events on a
   virtual clock, the instant t0 of the call and the settle time, the list of ALL outcomes Wait may
   produce (reflect.Select chooses freely among ready cases; simultaneous events are unordered).
   Every theorem quantifies over every member set, timeline, call instant, settle time and outcome.
   Each theorem is followed by its printed assumptions. *)
From SV Require Import WatchSet.Model WatchSet.Proofs WatchSet.Loop.
From Coq Require Import List PeanoNat.
Import ListNotations.

(* returned channels are members of the set and are closed when Wait returns *)
Theorem C20_returned_are_closed_members : forall evs t0 settle ms o,
  NoDup ms -> In o (wait_outcomes evs t0 settle ms) ->
  forall c, In c (o_ret o) -> In c ms /\ exists t, close_time evs c = Some t /\ t <= o_time o.
Proof.
  intros evs t0 settle ms o Hnd Hin c Hc.
  destruct (outcome_facts _ _ _ _ _ Hin) as [t1 [_ [_ [_ [_ [_ [F _]]]]]]]. destruct (F c Hc) as [Hm [tx [Htx Hle]]].
  split; [exact Hm|]. destruct (eclose_inv _ _ _ _ Htx) as [tc [Hct ->]]. exists tc. split; [exact Hct | Lia.lia].
Qed.
Print Assumptions C20_returned_are_closed_members.

(* no channel is reported twice *)
Theorem C20_returned_no_duplicates : forall evs t0 settle ms o,
  NoDup ms -> In o (wait_outcomes evs t0 settle ms) -> NoDup (o_ret o).
Proof.
  intros evs t0 settle ms o Hnd Hin. destruct (outcome_facts _ _ _ _ _ Hin) as [t1 [_ [_ [_ [_ [F _]]]]]]. exact (F Hnd).
Qed.
Print Assumptions C20_returned_no_duplicates.

(* exactly the returned channels are removed: every other member stays, nothing else appears *)
Theorem C20_remaining_is_members_minus_returned : forall evs t0 settle ms o,
  NoDup ms -> In o (wait_outcomes evs t0 settle ms) ->
  (forall x, In x (o_rem o) <-> In x ms /\ ~ In x (o_ret o)) /\ NoDup (o_rem o).
Proof.
  intros evs t0 settle ms o Hnd Hin. destruct (outcome_facts _ _ _ _ _ Hin) as [t1 [_ [_ [_ [-> _]]]]].
  split; [intros x; apply ws_remove_In | apply ws_remove_NoDup, Hnd].
Qed.
Print Assumptions C20_remaining_is_members_minus_returned.

(* no result while no member is closed unless the context ended; a non-nil error is the context's
   error and the context has ended by then; a nil error comes with at least one channel *)
Theorem C20_error_iff_context : forall evs t0 settle ms o,
  In o (wait_outcomes evs t0 settle ms) ->
  (o_ret o = [] -> o_err o <> None) /\
  (o_err o = None -> o_ret o <> []) /\
  (forall k, o_err o = Some k -> exists tc, cancel_of evs = Some (tc, k) /\ tc <= o_time o).
Proof.
  intros evs t0 settle ms o Hin.
  destruct (proj1 (wait_spec _ _ _ _ _) Hin) as [t1 tc k Hft Hco Ht1 | t1 c Hft Hc Hec Hs | t1 c sub e Hft Hc Hec Hs t2 Hsub He];
    simpl; (split; [discriminate|]); (split; [discriminate|]).
  - intros k' [= <-]. exists tc. split; [exact Hco | Lia.lia].
  - discriminate.
  - intros k ->. apply settle_errs_spec in He. destruct (cancel_of evs) as [[tc k']|] eqn:Hco; [|discriminate].
    destruct He as [[[= <-] Hle] | [[=] _]]. exists tc. split; [reflexivity|].
    destruct (settle_end_spec evs t0 ms t1 settle Hft) as [_ [S2 _]]. unfold t2. rewrite (S2 _ _ Hco). Lia.lia.
Qed.
Print Assumptions C20_error_iff_context.

(* Wait returns no later than (first close of a member, or the call if later) + settle, and no later
   than the end of the context; never before the call *)
Theorem C20_return_time_bounded : forall evs t0 settle ms o,
  NoDup ms -> In o (wait_outcomes evs t0 settle ms) ->
  t0 <= o_time o /\
  (forall m tm, In m ms -> close_time evs m = Some tm -> o_time o <= Nat.max t0 tm + settle) /\
  (forall tc k, cancel_of evs = Some (tc, k) -> o_time o <= Nat.max t0 tc).
Proof.
  intros evs t0 settle ms o Hnd Hin.
  destruct (outcome_facts _ _ _ _ _ Hin) as [t1 [Hft [[Hlo Hhi] [Hc _]]]]. pose proof (first_time_ge _ _ _ _ Hft) as Hge.
  split; [Lia.lia|]. split.
  - intros m tm Hm Hct. assert (t1 <= Nat.max t0 tm); [|Lia.lia].
    apply (first_time_lb _ _ _ _ Hft). right. exists m. split; [exact Hm | exact (eclose_of _ _ _ _ Hct)].
  - intros tc k Hco. exact (Hc _ (ecancel_of _ _ _ _ Hco)).
Qed.
Print Assumptions C20_return_time_bounded.

(* every member closed before Wait returns is reported (none is lost). This matters with a settle time; it holds
   of every outcome, and none of the three hypotheses before `forall m` is used: without the settle loop Wait
   returns at the first select, before which no member is closed *)
Theorem C20_settle_gathers_all_closed : forall evs t0 settle ms o,
  NoDup ms -> In o (wait_outcomes evs t0 settle ms) -> settle <> 0 -> o_ret o <> [] ->
  forall m tm, In m ms -> close_time evs m = Some tm -> Nat.max t0 tm < o_time o -> In m (o_ret o).
Proof.
  intros evs t0 settle ms o _ Hin _ _ m tm Hm Hct.
  destruct (outcome_facts _ _ _ _ _ Hin) as [t1 [_ [_ [_ [_ [_ [_ G]]]]]]]. exact (G m _ Hm (eclose_of _ t0 _ _ Hct)).
Qed.
Print Assumptions C20_settle_gathers_all_closed.

(* the settle loop select by select (WatchSet/Loop.v: settle_run = "some ready case is chosen; when
   none is ready time passes; choosing case 0 ends the loop"), started as the code starts it after
   the first select chose member c at t1, only produces outcomes of the allowed list: same return
   instant, same error, same returned channels and same remaining set (as sets) *)
Theorem C20_settle_loop_refines : forall evs t0 settle ms t1 c e r rt,
  NoDup ms -> first_time evs t0 ms = Some t1 -> In c ms -> eclose evs t0 c = Some t1 -> settle <> 0 ->
  In e (settle_errs evs t0 t1 settle) ->
  settle_run (eclose evs t0) (settle_end evs t0 t1 settle) (ws_remove ms [c]) [c] t1 r rt ->
  exists o, In o (wait_outcomes evs t0 settle ms) /\ o_time o = rt /\ o_err o = e /\
            (forall x, In x (o_ret o) <-> In x r) /\
            (forall x, In x (o_rem o) <-> In x ms /\ ~ In x r).
Proof. exact settle_loop_refines. Qed.
Print Assumptions C20_settle_loop_refines.

(* the model does not block where the code would not: as soon as some member is closed at some time
   or the context ends, an outcome is allowed *)
Theorem C20_allowed_nonempty : forall evs t0 settle ms,
  (exists m, In m ms /\ close_time evs m <> None) \/ cancel_of evs <> None ->
  wait_outcomes evs t0 settle ms <> [].
Proof. exact wait_nonempty. Qed.
Print Assumptions C20_allowed_nonempty.

(* ... and Wait does not return when no member is ever closed and the context never ends *)
Theorem C20_blocks_when_nothing_ready : forall evs t0 settle ms,
  (forall m, In m ms -> close_time evs m = None) -> cancel_of evs = None ->
  wait_outcomes evs t0 settle ms = [].
Proof.
  intros evs t0 settle ms Hm Hc.
  assert (Hn : first_time evs t0 ms = None).
  { destruct (first_time evs t0 ms) as [t1|] eqn:Hft; [|reflexivity].
    destruct (first_time_attained _ _ _ _ Hft) as [Fa | [m [Hmm Hem]]].
    - rewrite (ecancel_none _ _ Hc) in Fa. discriminate.
    - unfold eclose in Hem. rewrite (Hm m Hmm) in Hem. discriminate. }
  unfold wait_outcomes. destruct ms; [rewrite Hc | rewrite Hn]; reflexivity.
Qed.
Print Assumptions C20_blocks_when_nothing_ready.

(* Add/Merge/Clear/Has/HasAny are the set operations, and keep the representation duplicate-free
   (so the NoDup hypothesis above holds for every set built through the API) *)
Theorem C20_set_operations :
  (forall s c, ws_has s c = true <-> In c s) /\
  (forall s cs x, In x (ws_add s cs) <-> In x s \/ In x cs) /\
  (forall s o x, In x (ws_merge s o) <-> In x s \/ In x o) /\
  (forall s x, ~ In x (ws_clear s)) /\
  (forall s cs, ws_hasany s cs = true <-> exists c, In c cs /\ In c s) /\
  (forall s cs, NoDup s -> NoDup (ws_add s cs)) /\
  (forall s o, NoDup s -> NoDup (ws_merge s o)) /\
  (forall s, NoDup (ws_clear s)).
Proof.
  (* Merge is Add of the other set's members *)
  exact (conj ws_has_In (conj ws_add_In (conj ws_add_In (conj (fun _ _ H => H)
        (conj ws_hasany_spec (conj ws_add_NoDup (conj ws_add_NoDup (fun _ => NoDup_nil _)))))))).
Qed.
Print Assumptions C20_set_operations.

(* non-vacuity: a scenario with several allowed outcomes, each with returned channels, an error
   and a remaining set: members {1,2,3,4} (built with duplicates), 1 closed before the call at 2,
   2 closed at 5, 3 closed at 9 = the instant at which the context is cancelled, settle 10 *)
Example C20_nonvacuous :
  let ms := ws_add [] [1; 2; 1; 3; 4] in
  let evs := [Close 1 0; Close 2 5; Close 3 9; Cancel Canceled 9] in
  NoDup ms /\
  wait_outcomes evs 2 10 ms =
    [mkOutcome [1; 2] (Some Canceled) [3; 4] 9; mkOutcome [1; 2; 3] (Some Canceled) [4] 9] /\
  wait_outcomes evs 2 0 ms = [mkOutcome [1] None [2; 3; 4] 2] /\
  wait_outcomes [Close 1 0; Close 2 0; Cancel Deadline 1] 2 0 ms <> [] /\
  wait_outcomes [] 2 10 ms = [].
Proof.
  vm_compute. repeat split; try discriminate.
  repeat constructor; simpl; intuition discriminate.
Qed.

(* non-vacuity of the loop theorem: members {1,2}, 1 closed before the call, 2 closed at 3, settle 5:
   the loop blocks until 3, picks 2, blocks until 5, ends *)
Example C20_loop_nonvacuous :
  let evs := [Close 1 0; Close 2 3] in
  first_time evs 0 [1; 2] = Some 0 /\ eclose evs 0 1 = Some 0 /\ In None (settle_errs evs 0 0 5) /\
  settle_run (eclose evs 0) (settle_end evs 0 0 5) (ws_remove [1; 2] [1]) [1] 0 [1; 2] 5.
Proof.
  cbv zeta. split; [reflexivity|]. split; [reflexivity|]. split; [left; reflexivity|].
  change (settle_end [Close 1 0; Close 2 3] 0 0 5) with 5. change (ws_remove [1; 2] [1]) with [2].
  assert (Hnone : forall now, now < 3 -> forall c tc, In c [2] -> eclose [Close 1 0; Close 2 3] 0 c = Some tc -> now < tc).
  { intros now Hlt c tc [E | []] H. subst c. vm_compute in H. inversion H. subst. exact Hlt. }
  do 3 (apply sr_block; [repeat constructor | apply Hnone; repeat constructor |]).
  apply (sr_pick _ _ [2] [1] 3 2 3); [left; reflexivity | reflexivity | constructor |].
  change (ws_remove [2] [2]) with (@nil chan). change ([1] ++ [2]) with [1; 2].
  do 2 (apply sr_block; [repeat constructor | intros c tc [] |]).
  apply sr_done. constructor.
Qed.
