(* Properties/C05.v — Writers of a table are serialised; no committed write is lost.
   First single steps of DB/Model.v; then the invariants over all schedules (DB/Invariants.v, DB/Visibility.v); then what
   breaks without the root lock (DB/NoRootLock.v). *)
From Coq Require Import Arith PeanoNat.
From SV Require Import DB.Model DB.Proofs.
Open Scope N_scope.

(* a table lock can only be taken when it is free: the acquiring step is disabled otherwise *)
Theorem C05_lock_requires_free_partial : forall s i a k t,
  nth_error (s_actors s) i = Some a -> a_pc a = PLocking k -> nth_error (a_locks a) k = Some t ->
  enabled s i = true -> nth_error (s_tlock s) t = Some None.
Proof.
  intros s i a k t Ha Hpc Hk. unfold enabled. rewrite Ha, Hpc, Hk.
  destruct (nth_error (s_tlock s) t) as [[h|]|]; congruence.
Qed.
Print Assumptions C05_lock_requires_free_partial.

Example C05_nonvacuous :
  let s := run (init_st 2 [(1, KWriter [0%nat] [0%nat] true [] []); (2, KWriter [0%nat] [0%nat] true [] [])])
               [0; 0; 0; 1; 1]%nat in
  enabled s 1 = false /\ enabled s 0 = true.
Proof. split; reflexivity. Qed.

(* ==== all schedules (DB/Invariants.v, DB/Visibility.v, DB/Reach.v) ================================
   `reach ntab actors sched = run (init_st ntab actors) sched` for ANY schedule of ANY well-formed system
   (wf_system: wf_actors + pairwise distinct transaction ids). Table contents are abstracted to the set of
   ids of the transactions whose writes they contain (tv_ids). *)
From SV Require Import DB.Invariants DB.Locks DB.Visibility DB.Reach.
Open Scope nat_scope.

(* MUTUAL EXCLUSION: two different actors never hold the same table (between WriteTxn returning and the
   unlock step of Commit / Abort an actor holds its whole lock set) *)
Theorem C05_mutual_exclusion : forall ntab actors sched i j a b t, wf_actors ntab actors ->
  let s := reach ntab actors sched in
  nth_error (s_actors s) i = Some a -> nth_error (s_actors s) j = Some b ->
  In t (held a) -> In t (held b) -> i = j.
Proof. intros * Hwf s. apply (mutual_exclusion ntab), reach_Inv, Hwf. Qed.
Print Assumptions C05_mutual_exclusion.

(* while an actor holds table t, no step of any other actor changes the committed entry of t *)
Theorem C05_held_entry_stable : forall ntab actors sched i j b t, wf_actors ntab actors ->
  let s := reach ntab actors sched in
  j <> i -> nth_error (s_actors s) j = Some b -> In t (held b) ->
  nth_error (s_root (step s i)) t = nth_error (s_root s) t.
Proof. intros * Hwf s. apply (held_entry_stable ntab), reach_Inv, Hwf. Qed.
Print Assumptions C05_held_entry_stable.

(* CLONE IS LATEST: from its root load to its root store (or abort) the private entry of every table a
   writer holds is the CURRENT committed entry (before its writes), resp. has the current committed id set
   plus its own id on the tables it writes (after them) *)
Theorem C05_clone_is_latest : forall ntab actors sched i a t, wf_system ntab actors ->
  let s := reach ntab actors sched in
  nth_error (s_actors s) i = Some a -> In t (a_locks a) ->
  (a_pc a = PRootLoaded -> nth_error (a_entries a) t = nth_error (s_root s) t) /\
  (a_pc a = PCommitIdx \/ a_pc a = PRootLocked \/ a_pc a = PCommitLoaded \/ a_pc a = PAbortBefore ->
   exists v e, nth_error (s_root s) t = Some v /\ nth_error (a_entries a) t = Some e /\
               forall x, In x (tv_ids e) <-> (x = a_id a /\ In t (writes_of a)) \/ In x (tv_ids v)).
Proof. intros * Hwf s. destruct (reach_Good ntab actors sched Hwf). apply clone_is_latest; assumption. Qed.
Print Assumptions C05_clone_is_latest.

(* ... hence a writer sees every write committed to a table it holds *)
Theorem C05_sees_all_committed : forall ntab actors sched i a j b t, wf_system ntab actors ->
  let s := reach ntab actors sched in
  nth_error (s_actors s) i = Some a -> In t (a_locks a) ->
  a_pc a = PRootLoaded \/ a_pc a = PCommitIdx \/ a_pc a = PRootLocked \/ a_pc a = PCommitLoaded \/ a_pc a = PAbortBefore ->
  nth_error (s_actors s) j = Some b -> committed b = true -> In t (writes_of b) ->
  exists e, nth_error (a_entries a) t = Some e /\ In (a_id b) (tv_ids e).
Proof. intros * Hwf s. destruct (reach_Good ntab actors sched Hwf). apply (sees_all_committed ntab); assumption. Qed.
Print Assumptions C05_sees_all_committed.

(* NO LOST WRITE: an id visible in the committed entry of t after schedule s1 is visible after s1 ++ s2 *)
Theorem C05_no_lost_write : forall ntab actors s1 s2 t v x, wf_system ntab actors ->
  nth_error (s_root (reach ntab actors s1)) t = Some v -> In x (tv_ids v) ->
  exists v', nth_error (s_root (reach ntab actors (s1 ++ s2))) t = Some v' /\ In x (tv_ids v').
Proof.
  intros * Hwf Hv Hx. rewrite reach_app. destruct (reach_Good ntab actors s1 Hwf).
  apply (no_lost_write ntab s2 _ t v x); assumption.
Qed.
Print Assumptions C05_no_lost_write.

(* REGISTRATION KEEPS ENTRIES / what a step can do to the root: nothing; or (registrar's store step, pc PRegLoaded)
   append one fresh entry to the CURRENT root; or (root store of a committing writer, pc PCommitLoaded) keep the
   CURRENT length, keep the current entry of every table outside its lock set - in particular of tables registered
   after it loaded the root - and add exactly its own id to the tables of its lock set that it writes. Writers name
   only tables that exist from the start (wf_actors), so a registered table is never locked or written here. *)
Theorem C05_root_step_cases : forall ntab actors sched i, wf_system ntab actors ->
  let s := reach ntab actors sched in
  s_root (step s i) = s_root s \/
  (exists a, nth_error (s_actors s) i = Some a /\ a_kind a = KRegistrar /\ a_pc a = PRegLoaded /\
             s_root (step s i) = s_root s ++ [mkV [] (s_nextw s) None]) \/
  (exists a, nth_error (s_actors s) i = Some a /\ a_pc a = PCommitLoaded /\ commits a = true /\
     length (s_root (step s i)) = length (s_root s) /\
     (forall t, ~ In t (a_locks a) -> nth_error (s_root (step s i)) t = nth_error (s_root s) t) /\
     (forall t v, In t (a_locks a) -> nth_error (s_root s) t = Some v ->
        exists v', nth_error (s_root (step s i)) t = Some v' /\
                   forall x, In x (tv_ids v') <-> (x = a_id a /\ In t (writes_of a)) \/ In x (tv_ids v))).
Proof. intros * Hwf s. destruct (reach_Good ntab actors sched Hwf). apply (root_step_cases ntab); assumption. Qed.
Print Assumptions C05_root_step_cases.

Example C05_nonvacuous_wf :
  wf_system 2 [(1%N, KWriter [0; 1] [0] true [] []); (2%N, KWriter [1] [1] true [] []); (3%N, KRegistrar)].
Proof.
  split.
  - intros ik [<-|[<-|[<-|[]]]]; cbn; repeat split; try (intros x Hx; cbn in Hx; intuition (subst; cbn; auto)).
  - cbn. repeat constructor; cbn; intuition discriminate.
Qed.

(* ==== the root read-modify-write inside db.mu (DB/Invariants.v inv_cur, DB/NoRootLock.v) ===========
   Commit loads the root inside db.mu (`currentRoot := *db.root.Load()`, step at pc PRootLocked, hook point
   "commit-root-loaded": a_cur := s_root) and stores the merge into THAT root at the next step (pc PCommitLoaded);
   registerTable likewise (`slices.Clone( *db.root.Load())`, pc PRegLocked, hook point "register-root-loaded"; store of
   a_cur ++ [new entry] at pc PRegLoaded). *)
From SV Require Import DB.NoRootLock.

(* THE LOADED ROOT IS THE CURRENT ROOT: in every reachable state an actor between its root load inside db.mu and
   its root store has loaded exactly the current committed root (nobody stored in between) *)
Theorem C05_loaded_root_is_current : forall ntab actors sched i a, wf_system ntab actors ->
  let s := reach ntab actors sched in
  nth_error (s_actors s) i = Some a ->
  (a_pc a = PCommitLoaded \/ a_pc a = PRegLoaded) -> a_cur a = s_root s.
Proof.
  intros ntab actors sched i a [Hwf _] s Ha Hp.
  exact (proj1 (loaded_root_is_current ntab (reach_Inv ntab actors sched Hwf) Ha Hp)).
Qed.
Print Assumptions C05_loaded_root_is_current.

(* ... because it holds db.mu all the while (and db.mu is exclusive: C10_lock_invariant) *)
Theorem C05_loaded_holds_root_lock : forall ntab actors sched i a, wf_actors ntab actors ->
  let s := reach ntab actors sched in
  nth_error (s_actors s) i = Some a ->
  (a_pc a = PCommitLoaded \/ a_pc a = PRegLoaded) -> a_cur a = s_root s /\ s_rlock s = Some i /\ rholds a = true.
Proof.
  intros ntab actors sched i a Hwf s Ha Hp.
  destruct (loaded_root_is_current ntab (reach_Inv ntab actors sched Hwf) Ha Hp) as [H1 H2].
  split; [exact H1|]. split; [exact H2|]. unfold rholds. destruct Hp as [-> | ->]; reflexivity.
Qed.
Print Assumptions C05_loaded_holds_root_lock.

(* non-vacuity: a registrar registered a second table after the writer cloned the root and before its Commit took
   db.mu: at PCommitLoaded the loaded root has 2 entries (the clone 1) and is the current root; a registrar at PRegLoaded *)
Example C05_loaded_root_nonvacuous :
  let acts := [(1%N, KWriter [0] [0] true [] []); (2%N, KRegistrar)] in
  wf_system 1 acts /\
  (let s := reach 1 acts (repeat 0 6 ++ repeat 1 5 ++ [0; 0]) in
   exists a, nth_error (s_actors s) 0 = Some a /\ a_pc a = PCommitLoaded /\
     length (a_entries a) = 1 /\ length (a_cur a) = 2 /\ a_cur a = s_root s /\ s_rlock s = Some 0) /\
  (let s := reach 1 acts (repeat 1 3) in
   exists a, nth_error (s_actors s) 1 = Some a /\ a_pc a = PRegLoaded /\ a_cur a = s_root s /\ s_rlock s = Some 1).
Proof.
  split; [split|split].
  - intros ik [<-|[<-|[]]]; cbn; repeat split; try (intros x Hx; cbn in Hx; intuition (subst; cbn; auto)).
  - cbn. repeat constructor; cbn; intuition discriminate.
  - exact loaded_root_nonvacuous.
  - exact loaded_root_nonvacuous_reg.
Qed.

(* REFUTATION (seeded change S2-C05-3: db.mu moved into the DB handle, i.e. a per-handle mutex that excludes nobody).
   `step_norlock s i = step (free_rlock s) i` is the model's step with the root lock's exclusion removed (it agrees with
   `step` whenever db.mu is free: C05_step_norlock_agrees; actors about to take db.mu are always enabled). Then two
   writers on DISJOINT tables (writer 1: table 0, writer 2: table 1) lose a committed write: both load the root, writer 1
   stores, writer 2 merges into its stale root and stores. At the end both have committed and finished, and the id of
   writer 1 is missing from the committed entry of table 0 (contrast C05_no_lost_write / C02_visible_iff). *)
Theorem C05_step_norlock_agrees : forall s i, s_rlock s = None -> step_norlock s i = step s i.
Proof. intros s i H. unfold step_norlock. rewrite (free_rlock_id s H). reflexivity. Qed.
Print Assumptions C05_step_norlock_agrees.

Theorem C05_lost_write_without_root_lock_refuted :
  exists sched, let s := run_norlock (init_st 2 lw_acts) sched in
    (forall i a, nth_error (s_actors s) i = Some a -> a_pc a = PDone /\ committed a = true) /\
    (exists a v, nth_error (s_actors s) 0 = Some a /\ In 0 (writes_of a) /\
                 nth_error (s_root s) 0 = Some v /\ ~ In (a_id a) (tv_ids v)) /\
    map tv_ids (s_root s) = [[]; [2%N]].
Proof.
  exists lw_sched. cbv zeta. split; [|split].
  - intros [|[|i]] a H; vm_compute in H; [| |destruct i; discriminate]; injection H as <-; split; reflexivity.
  - eexists. eexists. split; [vm_compute; reflexivity|]. split; [cbn; auto|]. split; [vm_compute; reflexivity|].
    cbn. tauto.
  - vm_compute. reflexivity.
Qed.
Print Assumptions C05_lost_write_without_root_lock_refuted.

(* ... and the invariant above is what breaks: a writer at PCommitLoaded whose loaded root is no longer current *)
Theorem C05_loaded_root_stale_without_root_lock_refuted :
  exists sched i a, let s := run_norlock (init_st 2 lw_acts) sched in
    nth_error (s_actors s) i = Some a /\ a_pc a = PCommitLoaded /\ a_cur a <> s_root s.
Proof.
  exists (lw_both_loaded ++ [0]), 1. eexists. cbv zeta.
  split; [vm_compute; reflexivity|]. split; [reflexivity|]. vm_compute. discriminate.
Qed.
Print Assumptions C05_loaded_root_stale_without_root_lock_refuted.

(* ... a table registration is lost the same way (the writer's stale root is shorter than the stored one) *)
Theorem C05_lost_registration_without_root_lock_refuted :
  exists sched, let s := run_norlock (init_st 1 lr_acts) sched in
    map a_pc (s_actors s) = [PRootStored; PRegStored] /\ length (s_root s) = 1 /\ length (s_tlock s) = 2.
Proof. exists (repeat 0 8 ++ repeat 1 3 ++ [1; 0]). vm_compute. repeat split; reflexivity. Qed.
Print Assumptions C05_lost_registration_without_root_lock_refuted.

(* the witness system is well-formed, its writers' table sets are disjoint, and WITH db.mu the same schedule (writer 2's
   root-lock step is disabled while writer 1 holds db.mu) loses nothing *)
Example C05_lost_write_witness_wf :
  wf_system 2 lw_acts /\ (forall t, In t [0] -> ~ In t [1]) /\
  (let s := run (init_st 2 lw_acts) (lw_sched ++ [1; 1; 1]) in
   map a_pc (s_actors s) = [PDone; PDone] /\ map tv_ids (s_root s) = [[1%N]; [2%N]]).
Proof.
  split; [exact lw_wf|]. split; [exact lw_disjoint|]. vm_compute. split; reflexivity.
Qed.
