(* Properties/C07.v — Change iterators: what one Next does, ordering and convergence of everything
   delivered (Table/ChangesStream.v .. ChangesSnap.v), and the two in-tree consumers (Table/Clients*.v). *)
From SV Require Import Base.Bytes Base.OrdMap Table.Model Table.Proofs.
Open Scope N_scope.

(* when Next finds nothing pending and the table unchanged since the last refresh it returns an
   open watch channel, delivers nothing and changes nothing *)
Theorem C07_idle_next_delivers_nothing_partial : forall d iid s take it r t cur,
  assoc iid (d_iters d) = Some it -> src_committed d s = Some r ->
  nth_error r (it_tab it) = Some t -> nth_error (d_root d) (it_tab it) = Some cur ->
  it_pending it = None -> t_rev cur = it_watchrev it ->
  step d (ONext iid s take) = (d, OutChanges [] false).
Proof.
  intros d iid s take it r t cur Hi Hs Ht Hc Hp Hw. cbn [step].
  rewrite Hi, Hs, Ht, Hc, Hp, Hw, N.eqb_refl. reflexivity.
Qed.
Print Assumptions C07_idle_next_delivers_nothing_partial.

Example C07_nonvacuous :
  let d := fst (run (init_db 1) [OBegin [0%nat]; OInsert 0 (mkP [97] 1 [] [] [] []); OChanges 1 0; OCommit 0]) in
  snd (step d (ONext 1 SFresh None)) = OutChanges [(mkO (mkP [97] 1 [] [] [] []) 1, false)] true.
Proof. vm_compute. reflexivity. Qed.

(* Along runs (Table/ChangesStream.v, ChangesIter.v, ChangesProofs.v, ChangesHist.v).
   Vocabulary: `delivered iid d ops` = everything iterator iid is handed by the Next / Resume steps of a
   run; `replay` folds it (update sets pk -> (val, rev), delete removes pk); `abs_of t` = the objects and
   revisions of table t; `grun` threads the ghost "table last refreshed from"; `good_run c` = what the
   caller owes per Next: the snapshot is a later-or-equal state (tab_le) of the previous one, satisfies the
   table invariant and has revision room, and (c = true) its graveyard has retained what the iterator may
   still need (`retained`, property C08). `fresh_*` theorems discharge all of that for iterators advanced
   with fresh read transactions (or the current write transaction) after the creating transaction
   committed, from `ok_run` (TInv + revision room in every state of the run: Table/Inv.v).
   Known exclusion K4 (Changes after a delete in the same transaction, then Next(that transaction)):
   Table/ChangesProofs.v changes_after_delete_refuted; excluded here by tab_le / `friendly`. *)
From SV Require Import KeyEnc.Model Table.InvDefs Table.Inv Table.ChangesStream Table.ChangesIter
                       Table.ChangesProofs Table.ChangesRet Table.ChangesHist.
From Coq Require Import Permutation.

(* LowerBound(ByRevision(r)) = exactly the live objects with revision >= r, strictly ascending *)
Theorem C07_update_stream_exact : forall t, TInv t -> rev_bound t -> forall r, r < B64 ->
  asc (map o_rev (upd_stream t r)) /\ forall o, In o (upd_stream t r) <-> live t o /\ r <= o_rev o.
Proof. exact upd_stream_spec. Qed.
Print Assumptions C07_update_stream_exact.

(* the graveyard-revision index from r = exactly the retained deletions with revision >= r, ascending *)
Theorem C07_delete_stream_exact : forall t, TInv t -> rev_bound t -> forall r, r < B64 ->
  asc (map o_rev (del_stream t r)) /\ forall o, In o (del_stream t r) <-> dead t o /\ r <= o_rev o.
Proof. exact del_stream_spec. Qed.
Print Assumptions C07_delete_stream_exact.

(* dualIterator: the merge of two ascending streams with disjoint revisions is strictly ascending ... *)
Theorem C07_merge_strictly_ascending : forall f dels upds, (length dels + length upds <= f)%nat ->
  asc (map o_rev dels) -> asc (map o_rev upds) ->
  (forall d u, In d dels -> In u upds -> o_rev d <> o_rev u) ->
  asc (map crev (merge_streams f dels upds)).
Proof. exact merge_asc. Qed.
Print Assumptions C07_merge_strictly_ascending.

(* ... and a permutation of the tagged union *)
Theorem C07_merge_is_union : forall f dels upds, (length dels + length upds <= f)%nat ->
  Permutation (merge_streams f dels upds) (tag true dels ++ tag false upds).
Proof. exact merge_perm. Qed.
Print Assumptions C07_merge_is_union.

(* refresh against committed table S: the pending stream is, strictly ascending, exactly the retained
   deletions above the delete cursor and the live objects above the update cursor *)
Theorem C07_refresh_exact : forall S it, TInv S -> rev_bound S ->
  it_rev it + 1 < B64 -> it_delrev it + 1 < B64 ->
  exists l, it_pending (refresh S it) = Some l /\ pend_spec l S (it_rev it) (it_delrev it) /\
    Permutation l (tag true (del_stream S (it_delrev it + 1)) ++ tag false (upd_stream S (it_rev it + 1))).
Proof. exact refresh_spec. Qed.
Print Assumptions C07_refresh_exact.

(* strictly increasing revisions across ALL Next / Resume calls of any run *)
Theorem C07_strictly_increasing : forall d iid tab t0 ops,
  created d iid tab t0 -> TInv t0 -> rev_room t0 ->
  let d0 := fst (step d (OChanges iid tab)) in
  good_run false iid (t0, []) d0 ops ->
  asc (map crev (delivered iid d0 ops)).
Proof. exact changes_strictly_increasing. Qed.
Print Assumptions C07_strictly_increasing.

(* convergence: whenever the iterator is exhausted, the replay of everything delivered since creation
   is exactly the table of the snapshot last handed to Next *)
Theorem C07_converges : forall d iid tab t0 ops,
  created d iid tab t0 -> TInv t0 -> rev_room t0 ->
  let d0 := fst (step d (OChanges iid tab)) in
  good_run true iid (t0, []) d0 ops ->
  forall it, assoc iid (d_iters (fst (run d0 ops))) = Some it -> it_pending it = None ->
  replay (delivered iid d0 ops) = abs_of (fst (grun iid (t0, []) d0 ops)).
Proof. exact changes_converge. Qed.
Print Assumptions C07_converges.

Theorem C07_converges_at_next : forall d iid tab t0 ops s S,
  created d iid tab t0 -> TInv t0 -> rev_room t0 ->
  let d0 := fst (step d (OChanges iid tab)) in
  good_run true iid (t0, []) d0 (ops ++ [ONext iid s None]) ->
  next_source (fst (run d0 ops)) iid s = Some S ->
  replay (delivered iid d0 (ops ++ [ONext iid s None])) = abs_of S.
Proof. exact changes_converge_next. Qed.
Print Assumptions C07_converges_at_next.

(* partially consumed sequences lose nothing *)
Theorem C07_partial_consumption : forall d iid tab t0 ops,
  created d iid tab t0 -> TInv t0 -> rev_room t0 ->
  let d0 := fst (step d (OChanges iid tab)) in
  good_run true iid (t0, []) d0 ops ->
  forall it, assoc iid (d_iters (fst (run d0 ops))) = Some it ->
  let G := fst (grun iid (t0, []) d0 ops) in
  (forall o, live G o -> o_rev o <= it_rev it ->
             om_get (pk o) (replay (delivered iid d0 ops)) = Some (p_val (o_data o), o_rev o)) /\
  (it_seq it = true -> forall l, it_pending it = Some l -> forall o b,
     In (o, b) l <-> (if b then dead G o /\ it_delrev it < o_rev o else live G o /\ it_rev it < o_rev o)).
Proof.
  intros d iid tab t0 ops Hc HI HR d0 Hg it Hi G. destruct (created_run true d iid tab t0 ops Hc HI HR Hg) as [_ Hs].
  destruct (Hs it Hi) as [HO HC]. split.
  - intros o. apply (ci_a1 _ _ _ (HC eq_refl)).
  - intros Hq l Hp o b. apply (oi_pend _ _ _ HO Hq _ Hp).
Qed.
Print Assumptions C07_partial_consumption.

(* only committed changes: what Next hands out is in the committed root of its source ... *)
Theorem C07_delivers_only_committed : forall d iid s take it S d' l w,
  assoc iid (d_iters d) = Some it -> next_source d iid s = Some S ->
  TInv S -> rev_bound S -> it_rev it + 1 < B64 -> it_delrev it + 1 < B64 ->
  step d (ONext iid s take) = (d', OutChanges l w) ->
  forall o b, In (o, b) l ->
    if b then dead S o /\ it_delrev it < o_rev o else live S o /\ it_rev it < o_rev o.
Proof.
  intros d iid s take it S d' l w Hi Hn HI HB HR HD Hst o b Hin.
  destruct (refresh_spec S it HI HB HR HD) as [p [Ep [[_ Hm] _]]].
  pose proof (step_next_cases d iid s take) as Hc. rewrite Hn, Hi in Hc.
  destruct Hc as [it0 [p0 [E0 [Ep0 [out [it2 [d2 [Hc E]]]]]]]]. injection E0 as <-.
  assert (p0 = p) by (unfold next_iter in Ep0; cbn [it_pending] in Ep0; congruence). subst p0.
  (* what a sequence hands out is a prefix of the pending stream *)
  rewrite E in Hst. injection Hst as _ <- _. destruct (consumed_prefix _ _ _ _ _ _ _ Hc) as [rest ->].
  apply Hm. apply in_app_iff. now left.
Qed.
Print Assumptions C07_delivers_only_committed.

(* ... and does not depend on the open write transaction's uncommitted entries at all *)
Theorem C07_ignores_uncommitted : forall d iid s take es es' old,
  d_txn d = Some (es, old) ->
  step (set_txn d (Some (es', old))) (ONext iid s take) =
  (set_txn (fst (step d (ONext iid s take))) (Some (es', old)), snd (step d (ONext iid s take))).
Proof. exact next_ignores_uncommitted. Qed.
Print Assumptions C07_ignores_uncommitted.

(* the watch channel of an exhausted iterator: closed exactly when the committed table revision differs
   from the one last refreshed from; open = nothing delivered, nothing changed *)
Theorem C07_watch_closed_iff_changed : forall d iid s take it r t cur,
  assoc iid (d_iters d) = Some it -> src_committed d s = Some r ->
  nth_error r (it_tab it) = Some t -> nth_error (d_root d) (it_tab it) = Some cur ->
  it_pending it = None ->
  (t_rev cur <> it_watchrev it <-> exists l, snd (step d (ONext iid s take)) = OutChanges l true) /\
  (t_rev cur = it_watchrev it <-> step d (ONext iid s take) = (d, OutChanges [] false)).
Proof.
  intros d iid s take it r t cur Hi Hs Ht Hc Hp. cbn [step]. rewrite Hi, Hs, Ht, Hc, Hp.
  destruct (N.eqb_spec (t_rev cur) (it_watchrev it)) as [E|E].
  - split; split; auto; try congruence. intros [l Hl]. cbn in Hl. discriminate.
  - split; split; try congruence.
    + intros _. match goal with |- context [consume ?a ?b ?c ?dd ?e] => destruct (consume a b c dd e) as [[x y] z] end.
      cbn. eexists; reflexivity.
    + match goal with |- context [consume ?a ?b ?c ?dd ?e] => destruct (consume a b c dd e) as [[x y] z] end.
      intros H. discriminate.
Qed.
Print Assumptions C07_watch_closed_iff_changed.

(* discharged: iterators advanced with fresh read transactions after the creating transaction committed *)
Theorem C07_fresh_strictly_increasing : forall iid tab d t0 ops,
  created d iid tab t0 -> wf d ->
  (forall cur, nth_error (d_root d) tab = Some cur -> ~ reg iid cur) ->
  tables_ok d /\ ok_run (fst (step d (OChanges iid tab))) ops ->
  friendly_run iid tab (fst (step d (OChanges iid tab))) ops ->
  asc (map crev (delivered iid (fst (step d (OChanges iid tab))) ops)).
Proof. exact fresh_strictly_increasing. Qed.
Print Assumptions C07_fresh_strictly_increasing.

Theorem C07_fresh_converges : forall iid tab d t0 ops s S,
  created d iid tab t0 -> wf d ->
  (forall cur, nth_error (d_root d) tab = Some cur -> ~ reg iid cur) ->
  let d0 := fst (step d (OChanges iid tab)) in
  tables_ok d /\ ok_run d0 (ops ++ [ONext iid s None]) ->
  friendly_run iid tab d0 (ops ++ [ONext iid s None]) ->
  next_source (fst (run d0 ops)) iid s = Some S ->
  replay (delivered iid d0 (ops ++ [ONext iid s None])) = abs_of S.
Proof. exact fresh_converge_next. Qed.
Print Assumptions C07_fresh_converges.

Theorem C07_fresh_converges_whenever_exhausted : forall iid tab d t0 ops,
  created d iid tab t0 -> wf d ->
  (forall cur, nth_error (d_root d) tab = Some cur -> ~ reg iid cur) ->
  tables_ok d /\ ok_run (fst (step d (OChanges iid tab))) ops ->
  friendly_run iid tab (fst (step d (OChanges iid tab))) ops ->
  forall it, assoc iid (d_iters (fst (run (fst (step d (OChanges iid tab))) ops))) = Some it ->
  it_pending it = None ->
  replay (delivered iid (fst (step d (OChanges iid tab))) ops) =
  abs_of (fst (grun iid (t0, []) (fst (step d (OChanges iid tab))) ops)).
Proof. exact fresh_converge. Qed.
Print Assumptions C07_fresh_converges_whenever_exhausted.

(* from the initial database: the table invariant and the structural invariant are discharged
   (Table/Inv2.v DInv_step, Table/ChangesHist.v wf_run); the remaining hypotheses are revision room in
   every state of the run (no uint64 overflow) and the usage conditions `friendly` *)
From SV Require Import Table.ChangesFromInit.

Theorem C07_from_init_strictly_increasing : forall n pre iid tab t0 ops,
  room_run (init_db n) (pre ++ OChanges iid tab :: ops) ->
  created (fst (run (init_db n) pre)) iid tab t0 ->
  (forall cur, nth_error (d_root (fst (run (init_db n) pre))) tab = Some cur -> ~ reg iid cur) ->
  friendly_run iid tab (fst (step (fst (run (init_db n) pre)) (OChanges iid tab))) ops ->
  asc (map crev (delivered iid (fst (step (fst (run (init_db n) pre)) (OChanges iid tab))) ops)).
Proof.
  intros n pre iid tab t0 ops Hroom Hc Hf Hfr. destruct (from_init_facts n pre iid tab ops Hroom) as [A [B C]].
  exact (fresh_strictly_increasing iid tab _ t0 ops Hc A Hf (conj B C) Hfr).
Qed.
Print Assumptions C07_from_init_strictly_increasing.

Theorem C07_from_init_converges : forall n pre iid tab t0 ops s S,
  let d := fst (run (init_db n) pre) in
  let d0 := fst (step d (OChanges iid tab)) in
  room_run (init_db n) (pre ++ OChanges iid tab :: ops ++ [ONext iid s None]) ->
  created d iid tab t0 ->
  (forall cur, nth_error (d_root d) tab = Some cur -> ~ reg iid cur) ->
  friendly_run iid tab d0 (ops ++ [ONext iid s None]) ->
  next_source (fst (run d0 ops)) iid s = Some S ->
  replay (delivered iid d0 (ops ++ [ONext iid s None])) = abs_of S.
Proof. exact init_converge_next. Qed.
Print Assumptions C07_from_init_converges.

(* the hypotheses are satisfiable on a run with partial consumption, resume, a collection scan,
   re-insert + re-delete, and the apply of the stale scan *)
Example C07_from_init_nonvacuous :
  let d := fst (run (init_db 1) ex_pre) in
  let d0 := fst (step d (OChanges 7 0)) in
  let all := ex_ops ++ [ONext 7 SFresh None] in
  room_run (init_db 1) (ex_pre ++ OChanges 7 0 :: all) /\
  (exists t0, created d 7 0 t0) /\
  (forall cur, nth_error (d_root d) 0 = Some cur -> ~ reg 7 cur) /\
  friendly_run 7 0 d0 all /\
  (exists S, next_source (fst (run d0 ex_ops)) 7 SFresh = Some S) /\
  length (delivered 7 d0 all) = 5%nat /\
  replay (delivered 7 d0 all) = [([98], (5, 4))].
Proof. exact fresh_hypotheses_satisfiable. Qed.

(* ======================================================================================================
   Any monotone choice of snapshots (Table/ChangesSnap.v): Next may be called with retained snapshots
   (OSnap, or the ReadTxn returned by OCommit). Positions: `mstep` stamps every snapshot taken while the
   iterator's tracker is registered in the committed root (= at or after the creating transaction
   committed) with the position in the run of the operation that took it; a fresh read transaction /
   the current write transaction has the position of the Next itself. `mfriendly`: the snapshot handed
   to Next is stamped and its position is not below that of the snapshot handed to the previous
   refreshing Next of this iterator (plus, as before: the id is not re-used, the creating transaction
   is not aborted). The retention hypotheses are discharged by the pairwise snapshot invariant SInv.
   ====================================================================================================== *)
From SV Require Import Table.ChangesSnap.

Theorem C07_strictly_increasing_any_monotone_snapshots : forall iid tab n pre t0 ops,
  room_run (init_db n) (pre ++ OChanges iid tab :: ops) ->
  created (fst (run (init_db n) pre)) iid tab t0 ->
  (forall cur, nth_error (d_root (fst (run (init_db n) pre))) tab = Some cur -> ~ reg iid cur) ->
  mfriendly_run iid tab mg0 (fst (step (fst (run (init_db n) pre)) (OChanges iid tab))) ops ->
  asc (map crev (delivered iid (fst (step (fst (run (init_db n) pre)) (OChanges iid tab))) ops)).
Proof.
  intros iid tab n pre t0 ops Hroom Hc Hf Hm. destruct (mono_facts iid tab n pre t0 ops Hroom Hc Hf Hm) as [A [B [C _]]].
  apply (changes_strictly_increasing _ iid tab t0 ops Hc B C). now apply good_run_weaken.
Qed.
Print Assumptions C07_strictly_increasing_any_monotone_snapshots.

Theorem C07_converges_any_monotone_snapshots : forall iid tab n pre t0 ops s S,
  let d := fst (run (init_db n) pre) in
  let d0 := fst (step d (OChanges iid tab)) in
  room_run (init_db n) (pre ++ OChanges iid tab :: ops ++ [ONext iid s None]) ->
  created d iid tab t0 ->
  (forall cur, nth_error (d_root d) tab = Some cur -> ~ reg iid cur) ->
  mfriendly_run iid tab mg0 d0 (ops ++ [ONext iid s None]) ->
  next_source (fst (run d0 ops)) iid s = Some S ->
  replay (delivered iid d0 (ops ++ [ONext iid s None])) = abs_of S.
Proof.
  intros iid tab n pre t0 ops s S d d0 Hroom Hc Hf Hm Hn.
  destruct (mono_facts iid tab n pre t0 _ Hroom Hc Hf Hm) as [A [B [C _]]].
  exact (changes_converge_next d iid tab t0 ops s S Hc B C A Hn).
Qed.
Print Assumptions C07_converges_any_monotone_snapshots.

Theorem C07_converges_whenever_exhausted_any_monotone_snapshots : forall iid tab n pre t0 ops,
  room_run (init_db n) (pre ++ OChanges iid tab :: ops) ->
  created (fst (run (init_db n) pre)) iid tab t0 ->
  (forall cur, nth_error (d_root (fst (run (init_db n) pre))) tab = Some cur -> ~ reg iid cur) ->
  mfriendly_run iid tab mg0 (fst (step (fst (run (init_db n) pre)) (OChanges iid tab))) ops ->
  forall it,
  assoc iid (d_iters (fst (run (fst (step (fst (run (init_db n) pre)) (OChanges iid tab))) ops))) = Some it ->
  it_pending it = None ->
  replay (delivered iid (fst (step (fst (run (init_db n) pre)) (OChanges iid tab))) ops) =
  abs_of (fst (grun iid (t0, []) (fst (step (fst (run (init_db n) pre)) (OChanges iid tab))) ops)).
Proof.
  intros iid tab n pre t0 ops Hroom Hc Hf Hm. destruct (mono_facts iid tab n pre t0 ops Hroom Hc Hf Hm) as [A [B [C _]]].
  exact (changes_converge _ iid tab t0 ops Hc B C A).
Qed.
Print Assumptions C07_converges_whenever_exhausted_any_monotone_snapshots.

(* satisfiable: Next on the creating Commit's ReadTxn (partial), on old retained snapshots across a
   delete / re-insert / re-delete of one key with collection scans and applies in between, then fresh *)
Example C07_any_monotone_snapshots_nonvacuous :
  let d := fst (run (init_db 1) ex_pre) in
  let d0 := fst (step d (OChanges 7 0)) in
  let all := sx_ops ++ [ONext 7 SFresh None] in
  room_run (init_db 1) (ex_pre ++ OChanges 7 0 :: all) /\
  (exists t0, created d 7 0 t0) /\
  (forall cur, nth_error (d_root d) 0 = Some cur -> ~ reg 7 cur) /\
  mfriendly_run 7 0 mg0 d0 all /\
  (exists S, next_source (fst (run d0 sx_ops)) 7 SFresh = Some S) /\
  map (fun c => (p_id (o_data (fst c)), o_rev (fst c), snd c)) (delivered 7 d0 all) =
    [([97], 1, false); ([97], 3, true); ([98], 4, false); ([97], 5, false); ([97], 6, true)] /\
  replay (delivered 7 d0 all) = [([98], (5, 4))].
Proof. exact mono_hypotheses_satisfiable. Qed.

(* ======================================================================================================
   The in-tree consumers of change iterators: Derive (derive.go) and Observable (observable.go), modelled in
   Table/Clients.v as programs over this model's operations and run for real by engine `clients`.
   Because a run of the system is a run of operations (C07_client_runs_are_model_runs), the theorems above
   apply to what the consumers are handed; Table/ClientsProofs*.v draw the consequences.                *)
From SV Require Import Table.Clients Table.ClientsProofs Table.ClientsProofs2.

Theorem C07_client_runs_are_model_runs : forall cs s s' outs ops,
  crun s cs = (s', outs, ops) -> cs_db s' = fst (run (cs_db s) ops).
Proof. exact crun_is_run. Qed.
Print Assumptions C07_client_runs_are_model_runs.

(* one iteration of a mirroring Derive applies exactly the changes its Next delivered to the derived
   table, changes no other table and leaves no transaction open *)
Theorem C07_derive_iteration_applies_the_delivered_changes : forall ds d d' ds' ops tout l w,
  d_txn d = None -> nth_error (d_root d) (dv_out ds) = Some tout -> om_sorted (t_primary tout) ->
  derive_iter (tr_std 0) ds d = (d', ds', ops) ->
  snd (step (fst (step d (OBegin [dv_out ds]))) (ONext (dv_iid ds) STxn None)) = OutChanges l w ->
  (exists tout', nth_error (d_root d') (dv_out ds) = Some tout' /\ om_sorted (t_primary tout') /\
                 contents tout' = fold_left apply_c l (contents tout)) /\
  (forall i, i <> dv_out ds -> nth_error (d_root d') i = nth_error (d_root d) i) /\
  d_txn d' = None.
Proof. exact derive_mirror_iter. Qed.
Print Assumptions C07_derive_iteration_applies_the_delivered_changes.

(* loop invariant: "the derived table is the replay of everything the iterator delivered" is preserved by
   every iteration, whatever ran before it *)
Theorem C07_derive_loop_invariant : forall ds d0 ops tout d' ds' ops_i,
  let d := fst (run d0 ops) in
  d_txn d = None ->
  nth_error (d_root d) (dv_out ds) = Some tout -> om_sorted (t_primary tout) ->
  contents tout = cproj (replay (delivered (dv_iid ds) d0 ops)) ->
  derive_iter (tr_std 0) ds d = (d', ds', ops_i) ->
  d' = fst (run d0 (ops ++ ops_i)) /\ d_txn d' = None /\
  (exists tout', nth_error (d_root d') (dv_out ds) = Some tout' /\ om_sorted (t_primary tout') /\
                 contents tout' = cproj (replay (delivered (dv_iid ds) d0 (ops ++ ops_i)))) /\
  (forall i, i <> dv_out ds -> nth_error (d_root d') i = nth_error (d_root d) i).
Proof. exact derive_mirror_step. Qed.
Print Assumptions C07_derive_loop_invariant.

(* composed with C07_from_init_converges: an iteration whose Next refreshes leaves the derived table with
   exactly the contents of the input table in the root it ran against *)
Theorem C07_derive_converges_to_its_input : forall n pre t0 ops ds tout d' ds' ops_i S it,
  let iid := dv_iid ds in let out := dv_out ds in
  let dc := fst (run (init_db n) pre) in
  let d0 := fst (step dc (OChanges iid (dv_in ds))) in
  let d := fst (run d0 ops) in
  d_txn d = None ->
  nth_error (d_root d) out = Some tout -> om_sorted (t_primary tout) ->
  contents tout = cproj (replay (delivered iid d0 ops)) ->
  derive_iter (tr_std 0) ds d = (d', ds', ops_i) ->
  next_source (fst (step d (OBegin [out]))) iid STxn = Some S ->
  assoc iid (d_iters d) = Some it -> it_tab it = dv_in ds -> dv_in ds <> dv_out ds ->
  room_run (init_db n) (pre ++ OChanges iid (dv_in ds) :: (ops ++ [OBegin [out]]) ++ [ONext iid STxn None]) ->
  created dc iid (dv_in ds) t0 ->
  (forall cur, nth_error (d_root dc) (dv_in ds) = Some cur -> ~ reg iid cur) ->
  friendly_run iid (dv_in ds) d0 ((ops ++ [OBegin [out]]) ++ [ONext iid STxn None]) ->
  exists tin' tout', nth_error (d_root d') (dv_in ds) = Some tin' /\ nth_error (d_root d') out = Some tout' /\
                     contents tout' = contents tin'.
Proof. exact derive_mirror_equals_input. Qed.
Print Assumptions C07_derive_converges_to_its_input.

Example C07_derive_nonvacuous :
  let flat := snd (crun (init_csys 2 0) cx_pre) in
  let pre := firstn 8 flat in let ops := skipn 9 flat in
  let dc := fst (run (init_db 2) pre) in
  let d0 := fst (step dc (OChanges derive_iid 0)) in
  let d := fst (run d0 ops) in
  flat = pre ++ OChanges derive_iid 0 :: ops /\ d = cs_db cx_s /\ d_txn d = None /\
  (exists tout, nth_error (d_root d) 1 = Some tout /\ om_sorted (t_primary tout) /\
                contents tout = cproj (replay (delivered derive_iid d0 ops)) /\ contents tout = [([97], 1)]) /\
  (exists S, next_source (fst (step d (OBegin [1%nat]))) derive_iid STxn = Some S /\ contents S = [([98], 2)]) /\
  (exists it, assoc derive_iid (d_iters d) = Some it /\ it_tab it = 0%nat) /\
  room_run (init_db 2) (pre ++ OChanges derive_iid 0 :: (ops ++ [OBegin [1%nat]]) ++ [ONext derive_iid STxn None]) /\
  (exists t0, created dc derive_iid 0 t0) /\
  (forall cur, nth_error (d_root dc) 0 = Some cur -> ~ reg derive_iid cur) /\
  friendly_run derive_iid 0 d0 ((ops ++ [OBegin [1%nat]]) ++ [ONext derive_iid STxn None]).
Proof. exact derive_mirror_converges_nonvacuous. Qed.

(* Observable: one run of the observer goroutine (from a returned callback, or from its wake-up, to the next
   callback or the select) hands the callback at most one change, and that change is exactly what the
   iterator delivered in the operations the run executed; nothing is dropped between two callbacks *)
Theorem C07_observer_run_hands_over_what_the_iterator_delivered : forall fuel os d acc,
  exists ops1, snd (observe_run fuel os d acc) = acc ++ ops1 /\
    let os' := snd (fst (observe_run fuel os d acc)) in
    (exists c, os' = oset os (OHold c) /\ delivered (ov_iid os) d ops1 = [c]) \/
    (delivered (ov_iid os) d ops1 = [] /\ (os' = os \/ exists wr, os' = oset os (OWait wr))).
Proof.
  intros fuel os d acc. destruct (observe_run_spec (fun _ => true) fuel os d acc eq_refl eq_refl) as [ops1 [A [_ [_ B]]]]. eauto.
Qed.
Print Assumptions C07_observer_run_hands_over_what_the_iterator_delivered.

(* ======================================================================================================
   Run level (Table/ClientsRun*.v): whole runs of the system from the initial database, in which the harness
   does what it likes (write any table but the derived one, lock it, register initializers on it, abort, take
   snapshots, run the collector, start an observer on it) except use the consumers' iterator ids.          *)
From SV Require Import Table.ClientsRun Table.ClientsRun2 Table.ClientsRun3 Table.ClientsRun4 Table.ClientsRun5.

(* at EVERY point of every such run - whatever the loop's phase, transaction open or not, Derive started or not -
   the derived table is the (key, value) projection of the replay of everything the loop's iterator delivered *)
Theorem C07_derive_run_invariant : forall n out cs s outs ops,
  (out < n)%nat -> forallb (cop_ok out) cs = true ->
  crun (init_csys n 0) cs = (s, outs, ops) ->
  cs_db s = fst (run (init_db n) ops) /\
  exists tout, nth_error (d_root (cs_db s)) out = Some tout /\ om_sorted (t_primary tout) /\
               contents tout = cproj (replay (delivered derive_iid (init_db n) ops)).
Proof. exact derive_run_invariant. Qed.
Print Assumptions C07_derive_run_invariant.

(* ... and right after any leg of the loop that ran an iteration whose Next refreshed from committed input
   table S, the derived table has exactly the contents of the input table of the current root, which are those
   of S. The usage hypotheses of C07_from_init_converges are discharged from the shape of the run; what remains
   is revision room (no uint64 overflow) on the operations executed *)
Theorem C07_derive_run_converges : forall n inn out cs s outs ops ds S s' x ops1,
  (out < n)%nat -> (inn < n)%nat -> inn <> out -> forallb (cop_okG inn out) cs = true ->
  crun (init_csys n 0) cs = (s, outs, ops) ->
  cs_d s = Some ds -> dv_phase ds <> DReg -> d_txn (cs_db s) = None -> d_ready ds (cs_db s) = true ->
  next_source (fst (step (cs_db s) (OBegin [out]))) derive_iid STxn = Some S ->
  room_run (init_db n) (ops ++ [OBegin [out]; ONext derive_iid STxn None]) ->
  cstep s CDeriveGo = (s', x, ops1) ->
  exists tin' tout', nth_error (d_root (cs_db s')) inn = Some tin' /\ nth_error (d_root (cs_db s')) out = Some tout' /\
                     contents tout' = contents tin' /\ contents tin' = contents S.
Proof. exact derive_run_converges'. Qed.
Print Assumptions C07_derive_run_converges.

Example C07_derive_run_nonvacuous :
  forallb (cop_ok 1) fx_run = true /\
  (let '(s, outs, ops) := crun (init_csys 2 0) fx_run in
   length ops = 49%nat /\
   map contents (d_root (cs_db s)) = [[([97], 5); ([98], 2)]; [([97], 5); ([98], 2)]] /\
   cproj (replay (delivered derive_iid (init_db 2) ops)) = [([97], 5); ([98], 2)] /\
   length (delivered derive_iid (init_db 2) ops) = 4%nat).
Proof. exact derive_run_invariant_nonvacuous. Qed.

(* Observable, every run: everything the observer's iterator has been handed has been reported by a returned
   callback, in order, except the change of the callback in progress (after cancellation at most that one is
   missing); once released the goroutine is always inside a callback or in the select on the watch channel of
   the observed table's CURRENT revision with its iterator exhausted *)
Theorem C07_observer_run_invariant : forall n cs s outs ops os,
  forallb (cop_ok' n) cs = true -> crun (init_csys n 0) cs = (s, outs, ops) -> cs_o s = Some os ->
  cs_db s = fst (run (init_db n) ops) /\
  let dlv := delivered observe_iid (init_db n) ops in
  match ov_phase os with
  | OReg => dlv = [] /\ reported outs = []
  | OHold c => dlv = reported outs ++ [c] /\
               exists it, assoc observe_iid (d_iters (cs_db s)) = Some it /\ it_tab it = ov_tab os
  | OWait wr => dlv = reported outs /\
                exists it cur, assoc observe_iid (d_iters (cs_db s)) = Some it /\ it_tab it = ov_tab os /\
                               it_pending it = None /\ it_watchrev it = wr /\
                               nth_error (d_root (cs_db s)) (ov_tab os) = Some cur /\ t_rev cur = wr
  | ODone => exists tl, dlv = reported outs ++ tl /\ (length tl <= 1)%nat
  end.
Proof. exact observer_run_invariant. Qed.
Print Assumptions C07_observer_run_invariant.

(* ... and whenever the observer waits, replaying everything its callback was given yields exactly the observed
   table of the current root (objects and revisions). Residual hypotheses: those of C07_from_init_converges on the
   operations executed, and that the observer's delete tracker is registered in the root *)
Theorem C07_observer_converges : forall n cs s outs pre tab post os wr t0,
  forallb (cop_ok' n) cs = true ->
  crun (init_csys n 0) cs = (s, outs, pre ++ OChanges observe_iid tab :: post) ->
  forallb (fun o => negb (touches observe_iid o)) pre = true ->
  cs_o s = Some os -> ov_phase os = OWait wr ->
  let dc := fst (run (init_db n) pre) in
  let d0 := fst (step dc (OChanges observe_iid tab)) in
  room_run (init_db n) (pre ++ OChanges observe_iid tab :: post) ->
  created dc observe_iid tab t0 ->
  (forall cur, nth_error (d_root dc) tab = Some cur -> ~ reg observe_iid cur) ->
  friendly_run observe_iid tab d0 post ->
  (forall cur, nth_error (d_root (cs_db s)) tab = Some cur -> reg observe_iid cur) ->
  tab = ov_tab os /\
  exists cur, nth_error (d_root (cs_db s)) tab = Some cur /\ t_rev cur = wr /\
              replay (reported outs) = abs_of cur.
Proof. exact observer_converges. Qed.
Print Assumptions C07_observer_converges.

Example C07_observer_nonvacuous :
  let r := crun (init_csys 1 0) hx_run in
  let flat := snd r in let s := fst (fst r) in
  let pre := firstn 4 flat in let post := skipn 5 flat in
  let dc := fst (run (init_db 1) pre) in
  let d0 := fst (step dc (OChanges observe_iid 0)) in
  forallb (cop_ok' 1) hx_run = true /\
  flat = pre ++ OChanges observe_iid 0 :: post /\
  forallb (fun o => negb (touches observe_iid o)) pre = true /\
  option_map ov_phase (cs_o s) = Some (OWait 3) /\
  room_run (init_db 1) (pre ++ OChanges observe_iid 0 :: post) /\
  (exists t0, created dc observe_iid 0 t0) /\
  (forall cur, nth_error (d_root dc) 0 = Some cur -> ~ reg observe_iid cur) /\
  friendly_run observe_iid 0 d0 post /\
  (forall cur, nth_error (d_root (cs_db s)) 0 = Some cur -> reg observe_iid cur) /\
  replay (reported (snd (fst r))) = [([98], (2, 2))] /\
  map abs_of (d_root (cs_db s)) = [[([98], (2, 2))]].
Proof. exact observer_converges_nonvacuous. Qed.

(* with the usage hypotheses discharged from the shape of the run (Table/ClientsRun6.v): only revision room remains *)
From SV Require Import Table.ClientsRun6.
Theorem C07_observer_run_converges : forall n cs s outs ops os wr,
  forallb (cop_ok' n) cs = true -> crun (init_csys n 0) cs = (s, outs, ops) ->
  cs_o s = Some os -> ov_phase os = OWait wr ->
  room_run (init_db n) ops ->
  exists cur, nth_error (d_root (cs_db s)) (ov_tab os) = Some cur /\ t_rev cur = wr /\
              replay (reported outs) = abs_of cur.
Proof.
  intros n cs s outs ops os wr Hc H Eo Eph Hroom.
  destruct (observer_run_c07_hypotheses n cs s outs ops os Hc H Eo) as [pre [post [t0 [E [U [C [F [R T]]]]]]]];
    [now rewrite Eph|]. subst ops.
  destruct (observer_converges n cs s outs pre (ov_tab os) post os wr t0 Hc H U Eo Eph Hroom C F R T) as [_ K]. exact K.
Qed.
Print Assumptions C07_observer_run_converges.
