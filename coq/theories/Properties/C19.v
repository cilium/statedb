(* Properties/C19.v — Table initialization state (first layer: the query and the commit rule). *)
From SV Require Import Base.Bytes Base.OrdMap Table.Model Table.Proofs.
Open Scope N_scope.

(* Initialized is true exactly when no initializer is pending; PendingInitializers lists the others *)
Theorem C19_initialized_iff_no_pending : forall t,
  let '(ini, pending, w) := q_init t in
  (ini = true <-> pending = []) /\
  pending = match t_init t with Some (_, p) => p | None => [] end /\
  (ini = true -> w = None).
Proof.
  intros t. unfold q_init. destruct (t_init t) as [[w [|n p]]|]; simpl; repeat split; auto; discriminate.
Qed.
Print Assumptions C19_initialized_iff_no_pending.

(* registrations and marks made in an aborted transaction have no effect on the committed state *)
Theorem C19_aborted_marks_have_no_effect : forall d tabs ops,
  d_txn d = None -> forallb txn_local ops = true ->
  d_root (fst (run d (OBegin tabs :: ops ++ [OAbort]))) = d_root d.
Proof. intros. now apply abort_restores_root. Qed.
Print Assumptions C19_aborted_marks_have_no_effect.

(* ==== history level (Table/Inv5.v) ================================================================ *)
From SV Require Import KeyEnc.Model Table.InvDefs Table.Inv Table.Inv2 Table.Inv3 Table.Inv5.

(* the set of closed init-watch channels changes only in a Commit, and then only grows: by the
   watches of the locked tables whose initializers are all done (commit_closing: Table/Inv2.v) *)
Theorem C19_watch_closes_only_in_commit : forall d o,
  d_closedw (fst (step d o)) = d_closedw d \/
  exists sid es old, o = OCommit sid /\ d_txn d = Some (es, old) /\
                     d_closedw (fst (step d o)) = commit_closing es ++ d_closedw d.
Proof. exact closedw_step. Qed.
Print Assumptions C19_watch_closes_only_in_commit.

Theorem C19_closed_watch_stays_closed : forall ops d w,
  In w (d_closedw d) -> In w (d_closedw (fst (run d ops))).
Proof. exact closedw_grows_run. Qed.
Print Assumptions C19_closed_watch_stays_closed.

(* the watch-id invariant WInv (Table/Inv5.v: ids handed out are below the counter, owned by one
   table of the root / of the transaction, never an already closed one; closed ids are distinct)
   holds along every history from the initial state; TxnInv (Table/Inv3.v) likewise *)
Theorem C19_watch_invariant_reachable : forall n ops,
  WInv (fst (run (init_db n) ops)) /\ TxnInv (fst (run (init_db n) ops)) /\
  NoDup (d_closedw (fst (run (init_db n) ops))).
Proof. exact reachable_watch_facts. Qed.
Print Assumptions C19_watch_invariant_reachable.

(* signalled after visibility: a watch w closed by Commit was open before, belonged to a locked table
   of the transaction with no pending initializer, and the NEW root already has that table initialized:
   a fresh snapshot taken by whoever observes the close reports Initialized = true, no pending, closed watch *)
Theorem C19_closed_after_visible : forall d sid es old w, TxnInv d -> WInv d -> d_txn d = Some (es, old) ->
  let d' := fst (step d (OCommit sid)) in
  In w (d_closedw d') -> ~ In w (d_closedw d) ->
  exists i t t', nth_error es i = Some (t, true) /\ t_init t = Some (w, []) /\
                 nth_error (d_root d') i = Some t' /\ t_init t' = None /\
                 snd (step d' (OQuery SFresh i QInit)) = OutInit true [] true.
Proof. exact commit_closes_after_visible. Qed.
Print Assumptions C19_closed_after_visible.

(* each watch closes at most once: what a Commit closes was open, and the closed list stays duplicate-free *)
Theorem C19_closes_at_most_once : forall d sid es old, TxnInv d -> WInv d -> d_txn d = Some (es, old) ->
  NoDup (d_closedw (fst (step d (OCommit sid)))) /\
  forall w, In w (commit_closing es) -> ~ In w (d_closedw d).
Proof. exact commit_closes_once. Qed.
Print Assumptions C19_closes_at_most_once.

(* Initialized is monotone along committed states: an initialized committed table stays initialized
   in the next state unless a Commit publishes a locked entry that has pending initializers ... *)
Theorem C19_initialized_monotone : forall d o i t t', TxnInv d ->
  nth_error (d_root d) i = Some t -> initialized t = true ->
  nth_error (d_root (fst (step d o))) i = Some t' ->
  initialized t' = true \/
  exists sid es old te w p, o = OCommit sid /\ d_txn d = Some (es, old) /\ nth_error es i = Some (te, true) /\
                            t_init te = Some (w, p) /\ p <> [].
Proof. exact initialized_monotone_step. Qed.
Print Assumptions C19_initialized_monotone.

(* ... and inside a transaction only RegisterInitializer on that table makes an entry uninitialized *)
Theorem C19_uninitialized_only_by_register : forall d o es old i t b es' old' t' b',
  d_txn d = Some (es, old) -> nth_error es i = Some (t, b) -> initialized t = true ->
  d_txn (fst (step d o)) = Some (es', old') -> nth_error es' i = Some (t', b') ->
  initialized t' = true \/ exists name, o = ORegInit i name.
Proof. exact txn_uninit_only_by_reginit. Qed.
Print Assumptions C19_uninitialized_only_by_register.

Example C19_nonvacuous :
  let d := fst (run (init_db 1) [OBegin [0%nat]; ORegInit 0 1; OCommit 0]) in
  snd (step d (OQuery SFresh 0 QInit)) = OutInit false [1] false /\
  snd (step (fst (run d [OBegin [0%nat]; OInitDone 0 1; OCommit 1])) (OQuery SFresh 0 QInit)) = OutInit true [] true.
Proof. split; vm_compute; reflexivity. Qed.

(* ==== interleaved part: all schedules of the commit protocol (DB/Model.v; DB/Watch.v, DB/Reach.v) ==========
   `reach ntab actors sched = DB.Model.run (init_st ntab actors) sched` for ANY schedule of ANY well-formed
   system. tv_init = Some (w, pending) is the tableInitialization of a committed entry: w is the channel
   handed out by Initialized(); the commit that empties `pending` publishes tv_init = None and queues w in
   a_initclose, which is closed after the root store and the table unlock. (Module: DB/Model.v and
   Table/Model.v both define `run` and `step`.) *)
From SV Require DB.Model DB.Invariants DB.Visibility DB.Channels DB.Watch DB.Reach.
Module C19_DB.
Import SV.DB.Model SV.DB.Invariants SV.DB.Visibility SV.DB.Channels SV.DB.Watch SV.DB.Reach.
Local Open Scope nat_scope.

(* while the committed entry of a table has pending initializers its init channel is open *)
Theorem C19_init_watch_open_while_pending : forall ntab actors sched t v w, wf_system ntab actors ->
  let s := reach ntab actors sched in
  nth_error (s_root s) t = Some v -> In w (s_closed s) ->
  tv_watch v <> w /\ forall p, tv_init v <> Some (w, p).
Proof. intros * Hwf s. apply published_open, (good_w ntab), reach_Good, Hwf. Qed.
Print Assumptions C19_init_watch_open_while_pending.

(* SIGNALLED AFTER VISIBILITY: if the init channel w that the committed root handed out for table t after
   schedule s1 is closed after s1 ++ s2, then a root in which t is initialized (tv_init = None) was stored
   at some point sa of s2 - strictly before the close *)
Theorem C19_init_closed_after_visible : forall ntab actors s1 s2 t v w p, wf_system ntab actors ->
  nth_error (s_root (reach ntab actors s1)) t = Some v -> tv_init v = Some (w, p) ->
  In w (s_closed (reach ntab actors (s1 ++ s2))) ->
  exists sa sb v1, s2 = sa ++ sb /\ nth_error (s_root (reach ntab actors (s1 ++ sa))) t = Some v1 /\ tv_init v1 = None.
Proof.
  intros * Hwf Hv Hi Hc. rewrite reach_app in Hc.
  destruct (init_closed_after_visible ntab s2 _ t v w p (reach_Good ntab actors s1 Hwf) Hv Hi Hc) as (sa&sb&v1&E&Hv1&Hn).
  exists sa, sb, v1. rewrite reach_app. auto.
Qed.
Print Assumptions C19_init_closed_after_visible.

(* channels are closed only by the notify / init-close steps of a committing writer that has already stored
   its root; the init-close step closes exactly a_initclose, none of which the root still hands out *)
Theorem C19_init_close_step : forall ntab actors sched i, wf_system ntab actors ->
  let s := reach ntab actors sched in
  s_closed (step s i) = s_closed s \/
  exists a cl, nth_error (s_actors s) i = Some a /\ committed a = true /\
    s_closed (step s i) = cl ++ s_closed s /\ s_root (step s i) = s_root s /\
    ((a_pc a = PRootUnlocked /\ cl = a_notify a) \/ (a_pc a = PTabsUnlocked /\ cl = a_initclose a)) /\
    forall w, In w cl -> ~ rch (s_root s) w.
Proof. intros * Hwf s. destruct (reach_Good ntab actors sched Hwf). apply (close_after_store ntab); assumption. Qed.
Print Assumptions C19_init_close_step.

Example C19_nonvacuous_interleaved :
  let acts := [(1%N, KWriter [0] [] true [(0, 7%N)] []); (2%N, KWriter [0] [0] true [] [(0, 7%N)])] in
  wf_system 1 acts /\
  map tv_init (s_root (reach 1 acts (repeat 0 13))) = [Some (1%N, [7%N])] /\
  map tv_init (s_root (reach 1 acts (repeat 0 13 ++ repeat 1 9))) = [None] /\
  s_closed (reach 1 acts (repeat 0 13 ++ repeat 1 11)) = [0%N] /\
  s_closed (reach 1 acts (repeat 0 13 ++ repeat 1 13)) = [1%N; 0%N].
Proof.
  split; [split|].
  - intros ik [<-|[<-|[]]]; cbn; repeat split; try (intros x Hx; cbn in Hx; intuition (subst; cbn; auto)).
  - cbn. repeat constructor; cbn; intuition discriminate.
  - vm_compute. repeat split; reflexivity.
Qed.
End C19_DB.

(* ======================================================================================================
   Derive (derive.go), the in-tree client that starts work on the initialization signal. Table/Clients.v
   models Derive / derive.loop as a program over Table/Model.v's operations (engine `clients` runs the real
   loop leg by leg against it); Table/ClientsProofs.v proves:                                            *)
From SV Require Import Table.Clients Table.ClientsProofs.

(* every run of the system (harness transactions, legs of the Derive loop, observer callbacks) IS a run of
   Table/Model.v operations: all theorems about runs apply to it *)
Theorem C19_client_runs_are_model_runs : forall cs s s' outs ops,
  crun s cs = (s', outs, ops) -> cs_db s' = fst (run (cs_db s) ops).
Proof. exact crun_is_run. Qed.
Print Assumptions C19_client_runs_are_model_runs.

(* the loop marks the derived table's initializer done only in an iteration whose transaction saw the INPUT
   table initialized in the committed root it started from, for every transform function *)
Theorem C19_derive_marks_only_when_input_initialized : forall tr ds d d' ds' ops,
  derive_iter tr ds d = (d', ds', ops) ->
  dv_marked ds = false -> dv_marked ds' = true -> d_txn d = None -> dv_in ds <> dv_out ds ->
  exists t, nth_error (d_root d) (dv_in ds) = Some t /\ fst (fst (q_init t)) = true.
Proof. exact derive_marks_only_when_input_initialized. Qed.
Print Assumptions C19_derive_marks_only_when_input_initialized.

(* ... and it does so in the same transaction as, and after, the writes that transform everything that
   root held: the mark sits after all the writes of the iteration and immediately before its Commit *)
Theorem C19_derive_mark_follows_the_writes : forall tr ds d d' ds' ops,
  derive_iter tr ds d = (d', ds', ops) -> dv_marked ds = false -> dv_marked ds' = true ->
  exists o2, ops = [OBegin [dv_out ds]; ONext (dv_iid ds) STxn None] ++ o2 ++
                   [OInitDone (dv_out ds) (dv_name ds); OCommit (dv_sid ds)] /\
             forallb (dwrite (dv_out ds)) o2 = true.
Proof. exact derive_initdone_position. Qed.
Print Assumptions C19_derive_mark_follows_the_writes.

(* in every other iteration nothing is marked: the initializer is completed at most once *)
Theorem C19_derive_marks_at_most_once : forall tr ds d d' ds' ops,
  derive_iter tr ds d = (d', ds', ops) -> (dv_marked ds' = false \/ dv_marked ds = true) ->
  (dv_marked ds = true -> dv_marked ds' = true) /\ forall a b, ~ In (OInitDone a b) ops.
Proof. exact derive_no_initdone. Qed.
Print Assumptions C19_derive_marks_at_most_once.

Example C19_derive_nonvacuous :
  cs_d cx_s = Some cx_ds /\ d_txn (cs_db cx_s) = None /\ dv_in cx_ds <> dv_out cx_ds /\ dv_marked cx_ds = false /\
  (let s0 := fst (fst (crun (init_csys 2 0) (firstn 6 cx_pre))) in
   match cs_d s0 with
   | Some ds0 => dv_marked (snd (fst (derive_iter (tr_std 0) ds0 (cs_db s0)))) = false /\
                 snd (derive_iter (tr_std 0) ds0 (cs_db s0)) =
                   [OBegin [1%nat]; ONext derive_iid STxn None; OInsert 1 (cx_pa 1); OCommit derive_sid]
   | None => False end) /\
  dv_marked (snd (fst (derive_iter (tr_std 0) cx_ds (cs_db cx_s)))) = true /\
  snd (derive_iter (tr_std 0) cx_ds (cs_db cx_s)) =
    [OBegin [1%nat]; ONext derive_iid STxn None; OInsert 1 (cx_pb 2); ODelete 1 [97];
     OInitDone 1 derive_name; OCommit derive_sid] /\
  option_map (fun t => fst (fst (q_init t))) (nth_error (d_root (cs_db cx_s)) 0) = Some true.
Proof. exact derive_init_nonvacuous. Qed.
(* ---- run level (Table/ClientsRun7.v): the leg of the loop that completes the derived table's initializer, in any
   run from the initial database in which the harness does not write the derived table or use the loop's iterator id:
   (a) it ran against a root whose INPUT table is initialized, (b) it issued the mark in its own transaction,
   (c) if its Next refreshed, the derived table committed together with the mark has exactly the contents of the input
   table (revision room = no uint64 overflow is the only residual hypothesis) *)
From SV Require Import Table.ChangesProofs Table.ChangesHist Table.ChangesFromInit Table.ClientsRun Table.ClientsRun5 Table.ClientsRun7.

Theorem C19_derive_init_handover : forall n inn out cs s outs ops ds s' x ops1 ds',
  (out < n)%nat -> (inn < n)%nat -> inn <> out -> forallb (cop_okG inn out) cs = true ->
  crun (init_csys n 0) cs = (s, outs, ops) ->
  cstep s CDeriveGo = (s', x, ops1) ->
  cs_d s = Some ds -> dv_marked ds = false -> cs_d s' = Some ds' -> dv_marked ds' = true ->
  (exists tin, nth_error (d_root (cs_db s)) inn = Some tin /\ fst (fst (q_init tin)) = true) /\
  In (OInitDone out derive_name) ops1 /\
  d_txn (cs_db s) = None /\ dv_phase ds <> DReg /\ d_ready ds (cs_db s) = true /\
  (forall S, next_source (fst (step (cs_db s) (OBegin [out]))) derive_iid STxn = Some S ->
             room_run (init_db n) (ops ++ [OBegin [out]; ONext derive_iid STxn None]) ->
             exists tin' tout', nth_error (d_root (cs_db s')) inn = Some tin' /\
                                nth_error (d_root (cs_db s')) out = Some tout' /\
                                contents tout' = contents tin' /\ contents tin' = contents S).
Proof. exact derive_init_handover. Qed.
Print Assumptions C19_derive_init_handover.

(* ... and when its Next did not refresh (the loop was woken by the input's initialization channel alone) the derived
   table already equalled the input table and the leg changes neither *)
Theorem C19_derive_init_handover_idle : forall n inn out cs s outs ops ds s' x ops1 ds',
  (out < n)%nat -> (inn < n)%nat -> inn <> out -> forallb (cop_okG inn out) cs = true ->
  crun (init_csys n 0) cs = (s, outs, ops) ->
  cstep s CDeriveGo = (s', x, ops1) ->
  cs_d s = Some ds -> dv_marked ds = false -> cs_d s' = Some ds' -> dv_marked ds' = true ->
  next_source (fst (step (cs_db s) (OBegin [out]))) derive_iid STxn = None ->
  room_run (init_db n) ops ->
  exists tin tout tin' tout',
    nth_error (d_root (cs_db s)) inn = Some tin /\ nth_error (d_root (cs_db s)) out = Some tout /\
    nth_error (d_root (cs_db s')) inn = Some tin' /\ nth_error (d_root (cs_db s')) out = Some tout' /\
    contents tout = contents tin /\ contents tin' = contents tin /\ contents tout' = contents tout.
Proof. exact derive_init_handover_idle. Qed.
Print Assumptions C19_derive_init_handover_idle.

Example C19_derive_init_handover_idle_nonvacuous :
  let r := crun (init_csys 2 0) ix_run in
  let s := fst (fst r) in
  let r' := cstep s CDeriveGo in
  forallb (cop_okG 0 1) ix_run = true /\
  option_map dv_marked (cs_d s) = Some false /\ option_map dv_phase (cs_d s) = Some (DWait 1 (Some 0)) /\
  option_map dv_marked (cs_d (fst (fst r'))) = Some true /\
  snd r' = [OBegin [1%nat]; ONext derive_iid STxn None; OInitDone 1 derive_name; OCommit derive_sid] /\
  next_source (fst (step (cs_db s) (OBegin [1%nat]))) derive_iid STxn = None /\
  room_run (init_db 2) (snd r) /\
  map contents (d_root (cs_db s)) = [[([97], 1)]; [([97], 1)]] /\
  map contents (d_root (cs_db (fst (fst r')))) = [[([97], 1)]; [([97], 1)]] /\
  option_map (fun t => fst (fst (q_init t))) (nth_error (d_root (cs_db s)) 0) = Some true /\
  option_map (fun t => fst (fst (q_init t))) (nth_error (d_root (cs_db s)) 1) = Some false /\
  option_map (fun t => fst (fst (q_init t))) (nth_error (d_root (cs_db (fst (fst r')))) 1) = Some true.
Proof. exact derive_init_handover_idle_nonvacuous. Qed.

(* converse (Table/ClientsRun8.v): until the loop's marking leg the derived table keeps the loop's initializer pending, in
   the root and in every open transaction, so it reports itself initialized only AFTER that leg - provided the harness
   does not complete the loop's initializer itself *)
From SV Require Import Table.ClientsRun8.
Theorem C19_derived_table_not_initialized_before_the_mark : forall n out cs s outs ops ds,
  (out < n)%nat -> forallb (cop_okI0 out) cs = true ->
  crun (init_csys n 0) cs = (s, outs, ops) -> cs_d s = Some ds -> dv_marked ds = false ->
  (exists tout w p, nth_error (d_root (cs_db s)) out = Some tout /\ t_init tout = Some (w, p) /\ In derive_name p /\
                    fst (fst (q_init tout)) = false) /\
  (forall es old te b, d_txn (cs_db s) = Some (es, old) -> nth_error es out = Some (te, b) ->
                       exists w p, t_init te = Some (w, p) /\ In derive_name p).
Proof. exact derive_unmarked_not_initialized. Qed.
Print Assumptions C19_derived_table_not_initialized_before_the_mark.

Theorem C19_derived_table_initialized_only_after_the_mark : forall n out cs s outs ops ds tout,
  (out < n)%nat -> forallb (cop_okI0 out) cs = true ->
  crun (init_csys n 0) cs = (s, outs, ops) -> cs_d s = Some ds ->
  nth_error (d_root (cs_db s)) out = Some tout -> fst (fst (q_init tout)) = true -> dv_marked ds = true.
Proof. exact derive_initialized_only_after_mark. Qed.
Print Assumptions C19_derived_table_initialized_only_after_the_mark.

