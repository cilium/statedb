(* Properties/C12.v — part.Tree watch channels close exactly on notification of relevant changes.
   Model: Part/Model.v (channels = numbers, Txn.watches = list, Notify returns the closed set). *)
From SV Require Import Base.Bytes Base.OrdMap Part.Model Part.Sem Part.Refine Part.Cow Part.Watch Part.Stable Part.WatchHist Part.PStable Part.PrefixHist Part.InsertWatch Part.Fresh.
Open Scope N_scope.

(* Notify closes exactly the recorded channels plus the root channel iff the txn is dirty;
   CommitAndNotify closes the same set. txn_notify is the only model function producing closed
   channels: Commit without Notify, hand-out of channels and abandoned txns close nothing. *)
Theorem C12_notify_closes_recorded : forall x,
  snd (txn_notify x) = s_ws (t_st x) ++ (if t_dirty x && negb (t_rw x =? 0) then [t_rw x] else []) /\
  snd (txn_commit_notify x) = snd (txn_notify x).
Proof. exact (fun x => conj (notify_closes x) (commit_notify_closes x)). Qed.
Print Assumptions C12_notify_closes_recorded.

(* deleting an absent key is not a change: no channel recorded, txn not dirty (the txn is unchanged) *)
Theorem C12_delete_absent_unchanged : forall x key,
  txn_ok x -> om_get key (abs_txn x) = None -> txn_delete x key = (x, None).
Proof. exact delete_absent_unchanged. Qed.
Print Assumptions C12_delete_absent_unchanged.

(* reads, clones and iterators record nothing *)
Theorem C12_reads_record_nothing : forall x,
  t_st (bump x) = t_st x /\ t_dirty (bump x) = t_dirty x /\ t_rw (bump x) = t_rw x.
Proof.
  repeat split.
Qed.
Print Assumptions C12_reads_record_nothing.

(* for every history: dirty iff some operation inserted, replaced or deleted a key *)
Theorem C12_dirty_iff_changed : forall ops x, txn_ok x ->
  t_dirty (fold_left wstep ops x) = t_dirty x || any_change (abs_txn x) ops /\
  t_rw (fold_left wstep ops x) = t_rw x.
Proof. exact dirty_iff_changed. Qed.
Print Assumptions C12_dirty_iff_changed.

(* root watch of the previous tree: closed by Notify iff the txn inserted, replaced or deleted something
   (CKt: the channel-accounting invariant of Part/Fresh.v, established by part.New and kept by every commit) *)
Theorem C12_root_watch_closed_iff : forall t next ops,
  tree_ok t -> CKt t next -> tr_next t <> 0 -> tr_rw t <> 0 ->
  (In (tr_rw t) (snd (txn_notify (fold_left wstep ops (tree_txn t next)))) <-> any_change (abs_tree t) ops = true).
Proof. exact root_watch_closed_iff_exact. Qed.
Print Assumptions C12_root_watch_closed_iff.

(* Get(k) watch, first write of a txn begun from a committed tree (ids as guaranteed by C11_cow_published):
   Insert/Modify of k makes the channel that Get(k) returned on the committed tree (leaf channel, channel of the
   deepest matching inner node, or root channel; present or absent key; both watch modes) part of the
   set closed by Notify. The underlying path induction (modify_records) holds for every tree none of whose
   nodes is private to the txn. *)
Theorem C12_get_watch_closed_first_write : forall t next md key v,
  tree_ids_ok t -> snd (tree_get t key) <> 0 ->
  In (snd (tree_get t key)) (snd (txn_notify (fst (fst (fst (txn_modify (tree_txn t next) md key v)))))).
Proof.
  intros t next md key v. unfold tree_get. rewrite rq_get. intros. now apply first_modify.
Qed.
Print Assumptions C12_get_watch_closed_first_write.

(* recorded channels are never forgotten during modify, and every node on the search path of the key that is
   not private to the txn has its channel recorded *)
Theorem C12_modify_records_search_path : forall c md fullKey v, c_tid c <> 0 ->
  forall n s key w0, no_inplace c n ->
    (snd (search_node n key w0) = w0 \/
     In (snd (search_node n key w0)) (s_ws (m_st (modify_node c md fullKey v s n key)))) /\
    (forall a, In a (s_ws s) -> In a (s_ws (m_st (modify_node c md fullKey v s n key)))).
Proof. exact modify_records. Qed.
Print Assumptions C12_modify_records_search_path.

(* same for Delete of a present key: the leaf channel (and the channel of every node on the path that is not
   private to the txn) is recorded; Get(k)'s channel on the committed tree is closed by Notify *)
Theorem C12_get_watch_closed_first_delete : forall t next key,
  tree_ids_ok t -> snd (tree_get t key) <> 0 -> snd (txn_delete (tree_txn t next) key) <> None ->
  In (snd (tree_get t key)) (snd (txn_notify (fst (txn_delete (tree_txn t next) key)))).
Proof.
  intros t next key. unfold tree_get. rewrite rq_get. intros. now apply first_delete.
Qed.
Print Assumptions C12_get_watch_closed_first_delete.

(* Prefix(q) watch, first write of a txn begun from a committed tree: inserting/modifying, or deleting a present,
   key that starts with q closes the channel Prefix(q) returned on the committed tree (q may end inside a
   compressed path, at an inner node, or match nothing) *)
Theorem C12_prefix_watch_closed_first_write : forall t next md key v q,
  tree_ids_ok t -> has_prefix key q = true -> snd (tree_prefix t q) <> 0 ->
  In (snd (tree_prefix t q)) (snd (txn_notify (fst (fst (fst (txn_modify (tree_txn t next) md key v)))))).
Proof.
  intros t next md key v q. unfold tree_prefix. rewrite rq_prefix. intros. now apply first_modify.
Qed.
Print Assumptions C12_prefix_watch_closed_first_write.

Theorem C12_prefix_watch_closed_first_delete : forall t next key q,
  tree_ids_ok t -> has_prefix key q = true -> snd (tree_prefix t q) <> 0 ->
  snd (txn_delete (tree_txn t next) key) <> None ->
  In (snd (tree_prefix t q)) (snd (txn_notify (fst (txn_delete (tree_txn t next) key)))).
Proof.
  intros t next key q. unfold tree_prefix. rewrite rq_prefix. intros. now apply first_delete.
Qed.
Print Assumptions C12_prefix_watch_closed_first_delete.

(* the path inductions behind them, for any tree none of whose nodes is private to the txn: the channel of
   EVERY inner node visited on the way to the key is recorded by modify, and by delete when the key is found *)
Theorem C12_visited_channels_recorded : forall c md fullKey v, c_tid c <> 0 ->
  (forall n s key, no_inplace c n -> forall a, In a (visit n key) -> a <> 0 ->
     In a (s_ws (m_st (modify_node c md fullKey v s n key)))) /\
  (forall n s key, no_inplace c n ->
     match del_node c s n key with
     | DSome _ _ s' _ => forall a, In a (visit n key) -> a <> 0 -> In a (s_ws s')
     | DNone => True
     end).
Proof.
  intros c md fullKey v H. split; intros n s key Hn.
  - apply (covered_recorded n key), (modify_covered c _ md fullKey v H), (no_inplace_privF c _), Hn.
  - pose proof (delete_records c n s key Hn) as D. destruct (del_node c s n key); [exact I|].
    apply (covered_recorded n key), D.
Qed.
Print Assumptions C12_visited_channels_recorded.

(* InsertWatch / ModifyWatch (per-node watch mode): the channel handed out for k is exactly the channel Get(k)
   returns on the txn afterwards and on the tree it commits to; together with the two first-write theorems above
   it is closed by the Notify of a following txn whose first write inserts, replaces or deletes k *)
Theorem C12_insert_watch_is_get_watch : forall x md key v,
  t_ro x = false ->
  let '(x', _, _, w) := txn_modify x md key v in
  w <> 0 -> snd (txn_get x' key) = w /\ snd (tree_get (snd (txn_commit x')) key) = w.
Proof. exact insert_watch_is_get_watch. Qed.
Print Assumptions C12_insert_watch_is_get_watch.

(* Two-key stability (the induction needed for changes at an arbitrary position of a history), on ANY txn tree
   (published and private nodes mixed; F = "channel of a node private to the txn"): an Insert/Modify of k' leaves
   the channel Get(k) returns for any key k unchanged, or records it, or it is the inherited (root) channel, or it
   is private *)
Theorem C12_modify_two_key_stability : forall c md fullKey v (F : N -> Prop), c_tid c <> 0 ->
  forall n s k' k u u', privF c F n ->
    let r := modify_node c md fullKey v s n k' in
    getw n k u = u \/ getw (m_node r) k u' = getw n k u \/ In (getw n k u) (s_ws (m_st r)) \/ F (getw n k u).
Proof.
  intros c md fullKey v F H n s k' k u u' Hp. cbv zeta. rewrite !(proj1 getw_trail).
  apply (tstab_stab F). now apply modify_trail.
Qed.
Print Assumptions C12_modify_two_key_stability.

(* the same for Delete (all branches of delete/removeChild: leaf dropped, single child shifted up with its channel
   retained, demotion, merge with the remaining child, in-place propagation below nodes owned by the txn) *)
Theorem C12_delete_two_key_stability : forall c (F : N -> Prop), c_tid c <> 0 ->
  forall n s k' k u, privF c F n -> tids_le (c_tid c) n -> tmono n ->
    match del_node c s n k' with
    | DNone => True
    | DSome _ (Some n') s' _ => forall u',
        getw n k u = u \/ getw n' k u' = getw n k u \/ In (getw n k u) (s_ws s') \/ F (getw n k u)
    | DSome _ None s' _ => getw n k u = u \/ In (getw n k u) (s_ws s') \/ F (getw n k u)
    end.
Proof.
  intros c F _ n s k' k u Hp Hl Hm. pose proof (delete_trail c F n s k' Hp Hl Hm QGet k) as T.
  destruct (del_node c s n k') as [|old [n'|] s' ip]; cbn [dtstab] in T; [exact I| |].
  - intros u'. rewrite !(proj1 getw_trail). now apply (tstab_stab F).
  - rewrite (proj1 getw_trail). now apply (vrec_rec3 F).
Qed.
Print Assumptions C12_delete_two_key_stability.

(* Get(k) watch over WHOLE HISTORIES (full clause, any position in any multi-operation transaction): the channel a
   that Get(k) returned on the committed tree t (allocated before the txn began: a < next, the txn's channel
   allocator) is closed by Notify if k is inserted, replaced, or deleted while present, at any position of any
   sequence of inserts / modifies / deletes / id bumps (Clone, Iterator, Prefix, LowerBound, All) of a txn begun
   from t. `touched` counts a Delete only if it reported an old value. Covers present and absent keys, the root
   channel, both watch modes, every promotion / demotion / merge / in-place path. *)
Theorem C12_get_watch_closed_history : forall t next ops k,
  tree_ids_ok t -> tr_next t <> 0 -> root_tmono (tr_root t) ->
  snd (tree_get t k) <> 0 -> snd (tree_get t k) < next ->
  touched k (tree_txn t next) ops ->
  In (snd (tree_get t k)) (snd (txn_notify (fold_left wstep ops (tree_txn t next)))).
Proof.
  intros t next ops k. unfold tree_get. rewrite rq_get. intros. now apply watch_closed_history.
Qed.
Print Assumptions C12_get_watch_closed_history.

(* its side conditions are inductive: ids by C11_cow_published, id monotonicity (parent id >= child id) here *)
Theorem C12_history_keeps_id_monotonicity : forall t next ops,
  tree_ids_ok t -> tr_next t <> 0 -> root_tmono (tr_root t) ->
  root_tmono (tr_root (snd (txn_commit (fold_left wstep ops (tree_txn t next))))).
Proof.
  intros t next ops Hids Hnz Hm.
  apply (commit_side next (Fr next)), (run_inv next (Fr next) (Fr_alloc next)). now apply tree_txn_TInv.
Qed.
Print Assumptions C12_history_keeps_id_monotonicity.

(* Prefix(q) watch over WHOLE HISTORIES (per-node mode; in root-only mode Prefix returns the root channel, which is
   C12_root_watch_closed_iff): the channel Prefix(q) returned on the committed tree is closed by Notify if any key
   starting with q is inserted, replaced, or deleted while present, at any position of any operation sequence *)
Theorem C12_prefix_watch_closed_history : forall t next ops q,
  tree_ids_ok t -> tr_next t <> 0 -> root_tmono (tr_root t) ->
  snd (tree_prefix t q) <> 0 -> snd (tree_prefix t q) < next ->
  touched_p q (tree_txn t next) ops ->
  In (snd (tree_prefix t q)) (snd (txn_notify (fold_left wstep ops (tree_txn t next)))).
Proof.
  intros t next ops q. unfold tree_prefix. rewrite rq_prefix. intros. now apply watch_closed_history.
Qed.
Print Assumptions C12_prefix_watch_closed_history.

(* InsertWatch / ModifyWatch (per-node mode): the channel w handed out for key in txn state x (any point of any txn
   satisfying the invariants: TInv = ids bounded/monotone + txn-owned nodes carry txn-allocated channels, IL = inner
   channels below the allocator) is closed
   - by this txn's Notify if key is inserted, replaced or deleted again by a LATER OPERATION OF THE SAME TXN, and
   - otherwise it is still the channel Get(key) returns on the tree the txn commits to, and the Notify of the next
     txn that touches key (at any position) closes it. (A txn in between that does not touch key either closes it
     or keeps it as Get(key)'s channel: C12_get_watch_closed_or_kept.) *)
Theorem C12_insert_watch_closes_on_next_change : forall x md key v next0,
  TInv next0 (Fr next0) x -> IL x -> t_rw x < s_next (t_st x) -> t_ro x = false ->
  let x1 := fst (fst (fst (txn_modify x md key v))) in
  let w := snd (txn_modify x md key v) in
  w <> 0 ->
  forall ops1,
    let xe := fold_left wstep ops1 x1 in
    (touched key x1 ops1 -> In w (snd (txn_notify xe))) /\
    (In w (snd (txn_notify xe)) \/
     (snd (tree_get (snd (txn_commit xe)) key) = w /\
      forall next2 ops2, w < next2 -> touched key (tree_txn (snd (txn_commit xe)) next2) ops2 ->
        In w (snd (txn_notify (fold_left wstep ops2 (tree_txn (snd (txn_commit xe)) next2)))))).
Proof. exact insert_watch_closes_on_next_change. Qed.
Print Assumptions C12_insert_watch_closes_on_next_change.

Theorem C12_get_watch_closed_or_kept : forall t next ops k,
  tree_ids_ok t -> tr_next t <> 0 -> root_tmono (tr_root t) ->
  snd (tree_get t k) <> 0 -> snd (tree_get t k) < next -> tr_rw t <> snd (tree_get t k) ->
  let xe := fold_left wstep ops (tree_txn t next) in
  In (snd (tree_get t k)) (snd (txn_notify xe)) \/ snd (tree_get (snd (txn_commit xe)) k) = snd (tree_get t k).
Proof.
  intros t next ops k. unfold tree_get. rewrite !rq_get. intros. now apply watch_closed_or_kept.
Qed.
Print Assumptions C12_get_watch_closed_or_kept.

(* Freshness: no channel handed out by the tree produced by Commit (Get, Prefix, RootWatch on the NEW tree; Commit or
   CommitAndNotify give the same tree) is in the set closed by that transaction's Notify; and the accounting
   invariant (every nonzero channel occurs at most once in the tree, all below the allocator, recorded channels
   occur no more, the root channel is not a node channel) holds again for the new tree *)
Theorem C12_new_tree_channels_open : forall t next ops,
  CKt t next -> tr_next t <> 0 ->
  let xe := fold_left wstep ops (tree_txn t next) in
  let cl := snd (txn_notify xe) in
  let t' := snd (txn_commit xe) in
  (forall k, snd (tree_get t' k) <> 0 -> ~ In (snd (tree_get t' k)) cl) /\
  (forall q, snd (tree_prefix t' q) <> 0 -> ~ In (snd (tree_prefix t' q)) cl) /\
  (tr_rw t' <> 0 -> ~ In (tr_rw t') cl) /\
  CKt t' (s_next (t_st (fst (txn_commit xe)))).
Proof. exact new_tree_channels_open. Qed.
Print Assumptions C12_new_tree_channels_open.

Theorem C12_accounting_invariant_initial : forall ro next x,
  (0 < next -> CKt (fst (tree_new ro next)) (next + 1)) /\
  snd (fst (txn_commit_notify x)) = snd (txn_commit x).
Proof. exact (fun ro next x => conj (tree_new_CKt ro next) (commit_notify_same_tree x)). Qed.
Print Assumptions C12_accounting_invariant_initial.

(* Remaining side conditions (not derived from part.New by a single chained theorem): the history theorems take the
   handle's channel to be older than the transaction's allocator (`< next`), which is the bound part of CKt for that
   channel; tree_ids_ok / root_tmono / CKt are each shown to be re-established by every commit
   (C11_cow_published, C12_history_keeps_id_monotonicity, C12_new_tree_channels_open). *)

Example C12_nonvacuous :
  let t := fst (tree_new false 1) in
  let x := fold_left wstep [WIns [1] 10; WDel [2]] (tree_txn t 2) in
  tree_ok t /\ t_dirty x = true /\ snd (txn_notify x) = [1] /\
  t_dirty (fold_left wstep [WDel [2]] (tree_txn t 2)) = false.
Proof. vm_compute. repeat split; auto. Qed.

(* the hypotheses of the history theorem are satisfiable: a three-transaction chain, the handle taken on the
   second tree, the key changed as the fourth operation of the third transaction *)
Example C12_history_nonvacuous :
  let t0 := fst (tree_new false 1) in
  let t1 := snd (txn_commit (fold_left wstep [WIns [1] 10; WIns [1;2] 11; WIns [2] 12] (tree_txn t0 2))) in
  tree_ids_ok t1 /\ tr_next t1 <> 0 /\ root_tmono (tr_root t1) /\
  snd (tree_get t1 [1;2]) <> 0 /\ snd (tree_get t1 [1;2]) < 20 /\
  touched [1;2] (tree_txn t1 20) [WDel [1]; WBump; WIns [3] 1; WMod [1;2] 5 mod_fun].
Proof. vm_compute. repeat split; auto; try discriminate; try lia; intuition discriminate. Qed.

Example C12_fresh_nonvacuous : CKt (fst (tree_new false 1)) 2 /\
  touched_p [1] (tree_txn (snd (txn_commit (fold_left wstep [WIns [1;2] 3] (tree_txn (fst (tree_new false 1)) 2)))) 9)
            [WBump; WDel [1;2]].
Proof. split; [apply tree_new_CKt; lia|vm_compute; intuition discriminate]. Qed.
