(* Properties/C11.v — part.Tree is a correct, persistent ordered map.
   Each theorem is followed by its printed assumptions.
   Model: Part/Model.v (mechanism level). abs = entry list of the tree (Part/Sem.v ents),
   specification = Base/OrdMap.v. *)
From SV Require Import Base.Bytes Base.OrdMap Part.Model Part.Sem Part.Insert Part.Delete Part.Query Part.Refine Part.Cow Part.Traverse Part.Shape.
Open Scope N_scope.

(* the abstraction of a well-formed tree is a strictly sorted association list *)
Theorem C11_abs_sorted : forall r, wf_root r -> om_sorted (abs_root r).
Proof. exact abs_sorted. Qed.
Print Assumptions C11_abs_sorted.

(* Insert / Modify / InsertWatch / ModifyWatch: invariant (key consistency, sorted children,
   size = number of entries) preserved; new contents = om_insert; returned old value = om_get;
   stored value = mod(old, new) resp. new. For all keys (empty, prefixes of each other) and trees. *)
Theorem C11_modify_refines : forall x md key v,
  txn_ok x ->
  let '(x', old, nv, _) := txn_modify x md key v in
  txn_ok x' /\
  abs_txn x' = om_insert key nv (abs_txn x) /\
  old = om_get key (abs_txn x) /\
  nv = match old with Some o => new_val md v o | None => v end.
Proof. exact txn_modify_refines. Qed.
Print Assumptions C11_modify_refines.

(* Delete (incl. removeChild promotion/demotion/merge): invariant preserved, contents = om_delete,
   returned old value = om_get *)
Theorem C11_delete_refines : forall x key,
  txn_ok x ->
  let '(x', old) := txn_delete x key in
  txn_ok x' /\ abs_txn x' = om_delete key (abs_txn x) /\ old = om_get key (abs_txn x).
Proof. exact txn_delete_refines. Qed.
Print Assumptions C11_delete_refines.

(* Get on a Tree or Txn *)
Theorem C11_get_refines : forall r rw key, wf_root r -> fst (root_get r rw key) = om_get key (abs_root r).
Proof. intros r rw key. destruct r as [n|]; simpl; auto. intros H. eapply search_spec; eauto. Qed.
Print Assumptions C11_get_refines.

(* full iteration (Iterator.All of Tree.Iterator / Txn.Iterator / Txn.All) is exactly the sorted list *)
Theorem C11_iteration_refines : forall r, wf_root r -> iter_all (new_iterator r) = abs_root r.
Proof.
  intros r. destruct r as [n|]; [|reflexivity]. intros H. unfold iter_all, new_iterator, abs_root. cbn [it_start].
  rewrite (proj1 entries_ents n [] H). apply map_pre_nil.
Qed.
Print Assumptions C11_iteration_refines.

(* Len: part of txn_ok / tree_ok (size = length of the abstraction); Tree.Txn, Clone, Commit keep it *)
Theorem C11_commit_clone_txn_ok : forall x t next,
  (txn_ok x -> tree_ok (snd (txn_commit x)) /\ abs_tree (snd (txn_commit x)) = abs_txn x /\
               txn_ok (fst (txn_commit x)) /\ abs_txn (fst (txn_commit x)) = abs_txn x) /\
  (txn_ok x -> tree_ok (snd (txn_clone x)) /\ abs_tree (snd (txn_clone x)) = abs_txn x /\
               txn_ok (fst (txn_clone x)) /\ abs_txn (fst (txn_clone x)) = abs_txn x) /\
  (tree_ok t -> txn_ok (tree_txn t next) /\ abs_txn (tree_txn t next) = abs_tree t).
Proof. exact (fun x t next => conj (txn_commit_ok x) (conj (txn_clone_ok x) (tree_txn_ok t next))). Qed.
Print Assumptions C11_commit_clone_txn_ok.

(* all histories inside a transaction: any sequence of inserts, modifies, deletes and id bumps
   (Clone / Iterator / Prefix / LowerBound / All) — induction, no bounds *)
Theorem C11_history_refines : forall ops x, txn_ok x ->
  txn_ok (fold_left wstep ops x) /\ abs_txn (fold_left wstep ops x) = fold_left mstep ops (abs_txn x).
Proof. exact history_refines. Qed.
Print Assumptions C11_history_refines.

(* all chains of committed transactions *)
Theorem C11_chain_refines : forall txns t next, tree_ok t ->
  Forall tree_ok (run_txns t next txns) /\ map abs_tree (run_txns t next txns) = run_abs (abs_tree t) txns.
Proof.
  induction txns as [|ops rest IH]; intros t next H; simpl; auto.
  destruct (tree_txn_ok t next H) as [H1 H2].
  destruct (history_refines ops _ H1) as [H3 H4].
  destruct (txn_commit_ok _ H3) as (H5 & H6 & _).
  destruct (IH (snd (txn_commit (fold_left wstep ops (tree_txn t next))))
               (s_next (t_st (fst (txn_commit (fold_left wstep ops (tree_txn t next)))))) H5) as [H7 H8].
  split; [constructor; auto|]. rewrite H8, H6, H4, H2. reflexivity.
Qed.
Print Assumptions C11_chain_refines.

(* persistence over histories (model level): the versions produced so far are a prefix of
   what any continuation produces *)
Theorem C11_chain_persistent : forall txns0 txns1 t next,
  exists later, run_txns t next (txns0 ++ txns1) = run_txns t next txns0 ++ later.
Proof.
  induction txns0 as [|ops rest IH]; intros txns1 t next; simpl.
  - eexists; reflexivity.
  - destruct (IH txns1 (snd (txn_commit (fold_left wstep ops (tree_txn t next))))
                (s_next (t_st (fst (txn_commit (fold_left wstep ops (tree_txn t next))))))) as [l E].
    exists l. now rewrite E.
Qed.
Print Assumptions C11_chain_persistent.

(* ---- copy-on-write discipline (what makes the persistence of the pure model valid for the Go heap):
   a txn mutates in place (cloneNode = identity) only nodes whose id equals its own id ... *)
Theorem C11_cow_inplace_only_own : forall c s t w, t <> c_tid c ->
  fst (fst (clone_hdr c s t w)) = c_tid c /\ s_ws (snd (clone_hdr c s t w)) = s_ws (record w s).
Proof. exact clone_hdr_inplace_only. Qed.
Print Assumptions C11_cow_inplace_only_own.

(* ... every node in a txn's tree has id <= the txn id, preserved by Insert/Modify/Delete ... *)
Theorem C11_cow_ids_bounded : forall x md key v,
  (txn_ids_ok x -> txn_ids_ok (fst (fst (fst (txn_modify x md key v)))) /\
                   t_tid (fst (fst (fst (txn_modify x md key v)))) = t_tid x) /\
  (txn_ids_ok x -> txn_ids_ok (fst (txn_delete x key)) /\ t_tid (fst (txn_delete x key)) = t_tid x).
Proof. exact (fun x md key v => conj (txn_modify_ids x md key v) (txn_delete_ids x key)). Qed.
Print Assumptions C11_cow_ids_bounded.

(* ... every root handed out (Clone, Iterator/Prefix/LowerBound/All = bump, Commit) reaches only ids
   strictly below the txn id from then on, and a txn begun from a committed tree starts above all its ids ... *)
Theorem C11_cow_published : forall x t next,
  (txn_ids_ok x -> published (bump x) (t_root x) /\ txn_ids_ok (bump x)) /\
  (txn_ids_ok x -> tree_ids_ok (snd (txn_clone x)) /\ txn_ids_ok (fst (txn_clone x))) /\
  (txn_ids_ok x -> tree_ids_ok (snd (txn_commit x)) /\ txn_ids_ok (fst (txn_commit x))) /\
  (tree_ids_ok t -> txn_ids_ok (tree_txn t next) /\ published (tree_txn t next) (tr_root t)) /\
  (forall x' r, t_tid x <= t_tid x' -> published x r -> published x' r).
Proof.
  exact (fun x t next => conj (bump_publishes x) (conj (clone_publishes x) (conj (commit_publishes x)
          (conj (tree_txn_ids t next) (fun x' r => published_mono x x' r))))).
Qed.
Print Assumptions C11_cow_published.

(* ... hence no node (inner node or leaf) of a published root is ever mutated in place *)
Theorem C11_cow_published_never_mutated : forall x r, published x r ->
  match r with None => True | Some n => no_inplace (txn_ctx x) n end.
Proof.
  intros x r. destruct r as [n|]; auto. intros [H1 H2]. apply (proj1 (tids_lt_no_inplace (txn_ctx x))); auto.
Qed.
Print Assumptions C11_cow_published_never_mutated.

(* Prefix (Tree.Prefix / Txn.Prefix): the iterator yields exactly the entries whose key starts with q, in order
   (q empty, ending inside a compressed path, at an inner node, at a leaf, or matching nothing) *)
Theorem C11_prefix_refines : forall r rw q, wf_root r ->
  iter_all (fst (root_prefix r rw q)) = om_prefix q (abs_root r).
Proof.
  intros r rw q. destruct r as [n|]; [|reflexivity]. intros H. unfold root_prefix, abs_root.
  pose proof (prefix_spec n [] q rw H) as P. destruct (prefix_node n q rw) as [o w]. cbn [fst] in *.
  rewrite map_pre_nil in P. rewrite <- P. destruct o; reflexivity.
Qed.
Print Assumptions C11_prefix_refines.

(* LowerBound (incl. the node256 variant and traverseToMin): exactly the entries with key >= k, in order *)
Theorem C11_lowerbound_refines : forall r k, wf_root r ->
  iter_all (root_lowerbound r k) = om_lower_bound k (abs_root r).
Proof.
  intros r k. destruct r as [n|]; [|reflexivity]. intros H. unfold root_lowerbound, iter_all, abs_root. cbn [it_start it_edges].
  rewrite (proj1 lb_spec n [] k [] H). simpl. now rewrite app_nil_r, map_pre_nil.
Qed.
Print Assumptions C11_lowerbound_refines.

(* Iterator.Next (the edge-stack loop, explicit fuel) pops exactly the head of what Iterator.All yields *)
Theorem C11_next_agrees_all : forall it,
  match iter_next it with
  | (Some kv, it') => iter_all it = kv :: iter_all it'
  | (None, it') => iter_all it = [] /\ iter_all it' = []
  end.
Proof. exact iter_next_agrees_all. Qed.
Print Assumptions C11_next_agrees_all.

(* shape part of the invariant (what validateTree asserts): kind tag = capacity class of the child count
   (4: <=4, 16: 5..16, 48: 17..48, 256: >=49) and no leafless inner node with fewer than two children; preserved by
   Insert/Modify (promotion) and Delete (removeChild demotion / merge) *)
Theorem C11_shape_preserved : forall x md key v,
  match t_root x with None => True | Some n => wfk [] n end -> shape_root (t_root x) ->
  shape_root (t_root (fst (fst (fst (txn_modify x md key v))))) /\ shape_root (t_root (fst (txn_delete x key))).
Proof.
  intros x md key v Hw Hs. unfold txn_modify, txn_delete. destruct (t_root x) as [n|] eqn:Er; simpl in *.
  - split; [apply (modify_node_shape (txn_ctx x) md key v); auto|].
    pose proof (del_node_shape (txn_ctx x) n [] (t_st x) key Hw Hs) as D.
    destruct (del_node (txn_ctx x) (t_st x) n key) as [|old [n'|] s ip]; simpl; rewrite ?Er; auto.
  - destruct (fresh (txn_ctx x) (t_st x)). simpl. rewrite Er. simpl. auto.
Qed.
Print Assumptions C11_shape_preserved.

(* non-vacuity: the fresh tree satisfies the invariant, and a concrete history with keys that are
   prefixes of each other, the empty key, and a delete that merges nodes runs as specified *)
Example C11_nonvacuous :
  tree_ok (fst (tree_new false 1)) /\
  abs_txn (fold_left wstep [WIns [1;2] 10; WIns [] 11; WIns [1] 12; WIns [1;2;3] 13; WBump; WDel [1]; WMod [1;2] 5 mod_fun]
                     (tree_txn (fst (tree_new false 1)) 2))
  = [([], 11); ([1;2], 75); ([1;2;3], 13)].
Proof. split; [exact (proj1 (tree_new_ok false 1))|vm_compute; reflexivity]. Qed.

(* ---- the pointer-heap model of the write path (Part/Heap.v): nodes and leaves are cells of a heap,
   Txn.cloneNode returns its argument for IN-PLACE mutation exactly when node.txnID = txn.txnID and
   otherwise allocates a shallow copy (children and leaf shared with the original); delete's
   single-child merge allocates child.clone(false). What the tree-valued model above cannot express
   is proved here: the in-place writes of a transaction never hit a cell reachable from any other
   tree, clone, iterator or snapshot — of any lineage, whatever the ids. *)
From SV Require Part.Heap Part.HeapBase Part.HeapMod Part.HeapDel Part.HeapProofs.
Module C11_Heap.
Import SV.Part.Heap SV.Part.HeapBase SV.Part.HeapMod SV.Part.HeapDel SV.Part.HeapProofs.

(* the computed denotation (fuel = number of cells) is the relational one *)
Theorem C11_heap_den_is_rep : forall h a t, rep h a t -> den h a = Some t.
Proof. exact rep_den. Qed.
Print Assumptions C11_heap_den_is_rep.

(* (a) REFINEMENT: Insert/Modify/InsertWatch/ModifyWatch and Delete on the heap compute exactly what
   Part/Model.v computes on the denoted tree (root tree incl. all txnIDs and watch channels, size,
   watch state, returned old value / new value / watch) and preserve the invariant.
   hinv: 0 < txn id; the root represents a tree whose cells are frozen (leaves; inner nodes with
   id < txn id; all satisfying P) or owned (id = txn id, an unshared tree, all in x_own).
   Pext: P holds of the addresses not yet allocated. *)
Theorem C11_heap_refines_tree : forall (P : nat -> Prop) h x md key v, hinv P h x -> @Pext P h ->
  (let '(h', x', old, nv, w) := htxn_modify h x md key v in
   hinv P h' x' /\ (habs h' x', old, nv, w) = txn_modify (habs h x) md key v) /\
  (let '(h', x', old) := htxn_delete h x key in
   hinv P h' x' /\ (habs h' x', old) = txn_delete (habs h x) key).
Proof.
  intros P h x md key v HI PE. pose proof (htxn_modify_spec P h x md key v HI PE) as A.
  pose proof (htxn_delete_spec P h x key HI PE) as B.
  destruct (htxn_modify h x md key v) as [[[[h1 x1] old] nv] w]. destruct (htxn_delete h x key) as [[h2 x2] old2].
  split; [destruct A as (A1 & A2 & _); auto|destruct B as (B1 & B2 & _); auto].
Qed.
Print Assumptions C11_heap_refines_tree.

(* (b) OWNERSHIP: a cell reachable from the txn's root carries the txn id iff the txn allocated AND
   stamped it since its id was last bumped (x_own); Insert/Modify/Delete overwrite only such cells
   and otherwise only append *)
Theorem C11_inplace_writes_only_owned : forall (P : nat -> Prop) h x md key v, hinv P h x -> @Pext P h ->
  (forall a, reach_root h (x_root x) a -> (cell_tid (hget h a) = x_tid x <-> In a (x_own x))) /\
  (let '(h', x', _, _, _) := htxn_modify h x md key v in
   (length h <= length h')%nat /\ x_own x' = own_after x h h' /\ x_tid x' = x_tid x /\
   forall a, (a < length h)%nat -> ~ In a (x_own x) -> nth_error h' a = nth_error h a) /\
  (let '(h', x', _) := htxn_delete h x key in
   (length h <= length h')%nat /\ (x_own x' = own_after x h h' \/ h' = h /\ x' = x) /\ x_tid x' = x_tid x /\
   forall a, (a < length h)%nat -> ~ In a (x_own x) -> nth_error h' a = nth_error h a).
Proof.
  intros P h x md key v HI PE. split; [apply (owned_iff_id P); exact HI|].
  pose proof (htxn_modify_spec P h x md key v HI PE) as A.
  pose proof (htxn_delete_spec P h x key HI PE) as B.
  destruct (htxn_modify h x md key v) as [[[[h1 x1] old] nv] w]. destruct (htxn_delete h x key) as [[h2 x2] old2].
  destruct A as (_ & _ & (A3 & A3') & A4 & A5). destruct B as (_ & _ & (B3 & B3') & B4 & B5). auto 10.
Qed.
Print Assumptions C11_inplace_writes_only_owned.

(* ... where "allocated since the bump" alone is NOT the right own-set: the clone made by the merge
   branches keeps the child's older id (and leaves report id 0) although this txn allocated them *)
Theorem C11_own_is_not_all_allocated_refuted :
  exists (h : heap) (x : htxn) (k : bytes) (a : nat),
    hinv (fun _ => True) h x /\
    let '(h', x', _) := htxn_delete h x k in
    reach_root h' (x_root x') a /\ (length h <= a < length h')%nat /\
    cell_tid (hget h' a) <> x_tid x' /\ cell_tid (hget h' a) <> 0 /\ ~ In a (x_own x').
Proof.
  exists (s_heap s_m), (s_a s_m), ke, 6%nat.
  assert (I : SInv s_m) by (apply reachable_SInv, srun_ssteps).
  destruct I as (HA & _). split; [eapply hinv_P_impl; [exact HA|auto]|].
  vm_compute. split; [apply reach_here|]. split; [lia|]. split; [discriminate|]. split; [discriminate|]. intros [].
Qed.
Print Assumptions C11_own_is_not_all_allocated_refuted.

(* the system of two live transactions and all handed-out roots on one heap: the invariant holds
   initially (empty heap, New(), two transactions) and is preserved by every step of either
   transaction: Insert/Modify/Delete, Clone/Iterator/Prefix/LowerBound/All (id bump, root handed
   out), Commit (tree handed out, id bump), abandon + Tree.Txn on ANY handed-out tree (the new
   txn takes that tree's nextTxnID: two live transactions may carry the same id) *)
Theorem C11_heap_system_invariant :
  SInv sys0 /\ (forall s s', SInv s -> sstep s s' -> SInv s') /\ (forall s, ssteps sys0 s -> SInv s).
Proof. exact (conj SInv_sys0 (conj sstep_inv reachable_SInv)). Qed.
Print Assumptions C11_heap_system_invariant.

(* (c) PERSISTENCE: over any interleaving of operations of the two transactions, every root handed
   out before (committed tree, clone, iterator root) stays handed out and denotes the same tree, as
   does every node below it (Prefix / LowerBound start nodes, iterator edge stacks); more generally
   every address r of the heap that reaches no owned cell denotes the same tree *)
Theorem C11_persistence_all_trees : forall s s', SInv s -> ssteps s s' ->
  SInv s' /\
  (forall t, In t (s_pubs s) -> In t (s_pubs s') /\ habs_tree (s_heap s') t = habs_tree (s_heap s) t /\
     forall r, reach_root (s_heap s) (hr_root t) r -> den (s_heap s') r = den (s_heap s) r) /\
  (forall r t, rep (s_heap s) r t -> safe s r -> den (s_heap s') r = den (s_heap s) r).
Proof.
  intros s s' I St. destruct (ssteps_persist _ _ I St) as (I' & Pp & Q). split; [exact I'|]. split.
  - intros t Ht. split; [auto|]. split.
    + unfold habs_tree. f_equal. destruct (hr_root t) as [a|] eqn:Er; [|reflexivity]. cbn [den_root].
      destruct (pubs_safe _ _ I Ht a) as (tr & R & S); [rewrite Er; constructor|]. exact (proj1 (Pp _ _ R S)).
    + intros r Hr. destruct (pubs_safe _ _ I Ht r Hr) as (tr & R & S). exact (proj1 (Pp _ _ R S)).
  - intros r t R S. exact (proj1 (Pp _ _ R S)).
Qed.
Print Assumptions C11_persistence_all_trees.

(* the other live transaction (begun from the same or from a different tree) is not disturbed either *)
Theorem C11_other_txn_isolated : forall h a b ps h' a' ps', SInv (mkSys h a b ps) -> tstep h a ps h' a' ps' ->
  habs h' b = habs h b.
Proof.
  intros h a b ps h' a' ps' I St. destruct (tstep_inv _ _ _ _ _ _ _ I St) as (_ & Fr & _).
  destruct I as (_ & HB & D & _). cbn [s_heap s_a s_b s_pubs] in *.
  unfold habs. rewrite (other_den _ _ _ _ HB (disj_sym _ _ D) Fr). reflexivity.
Qed.
Print Assumptions C11_other_txn_isolated.

(* (d) the seeded shallow-clone bug: the single-child merge of delete rewriting the child's prefix
   in place when the PARENT is owned (instead of child.clone(false)) changes an earlier snapshot:
   keys "a","ab","ac","b"; Commit; the same Txn deletes "ab" then "a". The real code does not. *)
Theorem C11_shallow_child_merge_refuted :
  exists (h : heap) (x : htxn) (snap : htree) (k1 k2 : bytes),
    hinv (fun _ => True) h x /\ pub_ok h (x_own x) [] snap /\
    (let '(h1, x1, _) := htxn_delete_bug h x k1 in
     let '(h2, _, _) := htxn_delete_bug h1 x1 k2 in
     den_root h2 (hr_root snap) <> den_root h (hr_root snap)) /\
    (let '(h1, x1, _) := htxn_delete h x k1 in
     let '(h2, _, _) := htxn_delete h1 x1 k2 in
     den_root h2 (hr_root snap) = den_root h (hr_root snap)).
Proof.
  exists (s_heap s_snap), (s_a s_snap), (nth 0 (s_pubs s_snap) tree0), kab, ka.
  assert (I : SInv s_snap) by (apply reachable_SInv, srun_ssteps).
  destruct I as (HA & _ & _ & PS). split; [eapply hinv_P_impl; [exact HA|auto]|]. split.
  - rewrite Forall_forall in PS. apply (PS (nth 0 (s_pubs s_snap) tree0)). apply nth_In. vm_compute. lia.
  - split; [vm_compute; discriminate|vm_compute; reflexivity].
Qed.
Print Assumptions C11_shallow_child_merge_refuted.

(* 0 < txn id in the invariant is necessary: leaves report txnID 0, so a txn with id 0 (Tree.New
   before the nextTxnID = 1 fix) mutates a leaf of an earlier tree in place *)
Theorem C11_txn_id_zero_refuted :
  exists (h : heap) (x : htxn) (snap : option nat) (k : bytes) (v : N),
    x_tid x = 0 /\ x_own x = [] /\
    den_root (fst (fst (fst (fst (htxn_modify h x None k v))))) snap <> den_root h snap.
Proof.
  exists [CLeaf ka (mkLeaf ka 1 2)], (mkHTxn (Some 0%nat) 1 1 false 0 false (mkSt [] 3) []), (Some 0%nat), ka, 7.
  split; [reflexivity|]. split; [reflexivity|]. vm_compute. discriminate.
Qed.
Print Assumptions C11_txn_id_zero_refuted.

(* non-vacuity: keys "a","ab","ac","b", Commit (tree t1), Delete "ab" through the same Txn, Commit
   (tree t2): both states satisfy the invariant, t1 and t2 have different roots and share cells,
   and both denotations are as expected after the delete *)
Definition nv_ops : list (bool * act) :=
  [(false, AIns ka 1); (false, AIns kab 2); (false, AIns kac 3); (false, AIns kb 4); (false, ACommit);
   (false, ADel kab); (false, ACommit)].
Example C11_heap_nonvacuous :
  let s1 := srun (firstn 5 nv_ops) sys0 in let s2 := srun nv_ops sys0 in
  SInv s1 /\ SInv s2 /\ ssteps s1 s2 /\
  exists t1 t2 r1 r2 a, In t1 (s_pubs s1) /\ In t2 (s_pubs s2) /\ hr_root t1 = Some r1 /\ hr_root t2 = Some r2 /\
    r1 <> r2 /\ reach (s_heap s2) r1 a /\ reach (s_heap s2) r2 a /\
    den (s_heap s2) r1 = den (s_heap s1) r1 /\
    option_map node_entries (den (s_heap s2) r1) = Some [(ka, 1); (kab, 2); (kac, 3); (kb, 4)] /\
    option_map node_entries (den (s_heap s2) r2) = Some [(ka, 1); (kac, 3); (kb, 4)].
Proof.
  cbv zeta.
  assert (A : ssteps sys0 (srun (firstn 5 nv_ops) sys0)) by apply srun_ssteps.
  assert (B : ssteps (srun (firstn 5 nv_ops) sys0) (srun nv_ops sys0)).
  { rewrite <- (firstn_skipn 5 nv_ops) at 2. unfold srun. rewrite fold_left_app. apply srun_ssteps. }
  split; [apply reachable_SInv; exact A|]. split; [apply reachable_SInv; eapply ssteps_trans; eauto|]. split; [exact B|].
  exists (nth 0 (s_pubs (srun (firstn 5 nv_ops) sys0)) tree0), (nth 0 (s_pubs (srun nv_ops sys0)) tree0), 6%nat, 8%nat, 4%nat.
  split; [apply nth_In; vm_compute; lia|]. split; [apply nth_In; vm_compute; lia|].
  split; [vm_compute; reflexivity|]. split; [vm_compute; reflexivity|]. split; [discriminate|].
  split; [apply (addrs_reach 20); vm_compute; tauto|]. split; [apply (addrs_reach 20); vm_compute; tauto|].
  split; [vm_compute; reflexivity|]. split; vm_compute; reflexivity.
Qed.

(* the hypotheses of (a) and (b) are satisfiable by a non-trivial state: a live transaction of a
   branching two-transaction history that owns cells and shares frozen cells with handed-out trees *)
Example C11_heap_hinv_nonvacuous :
  let h := s_heap HeapExample.s_end in let x := s_b HeapExample.s_end in
  hinv (fun _ => True) h x /\ @Pext (fun _ => True) h /\ x_own x <> [] /\ x_root x <> None /\ (length h = 27)%nat.
Proof.
  cbv zeta. destruct HeapExample.reachable_mid_end as (_ & _ & _ & (_ & HB & _)).
  split; [eapply hinv_P_impl; [exact HB|auto]|]. split; [intros y _; exact I|].
  split; [vm_compute; discriminate|]. split; [vm_compute; discriminate|]. vm_compute. reflexivity.
Qed.
End C11_Heap.

(* The physical child layouts of part's node4/node16/node48/node256 (part/node.go at array level: Part/Layout.v,
   keys array with stale slots, node48 index, children slots; engine `layout`) refine the byte-sorted child
   list + kind tag that Part/Model.v works with. The Require stands here, in the middle of the file, so that
   the names it brings do not shadow those used by the statements above. *)
From SV Require Import Base.Bytes Part.Model Part.Layout Part.LayoutBase Part.LayoutKeyed Part.Layout48 Part.Layout256
  Part.LayoutProofs Part.LayoutClauses Part.LayoutRoot Part.LayoutLink Part.LayoutRefuted.
Close Scope N_scope.

(* the well-formedness invariant determines size, sortedness, byte range, capacity and kind *)
Theorem C11_layout_wf_abs : forall l, LWF l ->
  good (l_abs l) /\ l_size l = length (l_abs l) /\ l_size l <= l_cap l /\
  (l_kind l = 4 \/ l_kind l = 16 \/ l_kind l = 48 \/ l_kind l = 256)%N.
Proof. exact LWF_abs. Qed.
Print Assumptions C11_layout_wf_abs.

(* the slot-wise reading of LWF (which LayoutProofs.v defines through canonical forms) *)
Theorem C11_layout_wf_clauses : forall l, LWF l ->
  let ks := l_abs l in
  ssorted ks /\ Forall (fun k => (k < 256)%N) ks /\ l_size l = length ks /\ l_size l <= l_cap l /\
  length (l_children l) = l_cap l /\
  (l_kind l <> 256%N ->
     (forall i, i < l_size l -> child_at (l_children l) i = Some (nth i ks 0%N)) /\
     (forall i, l_size l <= i -> child_at (l_children l) i = None)) /\
  (l_kind l = 4%N \/ l_kind l = 16%N ->
     length (l_keys l) = l_cap l /\
     (forall i, i < l_size l -> key_at (l_keys l) i = nth i ks 0%N) /\
     exists m, forall i, l_size l <= i < l_cap l -> key_at (l_keys l) i = if i <? l_size l + m then 255%N else 0%N) /\
  (l_kind l = 48%N ->
     length (l_index l) = 256 /\
     forall k i, (k < 256)%N ->
       (nth (N.to_nat k) (l_index l) 0 = S i <-> i < l_size l /\ child_at (l_children l) i = Some k)) /\
  (l_kind l = 256%N ->
     forall k, (k < 256)%N -> child_at (l_children l) (N.to_nat k) = if memb k ks then Some k else None).
Proof. exact LWF_clauses. Qed.
Print Assumptions C11_layout_wf_clauses.

(* the empty node4 and the node4s built by Txn.modify's prefix split (fresh arrays) are well-formed *)
Theorem C11_layout_new_node4 : forall lf ks, good ks -> length ks <= 4 ->
  LWF (new_node4 lf ks) /\ l_abs (new_node4 lf ks) = ks.
Proof. exact LWF_new_node4. Qed.
Print Assumptions C11_layout_new_node4.

(* header.find: all four kinds, stale slots included (node4 ignores the size) *)
Theorem C11_layout_find : forall l key, LWF l -> (key < 256)%N -> (l_find l key = true <-> In key (l_abs l)).
Proof. intros l key H Hk. rewrite l_find_correct by assumption. apply memb_In. Qed.
Print Assumptions C11_layout_find.

(* header.findIndex: found iff present; index = number of smaller children (the insertion position)
   for node4/16/48 (node4's unrolled scan over stale slots, node48's index hit or binary search);
   node256 returns int(key) *)
Theorem C11_layout_findIndex : forall l key, LWF l -> (key < 256)%N ->
  (fst (l_findIndex l key) = true <-> In key (l_abs l)) /\
  (l_kind l <> 256%N -> snd (l_findIndex l key) = length (filter (fun x => (x <? key)%N) (l_abs l))) /\
  (l_kind l = 256%N -> snd (l_findIndex l key) = N.to_nat key).
Proof.
  intros l key H Hk. rewrite l_findIndex_correct by assumption. cbn [fst snd]. split; [apply memb_In|].
  split; intros Hkd; [apply N.eqb_neq in Hkd|]; rewrite Hkd; reflexivity.
Qed.
Print Assumptions C11_layout_findIndex.

(* header.promote keeps the child list *)
Theorem C11_layout_promote : forall l, LWF l -> l_kind l <> 256%N -> 1 <= l_size l ->
  LWF (l_promote l) /\ l_abs (l_promote l) = l_abs l /\ l_leaf (l_promote l) = l_leaf l /\
  l_kind (l_promote l) = (if l_kind l =? 4 then 16 else if l_kind l =? 16 then 48 else 256)%N.
Proof. intros l H Hnk H1. destruct (promote_node l H Hnk H1) as (? & ? & ? & _ & ?). auto. Qed.
Print Assumptions C11_layout_promote.

(* Txn.insert on the parent of a new child: findIndex, promotion exactly when size + 1 > cap, insert *)
Theorem C11_layout_add : forall l k, LWF l -> (k < 256)%N -> memb k (l_abs l) = false ->
  LWF (l_add l k) /\ l_abs (l_add l k) = ins k (l_abs l) /\ l_leaf (l_add l k) = l_leaf l /\
  l_size (l_add l k) = S (l_size l) /\ l_kind (l_add l k) = add_kind (l_kind l) (l_size l).
Proof. exact l_add_correct. Qed.
Print Assumptions C11_layout_add.

(* Txn.delete of a child that is a leaf: findIndex + removeChild; collapse into the last child when the
   node has 2 children and no leaf, demotions at 49 / 17 / 5, otherwise remove in the (cloned) arrays *)
Theorem C11_layout_del : forall l k, LWF l -> LOcc l -> (k < 256)%N -> memb k (l_abs l) = true ->
  if (l_size l =? 2) && negb (l_leaf l)
  then exists c, l_del l k = LCollapsed (Some c) /\ rem k (l_abs l) = [c]
  else exists l', l_del l k = LNode l' /\ LWF l' /\ l_abs l' = rem k (l_abs l) /\ l_leaf l' = l_leaf l /\
                  l_size l' = l_size l - 1 /\ l_kind l' = del_kind (l_kind l) (l_size l).
Proof. exact l_del_correct. Qed.
Print Assumptions C11_layout_del.

(* the invariant (well-formed + occupancy bounds of the kinds) is inductive *)
Theorem C11_layout_inv_preserved : forall l k, LInv l -> (k < 256)%N ->
  LInv (l_add l k) /\ (forall l', l_del l k = LNode l' -> LInv l').
Proof. exact (fun l k H Hk => conj (LInv_add l k H Hk) (fun l' => LInv_del l l' k H Hk)). Qed.
Print Assumptions C11_layout_inv_preserved.

(* closed world: every root reachable from the empty tree by Insert/Delete of the empty key and of
   1-byte keys (the trees of the `layout` engine) is well-formed and within the occupancy bounds, and
   (leaf present, child keys) evolves like a flag and a sorted set *)
Theorem C11_layout_root_history : forall ops r, RInv r -> Forall rop_ok ops ->
  RInv (fold_left r_step ops r) /\ r_abs (fold_left r_step ops r) = fold_left s_step ops (r_abs r).
Proof.
  induction ops as [|o ops IH]; intros r HI Hok; cbn [fold_left]; [split; [exact HI|reflexivity]|].
  apply Forall_cons_iff in Hok. destruct Hok as [Ho Hok].
  assert (H : RInv (r_step r o) /\ r_abs (r_step r o) = s_step (r_abs r) o).
  { destruct o as [k|k| |]; cbn [r_step s_step rop_ok] in *.
    - apply r_add_correct; assumption.
    - apply r_del_correct; assumption.
    - apply r_addleaf_correct; assumption.
    - apply r_delleaf_correct; assumption. }
  destruct H as [HI' Ea]. destruct (IH (r_step r o) HI' Hok) as [H1 H2]. split; [exact H1|]. rewrite H2, Ea. reflexivity.
Qed.
Print Assumptions C11_layout_root_history.

(* link to Part/Model.v: the child-adding branch of modify_node and remove_child compute the same
   (child key list, kind tag) as the layout model *)
Theorem C11_layout_link_add : forall c md fk v s kd t p w lf ch b rest key l,
  LWF l -> (b < 256)%N ->
  l_kind l = kd -> l_abs l = ch_keys ch -> l_leaf l = opt_some lf ->
  memb b (l_abs l) = false ->
  strip p key = Some (b :: rest) ->
  exists t2 w2 nl,
    m_node (modify_node c md fk v s (Inner kd t p w lf ch) key)
      = Inner (l_kind (l_add l b)) t2 p w2 lf (ch_insert b nl ch) /\
    ch_keys (ch_insert b nl ch) = l_abs (l_add l b) /\
    l_leaf (l_add l b) = opt_some lf.
Proof. exact link_add. Qed.
Print Assumptions C11_layout_link_add.

Theorem C11_layout_link_del : forall c s kd t p w lf ch b l,
  LWF l -> LOcc l -> (b < 256)%N ->
  l_kind l = kd -> l_abs l = ch_keys ch -> l_leaf l = opt_some lf ->
  memb b (l_abs l) = true ->
  match l_del l b with
  | LNode l' =>
    exists t' w' s' ip,
      remove_child c s kd t p w lf ch b = (Inner (l_kind l') t' p w' lf (ch_remove b ch), s', ip) /\
      ch_keys (ch_remove b ch) = l_abs l' /\ l_leaf l' = opt_some lf
  | LCollapsed (Some x) =>
    exists xn, ch_find x ch = Some xn /\ remove_child c s kd t p w lf ch b = (merge_child p xn, record w s, false)
  | LCollapsed None => False
  end.
Proof. exact link_del. Qed.
Print Assumptions C11_layout_link_del.

(* seeded-style variants refuted by witnesses *)
Theorem C11_layout_remove_noclear_refuted : exists l idx key,
  LInv l /\ idx < l_size l /\
  l_find (l_remove_noclear l idx) key = true /\ ~ In key (l_abs (l_remove_noclear l idx)).
Proof.
  exists (fold_left l_add [1%N; 2%N] (new_node4 true [])), 0, 255%N.
  split; [apply LInv_fold; [apply LInv_new_node4; [split; cbn; auto|cbn; lia]|repeat constructor]|].
  split; [vm_compute; lia|]. split; [vm_compute; reflexivity|].
  vm_compute. intros [H|[]]. discriminate.
Qed.
Print Assumptions C11_layout_remove_noclear_refuted.

Theorem C11_layout_remove48_noindex_refuted : exists l idx key,
  LInv l /\ l_kind l = 48%N /\ l_findIndex l key = (true, idx) /\
  l_find (l_remove48_noindex l idx) key = true /\ ~ In key (l_abs (l_remove48_noindex l idx)).
Proof.
  exists node48_0_17, 0, 0%N.
  split; [apply LInv_fold; [exact LInv_empty|apply bytes_seq; lia]|].
  split; [vm_compute; reflexivity|]. split; [vm_compute; reflexivity|]. split; [vm_compute; reflexivity|].
  vm_compute. intros H. repeat (destruct H as [H|H]; [discriminate|]). exact H.
Qed.
Print Assumptions C11_layout_remove48_noindex_refuted.

(* hypotheses are satisfiable: a node48 with 18 children reached by 18 adds from the empty node4
   (two promotions) satisfies the invariant, and deleting from it is the non-collapse case *)
Example C11_layout_nonvacuous :
  LInv node48_0_17 /\ l_kind node48_0_17 = 48%N /\ l_abs node48_0_17 = map N.of_nat (seq 0 18) /\
  memb 7%N (l_abs node48_0_17) = true /\ memb 200%N (l_abs node48_0_17) = false /\
  (l_size node48_0_17 =? 2) && negb (l_leaf node48_0_17) = false.
Proof.
  split; [apply LInv_fold; [exact LInv_empty | apply bytes_seq; lia] |].
  vm_compute. repeat split; reflexivity.
Qed.
