(* Properties/C17.v — part.Map and part.Set are persistent, model-exact and round-trip.
   Model: MapSet/Model.v (three representations of a Map, MapTxn, Set, codecs as ordered pair lists,
   the register-file machine of branching histories). `abs`/`sabs` map a value to the mathematical
   ordered map (Base/OrdMap.v); `minv`: an API-built tree holds >= 2 entries; `ins_all` = a run of
   writes in order (later write wins, `assoc_last`). *)
From SV Require Import Base.Bytes Base.OrdMap MapSet.Model MapSet.OrdLemmas MapSet.Proofs MapSet.SetProofs
  MapSet.Machine MapSet.Summary MapSet.Refuted MapSet.RecycleModel MapSet.RecycleProofs.
Open Scope N_scope.

(* the representation invariant is established by the zero value and preserved by every operation *)
Theorem C17_map_invariant :
  minv MEmpty /\
  (forall m k v, minv m -> minv (mset m k v)) /\
  (forall m k, minv m -> minv (mdelete m k)) /\
  (forall m hm, minv m -> NoDup (map fst hm) -> minv (fromMap m hm)) /\
  (forall m ops, minv m -> minv (tcommit (fold_left apply_txop ops (mtxn m)))) /\
  (forall l, NoDup (map fst l) -> minv (mdecode_json l) /\ minv (mdecode_yaml l)) /\
  (forall l, minv_weak (mdecode_json l) /\ minv_weak (mdecode_yaml l)) /\
  (forall m, minv m -> om_sorted (abs m)).
Proof.
  exact (conj minv_empty (conj mset_inv (conj mdelete_inv (conj fromMap_inv (conj txn_commit_inv
        (conj (fun l H => conj (mdecode_inv l H) (mdecode_inv l H))
        (conj (fun l => conj (mdecode_weak_inv l) (mdecode_weak_inv l)) minv_sorted))))))).
Qed.
Print Assumptions C17_map_invariant.

(* every mutator is the mathematical operation on abs; a transaction is the fold of its operations,
   also when it is used again after a Commit; decoding inserts in order *)
Theorem C17_map_ops_exact :
  (forall m k v, abs (mset m k v) = om_insert k v (abs m)) /\
  (forall m k, abs (mdelete m k) = om_delete k (abs m)) /\
  (forall m hm, abs (fromMap m hm) = ins_all hm (abs m)) /\
  (forall m ops, abs (tcommit (fold_left apply_txop ops (mtxn m))) = fold_left spec_txop ops (abs m)) /\
  (forall m ops1 ops2, abs (tcommit (fold_left apply_txop ops2 (fold_left apply_txop ops1 (mtxn m)))) =
                       fold_left spec_txop ops2 (abs (tcommit (fold_left apply_txop ops1 (mtxn m))))) /\
  (forall l, abs (mdecode_json l) = ins_all l [] /\ abs (mdecode_yaml l) = ins_all l []).
Proof.
  exact (conj mset_abs (conj mdelete_abs (conj fromMap_abs (conj txn_commit_abs (conj txn_reuse_abs
        (fun l => conj (mdecode_abs l) (mdecode_abs l))))))).
Qed.
Print Assumptions C17_map_ops_exact.

(* a later write to a key wins over an earlier one; other keys are untouched *)
Theorem C17_later_write_wins :
  (forall m k v k', minv m -> mget (mset m k v) k' = if bytes_eqb k' k then Some v else mget m k') /\
  (forall m k k', minv m -> mget (mdelete m k) k' = if bytes_eqb k' k then None else mget m k') /\
  (forall m hm k, minv m ->
     mget (fromMap m hm) k = match assoc_last k hm with Some v => Some v | None => mget m k end) /\
  (forall m hm k v, minv m -> NoDup (map fst hm) -> In (k, v) hm -> mget (fromMap m hm) k = Some v) /\
  (forall m hm k, minv m -> ~ In k (map fst hm) -> mget (fromMap m hm) k = mget m k) /\
  (forall l k, mget (mdecode_json l) k = assoc_last k l /\ mget (mdecode_yaml l) k = assoc_last k l) /\
  (forall l1 k v l2, ~ In k (map fst l2) -> assoc_last k (l1 ++ (k, v) :: l2) = Some v).
Proof.
  exact (conj mget_mset (conj mget_mdelete (conj fromMap_get (conj fromMap_get_in (conj fromMap_get_notin
        (conj (fun l k => conj (mdecode_get l k) (mdecode_get l k)) assoc_last_app)))))).
Qed.
Print Assumptions C17_later_write_wins.

(* the iteration order of the Go hash map given to FromMap is irrelevant *)
Theorem C17_frommap_order_irrelevant : forall m hm hm',
  minv m -> NoDup (map fst hm) -> NoDup (map fst hm') -> (forall p, In p hm <-> In p hm') ->
  abs (fromMap m hm) = abs (fromMap m hm').
Proof.
  intros m hm hm' H Hn Hn' Hp. pose proof (minv_sorted m H) as Hs. rewrite !fromMap_abs.
  apply om_ext; try now apply ins_all_sorted. intros k. rewrite !ins_all_get by auto.
  destruct (in_dec (list_eq_dec N.eq_dec) k (map fst hm)) as [Hin|Hnin].
  - apply in_map_iff in Hin. destruct Hin as [[k0 v] [Hf Hin]]. simpl in Hf. subst k0.
    rewrite (assoc_last_nodup k v hm), (assoc_last_nodup k v hm'); auto. now apply Hp.
  - rewrite (assoc_last_notin k hm), (assoc_last_notin k hm'); auto.
    intros Hin. apply Hnin. apply in_map_iff in Hin. destruct Hin as [p [Hf Hin]].
    apply in_map_iff. exists p. split; auto. now apply Hp.
Qed.
Print Assumptions C17_frommap_order_irrelevant.

(* Get, Len, All, Prefix, LowerBound agree with abs; iteration is in strictly ascending bytewise key
   order; a consumer that breaks early has seen a prefix of it *)
Theorem C17_map_reads_consistent :
  (forall m k, mget m k = om_get k (abs m)) /\
  (forall m, mlen m = N.of_nat (length (abs m))) /\
  (forall m, mall m = abs m) /\
  (forall m p, mprefix m p = om_prefix p (abs m)) /\
  (forall m from, mlower m from = om_lower_bound from (abs m)) /\
  (forall m lim, take lim (mall m) = firstn lim (abs m)) /\
  (forall m, minv m -> om_sorted (mall m)) /\
  (forall m p, minv m -> om_sorted (mprefix m p)) /\
  (forall m from, minv m -> om_sorted (mlower m from) /\
     forall e, In e (mlower m from) <-> In e (abs m) /\ bytes_ltb (fst e) from = false).
Proof.
  exact (conj mget_abs (conj mlen_abs (conj mall_abs (conj mprefix_abs (conj mlower_abs (conj take_abs
        (conj mall_sorted (conj mprefix_sorted mlower_sorted)))))))).
Qed.
Print Assumptions C17_map_reads_consistent.

(* the reads of a MapTxn after any sequence of its writes *)
Theorem C17_txn_reads_consistent : forall m ops,
  let t := fold_left apply_txop ops (mtxn m) in
  let a := fold_left spec_txop ops (abs m) in
  (forall k, tget t k = om_get k a) /\ tlen t = N.of_nat (length a) /\ tall t = a /\
  (forall p, tprefix t p = om_prefix p a) /\ (forall from, tlower t from = om_lower_bound from a) /\
  (forall k, snd (tdelete t k) = true <-> om_get k a <> None) /\
  (minv m -> om_sorted a).
Proof.
  intros m ops. cbv zeta. rewrite apply_txops_spec, mtxn_abs.
  exact (conj (fun _ => eq_refl) (conj eq_refl (conj eq_refl (conj (fun _ => eq_refl) (conj (fun _ => eq_refl)
        (conj (tdelete_found _) (fun H => spec_txops_sorted _ _ (minv_sorted _ H)))))))).
Qed.
Print Assumptions C17_txn_reads_consistent.

(* EqualKeys / SlowEqual decide equality of the key sets / of the contents, under the invariant
   (necessary: C17_equality_needs_invariant); under it equal contents even mean equal representation *)
Theorem C17_map_equality_decides :
  (forall m o, minv m -> minv o -> (mequalKeys m o = true <-> om_keys (abs m) = om_keys (abs o))) /\
  (forall m o, minv m -> minv o -> (mslowEqual m o = true <-> abs m = abs o)) /\
  (forall m o, minv m -> minv o -> abs m = abs o -> m = o).
Proof. exact (conj mequalKeys_spec (conj mslowEqual_spec abs_inj)). Qed.
Print Assumptions C17_map_equality_decides.

Theorem C17_equality_needs_invariant : exists m o,
  minv_weak m /\ minv_weak o /\ mequalKeys m o = true /\ mslowEqual m o = true /\ om_keys (abs m) <> om_keys (abs o).
Proof.
  exists (MSingle [97] 1), (MTree [([98], 2)]). unfold minv_weak.
  split; [apply sorted_single|]. split; [apply sorted_single|]. repeat split; vm_compute; try reflexivity. discriminate.
Qed.
Print Assumptions C17_equality_needs_invariant.

(* decoding a hand-made list with duplicate keys leaves the invariant (an encoding never has any) *)
Theorem C17_decode_duplicates_leave_invariant : exists l o,
  abs (mdecode_json l) = abs o /\ minv o /\ mequalKeys (mdecode_json l) o = false /\ mslowEqual (mdecode_json l) o = false.
Proof.
  exists [([97], 1); ([97], 2)], (MSingle [97] 2). repeat split; vm_compute; reflexivity.
Qed.
Print Assumptions C17_decode_duplicates_leave_invariant.

(* JSON / YAML: decoding the encoding of a value gives that very value back *)
Theorem C17_map_roundtrip :
  (forall m, minv m -> mdecode_json (mencode m) = m /\ mdecode_yaml (mencode m) = m) /\
  (forall m, minv_weak m -> abs (mdecode_json (mencode m)) = abs m /\ abs (mdecode_yaml (mencode m)) = abs m).
Proof.
  exact (conj (fun m H => conj (mdecode_mencode m H) (mdecode_mencode m H))
              (fun m H => conj (mdecode_mencode_abs m H) (mdecode_mencode_abs m H))).
Qed.
Print Assumptions C17_map_roundtrip.

Theorem C17_set_invariant :
  (forall tb, sinv (SNone tb)) /\ (forall l, sinv (snew l)) /\
  (forall s k v, sinv s -> sinv (sset s k v)) /\ (forall s k, sinv s -> sinv (sdelete s k)) /\
  (forall s s2, sinv s -> sinv s2 -> sinv (sunion s s2)) /\
  (forall s s2, sinv s -> sinv (sdifference s s2)) /\
  (forall l, sinv (sdecode_json l) /\ sinv (sdecode_yaml l)).
Proof.
  exact (conj sinv_none (conj snew_inv (conj sset_inv (conj sdelete_inv (conj sunion_inv (conj sdifference_inv
        (fun l => conj (sdecode_json_inv l) (sdecode_yaml_inv l)))))))).
Qed.
Print Assumptions C17_set_invariant.

(* Set operations on sabs (key -> stored element): Union writes s2 over s, Difference removes s2's keys *)
Theorem C17_set_ops_exact :
  (forall l, sabs (snew l) = ins_all l []) /\
  (forall s k v, sabs (sset s k v) = om_insert k v (sabs s)) /\
  (forall s k, sabs (sdelete s k) = om_delete k (sabs s)) /\
  (forall s s2, sinv s2 -> sabs (sunion s s2) = ins_all (sabs s2) (sabs s)) /\
  (forall s s2 k, sinv s -> sinv s2 ->
     om_get k (sabs (sunion s s2)) = match om_get k (sabs s2) with Some v => Some v | None => om_get k (sabs s) end) /\
  (forall s s2, sabs (sdifference s s2) = del_all (om_keys (sabs s2)) (sabs s)) /\
  (forall s s2 k, sinv s -> sinv s2 ->
     om_get k (sabs (sdifference s s2)) = match om_get k (sabs s2) with Some _ => None | None => om_get k (sabs s) end) /\
  (forall s k, shas s k = match om_get k (sabs s) with Some _ => true | None => false end) /\
  (forall s, slen s = N.of_nat (length (sabs s))) /\
  (forall s, sall s = sabs s) /\
  (forall l, sabs (sdecode_json l) = ins_all l [] /\ sabs (sdecode_yaml l) = ins_all l []).
Proof.
  exact (conj snew_abs (conj sset_abs (conj sdelete_abs (conj sunion_abs (conj sunion_get (conj sdifference_abs
        (conj sdifference_get (conj shas_abs (conj slen_abs (conj sall_abs
        (fun l => conj (sdecode_json_abs l) (sdecode_yaml_abs l)))))))))))).
Qed.
Print Assumptions C17_set_ops_exact.

(* Set.Equal decides equality of the key sets (unconditionally); sets round-trip *)
Theorem C17_set_equal_roundtrip :
  (forall s o, sequal s o = true <-> om_keys (sabs s) = om_keys (sabs o)) /\
  (forall s, sinv s -> sabs (sdecode_json (sencode s)) = sabs s /\ sabs (sdecode_yaml (sencode s)) = sabs s).
Proof. exact (conj sequal_spec sdecode_sencode). Qed.
Print Assumptions C17_set_equal_roundtrip.

(* persistence over branching histories: executing any further operations (on any registers) leaves
   every existing Map/Set register — representation and contents — unchanged; all reachable values
   satisfy the invariants *)
Theorem C17_persistence : forall st ops,
  (forall i m, rget (maps st) i = Some m ->
     rget (maps (run st ops)) i = Some m /\ abs (getm (run st ops) i) = abs m) /\
  (forall i s, rget (sets st) i = Some s ->
     rget (sets (run st ops)) i = Some s /\ sabs (gets (run st ops) i) = sabs s) /\
  (st_inv st -> Forall op_ok ops -> st_inv (run st ops)).
Proof. exact persistence. Qed.
Print Assumptions C17_persistence.

(* the machine's operations write their specified result into a fresh register *)
Theorem C17_machine_results : forall st,
  (forall d s k v, rget (maps st) d = None ->
     abs (getm (step st (OMSet d s k v)) d) = om_insert k v (abs (getm st s))) /\
  (forall d s k, rget (maps st) d = None ->
     abs (getm (step st (OMDel d s k)) d) = om_delete k (abs (getm st s))) /\
  (forall d s hm, rget (maps st) d = None ->
     abs (getm (step st (OMFrom d s hm)) d) = ins_all (hm_of_list hm) (abs (getm st s))) /\
  (forall d t x, rget (maps st) d = None -> rget (txns st) t = Some x ->
     abs (getm (step st (OTCommit d t)) d) = x) /\
  (forall d a b, rget (sets st) d = None -> st_inv st ->
     sabs (gets (step st (OSUnion d a b)) d) = ins_all (sabs (gets st b)) (sabs (gets st a))) /\
  (forall d a b, rget (sets st) d = None ->
     sabs (gets (step st (OSDiff d a b)) d) = del_all (om_keys (sabs (gets st b))) (sabs (gets st a))).
Proof.
  intros st. repeat split; intros; simpl.
  - rewrite getm_putm_new by auto. apply mset_abs.
  - rewrite getm_putm_new by auto. apply mdelete_abs.
  - rewrite getm_putm_new by auto. apply fromMap_abs.
  - rewrite H0. rewrite getm_putm_new by auto. apply tcommit_abs.
  - rewrite gets_puts_new by auto. apply sunion_abs. now apply gets_inv.
  - rewrite gets_puts_new by auto. apply sdifference_abs.
Qed.
Print Assumptions C17_machine_results.

(* the pre-fix FromMap (singleton inserted after the entries of hm, seeded/D5) violates "hm wins" *)
Theorem C17_D5_frommap_singleton_last_refuted : exists m hm k v,
  minv m /\ NoDup (map fst hm) /\ In (k, v) hm /\ mget (fromMap_old m hm) k <> Some v.
Proof.
  exists (MSingle [97] 1), [([97], 2); ([98], 3)], [97], 2.
  split; [exact I|]. split.
  - repeat constructor; simpl; intuition discriminate.
  - split; [now left|]. vm_compute. discriminate.
Qed.
Print Assumptions C17_D5_frommap_singleton_last_refuted.

(* mechanism level (MapSet/RecycleModel.v: Txn objects as mutable heap cells, Tree.prevTxn pointers,
   Tree.Txn() reusing the offered object): with MapTxn.Commit calling Txn.commit (the code as it is)
   every Map register and every MapTxn shows exactly what the pure machine shows, for every sequence of
   Map.Set / Map.Delete / Map.Txn / MapTxn.Set / MapTxn.Delete / MapTxn.Commit over branching versions *)
Theorem C17_txn_recycling_refines_pure : forall ops, Forall (fun o => txn_op o = true) ops ->
  forall i t, xobs_map (xrun false ms0 ops) i = rget (maps (run st0 ops)) i /\
              xobs_txn (xrun false ms0 ops) t = rget (txns (run st0 ops)) t.
Proof.
  intros ops Hops i t. destruct (run_sim ops ms0 st0 Hops ms0_hinv ms0_sim) as [S1 S2]. auto.
Qed.
Print Assumptions C17_txn_recycling_refines_pure.

(* with MapTxn.Commit calling Txn.Commit (before fix b3f1606, seeded/D6) it does not *)
Theorem C17_D6_recycling_old_refuted : exists ops t,
  Forall (fun o => txn_op o = true) ops /\
  xobs_txn (xrun true ms0 ops) t <> rget (txns (run st0 ops)) t.
Proof.
  exists [OMSet 1 0 [97] 1; OMSet 2 1 [98] 2; OMTxn 3 2; OTCommit 4 3; OMSet 5 4 [99] 3], 3.
  split; [repeat constructor|]. vm_compute. discriminate.
Qed.
Print Assumptions C17_D6_recycling_old_refuted.

(* non-vacuity: the invariants hold of non-trivial values in all three representations, reached by the
   machine from the empty state through representation switches in both directions *)
Example C17_nonvacuous :
  let ops := [OMSet 1 0 [97] 1; OMSet 2 1 [] 2; OMFrom 3 1 [([97], 3); ([98], 4)]; OMDel 4 2 [97]; OMDel 5 4 [];
              OMTxn 6 3; OTSet 6 [99] 5; OTCommit 7 6; OSNew 8 [([1], 1); ([2], 2)]; OSDiff 9 8 8; OSUnion 10 9 8] in
  let st := run st0 ops in
  st_inv st /\ Forall op_ok ops /\
  getm st 1 = MSingle [97] 1 /\ getm st 2 = MTree [([], 2); ([97], 1)] /\ getm st 3 = MTree [([97], 3); ([98], 4)] /\
  getm st 4 = MSingle [] 2 /\ getm st 5 = MEmpty /\ getm st 7 = MTree [([97], 3); ([98], 4); ([99], 5)] /\
  gets st 9 = STree [] /\ gets st 10 = STree [([1], 1); ([2], 2)].
Proof.
  intros ops st. assert (Hok : Forall op_ok ops) by (repeat constructor).
  split; [exact (run_inv ops st0 st0_inv Hok)|]. split; [exact Hok|]. vm_compute. repeat split.
Qed.
