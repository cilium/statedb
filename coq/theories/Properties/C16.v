(* Properties/C16.v — Reconciler retry pacing and WaitUntilReconciled contract.
   Each theorem is followed by its printed assumptions. *)
From Coq Require Import List NArith Bool.
From SV Require Import Reconciler.Retries Reconciler.Model Reconciler.RetriesProofs Reconciler.CommitProofs Reconciler.Refuted
  Reconciler.RoundInv Reconciler.Runs Reconciler.TableWf Reconciler.Refresh.
Import ListNotations.
Open Scope N_scope.

(* backoff arithmetic: Duration n = min (min*2^n) max *)
Theorem C16_backoff_ge_min : forall bmin bmax n, bmin <= bmax -> bmin <= duration bmin bmax n.
Proof. exact duration_ge_min. Qed.
Print Assumptions C16_backoff_ge_min.

Theorem C16_backoff_le_max : forall bmin bmax n, duration bmin bmax n <= bmax.
Proof. exact duration_le_max. Qed.
Print Assumptions C16_backoff_le_max.

Theorem C16_backoff_monotone : forall bmin bmax n m, n <= m -> duration bmin bmax n <= duration bmin bmax m.
Proof. exact duration_mono. Qed.
Print Assumptions C16_backoff_monotone.

Theorem C16_backoff_doubles_below_cap : forall bmin bmax n,
  bmin * 2 ^ (n + 1) <= bmax -> duration bmin bmax (n + 1) = 2 * duration bmin bmax n.
Proof. exact duration_doubles. Qed.
Print Assumptions C16_backoff_doubles_below_cap.

(* an item that failed at time `now` (Add) is queued for now + Duration(numRetries): never sooner than
   now + min, never later than now + max; processRetries pops only items with retryAt <= now *)
Theorem C16_retry_not_before_backoff : forall q o rev orig del now it,
  q_min q <= q_max q ->
  find_item (o_pk o) (q_items (r_add q o rev orig del now)) = Some it ->
  now + q_min q <= ri_at it /\ ri_at it <= now + q_max q /\ ri_at it = now + duration (q_min q) (q_max q) (ri_n it).
Proof. exact add_not_due_before. Qed.
Print Assumptions C16_retry_not_before_backoff.

(* consecutive failures: Add increments numRetries (so the wait does not shrink: C16_backoff_monotone) *)
Theorem C16_add_increments_numretries : forall q o rev orig del now,
  n_of (r_add q o rev orig del now) (o_pk o) = Some (match n_of q (o_pk o) with Some n => n + 1 | None => 1 end).
Proof. exact n_of_add_same. Qed.
Print Assumptions C16_add_increments_numretries.

(* numRetries only grows between Clears ... *)
Theorem C16_numretries_only_grows : forall q op pk n, uniq q -> op <> QClear pk -> n_of q pk = Some n ->
  exists n', n_of (apply_qop q op) pk = Some n' /\ n <= n'.
Proof. exact numretries_only_grows. Qed.
Print Assumptions C16_numretries_only_grows.

(* ... and Clear (on success or on a processed change of that key) starts the backoff over *)
Theorem C16_clear_resets_backoff : forall q pk o rev orig del now, o_pk o = pk ->
  n_of (r_clear q pk) pk = None /\ n_of (r_add (r_clear q pk) o rev orig del now) pk = Some 1.
Proof.
  intros q pk o rev orig del now H. split; [exact (n_of_clear_same q pk)|].
  subst pk. rewrite n_of_add_same, n_of_clear_same. reflexivity.
Qed.
Print Assumptions C16_clear_resets_backoff.

(* timer re-arm: after every queue operation, if an item is queued a timer is armed (or has fired)
   with a deadline not after the head's retryAt, so an idle reconciler wakes up when the head is due *)
Theorem C16_timer_rearmed : forall q op, timer_ok q -> timer_ok (apply_qop q op).
Proof. intros q [o rev orig del now| |pk] H; cbn; [apply add_timer_ok; exact H|apply pop_timer_ok|apply clear_timer_ok; exact H]. Qed.
Print Assumptions C16_timer_rearmed.

Theorem C16_due_head_wakes_loop : forall q now t, timer_ok q -> r_top q = Some t -> ri_at t <= now -> r_fired q now = true.
Proof. exact due_head_fires. Qed.
Print Assumptions C16_due_head_wakes_loop.

(* low watermark: zero exactly when no failed object awaits retry, else the minimum origRev *)
Theorem C16_low_watermark_zero_iff : forall q, (forall i, In i (q_items q) -> 0 < ri_orig i) ->
  (r_low_watermark q = 0 <-> q_items q = []).
Proof. exact low_watermark_zero_iff. Qed.
Print Assumptions C16_low_watermark_zero_iff.

Theorem C16_low_watermark_is_min : forall q, q_items q <> nil -> lwm_is_min q.
Proof.
  intros q Hne. unfold lwm_is_min, r_low_watermark. destruct (min_orig (q_items q)) as [m|] eqn:E.
  - apply min_orig_spec. exact E.
  - apply min_orig_none in E. contradiction.
Qed.
Print Assumptions C16_low_watermark_is_min.

(* with fix cd98c3d the origRev of a failing change survives retry + status commit unchanged, so the
   minimum above is the revision of the oldest failing CHANGE (not of the reconciler's Error writes) *)
Theorem C16_origrev_stable : forall e snap q res it e1 q1 res1 now t q2 t' q',
  ri_del it = false -> keyed t ->
  process_single e snap false q res (ri_obj it) (ri_rev it) (ri_orig it) (ri_del it) = (e1, q1, res1) ->
  exists r, res1 = res ++ [r] /\ r_orig r = ri_orig it /\ o_pk (r_obj r) = ri_pk it /\
    (commit_one true true now (t, q2) r = (t', q') ->
     orig_of q' (ri_pk it) = orig_of q2 (ri_pk it) \/ orig_of q' (ri_pk it) = Some (ri_orig it)).
Proof.
  intros e snap q res it e1 q1 res1 now t q2 t' q' Hd Hk H.
  pose proof (process_single_retry_orig _ _ _ _ _ _ _ _ H) as P. rewrite Hd in P. destruct P as [ok P].
  eexists. split; [exact P|]. split; [reflexivity|]. split; [reflexivity|].
  intro Hc. destruct (commit_one_orig _ _ _ _ _ _ _ (ri_pk it) Hk Hc) as [A|[_ A]]; [left; exact A|right; exact A].
Qed.
Print Assumptions C16_origrev_stable.

(* the pre-fix code violates that clause: one change at revision 1 keeps failing, watermark 1,2,3 *)
Theorem C16_low_watermark_drift_refuted :
  exists cf e0, cf = drift_cf /\ e0 = drift_e0 /\
    run_drift false = ([1; 2; 3], [(1, 1, kind_code Error)]) /\
    run_drift true = ([1; 1; 1], [(1, 1, kind_code Error)]).
Proof. exact low_watermark_drift_refuted. Qed.
Print Assumptions C16_low_watermark_drift_refuted.

(* WaitUntilReconciled(req) returns without error iff the progress revision has reached req; the
   progress revision only grows *)
Theorem C16_wait_until_reconciled : forall s req,
  (snd (wur s req) = true <-> req <= k_prev s) /\
  forall rev lwm, k_prev s <= k_prev (progress_update s rev lwm) /\ rev <= k_prev (progress_update s rev lwm) /\
                  k_plwm (progress_update s rev lwm) = lwm.
Proof.
  intros s req. split.
  - unfold wur. cbn [snd]. apply N.leb_le.
  - intros rev lwm. unfold progress_update. cbn [k_prev k_plwm].
    destruct (k_prev s <? rev) eqn:E; [apply N.ltb_lt in E|apply N.ltb_ge in E].
    + split; [apply N.lt_le_incl, E|split; [apply N.le_refl|reflexivity]].
    + split; [apply N.le_refl|split; [exact E|reflexivity]].
Qed.
Print Assumptions C16_wait_until_reconciled.

(* WaitUntilReconciled(req) returns nil only after every change <= req has been attempted: in every
   reachable state of the reconciler (single or batch mode, any history of writes, faults, timings) the reported
   revision k_prev is at most the change cursor (the revision of the last change delivered in a completed
   round), and every object with revision <= k_prev is no longer Pending/Refreshing (its status was written
   by a status commit, i.e. after an Update of that version: C15_commit_effect) and every deletion with
   revision <= k_prev has been handed to Delete/DeleteBatch at least once (Acall: a call in the log).
   (The Go oracles wur-ok-before-change-attempted and progress-revision-ahead-of-attempts check the same
   on the implementation on every run.) *)
Theorem C16_wur_only_after_attempted : forall cf st, reach cf st ->
  k_prev (snd st) <= k_cursor (snd st) /\ attempted_upto (fst st) (snd st) /\
  forall req, snd (wur (snd st) req) = true -> forall pk sl, slot_of (e_tab (fst st)) pk = Some sl -> slot_rev sl <= req ->
    match sl with Live o _ => is_pending o = false | Dead _ r => Acall (fst st) pk r end.
Proof. exact wur_only_after_attempted. Qed.
Print Assumptions C16_wur_only_after_attempted.

(* the refresher (reconciler.go refreshLoop) is the only other writer inside the library. "The backoff starts over
   after the object changes or succeeds" - and not because the refresher came by: in every reachable state an
   object with a queued update retry is left exactly as it is by the refresher's write transaction, whatever
   (stale) snapshot the refresher took its (object, revision) pair from: the table is unchanged, so the next round
   sees no change of that key, Clear is not called and the item keeps its retryAt and numRetries
   (C16_numretries_only_grows, C16_retry_not_before_backoff). Timing of the sweep (UpdatedAt, RefreshInterval,
   RefreshRateLimiter) is not modelled: (o, rev) is ANY Done object of ANY earlier snapshot. Checked on the
   implementation by the directed probe `probe refreshbackoff` (!BAD:C16:re-attempt-...-after-failure). *)
Theorem C16_refresher_never_restarts_a_backoff : forall cf e s snap o rev it, reach cf (e, s) ->
  twf snap -> tstep snap (e_tab e) -> refresher_saw snap o rev ->
  In it (q_items (k_ret s)) -> ri_del it = false -> ri_pk it = o_pk o ->
  refresh_write (e_tab e) o rev = e_tab e.
Proof. exact refresher_leaves_queued_retries_alone. Qed.
Print Assumptions C16_refresher_never_restarts_a_backoff.

(* the revision comparison is what this rests on: with `if ok` alone (seeded change S3-C16-2) the Error object
   of a failing update (retry queued for time 60, numRetries 2) is overwritten with Refreshing at time 20, Update
   is called again at once and the item is re-queued for time 40 with numRetries 1 *)
Theorem C16_refresher_no_revision_check_refuted :
  refresher_saw rf_snap rf_o rf_rev /\
  t_live rf_err 1 = Some (mkObj 1 2 Error 5 0, 5) /\
  e_now (fst rf_st1) = 20 /\ items_of (snd rf_st1) = [(1, 60, 2)] /\
  t_live (refresh_write_nocheck rf_err rf_o) 1 = Some (mkObj 1 2 Refreshing 6 0, 6) /\
  refresh_write rf_err rf_o rf_rev = rf_err /\
  calls_of (fst (rf_next rf_err)) = [] /\ items_of (snd (rf_next rf_err)) = [(1, 60, 2)] /\
  calls_of (fst (rf_next (refresh_write_nocheck rf_err rf_o))) = [(20, 0, 1, false)] /\
  items_of (snd (rf_next (refresh_write_nocheck rf_err rf_o))) = [(1, 40, 1)].
Proof. exact refresh_no_revision_check_refuted. Qed.
Print Assumptions C16_refresher_no_revision_check_refuted.

Example C16_nonvacuous :
  duration 10 80 1 = 20 /\ duration 10 80 5 = 80 /\
  timer_ok (r_add (r_new 10 80) (mkObj 1 1 Pending 1 0) 2 1 false 100) /\
  r_low_watermark (r_add (r_add (r_new 10 80) (mkObj 1 1 Pending 1 0) 2 7 false 100) (mkObj 2 1 Pending 2 0) 3 5 false 100) = 5.
Proof.
  split; [vm_compute; reflexivity|]. split; [vm_compute; reflexivity|].
  split; [apply add_timer_ok; apply timer_ok_new|vm_compute; reflexivity].
Qed.

(* reconciler/retries.go at heap level: the two container/heap priority queues with their index bookkeeping
   (Reconciler/Heap.v, modelled from retries.go and container/heap; engine retryq compares it with the real
   queue, ties included) and its refinement to the list model Retries.v used above. *)
From Coq Require Import ZArith.
From SV Require Import Reconciler.Heap Reconciler.HeapProofs Reconciler.HeapInv Reconciler.HeapRefine Reconciler.HeapRefuted.

(* the two container/heap queues of retries.go: invariant (HInv = one item per key; item.index / revIndex =
   position in queue.items / revQueue.items or -1; heap order of both arrays; every item of the map is in revQueue) *)
Theorem C16_heap_inv_initial : forall a b, HInv (hq_new a b).
Proof. exact HInv_new. Qed.
Print Assumptions C16_heap_inv_initial.

Theorem C16_heap_inv_preserved : forall hs op, HInv hs -> HInv (apply_hop hs op).
Proof. exact HInv_apply. Qed.
Print Assumptions C16_heap_inv_preserved.

Theorem C16_heap_inv_reachable : forall hs, hreach hs -> HInv hs.
Proof. exact HInv_reach. Qed.
Print Assumptions C16_heap_inv_reachable.

(* (a) both arrays are duplicate-free; queue.items is a subset of revQueue.items = the keys of the map *)
Theorem C16_heap_arrays : forall hs, HInv hs ->
  NoDup (hs_q hs) /\ NoDup (hs_r hs) /\
  (forall pk, In pk (hs_q hs) -> In pk (hs_r hs)) /\
  (forall pk, In pk (hs_r hs) <-> In pk (map hi_pk (hs_store hs))).
Proof.

  intros hs [Hu [Hq _] [Hr _] Ha].
  split; [apply (idx_ok_nodup QT _ Hq)|]. split; [apply (idx_ok_nodup QR _ Hr)|].
  assert (Hall : forall pk, In pk (hs_r hs) <-> In pk (map hi_pk (hs_store hs))).
  { intro pk. split.
    - intro Hin. destruct (idx_ok_present QR _ pk Hr Hin) as [it A]. cbn [fst] in A.
      destruct (In_dec N.eq_dec pk (map hi_pk (hs_store hs))) as [I|I]; [exact I|].
      apply st_get_none in I. congruence.
    - intro Hin. destruct (st_get pk (hs_store hs)) as [it|] eqn:E; [|apply st_get_none in E; contradiction].
      apply (queued_in QR (hs_store hs, hs_r hs) pk Hr). apply (Ha pk it E). }
  split; [|exact Hall].
  intros pk Hin. apply Hall. destruct (idx_ok_present QT _ pk Hq Hin) as [it A]. cbn [fst] in A.
  destruct (In_dec N.eq_dec pk (map hi_pk (hs_store hs))) as [I|I]; [exact I|]. apply st_get_none in I. congruence.
Qed.
Print Assumptions C16_heap_arrays.

(* (b) index bookkeeping *)
Theorem C16_heap_index_bookkeeping : forall hs pk it, HInv hs -> st_get pk (hs_store hs) = Some it ->
  (forall i, (i < length (hs_q hs))%nat -> (nth i (hs_q hs) 0 = pk <-> hi_index it = Z.of_nat i)) /\
  (~ In pk (hs_q hs) <-> hi_index it = (-1)%Z) /\
  (forall i, (i < length (hs_r hs))%nat -> (nth i (hs_r hs) 0 = pk <-> hi_revIndex it = Z.of_nat i)) /\
  In pk (hs_r hs) /\ hi_revIndex it <> (-1)%Z.
Proof. exact HInv_index. Qed.
Print Assumptions C16_heap_index_bookkeeping.

(* (c) heap order: a parent is not greater than its children, in both arrays *)
Theorem C16_heap_order : forall hs, HInv hs ->
  (forall j, (0 < j < length (hs_q hs))%nat ->
     hi_at (st_getd (nth (Nat.div (j - 1) 2) (hs_q hs) 0) (hs_store hs)) <= hi_at (st_getd (nth j (hs_q hs) 0) (hs_store hs))) /\
  (forall j, (0 < j < length (hs_r hs))%nat ->
     hi_orig (st_getd (nth (Nat.div (j - 1) 2) (hs_r hs) 0) (hs_store hs)) <= hi_orig (st_getd (nth j (hs_r hs) 0) (hs_store hs))).
Proof. intros hs [Hu [_ Hq] [_ Hr] Ha]. split; intros j Hj; [apply (Hq j Hj)|apply (Hr j Hj)]. Qed.
Print Assumptions C16_heap_order.

(* Top / Pop / Clear / LowWatermark on the heaps *)
Theorem C16_heap_top_minimal : forall hs t, HInv hs -> hq_top hs = Some t ->
  st_get (hi_pk t) (hs_store hs) = Some t /\ hi_index t = 0%Z /\ nth 0 (hs_q hs) 0 = hi_pk t /\
  forall pk it, st_get pk (hs_store hs) = Some it -> hi_index it <> (-1)%Z -> hi_at t <= hi_at it.
Proof. exact hq_top_min. Qed.
Print Assumptions C16_heap_top_minimal.

Theorem C16_heap_top_none_iff : forall hs, HInv hs -> (hq_top hs = None <-> forall pk, ~ queued QT (hs_store hs) pk).
Proof. exact hq_top_none. Qed.
Print Assumptions C16_heap_top_none_iff.

Theorem C16_heap_pop_removes_top : forall hs t, HInv hs -> hq_top hs = Some t ->
  exists hs', hq_pop hs = Some hs' /\ HInv hs' /\
    (forall pk, In pk (hs_q hs') <-> pk <> hi_pk t /\ In pk (hs_q hs)) /\
    S (length (hs_q hs')) = length (hs_q hs) /\
    hs_r hs' = hs_r hs /\ map (erase QT) (hs_store hs') = map (erase QT) (hs_store hs).
Proof.
  intros hs t H Et.
  assert (Hne : hs_q hs <> []) by (unfold hq_top in Et; destruct (hs_q hs); discriminate).
  destruct (hq_pop_spec hs H Hne) as [hs' [Ep [Hinv [[_ [Hlen [Her Hqd]]] [Hr _]]]]]. cbn [fst snd] in *.
  destruct (hq_top_min hs t H Et) as [_ [_ [Tn _]]]. rewrite Tn in Hqd.
  exists hs'. split; [exact Ep|]. split; [exact Hinv|]. split; [|split; [exact Hlen|split; [exact Hr|exact Her]]].
  intro pk. rewrite <- (HInv_queued_q hs' pk Hinv), <- (HInv_queued_q hs pk H). apply Hqd.
Qed.
Print Assumptions C16_heap_pop_removes_top.

(* Clear: both guards (range + key comparison) are true whenever the item is in the respective heap, and
   exactly the item of pk leaves the map and both arrays *)
Theorem C16_heap_clear_exact : forall hs pk it, HInv hs -> st_get pk (hs_store hs) = Some it ->
  (In pk (hs_q hs) -> clear_guard (hi_index it) (hs_q hs) pk = true) /\
  clear_guard (hi_revIndex it) (hs_r hs) pk = true /\
  HInv (hq_clear hs pk) /\
  st_get pk (hs_store (hq_clear hs pk)) = None /\
  (forall pk', In pk' (hs_q (hq_clear hs pk)) <-> pk' <> pk /\ In pk' (hs_q hs)) /\
  (forall pk', In pk' (hs_r (hq_clear hs pk)) <-> pk' <> pk /\ In pk' (hs_r hs)) /\
  map erase2 (hs_store (hq_clear hs pk)) = map erase2 (st_del pk (hs_store hs)).
Proof.
  intros hs pk it H Hg. destruct (hq_clear_spec hs pk it H Hg) as [G1 [G2 [Hinv [Her [Hqd _]]]]].
  split.
  - intro Hin. rewrite G1. apply (HInv_queued_q hs pk H), queued_ixv in Hin. unfold ixv in Hin. rewrite Hg in Hin.
    apply Z.eqb_neq in Hin. cbn [get_idx] in Hin. rewrite Hin. reflexivity.
  - split; [exact G2|]. split; [exact Hinv|]. split; [|split; [|split; [|exact Her]]].
    + destruct (st_get pk (hs_store (hq_clear hs pk))) as [a|] eqn:Ea; [|reflexivity]. exfalso.
      pose proof (hv_allrev _ Hinv pk a Ea) as Y. apply Hqd in Y. destruct Y as [Y _]. congruence.
    + intro pk'. rewrite <- (HInv_queued_q _ pk' Hinv), <- (HInv_queued_q hs pk' H). apply Hqd.
    + intro pk'. rewrite <- (HInv_queued_r _ pk' Hinv), <- (HInv_queued_r hs pk' H). apply Hqd.
Qed.
Print Assumptions C16_heap_clear_exact.

(* LowWatermark peeks revQueue: 0 when the map is empty, else the minimum origRev over the map; the state
   is unchanged and the lazy-deletion loop performs no PopItem *)
Theorem C16_heap_low_watermark : forall hs, HInv hs ->
  exists v, hq_low_watermark hs = (v, hs, 0%nat) /\
    (hs_store hs = [] -> v = 0) /\
    (hs_store hs <> [] -> (exists it, In it (hs_store hs) /\ hi_orig it = v) /\
                          forall it, In it (hs_store hs) -> v <= hi_orig it).
Proof. exact hq_lwm_spec. Qed.
Print Assumptions C16_heap_low_watermark.

Theorem C16_heap_low_watermark_zero_iff : forall hs, HInv hs -> (forall it, In it (hs_store hs) -> 0 < hi_orig it) ->
  (fst (fst (hq_low_watermark hs)) = 0 <-> hs_store hs = []).
Proof. exact hq_lwm_zero_iff. Qed.
Print Assumptions C16_heap_low_watermark_zero_iff.

Theorem C16_heap_lwm_never_pops : forall hs, hreach hs ->
  snd (hq_low_watermark hs) = 0%nat /\ snd (fst (hq_low_watermark hs)) = hs.
Proof. intros hs H. destruct (hq_lwm_spec hs (HInv_reach hs H)) as [v [A _]]. rewrite A. split; reflexivity. Qed.
Print Assumptions C16_heap_lwm_never_pops.

(* timer re-arm invariant at heap level (ties included) *)
Theorem C16_heap_timer_rearmed : forall hs op, HInv hs -> htimer_ok hs -> htimer_ok (apply_hop hs op).
Proof.
  intros hs op H Hok. apply (htimer_ok_abs _ (HInv_apply hs op H)). apply (htimer_ok_abs hs H) in Hok.
  destruct op as [o rev orig del now| |pk|]; cbn [apply_hop].
  - destruct (abs_add hs o rev orig del now H) as [b [A B]]. rewrite A. apply add_b_timer_ok; assumption.
  - destruct (hs_q hs) as [|p q0] eqn:Eq.
    + unfold hq_pop. rewrite Eq. exact Hok.
    + destruct (abs_pop hs H ltac:(rewrite Eq; discriminate)) as [hs' [t [Ep [_ [A _]]]]]. rewrite Ep, A. apply reset_timer_ok.
  - destruct (abs_clear hs pk H) as [b [A B]]. rewrite A. apply clear_b_timer_ok. exact Hok.
  - destruct (hq_lwm_spec hs H) as [v [A _]]. rewrite A. exact Hok.
Qed.
Print Assumptions C16_heap_timer_rearmed.

Theorem C16_heap_due_head_wakes_loop : forall hs now t, HInv hs -> htimer_ok hs -> hq_top hs = Some t -> hi_at t <= now ->
  hq_fired hs now = true.
Proof. exact (fun hs now t _ => htimer_due_head_fires hs now t). Qed.
Print Assumptions C16_heap_due_head_wakes_loop.

(* refinement to the list model Retries.v (abs forgets the arrays and the index fields) *)
Theorem C16_heap_refines_add_items : forall hs o rev orig del now, HInv hs ->
  q_items (abs (hq_add hs o rev orig del now)) = q_items (r_add (abs hs) o rev orig del now).
Proof. exact abs_add_items. Qed.
Print Assumptions C16_heap_refines_add_items.

Theorem C16_heap_refines_clear_items : forall hs pk, HInv hs ->
  q_items (abs (hq_clear hs pk)) = q_items (r_clear (abs hs) pk).
Proof. exact abs_clear_items. Qed.
Print Assumptions C16_heap_refines_clear_items.

Theorem C16_heap_refines_low_watermark : forall hs, HInv hs -> fst (fst (hq_low_watermark hs)) = r_low_watermark (abs hs).
Proof. exact abs_low_watermark. Qed.
Print Assumptions C16_heap_refines_low_watermark.

Theorem C16_heap_refines_top_retryat : forall hs, HInv hs -> option_map hi_at (hq_top hs) = option_map ri_at (r_top (abs hs)).
Proof. exact abs_top_at. Qed.
Print Assumptions C16_heap_refines_top_retryat.

Theorem C16_heap_refines_top_item_when_unique : forall hs t, HInv hs -> hq_top hs = Some t ->
  (forall pk it, st_get pk (hs_store hs) = Some it -> hi_index it <> (-1)%Z -> pk <> hi_pk t -> hi_at it <> hi_at t) ->
  r_top (abs hs) = Some (abs_item t).
Proof. exact abs_top_item. Qed.
Print Assumptions C16_heap_refines_top_item_when_unique.

(* up to ties: the heap performs Retries.v's operation with one of the allowed tie-dependent choices ... *)
Theorem C16_heap_add_up_to_ties : forall hs o rev orig del now, HInv hs ->
  exists b, abs (hq_add hs o rev orig del now) = r_add_b b (abs hs) o rev orig del now /\
            add_ok b (abs hs) o rev orig del now.
Proof. exact abs_add. Qed.
Print Assumptions C16_heap_add_up_to_ties.

Theorem C16_heap_clear_up_to_ties : forall hs pk, HInv hs ->
  exists b, abs (hq_clear hs pk) = r_clear_b b (abs hs) pk /\ clear_ok b (abs hs) pk.
Proof. exact abs_clear. Qed.
Print Assumptions C16_heap_clear_up_to_ties.

Theorem C16_heap_pop_up_to_ties : forall hs, HInv hs -> hs_q hs <> [] ->
  exists hs' t, hq_pop hs = Some hs' /\ hq_top hs = Some t /\
    abs hs' = r_pop_t (abs_item t) (abs hs) /\ is_head (q_items (abs hs)) (abs_item t).
Proof. exact abs_pop. Qed.
Print Assumptions C16_heap_pop_up_to_ties.

(* ... Retries.v's own choice is one of them, every allowed choice keeps timer_ok ... *)
Theorem C16_heap_list_add_is_allowed : forall q o rev orig del now, uniq q ->
  add_ok (match others_min_at (o_pk o) (q_items q) with None => true | Some m => ri_at (new_item q o rev orig del now) <? m end)
         q o rev orig del now.
Proof. exact r_add_ok. Qed.
Print Assumptions C16_heap_list_add_is_allowed.

Theorem C16_heap_any_add_choice_keeps_timer : forall b q o rev orig del now, timer_ok q -> add_ok b q o rev orig del now ->
  timer_ok (r_add_b b q o rev orig del now).
Proof. exact add_b_timer_ok. Qed.
Print Assumptions C16_heap_any_add_choice_keeps_timer.

(* ... and without ties it is exactly Retries.v: simulation of whole runs *)
Theorem C16_heap_simulation_initial : forall a b, R (hq_new a b) (r_new a b).
Proof. intros a b. split; [apply HInv_new|reflexivity]. Qed.
Print Assumptions C16_heap_simulation_initial.

Theorem C16_heap_simulation_step : forall hs q op, R hs q -> op_no_tie q op -> R (apply_hop hs op) (apply_rop q op).
Proof. exact R_step. Qed.
Print Assumptions C16_heap_simulation_step.

Theorem C16_heap_simulation_observables : forall hs q, R hs q ->
  q_items q = map abs_item (hs_store hs) /\
  fst (fst (hq_low_watermark hs)) = r_low_watermark q /\
  hs_timer hs = q_timer q /\ (forall now, hq_fired hs now = r_fired q now) /\
  option_map hi_at (hq_top hs) = option_map ri_at (r_top q) /\
  (forall t, hq_top hs = Some t ->
     (forall pk it, st_get pk (hs_store hs) = Some it -> hi_index it <> (-1)%Z -> pk <> hi_pk t -> hi_at it <> hi_at t) ->
     r_top q = Some (abs_item t)).
Proof.
  intros hs q [H E]. subst q. split; [reflexivity|]. split; [apply abs_low_watermark; exact H|].
  split; [reflexivity|]. split; [reflexivity|]. split; [apply abs_top_at; exact H|].
  intros t Et Hu. apply abs_top_item; assumption.
Qed.
Print Assumptions C16_heap_simulation_observables.

(* numRetries evolves as in Retries.v (C16_add_increments_numretries, C16_clear_resets_backoff) *)
Theorem C16_heap_add_increments_numretries : forall hs o rev orig del now, HInv hs ->
  n_of (abs (hq_add hs o rev orig del now)) (o_pk o) = Some (match n_of (abs hs) (o_pk o) with Some n => n + 1 | None => 1 end).
Proof.
  intros hs o rev orig del now H. unfold n_of at 1. rewrite (abs_add_items hs o rev orig del now H).
  apply (n_of_add_same (abs hs) o rev orig del now).
Qed.
Print Assumptions C16_heap_add_increments_numretries.

Theorem C16_heap_clear_resets_numretries : forall hs pk pk', HInv hs ->
  n_of (abs (hq_clear hs pk)) pk' = if pk' =? pk then None else n_of (abs hs) pk'.
Proof.
  intros hs pk pk' H. unfold n_of at 1. rewrite (abs_clear_items hs pk H).
  destruct (N.eqb_spec pk' pk) as [E|E]; [subst pk'; apply (n_of_clear_same (abs hs) pk)|apply (n_of_clear_other (abs hs) pk pk' E)].
Qed.
Print Assumptions C16_heap_clear_resets_numretries.

Theorem C16_heap_pop_keeps_numretries : forall hs hs' pk, HInv hs -> hq_pop hs = Some hs' -> n_of (abs hs') pk = n_of (abs hs) pk.
Proof.
  intros hs hs' pk H Ep.
  assert (Hne : hs_q hs <> []) by (unfold hq_pop in Ep; destruct (hs_q hs); [discriminate|discriminate]).
  destruct (hq_pop_spec hs H Hne) as [hs2 [Ep2 [_ [[_ [_ [Her _]]] _]]]]. rewrite Ep in Ep2. injection Ep2 as <-. cbn [fst] in Her.
  unfold n_of. cbn [abs q_items]. rewrite !find_abs. pose proof (frame_get QT _ _ Her pk) as X.
  destruct (st_get pk (hs_store hs')) as [a|], (st_get pk (hs_store hs)) as [b|]; cbn [option_map] in *; try discriminate; [|reflexivity].
  f_equal. assert (Y : erase QT a = erase QT b) by congruence. rewrite (erase_eq QT b a (eq_sym Y)). destruct b; reflexivity.
Qed.
Print Assumptions C16_heap_pop_keeps_numretries.

(* bookkeeping bugs the heap-level model tells apart (witnesses by computation) *)
Theorem C16_heap_clear_wrong_index_guarded_refuted :
  hs_q st3 = [1; 2; 3] /\ hs_r st3 = [3; 2; 1] /\
  In 3 (hs_q (hq_clear_wrongidx true st3 3)) /\ ~ In 3 (pks (hq_clear_wrongidx true st3 3)).
Proof.
  vm_compute. split; [reflexivity|]. split; [reflexivity|]. split; [right; right; left; reflexivity|].
  intros [H|[H|[]]]; discriminate.
Qed.
Print Assumptions C16_heap_clear_wrong_index_guarded_refuted.

Theorem C16_heap_clear_wrong_index_unguarded_refuted :
  hs_q (hq_clear_wrongidx false st3 3) = [2; 3] /\ In 1 (pks (hq_clear_wrongidx false st3 3)) /\
  hs_q (hq_clear st3 3) = [1; 2].
Proof. vm_compute. split; [reflexivity|]. split; [left; reflexivity|reflexivity]. Qed.
Print Assumptions C16_heap_clear_wrong_index_unguarded_refuted.

Theorem C16_heap_add_without_revqueue_fix_refuted :
  fst (fst (hq_low_watermark (hq_add_norevfix st2 (ob 1) 9 9 false 0))) = 9 /\
  fst (fst (hq_low_watermark (hq_add st2 (ob 1) 9 9 false 0))) = 6.
Proof. vm_compute. split; reflexivity. Qed.
Print Assumptions C16_heap_add_without_revqueue_fix_refuted.

(* the list model of Retries.v is NOT exact under ties: same operations, different timer *)
Theorem C16_heap_list_model_exact_under_ties_refuted :
  hs_timer tie_hs = q_timer tie_q /\
  hs_timer (hq_add tie_hs (ob 1) 3 1 false 0) = Some 40 /\ q_timer (r_add tie_q (ob 1) 3 1 false 0) = Some 20 /\
  hq_fired (hq_add tie_hs (ob 1) 3 1 false 0) 30 = false /\ r_fired (r_add tie_q (ob 1) 3 1 false 0) 30 = true.
Proof. vm_compute. repeat split. Qed.
Print Assumptions C16_heap_list_model_exact_under_ties_refuted.

(* hypotheses are satisfiable: a reachable state with three queued items of equal retryAt, a popped item that is
   still in revQueue, a non-trivial low watermark and an armed timer *)
Example C16_heap_nonvacuous :
  exists hs t, hreach hs /\ HInv hs /\ htimer_ok hs /\ hq_top hs = Some t /\
    length (hs_q hs) = 3%nat /\ length (hs_r hs) = 4%nat /\
    (exists it, st_get 2 (hs_store hs) = Some it /\ hi_pk it <> hi_pk t /\ hi_index it <> (-1)%Z /\ hi_at it = hi_at t) /\
    fst (fst (hq_low_watermark hs)) = 3.
Proof.
  set (ops := [HAdd (ob 1) 7 7 false 0; HAdd (ob 2) 5 5 false 0; HAdd (ob 3) 3 3 true 0; HAdd (ob 4) 9 9 false 0; HPop]).
  assert (Hr : hreach (fold_left apply_hop ops (hq_new 10 10))) by (exists 10, 10, ops; reflexivity).
  eexists. eexists. split; [exact Hr|]. split; [apply HInv_reach; exact Hr|].
  split; [|vm_compute; split; [reflexivity|]; split; [reflexivity|]; split; [reflexivity|]; split; [|reflexivity];
           eexists; split; [reflexivity|]; split; [discriminate|]; split; [discriminate|reflexivity]].
  intros t Ht. vm_compute in Ht. injection Ht as <-. vm_compute. eexists. split; [reflexivity|]. discriminate.
Qed.
