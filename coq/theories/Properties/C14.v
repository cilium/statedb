(* Properties/C14.v — Reconciler converges: nothing is forgotten.
   Each theorem is followed by its printed assumptions. *)
From Coq Require Import List NArith Bool.
From SV Require Import Reconciler.Retries Reconciler.Model Reconciler.RetriesProofs Reconciler.CommitProofs
  Reconciler.RoundProofs Reconciler.CoverProofs Reconciler.StepProofs Reconciler.Refuted
  Reconciler.TableWf Reconciler.StreamProofs Reconciler.PhaseProofs Reconciler.BatchProofs Reconciler.RoundInv Reconciler.Runs Reconciler.Progress
  Reconciler.Converge Reconciler.ItemsInv Reconciler.Target.
Import ListNotations.
Open Scope N_scope.

(* `covered D t c res q pk` (RoundProofs.v): key pk is not forgotten — if live and Pending/Refreshing it is
   ahead of the change cursor c or an operation result for exactly that version awaits its status commit;
   if live and Error an update retry is queued for the key or a retry result awaits commit (whatever the
   revision: fix 8844901 applies a retry result to an object still carrying the Error status); if deleted
   the deletion is ahead of the cursor, has a queued delete retry, or was Delete()d (D). *)

(* the status commit keeps every key covered and leaves no pending results behind *)
Theorem C14_commit_keeps_cover : forall D c now res t q t' q',
  keyed t -> uniq q -> NoDup (map (fun r => o_pk (r_obj r)) res) ->
  (forall r, In r res -> r_orig r <= t_rev t) ->
  (forall pk, covered D t c res q pk) -> commit_status now t q res = (t', q') ->
  forall pk, covered D t' c [] q' pk.
Proof. exact commit_status_covers. Qed.
Print Assumptions C14_commit_keeps_cover.

(* user writes of EVERY kind at any moment (before the snapshot, during an in-flight operation, between
   round and commit) keep every key covered — including a foreign status-only write over an object whose
   own status is Error (kind 4, `statx`), which lost the object before fix 8844901 *)
Theorem C14_user_write_keeps_cover : forall D e kind k c res q,
  keyed (e_tab e) -> c <= t_rev (e_tab e) ->
  (forall pk, covered D (e_tab e) c res q pk) ->
  keyed (e_tab (do_write e kind k)) /\ c <= t_rev (e_tab (do_write e kind k)) /\
  forall pk, covered D (e_tab (do_write e kind k)) c res q pk.
Proof. exact do_write_covers. Qed.
Print Assumptions C14_user_write_keeps_cover.

(* when the head of the retryAt queue is due, the armed timer has fired (for a queue with timer_ok) *)
Theorem C14_due_retry_wakes_loop : forall q now t, timer_ok q -> r_top q = Some t -> ri_at t <= now -> r_fired q now = true.
Proof. exact due_head_fires. Qed.
Print Assumptions C14_due_retry_wakes_loop.

(* a scripted operation (Update/Delete/batch entry) changes the table only through the user writes its
   hooks perform: whatever is written from inside an in-flight operation, every key stays covered *)
Theorem C14_inflight_writes_keep_cover : forall D e snap fresh op o rev c res q,
  wstate D (e_tab e) c res q ->
  wstate D (e_tab (fst (do_call e snap fresh op o rev))) c res q.
Proof. exact do_call_wstate. Qed.
Print Assumptions C14_inflight_writes_keep_cover.

(* one iteration of processRetries on a due update item (Pop, Update with arbitrary outcome and arbitrary
   writes from inside it, result recorded, Clear on success) keeps every key covered *)
Theorem C14_retry_step_keeps_cover : forall D c e snap q res it e' q' res',
  uniq q -> r_top q = Some it -> ri_del it = false ->
  wstate D (e_tab e) c res q ->
  process_single e snap false (r_pop q) res (ri_obj it) (ri_rev it) (ri_orig it) false = (e', q', res') ->
  wstate D (e_tab e') c res' q' /\ uniq q'.
Proof. exact retry_update_step_covers. Qed.
Print Assumptions C14_retry_step_keeps_cover.

(* fix 8844901, positive: a retry result meeting an object that still carries our Error status is always
   written (Done, or Error + re-queued with its origRev), whatever revision a foreign writer gave it; the
   foreign writer's data (o_aux) is kept, and (fix 1583841) the retry is queued with the object just written,
   not with the stale reconciled one *)
Theorem C14_retry_commits_over_foreign_write : forall fixed now t q r t' q' cur rv, keyed t ->
  t_live t (o_pk (r_obj r)) = Some (cur, rv) -> o_kind cur = Error -> r_rev r <> r_orig r ->
  commit_one fixed true now (t, q) r = (t', q') ->
  t_rev t' = t_rev t + 1 /\
  (exists o', slot_of t' (o_pk (r_obj r)) = Some (Live o' (t_rev t + 1)) /\
              o_kind o' = (if r_ok r then Done else Error) /\
              o_ver o' = (if rv =? r_rev r then o_ver (r_obj r) else o_ver cur) /\
              o_aux o' = (if rv =? r_rev r then o_aux (r_obj r) else o_aux cur)) /\
  q' = (if r_ok r then q
        else r_add q (if rv =? r_rev r then r_obj r else with_status cur Error (t_nextid t)) (t_rev t + 1)
                   (if fixed then r_orig r else r_rev r) false now).
Proof.
  intros fixed now t q r t' q' cur rv Hk Hl Hke Hre H.
  assert (Hf : fallback_ok true cur r = true) by (apply fallback_ok_spec; right; repeat split; assumption).
  destruct (commit_one_cases _ _ _ _ _ _ _ _ Hk H) as [[_ [_ NW]]|[c2 [rv2 [o' [EL [_ [Eo [Hpk [-> ->]]]]]]]]].
  - destruct (NW cur rv Hl). congruence.
  - rewrite Hl in EL. injection EL as <- <-. split; [reflexivity|]. split.
    + exists o'. rewrite <- Hpk. split; [exact (slot_insert_same (fst (t_fresh_id t)) o')|]. rewrite Eo. destruct (rv =? r_rev r); repeat split.
    + unfold queued. rewrite Hl. destruct (r_ok r); reflexivity.
Qed.
Print Assumptions C14_retry_commits_over_foreign_write.

(* commit_status_covers at two status commits (nothing relates the states of the two; the statement for a whole
   round is C14_round_keeps_cover / C14_nothing_forgotten below) *)
Theorem C14_nothing_forgotten_partial : forall D c now res1 res2 t q t1 q1 t2 q2,
  keyed t -> uniq q -> NoDup (map (fun r => o_pk (r_obj r)) res1) ->
  (forall r, In r res1 -> r_orig r <= t_rev t) ->
  (forall pk, covered D t c res1 q pk) -> commit_status now t q res1 = (t1, q1) ->
  (* whatever the retry phase does in between, if its results cover what it popped ... *)
  forall t1' q1', keyed t1' -> uniq q1' -> NoDup (map (fun r => o_pk (r_obj r)) res2) ->
  (forall r, In r res2 -> r_orig r <= t_rev t1') ->
  (forall pk, covered D t1' c res2 q1' pk) -> commit_status now t1' q1' res2 = (t2, q2) ->
  (forall pk, covered D t1 c [] q1 pk) /\ (forall pk, covered D t2 c [] q2 pk).
Proof.
  intros D c now res1 res2 t q t1 q1 t2 q2 K1 U1 N1 P1 C1 E1 t1' q1' K2 U2 N2 P2 C2 E2. split.
  - exact (commit_status_covers D c now res1 t q t1 q1 K1 U1 N1 P1 C1 E1).
  - exact (commit_status_covers D c now res2 t1' q1' t2 q2 K2 U2 N2 P2 C2 E2).
Qed.
Print Assumptions C14_nothing_forgotten_partial.

(* the code BEFORE fix 8844901 (no Error-status fallback) forgot the object after a foreign status-only
   write over an Error status: 2 calls ever, Error forever, target empty, watermark stuck at 1 ... *)
Theorem C14_foreign_status_write_refuted : run_stuck false = ([(1, 1, kind_code Error)], [], 1, 2).
Proof. exact convergence_refuted_by_foreign_status_write. Qed.
Print Assumptions C14_foreign_status_write_refuted.

(* ... and the code as it is converges on the same history: third attempt succeeds, Done, target = table *)
Theorem C14_foreign_status_write_converges : run_stuck true = ([(1, 1, kind_code Done)], [(1, 1)], 0, 3).
Proof. exact converges_after_foreign_status_write_fixed. Qed.
Print Assumptions C14_foreign_status_write_converges.

(* round_inv e s (RoundInv.v): the table is well-formed (unique keys, positive distinct revisions bounded
   by the table revision), the retry queue has one item per key with revisions from the past, the cursor
   is not beyond the table revision, and EVERY key is covered w.r.t. Dlog e (successful Deletes in the
   call log). One whole round of the reconciler, single or batch mode — change stream over the snapshot with any round
   size, any outcome of every operation (fault oracle), any user writes performed from inside any
   operation (hooks: between snapshot and commit), both status commits, the retry phase on update AND
   delete items, prune — preserves it. *)
Theorem C14_round_keeps_cover : forall cf e s e' s',
  round_inv e s -> round cf e s = (e', s') -> round_inv e' s' /\ k_cursor s <= k_cursor s'.
Proof. exact round_keeps_inv. Qed.
Print Assumptions C14_round_keeps_cover.

(* nothing_forgotten, lifted to runs: every state reachable from the initial state by rounds, user writes
   of every kind, fault/hook registrations, time steps, prune requests and initializer completion satisfies
   the invariant (full_inv = round_inv + progress revision <= cursor + every queued delete retry was called) *)
Theorem C14_nothing_forgotten : forall cf st, reach cf st -> full_inv (fst st) (snd st).
Proof. exact nothing_forgotten. Qed.
Print Assumptions C14_nothing_forgotten.

(* convergence, partial: a quiescent reconciler (empty retry queue, empty change stream) has reconciled
   everything: every live object is Done and every deletion was Delete()d successfully ... *)
Theorem C14_quiescent_is_reconciled : forall e s, full_inv e s -> quiescent e s -> reconciled e.
Proof. exact quiescent_is_reconciled. Qed.
Print Assumptions C14_quiescent_is_reconciled.

(* ... in every reachable state, whatever history of writes, faults and timings led there.
   Bounded convergence is below (C14_converges_bounded, C14_converges_and_stays,
   C14_converges_from_reach, C14_converges_after_faults_stop): the progress argument — once the oracle only
   answers ok and no user write is pending, each round decreases (#pending or deleted changes ahead of the
   cursor) + (#retry items) by min(roundSize, that number), one more round skips the Done objects the commits
   wrote — gives quiescence after ceil((pending + items) / roundSize) + 1 rounds.
   Target = table (the last successful operation per key): C14_target_equals_table,
   C14_last_operation_matches_table, C14_converges_to_target below (Target.v). *)
Theorem C14_converges_partial : forall cf st, reach cf st ->
  quiescent (fst st) (snd st) -> reconciled (fst st).
Proof. exact converges_partial. Qed.
Print Assumptions C14_converges_partial.

(* progress, first half: once the fault oracle only answers ok, a round (either mode, hooks may still
   write) never queues a retry — every key with a retry item after the round had one before — so the retry
   queue only drains. (Second half: C14_round_progress below.) *)
Theorem C14_faults_off_no_new_retries : forall cf e s e' s', e_foff e = true -> round cf e s = (e', s') ->
  e_foff e' = true /\ qsub (k_ret s') (k_ret s).
Proof.
  intros cf e s e' s' F H.
  destruct (round_decompose _ _ _ _ _ H) as [e1 [q1 [res1 [nrec1 [lastrev1 [t1 [q2 [e3 [q3 [res2 [nrec3 [t2 [q4
    [E1 [C1 [R1 [C2 [_ [_ [Tf [_ [_ [_ Tq]]]]]]]]]]]]]]]]]]]]]]].
  destruct (phase1_foff _ _ _ _ _ _ _ _ _ _ F E1) as [F1 [A1 S1]].
  pose proof (commit_status_all_ok _ _ _ _ _ _ _ _ A1 C1) as ->.
  assert (F1' : e_foff (set_tab e1 t1) = true) by exact F1.
  destruct (process_retries_foff _ _ _ _ _ _ _ _ _ _ _ F1' (fun r (Hr : In r []) => match Hr with end) R1) as [F3 [A3 S3]].
  pose proof (commit_status_all_ok _ _ _ _ _ _ _ _ A3 C2) as ->.
  rewrite Tf, Tq. split; [exact F3|apply (qsub_trans _ _ _ S3 S1)].
Qed.
Print Assumptions C14_faults_off_no_new_retries.

Example C14_nonvacuous :
  forall pk, covered (fun _ _ => False) (t_insert (t_empty false) (mkObj 1 1 Pending 1 0)) 0 [] (r_new 10 40) pk.
Proof.
  intro pk. destruct (N.eq_dec pk 1) as [E|E].
  - subst pk. vm_compute. left. reflexivity.
  - apply (covered_ext _ (t_empty false)); [apply slot_insert_other; exact E|exact I].
Qed.


(* calm e (Converge.v): the fault oracle only answers ok (e_foff) and no user write is pending inside a future
   operation (hooks_inert: every registered hook is keyed by an attempt number already in the past; in
   particular e_hooks e = []). The refresh loop is not part of `round`: a refresh is the user write `ref`,
   so "no refresh due" is part of "the table stops changing". Rounds do not move the clock, so "every queued
   item is due" stays true.
   items_ready e s: every retry item is queued and due, or its key has a deletion / a Pending or Refreshing
   object ahead of the cursor (then the change phase Clears it).
   measure e s = (#changes ahead of the cursor that are deletions or Pending/Refreshing objects) + (#retry items).
   One round, either mode, any round size >= 1: the measure drops by at least min(roundSize, measure). *)
Theorem C14_round_progress : forall cf e s e' s', twf (e_tab e) -> 0 < cf_rs cf -> calm e -> items_ready e s ->
  round cf e s = (e', s') ->
  calm e' /\ e_now e' = e_now e /\ items_ready e' s' /\
  (measure e' s' + Nat.min (N.to_nat (cf_rs cf)) (measure e s) <= measure e s)%nat.
Proof. exact round_progress. Qed.
Print Assumptions C14_round_progress.

(* a round that finds no retry item and nothing to act on ahead of the cursor calls no operation, writes
   nothing, and leaves the reconciler quiescent (no hypothesis on faults, hooks or time) *)
Theorem C14_idle_round : forall cf e s e' s', twf (e_tab e) -> q_items (k_ret s) = [] ->
  pending_ahead (e_tab e) (k_cursor s) = 0%nat -> round cf e s = (e', s') ->
  e_tab e' = e_tab e /\ e_now e' = e_now e /\ e_foff e' = e_foff e /\ e_hooks e' = e_hooks e /\
  e_attempts e' = e_attempts e /\ k_ret s' = k_ret s /\ k_cursor s <= k_cursor s' /\ quiescent e' s'.
Proof. exact idle_round. Qed.
Print Assumptions C14_idle_round.

(* converges_bounded: quiescent and reconciled after at most
   bound cf e s = ceil(measure e s / roundSize) + 1 rounds *)
Theorem C14_converges_bounded : forall cf e s, full_inv e s -> 0 < cf_rs cf -> calm e -> items_ready e s ->
  exists n, (n <= bound cf e s)%nat /\
    quiescent (fst (iter_round cf n (e, s))) (snd (iter_round cf n (e, s))) /\
    reconciled (fst (iter_round cf n (e, s))).
Proof. exact converges_bounded. Qed.
Print Assumptions C14_converges_bounded.

Theorem C14_bound_is : forall cf e s,
  bound cf e s = (N.to_nat ((N.of_nat (measure e s) + cf_rs cf - 1) / cf_rs cf) + 1)%nat /\
  measure e s = (length (filter ch_act (changes_of (e_tab e) (k_cursor s))) + length (q_items (k_ret s)))%nat.
Proof. intros cf e s. split; reflexivity. Qed.
Print Assumptions C14_bound_is.

(* idempotence: a quiescent reconciler stays quiescent under further rounds — table, queue and cursor do not
   move (a due prune tick only adds a Prune call to the log) *)
Theorem C14_quiescent_stable : forall cf e s e' s', full_inv e s -> quiescent e s -> round cf e s = (e', s') ->
  quiescent e' s' /\ e_tab e' = e_tab e /\ k_ret s' = k_ret s /\ k_cursor s' = k_cursor s.
Proof. exact quiescent_stable. Qed.
Print Assumptions C14_quiescent_stable.

(* ... hence from some round n <= bound on EVERY later state is quiescent and reconciled, with the same table *)
Theorem C14_converges_and_stays : forall cf e s, full_inv e s -> 0 < cf_rs cf -> calm e -> items_ready e s ->
  exists n, (n <= bound cf e s)%nat /\
    forall m, (n <= m)%nat ->
      quiescent (fst (iter_round cf m (e, s))) (snd (iter_round cf m (e, s))) /\
      reconciled (fst (iter_round cf m (e, s))) /\
      e_tab (fst (iter_round cf m (e, s))) = e_tab (fst (iter_round cf n (e, s))).
Proof. exact converges_and_stays. Qed.
Print Assumptions C14_converges_and_stays.

(* in every reachable state every retry item is accounted for (ItemsInv.item_ok): its key has work ahead of
   the cursor, or it is queued (a delete retry; an update retry with the object still in Error) ... *)
Theorem C14_reach_items_inv : forall cf st, reach cf st ->
  items_inv (e_tab (fst st)) (k_cursor (snd st)) [] (k_ret (snd st)).
Proof. exact reach_items_inv. Qed.
Print Assumptions C14_reach_items_inv.

(* ... so in a reachable state "every QUEUED item is due" is all that items_ready asks for *)
Theorem C14_reach_items_ready : forall cf e s, reach cf (e, s) ->
  (forall it, In it (q_items (k_ret s)) -> ri_inq it = true -> ri_at it <= e_now e) -> items_ready e s.
Proof. exact reach_items_ready. Qed.
Print Assumptions C14_reach_items_ready.

(* the property for runs: from ANY reachable state — whatever history of inserts, updates, deletes, failing
   operations, user writes from inside operations, round sizes, batch or single mode and timings led there —
   once operations stop failing, the table stops changing and the queued retries are due, the reconciler is
   quiescent and reconciled after at most ceil((pending + items) / roundSize) + 1 rounds, and stays so *)
Theorem C14_converges_from_reach : forall cf e s, reach cf (e, s) -> 0 < cf_rs cf -> calm e ->
  (forall it, In it (q_items (k_ret s)) -> ri_inq it = true -> ri_at it <= e_now e) ->
  exists n, (n <= bound cf e s)%nat /\
    forall m, (n <= m)%nat ->
      quiescent (fst (iter_round cf m (e, s))) (snd (iter_round cf m (e, s))) /\
      reconciled (fst (iter_round cf m (e, s))) /\
      e_tab (fst (iter_round cf m (e, s))) = e_tab (fst (iter_round cf n (e, s))).
Proof. exact converges_from_reach. Qed.
Print Assumptions C14_converges_from_reach.

(* the same, operationally: take any reachable state, switch the fault oracle off and let the clock pass the
   largest retryAt of the queue *)
Theorem C14_converges_after_faults_stop : forall cf e s T, reach cf (e, s) -> 0 < cf_rs cf -> hooks_inert e ->
  max_at (k_ret s) <= T ->
  let e1 := faults_off (set_now e T) in
  reach cf (e1, s) /\
  exists n, (n <= bound cf e1 s)%nat /\
    forall m, (n <= m)%nat ->
      quiescent (fst (iter_round cf m (e1, s))) (snd (iter_round cf m (e1, s))) /\
      reconciled (fst (iter_round cf m (e1, s))).
Proof. exact converges_after_faults_stop. Qed.
Print Assumptions C14_converges_after_faults_stop.

(* non-vacuity: a reachable state (single mode, round size 2) with 3 changes ahead of the cursor (a Pending
   object, a deletion, another Pending object) and 1 retry item: measure 4, bound 3 — not quiescent after 2
   rounds, quiescent after 3, all live objects Done (kind code 2), target = table *)
Example C14_converges_bounded_nonvacuous :
  reach ex_cf (ex_e, ex_s) /\ full_inv ex_e ex_s /\ 0 < cf_rs ex_cf /\ calm ex_e /\ items_ready ex_e ex_s /\
  measure ex_e ex_s = 4%nat /\ length (q_items (k_ret ex_s)) = 1%nat /\ bound ex_cf ex_e ex_s = 3%nat /\
  ~ quiescent (fst (iter_round ex_cf 2 (ex_e, ex_s))) (snd (iter_round ex_cf 2 (ex_e, ex_s))) /\
  quiescent (fst (iter_round ex_cf 3 (ex_e, ex_s))) (snd (iter_round ex_cf 3 (ex_e, ex_s))) /\
  live_objs (e_tab (fst (iter_round ex_cf 3 (ex_e, ex_s)))) = [(1, 1, 2); (3, 3, 2); (4, 4, 2)] /\
  e_target (fst (iter_round ex_cf 3 (ex_e, ex_s))) = [(3, 3); (4, 4); (1, 1)].
Proof. exact converges_bounded_nonvacuous. Qed.
Print Assumptions C14_converges_bounded_nonvacuous.

(* what the hypotheses are for. (a) full_inv alone does not imply convergence: it does not constrain an item
   that was popped and not re-queued (ri_inq = false); in the state below every round is the identity and
   the queue never drains. The state is NOT reachable (C14_reach_items_inv excludes it) — this refutes only
   the statement with the weaker hypothesis, not the implementation. *)
Theorem C14_converges_needs_items_ready_refuted :
  full_inv stale_e stale_s /\ 0 < cf_rs stale_cf /\ calm stale_e /\
  (forall it, In it (q_items (k_ret stale_s)) -> ri_at it <= e_now stale_e) /\
  forall n, ~ quiescent (fst (iter_round stale_cf n (stale_e, stale_s))) (snd (iter_round stale_cf n (stale_e, stale_s))).
Proof. exact converges_needs_items_ready_refuted. Qed.
Print Assumptions C14_converges_needs_items_ready_refuted.

(* (b) the round size must be positive (reconciler/config.go rejects IncrementalRoundSize <= 0): with round
   size 0 the retry phase never runs and a retry item of a REACHABLE state stays for ever *)
Theorem C14_converges_needs_positive_round_size_refuted :
  reach rs0_cf (rs0_e, rs0_s) /\ cf_rs rs0_cf = 0 /\ calm rs0_e /\ items_ready rs0_e rs0_s /\
  forall n, ~ quiescent (fst (iter_round rs0_cf n (rs0_e, rs0_s))) (snd (iter_round rs0_cf n (rs0_e, rs0_s))).
Proof. exact converges_needs_positive_round_size_refuted. Qed.
Print Assumptions C14_converges_needs_positive_round_size_refuted.

(* e_target is the simulated target of the harness: a successful Update / UpdateBatch entry of (pk, version)
   sets target[pk] := version, a successful Delete / DeleteBatch entry removes pk. In every reachable state it
   is the call log replayed (no ghost): *)
Theorem C14_target_is_call_log : forall cf st, reach cf st -> e_target (fst st) = replay (e_calls (fst st)).
Proof. exact reach_logged. Qed.
Print Assumptions C14_target_is_call_log.

(* the invariant behind it (tinv, every reachable state): a key with no work left — nothing of it ahead of the
   cursor that is a deletion or Pending/Refreshing, no retry item — has target[pk] = payload of its live
   object, and no entry if it is deleted; delete retries belong to the current deletion of their key *)
Theorem C14_reach_target_inv : forall cf st, reach cf st ->
  tinv (e_tab (fst st)) (k_cursor (snd st)) [] (k_ret (snd st)) (e_target (fst st)) /\
  del_items (e_tab (fst st)) (k_cursor (snd st)) (k_ret (snd st)).
Proof. exact reach_target. Qed.
Print Assumptions C14_reach_target_inv.

(* in every reachable quiescent state, for every key of the table: target = payload version of the live
   object (pay (Live o _) = Some (o_ver o)), no target entry for a deleted key (pay (Dead _ _) = None) *)
Theorem C14_target_equals_table : forall cf st, reach cf st -> quiescent (fst st) (snd st) ->
  forall k sl, slot_of (e_tab (fst st)) k = Some sl -> aget k (e_target (fst st)) = pay sl.
Proof. exact target_equals_table. Qed.
Print Assumptions C14_target_equals_table.

(* the same on the call log: the LAST successful Update/Delete (or batch entry) of the key of a live object
   is an Update carrying its current payload version; of a deleted key, a Delete *)
Theorem C14_last_operation_matches_table : forall cf st, reach cf st -> quiescent (fst st) (snd st) ->
  forall k sl, slot_of (e_tab (fst st)) k = Some sl ->
    exists c, last_op k (e_calls (fst st)) = Some c /\ cl_ok c = true /\ cl_pk c = k /\
      match sl with
      | Live o _ => is_upd_op (cl_op c) = true /\ cl_ver c = o_ver o
      | Dead _ _ => is_del_op (cl_op c) = true
      end.
Proof. exact last_operation_matches_table. Qed.
Print Assumptions C14_last_operation_matches_table.

(* property C14 for runs, complete: from any reachable state, once operations stop failing, no user write is
   pending and the queued retries are due, within ceil((pending + items)/roundSize) + 1 rounds — and for ever
   after — the reconciler is quiescent, every live object is Done, every deletion was Delete()d successfully,
   and the target equals the table *)
Theorem C14_converges_to_target : forall cf e s, reach cf (e, s) -> 0 < cf_rs cf -> calm e ->
  (forall it, In it (q_items (k_ret s)) -> ri_inq it = true -> ri_at it <= e_now e) ->
  exists n, (n <= bound cf e s)%nat /\
    forall m, (n <= m)%nat ->
      quiescent (fst (iter_round cf m (e, s))) (snd (iter_round cf m (e, s))) /\
      reconciled (fst (iter_round cf m (e, s))) /\
      (forall k sl, slot_of (e_tab (fst (iter_round cf m (e, s)))) k = Some sl ->
         aget k (e_target (fst (iter_round cf m (e, s)))) = pay sl).
Proof. exact converges_to_target. Qed.
Print Assumptions C14_converges_to_target.

(* non-vacuity: a reachable quiescent state with three live keys and a deleted one; the theorem gives the
   target entries *)
Example C14_target_equals_table_nonvacuous :
  reach Converge.ex_cf ex_final /\ quiescent (fst ex_final) (snd ex_final) /\
  live_objs (e_tab (fst ex_final)) = [(1, 1, 2); (3, 3, 2); (4, 4, 2)] /\
  slot_of (e_tab (fst ex_final)) 2 = Some (Dead (mkObj 2 2 Done 5 0) 6) /\
  aget 1 (e_target (fst ex_final)) = Some 1 /\ aget 2 (e_target (fst ex_final)) = None /\
  aget 3 (e_target (fst ex_final)) = Some 3 /\ aget 4 (e_target (fst ex_final)) = Some 4.
Proof. exact target_equals_table_nonvacuous. Qed.
Print Assumptions C14_target_equals_table_nonvacuous.
