(* Properties/C18.v — Index key encodings are injective and order-preserving.
   Each theorem is followed by its printed assumptions. *)
From SV Require Import Base.Bytes KeyEnc.Model KeyEnc.Proofs KeyEnc.Refuted.
From Coq Require Import ZArith.
Open Scope N_scope.

(* the composite non-unique key is injective in (primary, secondary), unconditionally *)
Theorem C18_nuk_injective : forall p1 s1 p2 s2, nuk p1 s1 = nuk p2 s2 -> p1 = p2 /\ s1 = s2.
Proof. exact nuk_inj. Qed.
Print Assumptions C18_nuk_injective.

(* ordered by secondary first, then primary, bytewise — for escaped primary keys < 256 bytes
   (the guard is necessary: C18_K1_order_refuted) *)
Theorem C18_nuk_order_preserving : forall p1 s1 p2 s2,
  len (enc p1) < 256 -> len (enc p2) < 256 ->
  (lex_lt (nuk p1 s1) (nuk p2 s2) <-> lex_lt s1 s2 \/ (s1 = s2 /\ lex_lt p1 p2)).
Proof. exact nuk_order. Qed.
Print Assumptions C18_nuk_order_preserving.

(* the two parts can be separated again (escaped primary < 65536; necessary: C18_K2) *)
Theorem C18_nuk_separable : forall p s, len (enc p) < 65536 ->
  encodedSecondary (nuk p s) = Some (enc s) /\ encodedPrimary (nuk p s) = Some (enc p) /\
  secondaryLen (nuk p s) = Z.of_nat (length (enc s)).
Proof. exact nuk_split. Qed.
Print Assumptions C18_nuk_separable.

Theorem C18_escape_invertible : forall s, dec (enc s) = s.
Proof. exact dec_enc. Qed.
Print Assumptions C18_escape_invertible.

Theorem C18_escape_order_iff : forall a b, lex_lt a b <-> lex_lt (enc a) (enc b).
Proof. exact enc_mono_iff. Qed.
Print Assumptions C18_escape_order_iff.

(* unsigned integers: injective and numerically ordered under bytewise comparison *)
Theorem C18_uint_keys :
  (forall a b, a < 65536 -> b < 65536 -> (uint16_key a = uint16_key b -> a = b) /\ (a < b <-> lex_lt (uint16_key a) (uint16_key b))) /\
  (forall a b, a < 4294967296 -> b < 4294967296 -> (uint32_key a = uint32_key b -> a = b) /\ (a < b <-> lex_lt (uint32_key a) (uint32_key b))) /\
  (forall a b, a < 18446744073709551616 -> b < 18446744073709551616 -> (uint64_key a = uint64_key b -> a = b) /\ (a < b <-> lex_lt (uint64_key a) (uint64_key b))).
Proof.
  split; [|split]; intros a b Ha Hb.
  - exact (proj2 (be16_ord a b Ha Hb)).
  - exact (proj2 (be32_ord a b Ha Hb)).
  - exact (proj2 (be64_ord a b Ha Hb)).
Qed.
Print Assumptions C18_uint_keys.

Theorem C18_int_keys_injective :
  (forall a b, -32768 <= a < 32768 -> -32768 <= b < 32768 -> int16_key a = int16_key b -> a = b)%Z /\
  (forall a b, -2147483648 <= a < 2147483648 -> -2147483648 <= b < 2147483648 -> int32_key a = int32_key b -> a = b)%Z /\
  (forall a b, -9223372036854775808 <= a < 9223372036854775808 -> -9223372036854775808 <= b < 9223372036854775808 -> int64_key a = int64_key b -> a = b)%Z.
Proof. exact int_keys_inj. Qed.
Print Assumptions C18_int_keys_injective.

Theorem C18_bool_string_keys :
  (forall a b, bool_key a = bool_key b -> a = b) /\
  (forall a b, string_key a = string_key b -> a = b) /\
  (forall a b, lex_lt a b <-> lex_lt (string_key a) (string_key b)).
Proof. repeat split; auto. intros [|] [|]; simpl; congruence. Qed.
Print Assumptions C18_bool_string_keys.

(* LPM keys round-trip with the data masked to the prefix length *)
Theorem C18_lpm_roundtrip : forall data plen, plen + 7 < 65536 -> (plen + 7) / 8 <= len data ->
  exists k, lpmEncode data plen = Some k /\ lpmDecode k = Some (lpm_masked data plen, plen).
Proof. exact lpm_roundtrip. Qed.
Print Assumptions C18_lpm_roundtrip.

(* Known findings: the guards above are necessary *)
Theorem C18_K1_order_refuted : exists p1 p2 s, lex_lt p1 p2 /\ lex_lt (nuk p2 s) (nuk p1 s).
Proof. exact nuk_order_refuted. Qed.
Print Assumptions C18_K1_order_refuted.

Theorem C18_K2_split_refuted : forall p s, len (enc p) = 65536 ->
  primaryLen (nuk p s) = 0%Z /\ secondaryLen (nuk p s) <> Z.of_nat (length (enc s)).
Proof. exact nuk_split_refuted. Qed.
Print Assumptions C18_K2_split_refuted.

(* non-vacuity: the hypotheses are satisfiable on non-trivial keys *)
Example C18_nonvacuous :
  len (enc [0; 1; 255]) < 256 /\ lex_lt (nuk [0] [1; 0]) (nuk [] [1; 0; 0]) /\ (7 + 7) / 8 <= len [255; 255].
Proof. split; [vm_compute; reflexivity|split; [apply bytes_ltb_spec; vm_compute; reflexivity|vm_compute; discriminate]]. Qed.

(* ---- IP-prefix keys (index/netip.go NetIPPrefix, lpm/key.go NetIPPrefixToIndexKey; KeyEnc/NetIP.v) ---- *)
From SV Require KeyEnc.NetIP.
Module C18_NetIP.
Import SV.Base.Bytes SV.KeyEnc.Model SV.KeyEnc.NetIP.
Open Scope N_scope.

(* equal keys exactly for equal masked prefixes of a family: different values give different keys, and the key
   of a prefix is the key of its masked form (equal values give equal keys) *)
Theorem C18_netip_prefix_key_injective : forall (is4 : bool) (a1 : bytes) (b1 : N) (a2 : bytes) (b2 : N),
  netip_prefix_key is4 a1 b1 = netip_prefix_key is4 a2 b2 <-> (mask_bytes a1 b1 = mask_bytes a2 b2 /\ b1 = b2).
Proof.
  intros is4 a1 b1 a2 b2. unfold netip_prefix_key. split.
  - intro H. apply app_inj_tail in H. destruct H as [H1 H2]. split; [exact (as16_inj _ _ _ H1)|exact H2].
  - intros [H1 H2]. rewrite H1, H2. reflexivity.
Qed.
Print Assumptions C18_netip_prefix_key_injective.

Theorem C18_netip_prefix_key_canonical : forall (is4 : bool) (addr : bytes) (bits : N),
  netip_prefix_key is4 (mask_bytes addr bits) bits = netip_prefix_key is4 addr bits.
Proof. intros is4 addr bits. unfold netip_prefix_key. rewrite mask_bytes_idem. reflexivity. Qed.
Print Assumptions C18_netip_prefix_key_canonical.

(* an IPv4 prefix and an IPv6 prefix never share a key; every key has 17 bytes *)
Theorem C18_netip_prefix_key_families_disjoint : forall (a4 : bytes) (b4 : N) (a6 : bytes) (b6 : N),
  length a4 = 4%nat -> length a6 = 16%nat -> b4 <= 32 -> b6 <= 128 ->
  netip_prefix_key true a4 b4 <> netip_prefix_key false a6 b6.
Proof.
  intros a4 b4 a6 b6 L4 L6 B4 B6 H. unfold netip_prefix_key in H. apply app_inj_tail in H. destruct H as [H1 H2]. subst b6.
  cbn [as16] in H1.
  assert (E : nth 10 (repeat 0 10 ++ [255; 255] ++ mask_bytes a4 b4) 0 = nth 10 (mask_bytes a6 b4) 0) by (rewrite H1; reflexivity).
  rewrite (mask_bytes_zero_beyond a6 b4 10) in E; [|lia|lia]. cbn in E. discriminate.
Qed.
Print Assumptions C18_netip_prefix_key_families_disjoint.

Theorem C18_netip_prefix_key_length : forall (is4 : bool) (addr : bytes) (bits : N),
  length addr = (if is4 then 4 else 16)%nat -> length (netip_prefix_key is4 addr bits) = 17%nat.
Proof.
  intros is4 addr bits H. unfold netip_prefix_key. rewrite app_length, as16_length; [reflexivity|]. rewrite mask_bytes_length. exact H.
Qed.
Print Assumptions C18_netip_prefix_key_length.
End C18_NetIP.

(* ---- the query-string variants of the integer encoders (index/int.go XString: strconv base 10), index.NetIP and
   lpm.NetIPPrefix4ToIndexKey (KeyEnc/Strings.v; compared with the code by the ops u16s..i64s, nip, nipp4) *)
From SV Require Import KeyEnc.NetIP KeyEnc.Strings.

(* a decimal string with leading zeros denotes the number without them (not an octal one) *)
Theorem C18_string_leading_zeros_ignored : forall r bits, r <> [] -> parse_uint (48 :: r) bits = parse_uint r bits.
Proof.
  intros r bits Hr. unfold parse_uint. cbn [digits_val]. replace ((48 <=? 48) && (48 <=? 57)) with true by reflexivity.
  replace (0 * 10 + (48 - 48)) with 0 by reflexivity. destruct r; [contradiction|reflexivity].
Qed.
Print Assumptions C18_string_leading_zeros_ignored.

(* equal values give equal keys, different values different keys, the key of the string variant is the key of
   the value variant, unsigned keys order numerically - for any two accepted strings *)
Theorem C18_uint_string_keys : forall s1 s2 v1 v2,
  (parse_uint s1 16 = Some v1 -> parse_uint s2 16 = Some v2 ->
     uint16_string_key s1 = Some (uint16_key v1) /\ (uint16_string_key s1 = uint16_string_key s2 <-> v1 = v2) /\
     (v1 < v2 <-> lex_lt (uint16_key v1) (uint16_key v2))) /\
  (parse_uint s1 32 = Some v1 -> parse_uint s2 32 = Some v2 ->
     uint32_string_key s1 = Some (uint32_key v1) /\ (uint32_string_key s1 = uint32_string_key s2 <-> v1 = v2) /\
     (v1 < v2 <-> lex_lt (uint32_key v1) (uint32_key v2))) /\
  (parse_uint s1 64 = Some v1 -> parse_uint s2 64 = Some v2 ->
     uint64_string_key s1 = Some (uint64_key v1) /\ (uint64_string_key s1 = uint64_string_key s2 <-> v1 = v2) /\
     (v1 < v2 <-> lex_lt (uint64_key v1) (uint64_key v2))).
Proof.
  intros s1 s2 v1 v2.
  split; [exact (uint_string_key_of 16 _ s1 s2 v1 v2 be16_ord)|].
  split; [exact (uint_string_key_of 32 _ s1 s2 v1 v2 be32_ord)|exact (uint_string_key_of 64 _ s1 s2 v1 v2 be64_ord)].
Qed.
Print Assumptions C18_uint_string_keys.

Theorem C18_int_string_keys : forall s1 s2 v1 v2,
  (parse_int s1 16 = Some v1 -> parse_int s2 16 = Some v2 -> (int16_string_key s1 = int16_string_key s2 <-> v1 = v2)) /\
  (parse_int s1 32 = Some v1 -> parse_int s2 32 = Some v2 -> (int32_string_key s1 = int32_string_key s2 <-> v1 = v2)) /\
  (parse_int s1 64 = Some v1 -> parse_int s2 64 = Some v2 -> (int64_string_key s1 = int64_string_key s2 <-> v1 = v2)).
Proof.
  intros s1 s2 v1 v2. destruct int_keys_inj as [K16 [K32 K64]].
  split; [exact (int_string_key_of 16 _ s1 s2 v1 v2 K16)|].
  split; [exact (int_string_key_of 32 _ s1 s2 v1 v2 K32)|
          exact (int_string_key_of 64 _ s1 s2 v1 v2 K64)].
Qed.
Print Assumptions C18_int_string_keys.

(* index.NetIP: the 4-byte and the IPv4-mapped 16-byte form of an address give the same 16-byte key *)
Theorem C18_netip_key_forms : forall a4, length a4 = 4%nat ->
  netip_key a4 = netip_key (as16 true a4) /\ length (netip_key a4) = 16%nat /\
  (forall b4, length b4 = 4%nat -> netip_key a4 = netip_key b4 -> a4 = b4) /\
  (forall a16, length a16 = 16%nat -> netip_key a16 = a16).
Proof.
  intros a4 H4. unfold netip_key. rewrite H4. cbn [N.of_nat N.eqb Pos.of_succ_nat Pos.succ Pos.eqb].
  pose proof (as16_length true a4 H4) as L16. rewrite L16.
  cbn [N.of_nat N.eqb Pos.of_succ_nat Pos.succ Pos.eqb].
  split; [reflexivity|]. split; [reflexivity|]. split.
  - intros b4 Hb. rewrite Hb. cbn [N.of_nat N.eqb Pos.of_succ_nat Pos.succ Pos.eqb]. exact (as16_inj true a4 b4).
  - intros a16 H16. rewrite H16. reflexivity.
Qed.
Print Assumptions C18_netip_key_forms.

(* lpm.NetIPPrefix4ToIndexKey is EncodeLPMKey of the four address bytes: C18_lpm_roundtrip applies to it *)
Theorem C18_netip_prefix4_is_encode : forall addr bits, netip_prefix4_lpm_key addr bits = lpmEncode addr bits.
Proof. reflexivity. Qed.
Print Assumptions C18_netip_prefix4_is_encode.

Example C18_strings_nonvacuous :
  parse_uint [48; 49; 48] 16 = Some 10 /\ uint16_string_key [48; 49; 48] = Some [0; 10] /\
  parse_int [45; 53] 16 = Some (-5)%Z /\ parse_uint [48; 120; 49] 16 = None /\
  netip_prefix4_lpm_key [10; 255; 0; 0] 9 = Some [10; 128; 0; 9].
Proof. vm_compute. repeat split. Qed.
