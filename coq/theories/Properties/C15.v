(* Properties/C15.v — Reconciler status write-back never misreports or clobbers.
   Each theorem is followed by its printed assumptions. *)
From Coq Require Import List NArith Bool.
From SV Require Import Reconciler.Retries Reconciler.Model Reconciler.RetriesProofs Reconciler.CommitProofs Reconciler.RoundProofs.
Import ListNotations.
Open Scope N_scope.

(* the exact effect of one iteration of commitStatus: no other key is touched; either nothing is written,
   or the object still at the reconciled revision gets the new status (CompareAndSwap), or — when the
   fallback applies — the CURRENT object gets the new status; a retry is queued iff the operation had
   failed and the status write happened. In every case only the status component changes. *)
Theorem C15_commit_effect : forall fixed efb now t q r t' q', keyed t ->
  commit_one fixed efb now (t, q) r = (t', q') -> commit_effect fixed efb now t q r t' q'.
Proof. exact commit_one_spec. Qed.
Print Assumptions C15_commit_effect.

(* the fallback applies exactly when the status is Pending with the reconciled id, or (fix 8844901) the
   result is a retry (rev <> origRev) and the object still carries our Error status *)
Theorem C15_fallback_condition : forall efb cur r, fallback_ok efb cur r = true <->
  (o_kind cur = Pending /\ o_sid cur = r_id r) \/ (efb = true /\ o_kind cur = Error /\ r_rev r <> r_orig r).
Proof. exact fallback_ok_spec. Qed.
Print Assumptions C15_fallback_condition.

(* a result is applied only if the object is unchanged (reconciled revision), or Pending with the
   reconciled id, or still carrying our Error status on a retry *)
Theorem C15_applied_only_if_unchanged : forall fixed efb now t q r t' q', keyed t ->
  commit_one fixed efb now (t, q) r = (t', q') -> slot_of t' (o_pk (r_obj r)) <> slot_of t (o_pk (r_obj r)) ->
  exists cur rv, t_live t (o_pk (r_obj r)) = Some (cur, rv) /\
    (rv = r_rev r \/ (o_kind cur = Pending /\ o_sid cur = r_id r) \/
     (efb = true /\ o_kind cur = Error /\ r_rev r <> r_orig r)).
Proof.
  intros fixed efb now t q r t' q' Hk H Hd.
  destruct (commit_one_cases _ _ _ _ _ _ _ _ Hk H) as [[-> _]|[cur [rv [o' [EL [C _]]]]]]; [destruct Hd; reflexivity|].
  exists cur, rv. split; [exact EL|]. destruct C as [C|[_ C]]; [left; exact C|right; apply fallback_ok_spec, C].
Qed.
Print Assumptions C15_applied_only_if_unchanged.

(* deleted meanwhile (or never there): nothing is written, no re-creation, no retry queued *)
Theorem C15_deleted_object_not_recreated : forall fixed efb now t q r t' q', keyed t ->
  commit_one fixed efb now (t, q) r = (t', q') -> not_live t (o_pk (r_obj r)) ->
  (forall k, slot_of t' k = slot_of t k) /\ t_rev t' = t_rev t /\ q' = q.
Proof.
  intros fixed efb now t q r t' q' Hk H Hn.
  destruct (commit_one_cases _ _ _ _ _ _ _ _ Hk H) as [[-> [-> _]]|[cur [rv [o' [EL _]]]]]; [repeat split|].
  apply t_live_slot in EL. unfold not_live in Hn. rewrite EL in Hn. destruct Hn.
Qed.
Print Assumptions C15_deleted_object_not_recreated.

(* a retry is queued only if the Error status was written *)
Theorem C15_retry_only_if_status_written : forall fixed efb now t q r t' q', keyed t ->
  commit_one fixed efb now (t, q) r = (t', q') -> q' <> q -> r_ok r = false /\ t_rev t' = t_rev t + 1.
Proof.
  intros fixed efb now t q r t' q' Hk H Hd.
  destruct (commit_one_cases _ _ _ _ _ _ _ _ Hk H) as [[_ [-> _]]|[cur [rv [o' [_ [_ [_ [_ [-> ->]]]]]]]]]; [destruct Hd; reflexivity|].
  destruct (r_ok r); [destruct Hd|split]; reflexivity.
Qed.
Print Assumptions C15_retry_only_if_status_written.

(* a whole commitStatus changes nothing but the status: every key keeps its payload version, deleted and
   absent keys stay as they are (results = objects identified by their revision, one per key) *)
Theorem C15_commit_changes_status_only : forall fixed efb now res t q t' q', keyed t -> res_consistent t res ->
  commit_status_gen fixed efb now t q res = (t', q') ->
  keyed t' /\ (forall k, payload t' k = payload t k) /\ (forall k, not_live t k -> slot_of t' k = slot_of t k).
Proof. exact commit_status_status_only. Qed.
Print Assumptions C15_commit_changes_status_only.

(* after a commit nothing is lost: an object whose result was dropped (changed meanwhile) is still ahead
   of the change cursor, a failed one has a queued update retry item *)
Theorem C15_dropped_result_reconciled_again : forall D c now res t q t' q',
  keyed t -> uniq q -> NoDup (map (fun r => o_pk (r_obj r)) res) ->
  (forall r, In r res -> r_orig r <= t_rev t) ->
  (forall pk, covered D t c res q pk) -> commit_status now t q res = (t', q') ->
  forall pk, covered D t' c [] q' pk.
Proof. exact commit_status_covers. Qed.
Print Assumptions C15_dropped_result_reconciled_again.

(* objects that are not pending/refreshing are never passed to Update from the change stream *)
Theorem C15_single_skips_non_pending : forall rs snap c rest e q res nrec lastrev,
  c_del c = false -> is_pending (c_obj c) = false ->
  single rs snap (c :: rest) e q res nrec lastrev = single rs snap rest e q res nrec (c_rev c).
Proof. intros. cbn [single]. rewrite H, H0. reflexivity. Qed.
Print Assumptions C15_single_skips_non_pending.

(* Prune gating (only in rounds whose table is initialized, with All(snapshot)) is part of round_gen
   (Model.v) by construction: the Prune call is emitted under `tinit && (prune || ext)` with
   live_contents snap. It is not stated as a theorem; it is enforced on the implementation by the
   independent oracles !BAD:C15:prune-before-init and !BAD:C15:prune-incomplete on every run. *)

Example C15_nonvacuous :
  keyed (t_insert (t_empty false) (mkObj 1 1 Pending 1 0)) /\
  res_consistent (t_insert (t_empty false) (mkObj 1 1 Pending 1 0)) [mkRes (mkObj 1 1 Pending 1 0) 1 1 1 false].
Proof.
  split.
  - apply keyed_insert. intros k o r H. discriminate.
  - split; [repeat constructor; intros []|]. intros r [Hr|[]] cur Hl. subst r. vm_compute in Hl. injection Hl as H. subst cur. split; reflexivity.
Qed.

From SV Require Import Reconciler.TableWf Reconciler.RoundInv Reconciler.Runs Reconciler.StatusOnly.

(* round_trace names the intermediate states of a round: (tr_e1, tr_q1, tr_res1) after the change-stream
   phase, (tr_t1, tr_q2) after the first commitStatus, (tr_e3, tr_q3, tr_res2) after the retry phase,
   (tr_t2, tr_q4) after the second commitStatus — and these are the stages round goes through *)
Theorem C15_round_trace_is_round : forall cf e s, let tr := round_trace cf e s in
  (exists nrec1 lastrev1 nrec3,
     phase1 cf (e_tab e) (changes_of (e_tab e) (k_cursor s)) e (k_ret s) = (tr_e1 tr, tr_q1 tr, tr_res1 tr, nrec1, lastrev1) /\
     process_retries (N.to_nat (cf_rs cf)) (cf_rs cf) (e_tab e) (set_tab (tr_e1 tr) (tr_t1 tr)) (tr_q2 tr) [] nrec1 =
       (tr_e3 tr, tr_q3 tr, tr_res2 tr, nrec3)) /\
  commit_status (e_now (tr_e1 tr)) (e_tab (tr_e1 tr)) (tr_q1 tr) (tr_res1 tr) = (tr_t1 tr, tr_q2 tr) /\
  commit_status (e_now (tr_e3 tr)) (e_tab (tr_e3 tr)) (tr_q3 tr) (tr_res2 tr) = (tr_t2 tr, tr_q4 tr) /\
  e_tab (fst (round cf e s)) = tr_t2 tr /\ k_ret (snd (round cf e s)) = tr_q4 tr.
Proof. exact round_trace_spec. Qed.
Print Assumptions C15_round_trace_is_round.

(* the hypotheses of C15_commit_changes_status_only hold at both status commits of every round of every
   run (single or batch mode, any round size/backoff, any fault oracle, any user writes between rounds or
   from inside operations, any timing): the table is keyed, result keys are pairwise distinct, and every
   committed result (obj, rev) identifies the object version the table holds at revision rev *)
Theorem C15_results_identify_versions : forall cf st, reach cf st ->
  let tr := round_trace cf (fst st) (snd st) in
  (keyed (e_tab (tr_e1 tr)) /\ res_consistent (e_tab (tr_e1 tr)) (tr_res1 tr)) /\
  (keyed (e_tab (tr_e3 tr)) /\ res_consistent (e_tab (tr_e3 tr)) (tr_res2 tr)).
Proof.
  intros cf st H. destruct (c15_inv_reach cf _ H) as [[RI _] [f S]].
  destruct (round_sinv cf _ _ f RI S) as [[f1 [S1 [N1 O1]]] [[f3 [S3 [N3 O3]]] _]].
  split; (split; [apply twf_keyed; first [apply S1|apply S3]|]).
  - apply (res_consistent_of_ok f1); assumption.
  - apply (res_consistent_of_ok f3); assumption.
Qed.
Print Assumptions C15_results_identify_versions.

(* the invariant behind C15_results_identify_versions, inductive over reach: full_inv plus "status ids identify payload versions and
   every queued update retry still identifies its version" (StatusOnly.sinv) *)
Theorem C15_status_invariant_reachable : forall cf st, reach cf st -> c15_inv (fst st) (snd st).
Proof. exact c15_inv_reach. Qed.
Print Assumptions C15_status_invariant_reachable.

(* a whole commitStatus on identified results leaves the statuses-erased table (keys in slot order with the
   payload version AND the other writers' data o_aux of the live object, None for a deleted one) exactly as
   it was: the status write-back leaves other writers' data alone *)
Theorem C15_commit_preserves_erased_table : forall fixed efb now res t q t' q', keyed t -> res_consistent t res ->
  commit_status_gen fixed efb now t q res = (t', q') -> erase t' = erase t.
Proof. exact commit_status_erase. Qed.
Print Assumptions C15_commit_preserves_erased_table.

(* unconditionally, for every reachable state and the round executed from it: the table moves by user
   writes of the registered hooks (do_write on keys in K) during the change-stream phase, by a status-only
   change (same erased table — payloads and other writers' data —, deleted/absent keys untouched) at the first commitStatus, by user writes of
   hooks during the retry phase, by a status-only change at the second commitStatus — and that is the table
   after the round. Every payload change in a round is a do_write. *)
Theorem C15_round_commits_change_only_statuses : forall cf st, reach cf st ->
  forall e' s', round cf (fst st) (snd st) = (e', s') ->
  let tr := round_trace cf (fst st) (snd st) in
  let K := hook_keys (fst st) in
  user_writes_in K (e_tab (fst st)) (e_tab (tr_e1 tr)) /\
  status_only (e_tab (tr_e1 tr)) (tr_t1 tr) /\
  user_writes_in K (tr_t1 tr) (e_tab (tr_e3 tr)) /\
  status_only (e_tab (tr_e3 tr)) (e_tab e').
Proof. exact round_commits_change_only_statuses. Qed.
Print Assumptions C15_round_commits_change_only_statuses.

(* per key over the whole round: a key no registered hook writes to keeps its payload version; if it was
   deleted or absent it stays exactly as it was (no resurrection) *)
Theorem C15_round_keeps_unhooked_payloads : forall cf st, reach cf st ->
  forall e' s', round cf (fst st) (snd st) = (e', s') ->
  forall pk, ~ hook_keys (fst st) pk ->
    payload (e_tab e') pk = payload (e_tab (fst st)) pk /\
    (not_live (e_tab (fst st)) pk -> slot_of (e_tab e') pk = slot_of (e_tab (fst st)) pk).
Proof. exact round_keeps_unhooked_payloads. Qed.
Print Assumptions C15_round_keeps_unhooked_payloads.

(* with no hook registered, a whole round changes statuses only *)
Theorem C15_round_without_hooks_changes_only_statuses : forall cf st, reach cf st -> e_hooks (fst st) = [] ->
  forall e' s', round cf (fst st) (snd st) = (e', s') -> status_only (e_tab (fst st)) (e_tab e').
Proof.
  intros cf st H Hh e' s' HR.
  destruct (round_commits_change_only_statuses cf st H e' s' HR) as [U1 [O1 [U3 O3]]]. cbv zeta in *.
  assert (Kn : forall k, hook_keys (fst st) k -> False).
  { intros k [k0 [n [wk Hin]]]. rewrite Hh in Hin. destruct Hin. }
  apply (user_writes_in_mono _ (fun _ => False) _ _ Kn) in U1. apply user_writes_in_none in U1.
  apply (user_writes_in_mono _ (fun _ => False) _ _ Kn) in U3. apply user_writes_in_none in U3.
  rewrite U1 in O1. rewrite U3 in O3. apply (status_only_trans _ _ _ O1 O3).
Qed.
Print Assumptions C15_round_without_hooks_changes_only_statuses.

(* non-vacuity: a reachable state (two puts, a fault, a hook that puts a new version of key 2 from inside the
   first Update of key 1) whose round commits two change-stream results — the payload of key 2 changes
   2 -> 3 by the hook's user write, the commits change nothing in the erased table — and the reachable state
   one round later whose round commits a change-stream result and a retry result *)
Example C15_status_only_nonvacuous :
  reach ex_cf ex_st0 /\ reach ex_cf ex_st1 /\
  (let tr := round_trace ex_cf (fst ex_st0) (snd ex_st0) in
   map (fun r => (o_pk (r_obj r), o_ver (r_obj r), r_rev r, r_ok r)) (tr_res1 tr) = [(1, 1, 1, false); (2, 2, 2, true)] /\
   tr_res2 tr = [] /\
   erase (e_tab (fst ex_st0)) = [(1, Some (1, 0)); (2, Some (2, 0))] /\
   erase (e_tab (tr_e1 tr)) = [(1, Some (1, 0)); (2, Some (3, 0))] /\
   erase (tr_t1 tr) = [(1, Some (1, 0)); (2, Some (3, 0))] /\
   live_objs (tr_t2 tr) = [(1, 1, 3); (2, 3, 0)]) /\
  (let tr := round_trace ex_cf (fst ex_st1) (snd ex_st1) in
   map (fun r => (o_pk (r_obj r), o_ver (r_obj r), r_rev r, r_ok r)) (tr_res1 tr) = [(2, 3, 3, true)] /\
   map (fun r => (o_pk (r_obj r), o_ver (r_obj r), r_rev r, r_ok r)) (tr_res2 tr) = [(1, 1, 4, true)] /\
   erase (tr_t2 tr) = [(1, Some (1, 0)); (2, Some (3, 0))] /\
   live_objs (tr_t2 tr) = [(1, 1, 2); (2, 3, 2)]) /\
  hook_keys (fst ex_st0) 2 /\ ~ hook_keys (fst ex_st0) 1.
Proof. exact ex_traces. Qed.

From SV Require Import Reconciler.Refuted.

(* the code before the fix (commit_one_stale: after the status-conflict fallback the retry is queued with the
   stale reconciled object): on the history fail 1 0 / fail 1 1 / put 1 / statx 1 / sleep 100 the foreign
   status write sets aux = `written`; the retry queued at the fallback carries aux 0 for revision 4 at
   which the table holds aux `written`; after the successful retry the table holds aux `final` <> `written`:
   the other writer's data has been reverted *)
Theorem C15_stale_retry_clobbers_refuted :
  exists written final,
    run_d15 true = ([(1, 1, kind_code Error, written)], ([(0, 4)], Some (written, 4)), [(1, 1, kind_code Done, final)], 3) /\
    final <> written.
Proof. exact stale_retry_clobbers_refuted. Qed.
Print Assumptions C15_stale_retry_clobbers_refuted.

(* the same history with the code as it is: the retry is queued with the object just written, aux survives *)
Theorem C15_stale_retry_fixed :
  run_d15 false = ([(1, 1, kind_code Error, 1)], ([(1, 4)], Some (1, 4)), [(1, 1, kind_code Done, 1)], 3).
Proof. exact stale_retry_fixed. Qed.
Print Assumptions C15_stale_retry_fixed.

(* where exactly the old variant breaks the invariant behind C15_results_identify_versions: a failed
   operation committed through the fallback onto an object with different foreign data leaves a retry item
   that identifies no version (StatusOnly.J1) *)
Theorem C15_stale_fallback_breaks_invariant : forall fixed efb now t q r t' q' cur rv, twf t ->
  t_live t (o_pk (r_obj r)) = Some (cur, rv) -> rv <> r_rev r -> fallback_ok efb cur r = true ->
  r_ok r = false -> o_aux cur <> o_aux (r_obj r) ->
  commit_one_stale fixed efb now (t, q) r = (t', q') ->
  exists it, find_item (o_pk (r_obj r)) (q_items q') = Some it /\ ri_del it = false /\
             ~ J1 t' (ri_obj it) (ri_rev it).
Proof.
  intros fixed efb now t q r t' q' cur rv W Hl Hrv Hfb Hok Haux H.
  destruct (commit_one_both fixed efb now t q r) as [[_ [_ A]]|[[c2 [A _]]|[c2 [rv2 [A [_ [_ [_ D]]]]]]]].
  - destruct (A cur rv Hl) as [_ X]. congruence.
  - rewrite Hl in A. injection A as A1 A2. congruence.
  - rewrite Hl in A. injection A as A1 A2. subst c2 rv2. rewrite H, Hok in D. injection D as B C.
    destruct (add_item_spec q (r_obj r) (t_rev t + 1) (if fixed then r_orig r else r_rev r) false now) as [it [X1 [X2 [X3 [_ [X5 _]]]]]].
    exists it. rewrite C. split; [exact X1|]. split; [exact X5|]. rewrite X2, X3. intros [_ J].
    assert (Kc : o_pk cur = o_pk (r_obj r)) by (apply (twf_keyed _ W _ cur rv); apply t_live_slot; exact Hl).
    assert (L : t_live t' (o_pk (r_obj r)) = Some (with_status cur Error (t_nextid t), t_rev t + 1)).
    { rewrite B, <- Kc. exact (live_insert_same (fst (t_fresh_id t)) (with_status cur Error (t_nextid t))). }
    destruct (J _ L) as [_ J2']. apply Haux. exact J2'.
Qed.
Print Assumptions C15_stale_fallback_breaks_invariant.

(* non-vacuity for the foreign data: the D15 history is a reachable state of the code as it is; its round
   commits the failed retry through the fallback, the erased table (payload 1, aux 1) is untouched and the
   retry is queued with the written object (aux 1) at the written revision *)
Example C15_d15_history_nonvacuous :
  reach d15_cf d15_st3 /\
  (let tr := round_trace d15_cf (fst d15_st3) (snd d15_st3) in
   tr_res1 tr = [] /\
   map (fun r => (o_pk (r_obj r), o_ver (r_obj r), o_aux (r_obj r), r_rev r, r_orig r, r_ok r)) (tr_res2 tr) = [(1, 1, 0, 2, 1, false)] /\
   t_live (e_tab (tr_e3 tr)) 1 = Some (mkObj 1 1 Error 2 1, 3) /\
   erase (e_tab (tr_e3 tr)) = [(1, Some (1, 1))] /\
   erase (tr_t2 tr) = [(1, Some (1, 1))] /\
   t_live (tr_t2 tr) 1 = Some (mkObj 1 1 Error 3 1, 4) /\
   map (fun it => (ri_obj it, ri_rev it, ri_orig it)) (q_items (tr_q4 tr)) = [(mkObj 1 1 Error 3 1, 4, 1)]).
Proof. exact d15_trace. Qed.

From SV Require Import Reconciler.ItemsInv Reconciler.Refresh.

(* reconciler.go refreshLoop marks old Done objects for re-reconciliation. In the model (Model.v) a refresh
   is the ATOMIC user write `ref` (do_write kind 5). The code is a concurrent loop: it reads (o, rev) from a
   READ snapshot `snap`, later opens a write transaction, re-reads the object and writes the re-read object
   with StatusRefreshing() only `if ok && rev == newRev` — `refresh_write t o rev` on the table t the write
   transaction sees. `tstep snap t`: t is reached from snap by ANY committed writes (inserts of any object —
   user writes, foreign status writes, the reconciler's status commits —, deletes, id draws).
   NOT MODELLED: the refresher's TIMING — which objects it picks and when (UpdatedAt vs RefreshInterval, the
   rate limiter, the lastRevision cursor): (o, rev) is any Done object of any earlier snapshot. On the
   implementation side the refresher is exercised by a directed probe only (no randomized schedule runs the
   refresh loop against concurrent writers). *)

(* (a)+(b): if the key's slot is as it was in the snapshot, the refresher's write is exactly what the model's
   atomic `ref` write does to the current table; if anything was written to the key meanwhile (larger
   revision) or the object was deleted, nothing is written *)
Theorem C15_refresher_write_is_ref_or_nothing : forall snap e o rev, twf snap -> tstep snap (e_tab e) ->
  refresher_saw snap o rev ->
  (slot_of (e_tab e) (o_pk o) = slot_of snap (o_pk o) /\
   refresh_write (e_tab e) o rev = e_tab (do_write e 5 (o_pk o))) \/
  (slot_of (e_tab e) (o_pk o) <> slot_of snap (o_pk o) /\
   refresh_write (e_tab e) o rev = e_tab e).
Proof. exact refresher_write_is_ref_or_nothing. Qed.
Print Assumptions C15_refresher_write_is_ref_or_nothing.

(* (c)+(d): the refresher's write changes nothing but a status — same statuses-erased table (payload version
   and other writers' data of every live object, None for deleted ones), deleted/absent keys and all other
   keys exactly as they were —; if it writes at all, the table still held the very object seen in the
   snapshot at the snapshot's revision, a Done object, which becomes Refreshing with a fresh id; an object
   that is Pending, Refreshing or Error (retry queued) is never overwritten *)
Theorem C15_refresher_changes_only_status : forall snap t o rev, twf snap -> tstep snap t ->
  refresher_saw snap o rev ->
  (status_only t (refresh_write t o rev) /\
   (forall k, k <> o_pk o -> slot_of (refresh_write t o rev) k = slot_of t k)) /\
  (refresh_write t o rev <> t ->
   t_live t (o_pk o) = Some (o, rev) /\ o_kind o = Done /\
   t_live (refresh_write t o rev) (o_pk o) = Some (with_status o Refreshing (t_nextid t), t_rev t + 1)) /\
  (forall cur r, t_live t (o_pk o) = Some (cur, r) -> o_kind cur <> Done -> refresh_write t o rev = t).
Proof.
  intros snap t o rev W S Saw. split; [|split].
  - apply refresh_write_status_only. apply twf_keyed. apply (tstep_twf snap); assumption.
  - apply (refresh_write_only_over_seen snap); assumption.
  - intros cur r. apply (refresh_write_not_over_other_status snap); assumption.
Qed.
Print Assumptions C15_refresher_changes_only_status.

(* the status-only part needs no snapshot at all: whatever (o, rev) the refresher holds *)
Theorem C15_refresher_write_status_only : forall t o rev, keyed t ->
  status_only t (refresh_write t o rev) /\
  (forall k, k <> o_pk o -> slot_of (refresh_write t o rev) k = slot_of t k).
Proof. exact refresh_write_status_only. Qed.
Print Assumptions C15_refresher_write_status_only.

(* in every reachable state: an object with an update retry item is not touched by the refresher (it carries
   our Error status, or is Pending/Refreshing/deleted ahead of the change cursor) — the retry keeps its
   backoff (C16) *)
Theorem C15_refresher_leaves_queued_retries_alone : forall cf e s snap o rev it, reach cf (e, s) ->
  twf snap -> tstep snap (e_tab e) -> refresher_saw snap o rev ->
  In it (q_items (k_ret s)) -> ri_del it = false -> ri_pk it = o_pk o ->
  refresh_write (e_tab e) o rev = e_tab e.
Proof. exact refresher_leaves_queued_retries_alone. Qed.
Print Assumptions C15_refresher_leaves_queued_retries_alone.

(* composition with runs: snapshot in any reachable state st, write transaction in any later state st' of the
   run (environment steps and rounds in between): the write is the model's `ref` environment step at st' —
   the result is again a reachable state, so every invariant proved over `reach` covers the concurrent
   refresher — or nothing *)
Theorem C15_refresher_in_runs : forall cf st st' o rev, reach cf st -> later cf st st' ->
  refresher_saw (e_tab (fst st)) o rev ->
  (t_live (e_tab (fst st')) (o_pk o) = Some (o, rev) /\
   refresh_write (e_tab (fst st')) o rev = e_tab (do_write (fst st') 5 (o_pk o)) /\
   reach cf (do_write (fst st') 5 (o_pk o), snd st')) \/
  (slot_of (e_tab (fst st')) (o_pk o) <> slot_of (e_tab (fst st)) (o_pk o) /\
   refresh_write (e_tab (fst st')) o rev = e_tab (fst st')).
Proof. exact refresher_in_runs. Qed.
Print Assumptions C15_refresher_in_runs.

(* seeded variant A (revision check on a READ transaction before WriteTxn, then the OLD object + Refreshing is
   inserted unconditionally): reverts a committed user update (payload version 2 -> 1) and re-creates a
   deleted object; the code as it is writes nothing in both situations *)
Theorem C15_refresher_stale_check_refuted :
  refresher_saw rf_snap rf_o rf_rev /\
  (erase rf_upd = [(1, Some (2, 0))] /\
   erase (refresh_write_stale rf_snap rf_upd rf_o rf_rev) = [(1, Some (1, 0))] /\
   refresh_write rf_upd rf_o rf_rev = rf_upd) /\
  (erase rf_del = [(1, None)] /\
   erase (refresh_write_stale rf_snap rf_del rf_o rf_rev) = [(1, Some (1, 0))] /\
   refresh_write rf_del rf_o rf_rev = rf_del).
Proof. split; [split; vm_compute; reflexivity|]. split; (split; [|split]); vm_compute; reflexivity. Qed.
Print Assumptions C15_refresher_stale_check_refuted.

(* seeded variant B (`if ok`, no revision comparison): at time 20 the object is Error with a retry item queued
   for time 60 (numRetries 2); the variant overwrites Error with Refreshing, Update is called again at time
   20 and, failing, is re-queued for time 40 with numRetries 1 (backoff reset); the code as it is writes
   nothing, calls nothing (up to time 39) and keeps the item *)
Theorem C15_refresher_no_revision_check_refuted :
  refresher_saw rf_snap rf_o rf_rev /\
  t_live rf_err 1 = Some (mkObj 1 2 Error 5 0, 5) /\
  e_now (fst rf_st1) = 20 /\ items_of (snd rf_st1) = [(1, 60, 2)] /\
  t_live (refresh_write_nocheck rf_err rf_o) 1 = Some (mkObj 1 2 Refreshing 6 0, 6) /\
  refresh_write rf_err rf_o rf_rev = rf_err /\
  calls_of (fst (rf_next rf_err)) = [] /\ items_of (snd (rf_next rf_err)) = [(1, 60, 2)] /\
  calls_of (fst (rf_next (refresh_write_nocheck rf_err rf_o))) = [(20, 0, 1, false)] /\
  items_of (snd (rf_next (refresh_write_nocheck rf_err rf_o))) = [(1, 40, 1)].
Proof. exact refresh_no_revision_check_refuted. Qed.
Print Assumptions C15_refresher_no_revision_check_refuted.

(* non-vacuity: the snapshot (key 1, payload 1, Done at revision 2) of a reachable state and the tables after
   a user update / a delete; after an unrelated write the refresher's write IS the ref write (key 1 becomes
   Refreshing); a later reachable state with an Error object and a queued update retry for key 1 *)
Example C15_refresher_nonvacuous :
  (refresher_saw rf_snap rf_o rf_rev /\ twf rf_snap /\ tstep rf_snap rf_upd /\ tstep rf_snap rf_del) /\
  ((let e := do_write (fst rf_st0) 0 2 in
    tstep rf_snap (e_tab e) /\ slot_of (e_tab e) 1 = slot_of rf_snap 1 /\
    live_objs (refresh_write (e_tab e) rf_o rf_rev) = [(1, 1, 1); (2, 2, 0)] /\
    refresh_write (e_tab e) rf_o rf_rev <> e_tab e) /\
   slot_of rf_upd 1 <> slot_of rf_snap 1 /\ slot_of rf_del 1 <> slot_of rf_snap 1) /\
  (reach rf_cf rf_st0 /\ later rf_cf rf_st0 rf_st1 /\ reach rf_cf rf_st1 /\ tstep rf_snap rf_err /\ err_live rf_err 1 /\
   (exists it, In it (q_items (k_ret (snd rf_st1))) /\ ri_del it = false /\ ri_pk it = o_pk rf_o /\ ri_inq it = true)).
Proof. exact (conj rf_saw (conj rf_unchanged_and_changed rf_retry_state)). Qed.

(* which (object, revision) pairs the refresher picks, and when: one sweep of refreshLoop over a read snapshot
   (Reconciler/Sweep.v: revision order from the cursor, the age test, the rate limiter as arbitrary waits before each
   write, the new cursor, the duration the timer is re-armed for). `upd` = Status.UpdatedAt (not part of Model.obj; any
   assignment). Ties the timing-free theorems above to the loop as coded; the loop itself runs against the
   implementation in the directed probes only. *)
From SV Require Import Reconciler.Sweep.

(* every pair the sweep hands to the write transaction is a live Done object of the snapshot at that revision, above
   the cursor, at least RefreshInterval old when written *)
Theorem C15_refresher_sweep_picks_only_old_done_objects : forall upd iv now last snap delays c, twf snap ->
  In c (fst (fst (refresh_sweep upd iv now last snap delays))) ->
  refresher_saw snap (cd_obj c) (cd_rev c) /\ last < cd_rev c /\ iv <= cd_at c - upd (cd_obj c) /\ now <= cd_at c.
Proof. exact sweep_candidates_seen. Qed.
Print Assumptions C15_refresher_sweep_picks_only_old_done_objects.

(* and none is skipped: with time stamps monotone in revision order (a hypothesis: a status write of a second reconciler
   gives the object a new revision and leaves our UpdatedAt, which breaks it),
   every live Done object above the cursor that is RefreshInterval old at the start of the sweep is picked *)
Theorem C15_refresher_sweep_refreshes_every_old_done_object : forall upd iv now last snap delays o r, twf snap ->
  upd_mono upd (live_stream snap last) -> 0 < iv ->
  t_live snap (o_pk o) = Some (o, r) -> last < r -> o_kind o = Done -> iv <= now - upd o ->
  exists c, In c (fst (fst (refresh_sweep upd iv now last snap delays))) /\ cd_obj c = o /\ cd_rev c = r.
Proof. exact sweep_refreshes_every_old_done_object. Qed.
Print Assumptions C15_refresher_sweep_refreshes_every_old_done_object.

(* the write of a picked pair, at any later moment, is the model's `ref` write of an object unchanged since the
   snapshot, or nothing *)
Theorem C15_refresher_sweep_write_is_ref_or_nothing : forall upd iv now last snap delays c e, twf snap -> tstep snap (e_tab e) ->
  In c (fst (fst (refresh_sweep upd iv now last snap delays))) ->
  (slot_of (e_tab e) (o_pk (cd_obj c)) = slot_of snap (o_pk (cd_obj c)) /\
   refresh_write (e_tab e) (cd_obj c) (cd_rev c) = e_tab (do_write e 5 (o_pk (cd_obj c)))) \/
  (slot_of (e_tab e) (o_pk (cd_obj c)) <> slot_of snap (o_pk (cd_obj c)) /\
   refresh_write (e_tab e) (cd_obj c) (cd_rev c) = e_tab e).
Proof. exact sweep_write_is_ref_or_nothing. Qed.
Print Assumptions C15_refresher_sweep_write_is_ref_or_nothing.

(* the timer is re-armed for a positive duration of at most RefreshInterval; the cursor moves to a revision seen *)
Theorem C15_refresher_sweep_timer_and_cursor : forall upd objs iv now last delays cs l dur,
  sweep upd iv now last objs delays = (cs, l, dur) ->
  (0 < iv -> 0 < dur /\ dur <= iv) /\ (l = last \/ exists ch, In ch objs /\ l = c_rev ch).
Proof.
  exact (fun upd objs iv now last delays cs l dur H =>
    conj (sweep_duration upd objs iv now last delays cs l dur H) (proj1 (sweep_cursor upd objs iv now last delays cs l dur H))).
Qed.
Print Assumptions C15_refresher_sweep_timer_and_cursor.

Example C15_refresher_sweep_nonvacuous :
  refresh_sweep sw_upd 20 30 0 sw_snap [4; 4; 4] =
    ([mkCand (mkObj 1 1 Done 1 0) 1 34; mkCand (mkObj 2 1 Done 2 0) 2 38], 3, 20) /\
  refresh_sweep sw_upd 20 30 3 sw_snap [] = ([], 3, 20) /\
  refresh_sweep sw_upd 20 60 0 sw_snap [] =
    ([mkCand (mkObj 1 1 Done 1 0) 1 60; mkCand (mkObj 2 1 Done 2 0) 2 60], 3, 10).
Proof. exact sweep_example. Qed.

(* reconciler/types.go StatusSet — the data structure behind "a status-only change by a second reconciler".
   In Model.v a reconciler's view of an object's status is (o_kind, o_sid) and what the other writers own is
   o_aux; here the set those projections are taken from is modelled as coded (Reconciler/StatusSet.v: global id
   counter, NewStatusSet, Pending, Set with its replace-or-append-and-sort, Get with its default for a
   reconciler not seen yet) and compared with the implementation by the engine `sset` (every value ever built
   is re-read after every later operation). `ss_wf` = entries strictly sorted by name. *)
From SV Require Import Base.Bytes Base.OrdMap Reconciler.StatusSet Reconciler.StatusSetProofs.

(* Set is the ordered-map insert; it keeps the set id and the invariant *)
Theorem C15_statusset_set_is_insert : forall s n st, ss_wf s ->
  ss_id (ss_set s n st) = ss_id s /\ ss_list (ss_set s n st) = om_insert n st (ss_list s) /\ ss_wf (ss_set s n st).
Proof. exact (fun s n st H => conj (proj1 (ss_set_is_insert s n st H)) (conj (proj2 (ss_set_is_insert s n st H)) (ss_set_wf s n st H))). Qed.
Print Assumptions C15_statusset_set_is_insert.

(* a reconciler reads back what it wrote; its write changes nothing it does not own (the set id and every other
   reconciler's entry: the model's o_aux), and another reconciler's write does not change what it reads
   (the model's stat/statx writes change o_aux only) *)
Theorem C15_statusset_own_and_foreign_writes : forall me other s st, ss_wf s ->
  view me (ss_set s me st) = st /\
  others me (ss_set s me st) = others me s /\
  (me <> other -> view me (ss_set s other st) = view me s).
Proof.
  exact (fun me other s st H => conj (ss_get_set_same s me st H)
          (conj (own_write_keeps_others me s st H) (foreign_write_keeps_view me other s st H))).
Qed.
Print Assumptions C15_statusset_own_and_foreign_writes.

(* Pending(): every reconciler - with an entry or not - reads Pending with the new id; the names are kept; and
   that id is carried by no value built before (ids_le g old: all ids of `old` were drawn from the counter), so
   the "same pending id" fallback of commitStatus cannot take the re-marked object for the one reconciled *)
Theorem C15_statusset_pending : forall s g old n m, ss_wf s -> ids_le g old ->
  ss_get (fst (ss_pending s g)) n = mkSt Pending (g + 1) /\
  map fst (ss_list (fst (ss_pending s g))) = map fst (ss_list s) /\
  ss_wf (fst (ss_pending s g)) /\
  st_id (ss_get (fst (ss_pending s g)) n) <> st_id (ss_get old m).
Proof.
  exact (fun s g old n m Hw Ho => conj (ss_get_pending s g n) (conj (ss_pending_names s g)
          (conj (ss_pending_wf s g Hw) (pending_id_is_fresh g s old n m Ho)))).
Qed.
Print Assumptions C15_statusset_pending.

(* every value an arbitrary program of New / Pending / Set builds is well-formed with ids below the counter
   (so the hypotheses above hold of every reachable value), and no operation changes a value built earlier *)
Theorem C15_statusset_values_reachable_and_persistent : forall m, sm_inv m ->
  (sm_inv (sm_new m) /\ forall j, sm_inv (sm_pending m j) /\ forall n k, sm_inv (sm_set m j n k)) /\
  forall i, (i < length (sm_vals m))%nat ->
    sm_val (sm_new m) i = sm_val m i /\
  forall j, sm_val (sm_pending m j) i = sm_val m i /\ forall n k, sm_val (sm_set m j n k) i = sm_val m i.
Proof.
  exact (fun m H => conj (conj (sm_inv_new m H) (fun j => conj (sm_inv_pending m j H) (fun n k => sm_inv_set m j n k H)))
          (fun i Hi => conj (sm_new_keeps m i Hi) (fun j => conj (sm_pending_keeps m j i Hi) (fun n k => sm_set_keeps m j n k i Hi)))).
Qed.
Print Assumptions C15_statusset_values_reachable_and_persistent.

(* the two seeded Pending() variants (S-C15-1: keeps the set id; S2-C14-3: keeps the per-entry ids): a
   reconciler reads the same (Pending, id) before and after the user re-marked the object *)
Theorem C15_statusset_pending_keep_set_id_refuted :
  let s := fst (ss_new 0) in
  let s' := fst (ss_pending_keep_set_id s 1) in
  ss_wf s /\ ids_le 1 s /\ view [114] s' = view [114] s /\ view [114] (fst (ss_pending s 1)) <> view [114] s.
Proof. vm_compute. repeat split; try constructor; discriminate. Qed.
Print Assumptions C15_statusset_pending_keep_set_id_refuted.

Theorem C15_statusset_pending_keep_entry_ids_refuted :
  let s := ss_set (fst (ss_new 0)) [114] (mkSt Pending 2) in
  let s' := fst (ss_pending_keep_entry_ids s 2) in
  ss_wf s /\ ids_le 2 s /\ view [114] s' = view [114] s /\ view [114] (fst (ss_pending s 2)) <> view [114] s.
Proof.
  vm_compute. split; [split; [constructor|exact I]|]. split; [split; [discriminate|repeat constructor; discriminate]|].
  split; [reflexivity|discriminate].
Qed.
Print Assumptions C15_statusset_pending_keep_entry_ids_refuted.

Example C15_statusset_nonvacuous :
  let m := sm_set (sm_set (sm_new sm_init) 0 [114] Done) 1 [115] Error in
  sm_inv m /\ ss_all (sm_val m 2) = [([114], mkSt Done 2); ([115], mkSt Error 3)] /\
  ss_get (sm_val m 2) [116] = mkSt Pending 1 /\
  ss_all (fst (ss_pending (sm_val m 2) (sm_gen m))) = [([114], mkSt Pending 4); ([115], mkSt Pending 4)].
Proof.
  split; [apply sm_inv_set, sm_inv_set, sm_inv_new, sm_inv_init|]. vm_compute. repeat split.
Qed.
