(* Properties/C03.v — Write operations behave like a keyed map with documented results.
   Model: Table/Model.v (modify / delete / step). *)
From SV Require Import Base.Bytes Base.OrdMap Table.Model Table.Proofs.
Open Scope N_scope.

(* Insert / Modify / CompareAndSwap return the previous object or its absence *)
Theorem C03_write_returns_previous : forall g m p t t' old e, modify g m p t = (t', (old, e)) ->
  old = om_get (p_id p) (t_primary t) \/ (e = ENotFound /\ old = None).
Proof. exact modify_result. Qed.
Print Assumptions C03_write_returns_previous.

(* the documented errors of CompareAndSwap for a guard revision > 0 *)
Theorem C03_cas_errors : forall g m p t t' old e, 0 < g -> modify g m p t = (t', (old, e)) ->
  match om_get (p_id p) (t_primary t) with
  | None => e = ENotFound /\ old = None
  | Some o => old = Some o /\ (if o_rev o =? g then e = EOk else e = ERevMismatch)
  end.
Proof.
  intros g m p t t' old e.
  intros Hg H. destruct (modify_inv _ _ _ _ _ _ _ H) as (-> & -> & _). unfold guard_err.
  destruct (N.ltb_spec 0 g); [|lia].
  destruct (om_get (p_id p) (t_primary t)) as [o|]; auto. now destruct (o_rev o =? g).
Qed.
Print Assumptions C03_cas_errors.

(* a rejected operation changes nothing: the whole table state (contents, every index,
   revision, graveyard, trackers, initializers) is identical *)
Theorem C03_rejected_changes_nothing : forall g m p t t' old e,
  modify g m p t = (t', (old, e)) -> e <> EOk -> t' = t.
Proof. exact modify_rejected_identity. Qed.
Print Assumptions C03_rejected_changes_nothing.

(* a successful write is the keyed-map insert of the new object at the next revision *)
Theorem C03_write_refines_map_insert : forall g m p t t' old e,
  modify g m p t = (t', (old, e)) -> e = EOk ->
  t_rev t' = t_rev t + 1 /\
  t_primary t' = om_insert (p_id p) (new_object m p t) (t_primary t) /\
  o_rev (new_object m p t) = t_rev t' /\
  t_trackers t' = t_trackers t /\ t_init t' = t_init t.
Proof. exact modify_ok_spec. Qed.
Print Assumptions C03_write_refines_map_insert.

(* Delete / CompareAndDelete: previous object returned; absent key and revision mismatch
   change nothing; otherwise keyed-map delete *)
Theorem C03_delete_refines_map_delete : forall g id t t' old e, delete g id t = (t', (old, e)) ->
  old = om_get id (t_primary t) /\
  match om_get id (t_primary t) with
  | None => e = EOk /\ t' = t
  | Some o =>
    if (0 <? g) && negb (o_rev o =? g)
    then e = ERevMismatch /\ t' = t
    else e = EOk /\ t_rev t' = t_rev t + 1 /\ t_primary t' = om_delete id (t_primary t)
  end.
Proof. exact delete_spec. Qed.
Print Assumptions C03_delete_refines_map_delete.

(* known finding K3: a guard revision of 0 is not compared at all *)
Theorem C03_K3_guard0_unguarded : forall m p t, modify 0 m p t = modify_with reindex 0 m p t /\
  exists t' old, modify 0 false (mkP [97] 1 [] [] [] []) empty_table = (t', (old, EOk)).
Proof. intros. split; [reflexivity|]. eexists; eexists; reflexivity. Qed.
Print Assumptions C03_K3_guard0_unguarded.

From SV Require Import KeyEnc.Model Table.InvDefs Table.Inv Table.Inv2 Table.Inv4.

(* reads in the same transaction see its own earlier writes: after a successful Insert / Modify /
   CompareAndSwap (write_op: Table/Inv4.v) on a locked table of the open transaction, Get through the
   transaction returns the new object, the table revision is the object's, the previous object was
   returned, and the committed root is untouched *)
Theorem C03_txn_reads_own_write : forall d o tab g m p es old t prev,
  write_op o = Some (tab, g, m, p) ->
  d_txn d = Some (es, old) -> nth_error es tab = Some (t, true) ->
  snd (step d o) = OutWrite prev EOk ->
  let d' := fst (step d o) in
  let obj := new_object m p t in
  prev = om_get (p_id p) (t_primary t) /\
  o_rev obj = t_rev t + 1 /\
  snd (step d' (OQuery STxn tab (QGet IPrimary (p_id p)))) = OutGet (Some obj) /\
  snd (step d' (OQuery STxn tab QRev)) = OutNum (o_rev obj) /\
  d_root d' = d_root d.
Proof. exact read_own_write. Qed.
Print Assumptions C03_txn_reads_own_write.

(* Insert on a locked table always succeeds and is read back *)
Theorem C03_insert_then_get : forall d tab p es old t,
  d_txn d = Some (es, old) -> nth_error es tab = Some (t, true) ->
  snd (step (fst (step d (OInsert tab p))) (OQuery STxn tab (QGet IPrimary (p_id p))))
  = OutGet (Some (mkO p (t_rev t + 1))).
Proof.
  intros d tab p es old t.
  intros E1 E2.
  assert (Ho : exists prev, snd (step d (OInsert tab p)) = OutWrite prev EOk).
  { rewrite (step_write_locked d (OInsert tab p) tab 0 false p es old t eq_refl E1 E2). cbn [snd].
    unfold modify, modify_with. simpl.
    destruct (om_get (p_id p) (t_primary t)); [|destruct (om_get (p_id p) (t_grave t))]; eexists; reflexivity. }
  destruct Ho as [prev Ho].
  destruct (read_own_write d (OInsert tab p) tab 0 false p es old t prev eq_refl E1 E2 Ho) as [_ [_ [H _]]].
  exact H.
Qed.
Print Assumptions C03_insert_then_get.

(* ... and leaves what Get returns for every other key as it was *)
Theorem C03_write_frames_other_keys : forall d o tab g m p es old t k,
  write_op o = Some (tab, g, m, p) ->
  d_txn d = Some (es, old) -> nth_error es tab = Some (t, true) -> om_sorted (t_primary t) -> k <> p_id p ->
  snd (step (fst (step d o)) (OQuery STxn tab (QGet IPrimary k))) = snd (step d (OQuery STxn tab (QGet IPrimary k))).
Proof.
  intros d o tab g m p es old t k.
  intros Hw E1 E2 Hs Hk. rewrite (step_write_locked _ _ _ _ _ _ _ _ _ Hw E1 E2). cbn [fst].
  destruct (modify g m p t) as [t' [old' e]] eqn:Hm. cbn [fst].
  assert (E2' : nth_error (upd_nth tab (fun _ => (t', true)) es) tab = Some (t', true))
    by (apply (nth_error_upd_nth_same (fun _ => (t', true)) _ _ _ E2)).
  erewrite query_txn; [|reflexivity|exact E2']. erewrite query_txn; [|exact E1|exact E2]. simpl.
  unfold q_get. simpl. f_equal.
  destruct e; try (rewrite (modify_rejected_identity _ _ _ _ _ _ _ Hm); [reflexivity|discriminate]).
  destruct (modify_ok_spec _ _ _ _ _ _ _ Hm eq_refl) as [_ [R2 _]]. rewrite R2. now apply om_get_insert_other.
Qed.
Print Assumptions C03_write_frames_other_keys.

(* a write (Insert, Modify, CompareAndSwap, Delete, CompareAndDelete: write_tab) on a table the open
   transaction does not hold is rejected with ErrTableNotLockedForWriting and changes nothing at all *)
Theorem C03_write_not_locked : forall d o tab es old t, write_tab o = Some tab ->
  d_txn d = Some (es, old) -> nth_error es tab = Some (t, false) -> step d o = (d, OutWrite None ENotLocked).
Proof.
  intros d o tab es old t.
  destruct o; simpl; try discriminate; intros H; injection H as <-; intros E1 E2;
    unfold with_locked; rewrite E1, E2; reflexivity.
Qed.
Print Assumptions C03_write_not_locked.

(* ... and without an open transaction (committed / aborted) with ErrTransactionClosed *)
Theorem C03_write_closed : forall d o tab, write_tab o = Some tab -> d_txn d = None ->
  step d o = (d, OutWrite None EClosed).
Proof.
  intros d o tab.
  destruct o; simpl; try discriminate; intros _ E1; unfold with_locked; rewrite E1; reflexivity.
Qed.
Print Assumptions C03_write_closed.

(* refinement: under ANY list of write operations (Insert, Modify, CompareAndSwap, Delete,
   CompareAndDelete, DeleteAll: wop / apply_wop / run_wops) the abstraction
     abs_state t = (t_rev t, [(id, (value, revision)) | object in primary order])
   evolves exactly as the keyed-map specification (spec_wop / spec_run over Base/OrdMap: om_get,
   om_insert, om_delete with a revision counter), with the documented results (previous value,
   ErrObjectNotFound, ErrRevisionNotEqual) — for every table whose primary index is keyed by the
   objects' own keys (keys_ok, part of TInv) *)
Theorem C03_writes_refine_keyed_map : forall ws t, keys_ok t ->
  spec_run (abs_state t) ws = (abs_state (fst (run_wops t ws)), map abs_res (snd (run_wops t ws))).
Proof.
  intros ws.
  induction ws as [|w r IH]; intros t HK; simpl; auto.
  rewrite (wop_refines w t HK). pose proof (apply_wop_keys_ok w t HK) as HK1.
  destruct (apply_wop w t) as [t1 x]. cbn [fst snd] in *. rewrite (IH t1 HK1).
  destruct (run_wops t1 r) as [t2 xs]. reflexivity.
Qed.
Print Assumptions C03_writes_refine_keyed_map.

(* the operations of a write transaction on one of its locked tables ARE run_wops on that table
   entry: other entries and the committed root are untouched, outputs are the operations' results *)
Theorem C03_txn_writes_are_table_writes : forall ws d tab es old t,
  d_txn d = Some (es, old) -> nth_error es tab = Some (t, true) ->
  let t' := fst (run_wops t ws) in
  let d' := fst (run d (map (op_of_wop tab) ws)) in
  exists es', d_txn d' = Some (es', old) /\ nth_error es' tab = Some (t', true) /\
    (forall i, i <> tab -> nth_error es' i = nth_error es i) /\ d_root d' = d_root d /\
    snd (run d (map (op_of_wop tab) ws)) =
      map (fun wx => out_of_wop (fst wx) (snd wx)) (combine ws (snd (run_wops t ws))).
Proof. exact txn_wops. Qed.
Print Assumptions C03_txn_writes_are_table_writes.

(* a Delete in a write transaction returns the previous object (or its absence), and the key reads as
   absent afterwards in the same transaction *)
Theorem C03_txn_reads_own_delete : forall d tab id es old t,
  d_txn d = Some (es, old) -> nth_error es tab = Some (t, true) -> om_sorted (t_primary t) ->
  snd (step d (ODelete tab id)) = OutWrite (om_get id (t_primary t)) EOk /\
  snd (step (fst (step d (ODelete tab id))) (OQuery STxn tab (QGet IPrimary id))) = OutGet None.
Proof.
  intros d tab id es old t.
  intros E1 E2 Hs. change (ODelete tab id) with (op_of_wop tab (WDelete id)).
  rewrite (step_wop d tab (WDelete id) es old t E1 E2). cbn [fst snd apply_wop out_of_wop].
  destruct (delete 0 id t) as [t' [prev e]] eqn:Hd. cbn [fst snd].
  assert (E2' : nth_error (upd_nth tab (fun _ => (t', true)) es) tab = Some (t', true))
    by (apply (nth_error_upd_nth_same (fun _ => (t', true)) _ _ _ E2)).
  erewrite query_txn; [|reflexivity|exact E2']. simpl. unfold q_get. simpl.
  destruct (delete_spec _ _ _ _ _ _ Hd) as [-> H].
  destruct (om_get id (t_primary t)) as [o|] eqn:Eg.
  - simpl in H. destruct H as [-> [_ ->]]. split; auto. f_equal. now apply om_get_delete_same.
  - destruct H as [-> ->]. split; auto. now rewrite Eg.
Qed.
Print Assumptions C03_txn_reads_own_delete.

Example C03_nonvacuous : exists t' old, modify 1 false (mkP [97] 2 [] [] [] [])
   (fst (modify 0 false (mkP [97] 1 [] [] [] []) empty_table)) = (t', (old, EOk)) /\ old <> None.
Proof. eexists; eexists; split; [vm_compute; reflexivity|discriminate]. Qed.

Example C03_history_nonvacuous :
  let d := fst (run (init_db 2) [OBegin [0%nat]]) in
  snd (run d [OInsert 0 (mkP [97] 1 [] [] [] []); OQuery STxn 0 (QGet IPrimary [97]); OInsert 1 (mkP [97] 1 [] [] [] [])])
  = [OutWrite None EOk; OutGet (Some (mkO (mkP [97] 1 [] [] [] []) 1)); OutWrite None ENotLocked] /\
  spec_run (abs_state empty_table) [WInsert (mkP [97] 1 [] [] [] []); WModify (mkP [97] 2 [] [] [] []); WCas 1 (mkP [97] 5 [] [] [] []); WDeleteAll]
  = ((3, []), [(None, EOk); (Some (1, 1), EOk); (Some (3, 2), ERevMismatch); (None, EOk)]).
Proof. split; vm_compute; reflexivity. Qed.
