(* Properties/C13.v — LPM trie: exact longest-prefix semantics and persistence.
   Each theorem is followed by its printed assumptions.

   Vocabulary (Lpm/Bits.v, Inv.v, Order.v, MapThm.v, Lookup.v, Iter.v, LowerBound.v):
     bits k          the bit string denoted by key k = (data, prefixLen): its first prefixLen bits
     canon k         k is what EncodeLPMKey produces (exact data length, bits beyond prefixLen zero)
     entries r       pre-order list of the (key, value) of the real nodes below r
     abs r k         the finite map read off entries r
     inv [] r        trie invariant: canonical keys; a child's prefix extends its parent's prefix by
                     the branching bit; imaginary nodes have two children (and the zero value)
     wf_txn x        inv [] (t_root x) and t_size x = number of real nodes
     ascending l     every earlier entry is strictly below every later one in the order
                     blt = lexicographic on bit strings = "(bits padded with zeros, length)"
     covers k q      bits k is a prefix of bits q
     lookup_guard l q   q is a key of l, or no key of l is longer than q
     lpm_answer l q r   r = (v, true) for the entry (k, v) of l with the longest k covering q, or (0, false) if none covers q
     covered_by q e  bits q is a prefix of the bits of e's key (boolean)
     not_below q e   the bits of e's key are not below bits q in the order blt (boolean) *)
From SV Require Import Base.Bytes Lpm.Model Lpm.Bits Lpm.Inv Lpm.Insert Lpm.Delete Lpm.Order
  Lpm.MapThm Lpm.Lookup Lpm.Iter Lpm.LowerBound Lpm.Cow Lpm.Refuted.
From Coq Require Import ZArith.
Open Scope N_scope.

(* ---- the byte-level mechanism computes on bit strings ---- *)
Theorem C13_longestMatch_is_common_prefix : forall s nk q, canon nk -> canon q ->
  (N.to_nat s <= lcp (bits nk) (bits q))%nat ->
  longestMatch s nk (fst q) (snd q) = N.of_nat (lcp (bits nk) (bits q)).
Proof. exact longestMatch_spec. Qed.
Print Assumptions C13_longestMatch_is_common_prefix.

Theorem C13_getBitAt_is_bit : forall q i, canon q -> (i < length (bits q))%nat ->
  getBitAt (fst q) (N.of_nat i) = nth i (bits q) false.
Proof. exact getBitAt_bits. Qed.
Print Assumptions C13_getBitAt_is_bit.

Theorem C13_imaginary_key_is_common_prefix : forall nk ml, canon nk -> (ml <= length (bits nk))%nat ->
  canon (encodeKey (key_bytes nk) (N.of_nat ml)) /\
  bits (encodeKey (key_bytes nk) (N.of_nat ml)) = firstn ml (bits nk).
Proof. exact encodeKey_spec. Qed.
Print Assumptions C13_imaginary_key_is_common_prefix.

Theorem C13_canonical_keys_are_their_bits : forall a b, canon a -> canon b -> bits a = bits b -> a = b.
Proof. exact canon_bits_inj. Qed.
Print Assumptions C13_canonical_keys_are_their_bits.

(* ---- (a) invariant and size, preserved by every operation ---- *)
Theorem C13_invariant_new : wf_trie trie_new.
Proof. exact wf_new. Qed.
Print Assumptions C13_invariant_new.

Theorem C13_invariant_insert : forall x k v, canon k -> wf_txn x ->
  wf_txn (txn_insert x k v) /\
  (forall k' w, In (k', w) (entries (t_root (txn_insert x k v))) <->
                (k' = k /\ w = v) \/ (k' <> k /\ In (k', w) (entries (t_root x)))).
Proof. exact insert_spec. Qed.
Print Assumptions C13_invariant_insert.

Theorem C13_invariant_delete : forall x k, canon k -> wf_txn x ->
  let '(x', (v, found)) := txn_delete x k in
  wf_txn x' /\ t_id x' = t_id x /\
  (found = true -> In (k, v) (entries (t_root x))) /\
  (found = false -> v = 0 /\ x' = x /\ forall w, ~ In (k, w) (entries (t_root x))) /\
  (forall k' w, In (k', w) (entries (t_root x')) <-> k' <> k /\ In (k', w) (entries (t_root x))).
Proof. exact delete_spec. Qed.
Print Assumptions C13_invariant_delete.

Theorem C13_invariant_txn_commit_reuse_clear_freeze :
  (forall t, wf_trie t -> wf_txn (trie_txn t)) /\ (forall x, wf_txn x -> wf_trie (txn_commit x)) /\
  (forall x t, wf_trie t -> wf_txn (txn_reuse x t)) /\ (forall x, wf_txn (txn_clear x)) /\
  (forall x, wf_txn x -> wf_txn (txn_freeze x)).
Proof. exact (conj wf_trie_txn (conj wf_commit (conj wf_reuse (conj wf_clear wf_freeze)))). Qed.
Print Assumptions C13_invariant_txn_commit_reuse_clear_freeze.

(* ---- (b) agreement with the finite map, for all prefixes ---- *)
Theorem C13_lookupExact_is_map_get : forall r k, canon k -> wf_root r ->
  lookupExact r k = match abs r k with Some v => (v, true) | None => (0, false) end.
Proof.
  intros r k Ck I. unfold lookupExact, abs.
  pose proof (lookupExact_spec k Ck r [] 0 I (is_pre_nil _) (Nat.le_refl 0)) as L.
  pose proof (entries_ascending r [] I) as A.
  destruct (lookupExact_go (fst k) (snd k) 0 r) as [v [|]]; cbn [exact_post] in L.
  - apply (assoc_some _ _ _ A) in L. now rewrite L.
  - destruct L as [-> L]. apply assoc_none in L. now rewrite L.
Qed.
Print Assumptions C13_lookupExact_is_map_get.

Theorem C13_insert_is_map_set : forall x k v k', canon k -> wf_txn x ->
  abs (t_root (txn_insert x k v)) k' = if lkey_eqb k' k then Some v else abs (t_root x) k'.
Proof.
  intros x k v k' Ck W. destruct (insert_spec x k v Ck W) as [[I' _] H]. destruct W as [I _].
  pose proof (entries_ascending _ _ I) as A. pose proof (entries_ascending _ _ I') as A'.
  unfold abs. destruct (lkey_eqb k' k) eqn:E.
  - apply lkey_eqb_spec in E. subst k'. apply assoc_some; auto. apply H. auto.
  - apply lkey_eqb_false in E.
    apply assoc_eq; auto. intros w. rewrite H. tauto.
Qed.
Print Assumptions C13_insert_is_map_set.

Theorem C13_delete_is_map_remove : forall x k k', canon k -> wf_txn x ->
  abs (t_root (fst (txn_delete x k))) k' = (if lkey_eqb k' k then None else abs (t_root x) k') /\
  snd (txn_delete x k) = match abs (t_root x) k with Some v => (v, true) | None => (0, false) end.
Proof.
  intros x k k' Ck W. pose proof (delete_spec x k Ck W) as D. destruct W as [I _].
  destruct (txn_delete x k) as [x' [v found]]. destruct D as ([I' _] & _ & D1 & D2 & D3). cbn [fst snd].
  pose proof (entries_ascending _ _ I) as A. pose proof (entries_ascending _ _ I') as A'.
  unfold abs. split.
  - destruct (lkey_eqb k' k) eqn:E.
    + apply lkey_eqb_spec in E. subst k'. apply assoc_none. intros w Hw. apply D3 in Hw. tauto.
    + apply lkey_eqb_false in E.
      apply assoc_eq; auto. intros w. rewrite D3. tauto.
  - destruct found.
    + specialize (D1 eq_refl). apply (assoc_some _ _ _ A) in D1. now rewrite D1.
    + destruct (D2 eq_refl) as (-> & _ & D4). apply assoc_none in D4. now rewrite D4.
Qed.
Print Assumptions C13_delete_is_map_remove.

Theorem C13_len_is_map_size : forall x, wf_txn x ->
  txn_len x = N.of_nat (length (entries (t_root x))) /\ ascending (entries (t_root x)).
Proof. intros x [I Sz]. split; [exact Sz|eapply entries_ascending; eauto]. Qed.
Print Assumptions C13_len_is_map_size.

(* ---- (c) Lookup = longest stored prefix covering the key, for keys that are stored or at
        least as long as every stored prefix (full-length keys); the guard is necessary: for a
        shorter, non-stored query the code returns the node at which the query ends: a real node below
        the query, or, at an imaginary node, (zero, false) although a shorter stored prefix may cover
        the query (mechanism-level) ---- *)
Theorem C13_lookup_longest_prefix : forall r q, canon q -> inv [] r -> lookup_guard (entries r) q ->
  lpm_answer (entries r) q (lookup r q).
Proof.
  intros r q Cq I G. unfold lookup.
  destruct (lookup_go_spec q Cq r [] 0 I (is_pre_nil _) (Nat.le_refl 0) None G)
    as [(k & v & H1 & ->)|[H1 ->]]; simpl.
  - exists k. exact H1.
  - split; [reflexivity|exact H1].
Qed.
Print Assumptions C13_lookup_longest_prefix.

(* ---- (d) Prefix(q) = exactly the stored prefixes covered by q, in iteration order;
        iteration is ascending ---- *)
Theorem C13_prefix_exact : forall r q, canon q -> inv [] r ->
  it_entries (prefix r q) = filter (covered_by q) (entries r).
Proof. exact prefix_exact. Qed.
Print Assumptions C13_prefix_exact.

Theorem C13_all_is_entries : forall r, it_entries (all r) = entries r.
Proof.
  intros [|k v i t c0 c1]; [reflexivity|]. unfold all. rewrite it_entries_spec.
  - cbn [flat_map]. now rewrite app_nil_r.
  - constructor; [discriminate|constructor].
Qed.
Print Assumptions C13_all_is_entries.

Theorem C13_iteration_ascending : forall r, inv [] r -> ascending (entries r).
Proof. exact (fun r => entries_ascending r []). Qed.
Print Assumptions C13_iteration_ascending.

(* LowerBound(q) yields, in ascending order, exactly the entries whose prefix is not below q in the
   order blt (= the suffix of the ascending entry list starting at the first entry >= q) *)
Theorem C13_lower_bound_exact : forall r q, canon q -> inv [] r ->
  it_entries (lowerBound r q) = filter (not_below q) (entries r).
Proof.
  intros r q Cq I. unfold lowerBound.
  destruct (lowerBound_go_spec q Cq r [] 0 I (is_pre_nil _) (Nat.le_refl 0) [] (Forall_nil _)) as [N E].
  rewrite it_entries_spec, E by exact N. apply app_nil_r.
Qed.
Print Assumptions C13_lower_bound_exact.

(* the byte-level fact behind it: the test bytes.Compare(node.key, data) >= 0 that LowerBound makes at
   a node whose key diverges from the query agrees with the bit at the point of divergence *)
Theorem C13_compare_at_divergence : forall q, canon q -> forall nk, canon nk ->
  (lcp (bits nk) (bits q) < length (bits nk))%nat -> (lcp (bits nk) (bits q) < length (bits q))%nat ->
  bytes_ltb (key_bytes nk) (fst q) = nth (lcp (bits nk) (bits q)) (bits q) false.
Proof.
  intros q Cq nk Cn H1 H2. destruct (lcp_fork_intro H1 H2) as (_ & HK & HQ).
  exact (cmp_fork _ _ _ _ Cq Cn HK HQ).
Qed.
Print Assumptions C13_compare_at_divergence.

(* ---- (e) persistence: the copy-on-write discipline by txn id (Lpm/Cow.v) ----
   ids_ok T r        every node of r has txnID <= T and no child has a larger txnID than its parent
                     (what lpm/validate.go asserts)
   clone_inplace tid n   the test of Txn.clone: n is returned itself (and then written in place) iff
                     n.txnID = tid; every node Insert/Delete write is first passed through Txn.clone
   no_inplace tid r  clone_inplace tid is false on every node of r
   published x it    every node of the iterator stack it has all its ids strictly below t_id x *)

(* ids_ok is preserved by Insert and Delete (including Delete's early exit), the txn id is unchanged *)
Theorem C13_cow_ids_preserved : forall x k v,
  (txn_ids_ok x -> txn_ids_ok (txn_insert x k v) /\ t_id (txn_insert x k v) = t_id x) /\
  (txn_ids_ok x -> txn_ids_ok (fst (txn_delete x k)) /\ t_id (fst (txn_delete x k)) = t_id x).
Proof. exact (fun x k v => conj (txn_insert_ids x k v) (txn_delete_ids x k)). Qed.
Print Assumptions C13_cow_ids_preserved.

(* Delete's early "return value, true" is taken only where the nodes above are owned by the txn
   (id = txn id), so leaving them untouched equals cloning them; B = bound inherited from the parent *)
Theorem C13_cow_delete_early_exit_owned : forall tid kd kpl n B ml, ids_ok B n -> B <= tid ->
  match del tid kd kpl ml n with
  | Some (n', _, true) => node_id n = tid /\ node_id n' = tid
  | _ => True
  end.
Proof.
  intros tid kd kpl n B ml H HB. pose proof (del_ids_owned tid kd kpl n B ml H HB) as D.
  destruct (del tid kd kpl ml n) as [[[? ?] [|]]|]; simpl in D; tauto.
Qed.
Print Assumptions C13_cow_delete_early_exit_owned.

(* every root / iterator handed out is handed out together with an id bump: All, Prefix, LowerBound
   (txnID++), Commit followed by Txn or Reuse (prevTxnID + 1) *)
Theorem C13_cow_published : forall x q t,
  (txn_ids_ok x ->
    (published (fst (txn_all x)) (snd (txn_all x)) /\ txn_ids_ok (fst (txn_all x))) /\
    (published (fst (txn_prefix x q)) (snd (txn_prefix x q)) /\ txn_ids_ok (fst (txn_prefix x q))) /\
    (published (fst (txn_lowerBound x q)) (snd (txn_lowerBound x q)) /\ txn_ids_ok (fst (txn_lowerBound x q)))) /\
  (txn_ids_ok x -> trie_ids_ok (txn_commit x)) /\
  (trie_ids_ok t -> txn_ids_ok (trie_txn t) /\ below (t_id (trie_txn t)) (r_root t) /\
     (forall x', txn_ids_ok (txn_reuse x' t) /\ below (t_id (txn_reuse x' t)) (r_root t))) /\
  (trie_ids_ok trie_new /\ txn_ids_ok (txn_clear x)).
Proof.
  exact (fun x q t => conj (txn_iter_publishes x q) (conj (commit_ids x) (conj (trie_txn_ids t) (new_clear_ids x)))).
Qed.
Print Assumptions C13_cow_published.

(* hence Txn.clone never takes the in-place branch on a node of a published iterator ... *)
Theorem C13_cow_published_never_mutated : forall x it, published x it -> Forall (no_inplace (t_id x)) it.
Proof. exact published_never_mutated. Qed.
Print Assumptions C13_cow_published_never_mutated.

(* ... over every later history of that transaction (inserts, deletes, further iterators) ... *)
Theorem C13_cow_iterator_never_mutated : forall x it z, txn_ids_ok x -> published x it -> steps x z ->
  txn_ids_ok z /\ Forall (no_inplace (t_id z)) it.
Proof. exact iterator_never_mutated. Qed.
Print Assumptions C13_cow_iterator_never_mutated.

(* ... and no transaction begun (Txn or Reuse) from a committed trie ever writes a node of that trie *)
Theorem C13_cow_committed_never_mutated : forall t x0 z, trie_ids_ok t ->
  (x0 = trie_txn t \/ exists x, x0 = txn_reuse x t) -> steps x0 z ->
  txn_ids_ok z /\ no_inplace (t_id z) (r_root t).
Proof. exact committed_never_mutated. Qed.
Print Assumptions C13_cow_committed_never_mutated.

(* The theorems above are stated on the tree-valued model, where node identity / allocation is not
   expressible: they cover the transaction that handed out the iterator and every transaction begun
   from the committed trie itself (C13_persistence_tree_level below). The FULL statement — for
   arbitrary branching histories no operation of ANY transaction, of any lineage and whatever its
   ids, changes what an earlier committed trie or an earlier iterator returns — is proved on the
   pointer-heap model at the end of this file (Module C13_Heap: C13_heap_refines_tree,
   C13_inplace_writes_only_owned, C13_persistence_all_tries).
   Contract assumed throughout: a Txn is not used after Commit before Reuse/Clear (Commit does not
   bump the id; C13_use_after_commit_refuted shows the contract is necessary). *)
Theorem C13_persistence_tree_level : forall x it t x0 z z',
  (txn_ids_ok x -> published x it -> steps x z -> txn_ids_ok z /\ Forall (no_inplace (t_id z)) it) /\
  (trie_ids_ok t -> (x0 = trie_txn t \/ exists x1, x0 = txn_reuse x1 t) -> steps x0 z' ->
     txn_ids_ok z' /\ no_inplace (t_id z') (r_root t)).
Proof. exact (fun x it t x0 z z' => conj (iterator_never_mutated x it z) (committed_never_mutated t x0 z')). Qed.
Print Assumptions C13_persistence_tree_level.

(* which calls bump the transaction id *)
Theorem C13_txn_id_bookkeeping : forall x t k v q,
  t_id (txn_insert x k v) = t_id x /\ t_id (fst (txn_delete x k)) = t_id x /\
  t_id (trie_txn (txn_commit x)) = t_id x + 1 /\ t_id (txn_reuse x t) = r_prev t + 1 /\
  (t_root x <> Nil -> t_id (fst (txn_all x)) = t_id x + 1 /\ t_id (fst (txn_prefix x q)) = t_id x + 1 /\
                      t_id (fst (txn_lowerBound x q)) = t_id x + 1) /\
  (t_root x = Nil -> fst (txn_all x) = x /\ snd (txn_all x) = []).
Proof.
  intros x t k v q.
  split; [unfold txn_insert; destruct (ins _ _ _ _ _ _); reflexivity|].
  split; [unfold txn_delete; destruct (del _ _ _ _ _) as [[[? ?] ?]|]; reflexivity|].
  split; [reflexivity|]. split; [reflexivity|]. split.
  - intros H. unfold txn_all, txn_prefix, txn_lowerBound, txn_freeze. cbn [fst].
    destruct (t_root x); [congruence|]. auto.
  - intros H. unfold txn_all, txn_freeze. rewrite H. auto.
Qed.
Print Assumptions C13_txn_id_bookkeeping.

(* the unguarded Prefix (code before fix 7b6a21e, seeded/D2) is wrong *)
Theorem C13_prefix_unguarded_refuted :
  exists (r : node) (q : lkey), inv [] r /\ canon q /\
    it_entries (prefix_unguarded r q) = [(([10], 8), 1)] /\
    ~ is_pre (bits q) (bits ([10], 8)) /\
    it_entries (prefix r q) = [].
Proof. exact lpm_prefix_unguarded_refuted. Qed.
Print Assumptions C13_prefix_unguarded_refuted.

(* non-vacuity: a trie built by the operations satisfies the hypotheses, on keys that fork at a
   byte boundary, with an imaginary node *)
Example C13_nonvacuous :
  let x := txn_insert (txn_insert (trie_txn trie_new) ([10; 128], 9) 1) ([10; 0; 64], 18) 2 in
  wf_txn (trie_txn trie_new) /\ canon ([10; 128], 9) /\ canon ([10; 0; 64], 18) /\
  txn_len x = 2 /\ lookup (t_root x) ([10; 0; 64; 1], 32) = (2, true) /\
  lookup_guard (entries (t_root x)) ([10; 0; 64; 1], 32).
Proof.
  assert (C : forall d p, is_bytes d -> length d = N.to_nat ((p + 7) / 8) ->
            Forall (fun b => b = false) (skipn (N.to_nat p) (bytes_bits d)) -> canon (d, p)) by (intros; repeat split; assumption).
  split; [exact (wf_trie_txn _ wf_new)|].
  split; [apply C; [repeat constructor; reflexivity|reflexivity|vm_compute; repeat constructor]|].
  split; [apply C; [repeat constructor; reflexivity|reflexivity|vm_compute; repeat constructor]|].
  split; [vm_compute; reflexivity|]. split; [vm_compute; reflexivity|].
  right. vm_compute. intros k w [H|[H|[]]]; injection H as <- _; vm_compute; lia.
Qed.

(* ---- the table-level LPM index (lpm_index.go: lpmEntry head/tail stored in the trie) -------------
   The trie of lpm/trie.go stores, per prefix, an lpmEntry (objects sharing the prefix, by primary key).
   Persistence of committed tries includes these entries: the tail slice is shared between the entry
   values of successive tries, so upsert / delete must write only into fresh arrays.
   (Base/Slice.v heap of Go backing arrays; Table/SliceProofs.v; Table/Model.v LPM index queries.) *)
From SV Require Base.Slice Table.Model Table.InvDefs Table.SliceProofs Table.AgreeDefs Table.AgreeLpm Table.Queries.
Module C13_TableLpm.
Import SV.Base.Bytes SV.Base.Slice SV.Table.Model SV.Table.InvDefs SV.Table.SliceProofs SV.Table.AgreeDefs
  SV.Table.AgreeLpm SV.Table.Queries.
Local Open Scope nat_scope.

(* what earlier tries hold (any well-formed entry value of the old heap) reads the same after a
   later transaction's upsert or delete on an entry sharing its backing array *)
Theorem C13_entry_upsert_persistent : forall (h : eheap) (e : mentry) (pk : bytes) (o : object) (e' : mentry),
  me_wf h e' -> me_den (fst (upsert_new h e pk o)) e' = me_den h e'.
Proof. exact upsert_new_frame. Qed.
Print Assumptions C13_entry_upsert_persistent.

Theorem C13_entry_delete_persistent : forall (h : eheap) (e : mentry) (pk : bytes) (e' : mentry),
  me_wf h e' -> me_den (fst (delete_new h e pk)) e' = me_den h e'.
Proof. exact delete_new_frame. Qed.
Print Assumptions C13_entry_delete_persistent.

(* the in-place variants change an earlier trie's entry: defect D1 (fixed by 9ab81d8), seeded S-C13-3 *)
Theorem C13_entry_upsert_inplace_refuted :
  exists (h : eheap) (e : mentry) (k : bytes) (o : object) (e_other : mentry),
    me_wf h e /\ me_wf h e_other /\ esorted (me_den h e) /\
    forall extra, me_den h e_other <> me_den (fst (upsert_old extra h e k o)) e_other.
Proof. exact upsert_old_alias_refuted. Qed.
Print Assumptions C13_entry_upsert_inplace_refuted.

Theorem C13_entry_delete_inplace_refuted :
  exists (h : eheap) (e : mentry) (k : bytes) (e_other : mentry),
    me_wf h e /\ me_wf h e_other /\ esorted (me_den h e) /\
    me_den h e_other <> me_den (fst (delete_inplace h e k)) e_other.
Proof.
  destruct delete_inplace_alias_refuted as (h & e & k & eo & H1 & H2 & H3 & H4 & _).
  exists h, e, k, eo. auto.
Qed.
Print Assumptions C13_entry_delete_inplace_refuted.

(* queries through a table's LPM index: the longest stored prefix covering the key; stored prefixes
   covered by / not below the query, in (prefix bits, primary key) order *)
Theorem C13_table_lpm_list : forall u q t, TInv t -> Agree t ->
  (forall k, longest_cover u t q k -> ql_list u q t = filter (has_lkey u k) (vals (t_primary t))) /\
  ((forall k, ~ covers u t q k) -> ql_list u q t = []) /\
  ql_get u q t = hd_error (ql_list u q t).
Proof. exact ql_list_exact. Qed.
Print Assumptions C13_table_lpm_list.
End C13_TableLpm.

(* ---- (f) persistence on the pointer heap (Lpm/Heap.v; HeapBase.v, HeapIns.v, HeapDel.v, HeapIds.v,
        HeapProofs.v) -------------------------------------------------------------------------------
   The heap model mirrors lpm/trie.go line by line on a heap of cells (hnode: key, value, imaginary,
   txnID, two child pointers; addresses = indices; allocation = append): Txn.clone returns the address
   itself iff the cell carries the txn id (it is then WRITTEN IN PLACE), otherwise appends a copy stamped
   with the txn id; Insert (nodep slots, newNode, the imaginary fork), Delete (find loop, parents slice,
   compression, the early return), Trie.Txn / Reuse / Clear / Commit, the id bump of All/Prefix/LowerBound.
     den h p            the tree (Lpm/Model.v node) denoted by pointer p in heap h (fuel = heap size)
     rep h p t          relational denotation: p represents t (acyclic, no dangling pointer); rep -> den
     reach h p a        cell a is reachable from p
     habs h x           the tree-level transaction (Lpm/Model.v txn) denoted by heap transaction x
     x_own x            the cells x allocated since its id was last set / bumped
     fresh h h'         the cells appended between h and h'
     hinv P h x         invariant of a transaction: below the root, cells with id = txn id are exactly
                        cells of x_own x, they form an unshared tree, all other cells have smaller ids
                        (and satisfy P); established by Trie.Txn/Reuse from Cow.v's trie_ids_ok
     sys, sstep         two live transactions a, b and the list s_pubs of all roots handed out so far
                        (committed tries and iterator roots) on ONE heap; a step is an operation of a or
                        of b: Insert, Delete, All/Prefix/LowerBound, Commit followed by Txn/Reuse on any
                        handed-out trie, abandon followed by Txn/Reuse/Clear. The two transactions may
                        stem from different tries; their ids may coincide (C13_heap_nonvacuous)
     SInv s             hinv for a and b, their own-sets disjoint, nothing handed out reaches an owned cell
     safe s r           nothing reachable from r is owned by a or b *)
From SV Require Lpm.Heap Lpm.HeapBase Lpm.HeapIns Lpm.HeapDel Lpm.HeapIds Lpm.HeapProofs.
Module C13_Heap.
Import SV.Lpm.Heap SV.Lpm.HeapBase SV.Lpm.HeapProofs.

(* the computed denotation is the relational one *)
Theorem C13_heap_den_is_rep : forall h p t, rep h p t -> den h p = t.
Proof. exact rep_den. Qed.
Print Assumptions C13_heap_den_is_rep.

(* Trie.Txn / Txn.Reuse on a trie with ids <= prevTxnID (Cow.v ids_ok): the invariant holds, nothing owned *)
Theorem C13_heap_txn_start : forall (P : nat -> Prop) h t tr, rep h (hr_root t) tr -> ids_ok (hr_prev t) tr ->
  (forall a, reach h (hr_root t) a -> P a) -> hinv P h (htrie_txn t).
Proof.
  intros P h t tr R I HP. exists tr, []. cbn [htrie_txn x_id x_root x_own]. split; [|split; intros a []].
  eapply frozen_intro; [exact R|exact HP|apply ids_ok_le; exact I|lia].
Qed.
Print Assumptions C13_heap_txn_start.

(* (a) REFINEMENT: Insert / Delete on the heap compute exactly what Lpm/Model.v computes on the denoted
   tree (root tree incl. all txnIDs, size, id, returned value and flag) and preserve the invariant *)
Theorem C13_heap_refines_tree : forall (P : nat -> Prop) h x k v, hinv P h x ->
  (let h' := fst (htxn_insert h x k v) in let x' := snd (htxn_insert h x k v) in
   hinv P h' x' /\ habs h' x' = txn_insert (habs h x) k v) /\
  (let h' := fst (fst (htxn_delete h x k)) in let x' := snd (fst (htxn_delete h x k)) in
   hinv P h' x' /\ (habs h' x', snd (htxn_delete h x k)) = txn_delete (habs h x) k).
Proof.
  intros P h x k v HI. destruct (htxn_insert_spec P h x k v HI) as ((A1 & _) & A2).
  destruct (htxn_delete_spec P h x k HI) as ((B1 & _) & B2). cbn zeta. auto.
Qed.
Print Assumptions C13_heap_refines_tree.

(* (b) OWNERSHIP: a reachable cell carries the txn id iff the txn allocated it since its last bump;
   Insert / Delete overwrite only such cells and otherwise only append *)
Theorem C13_inplace_writes_only_owned : forall (P : nat -> Prop) h x k v, hinv P h x ->
  (forall a, reach h (x_root x) a -> (h_id (hget h a) = x_id x <-> In a (x_own x))) /\
  (let h' := fst (htxn_insert h x k v) in let x' := snd (htxn_insert h x k v) in
   (length h <= length h')%nat /\ x_own x' = x_own x ++ fresh h h' /\ x_id x' = x_id x /\
   forall a, (a < length h)%nat -> ~ In a (x_own x) -> nth_error h' a = nth_error h a) /\
  (let h' := fst (fst (htxn_delete h x k)) in let x' := snd (fst (htxn_delete h x k)) in
   (length h <= length h')%nat /\ x_own x' = x_own x ++ fresh h h' /\ x_id x' = x_id x /\
   forall a, (a < length h)%nat -> ~ In a (x_own x) -> nth_error h' a = nth_error h a).
Proof.
  intros P h x k v HI. split; [apply (owned_iff_id P); exact HI|].
  destruct (htxn_insert_spec P h x k v HI) as ((_ & (A3 & A3') & A4 & A5) & _).
  destruct (htxn_delete_spec P h x k HI) as ((_ & (B3 & B3') & B4 & B5) & _). cbn zeta. auto 10.
Qed.
Print Assumptions C13_inplace_writes_only_owned.

(* the system invariant holds initially (empty heap, New(), two transactions) and is preserved by
   every step of either transaction *)
Theorem C13_heap_system_invariant :
  SInv sys0 /\ (forall s s', SInv s -> sstep s s' -> SInv s') /\ (forall s, ssteps sys0 s -> SInv s).
Proof. exact (conj SInv_sys0 (conj sstep_inv reachable_SInv)). Qed.
Print Assumptions C13_heap_system_invariant.

(* (c) PERSISTENCE: over any interleaving of operations of the two transactions, every root handed
   out before (committed trie or iterator) stays handed out and denotes the same trie, as does every
   node below it (Prefix / LowerBound iterator stacks); more generally every pointer r of the heap that
   reaches no owned cell — roots of other tries of ANY lineage, whatever their ids — denotes the same tree *)
Theorem C13_persistence_all_tries : forall s s', SInv s -> ssteps s s' ->
  SInv s' /\
  (forall t, In t (s_pubs s) -> In t (s_pubs s') /\ habs_trie (s_heap s') t = habs_trie (s_heap s) t /\
     forall r, reach (s_heap s) (hr_root t) r -> den (s_heap s') (Some r) = den (s_heap s) (Some r)) /\
  (forall r t, rep (s_heap s) r t -> safe s r -> den (s_heap s') r = den (s_heap s) r).
Proof.
  intros s s' I St. destruct (ssteps_persist _ _ I St) as (I' & Pp & Q). split; [exact I'|]. split.
  - intros t Ht. split; [auto|]. split.
    + destruct (pubs_root_safe _ _ I Ht) as (tr & R & S). unfold habs_trie. now rewrite (proj1 (Pp _ _ R S)).
    + intros r Hr. destruct (pubs_safe _ _ I Ht r Hr) as (tr & R & S). exact (proj1 (Pp _ _ R S)).
  - intros r t R S. exact (proj1 (Pp _ _ R S)).
Qed.
Print Assumptions C13_persistence_all_tries.

(* the other live transaction (begun from the same or from a different trie) is not disturbed either *)
Theorem C13_other_txn_isolated : forall h a b ps h' a' ps', SInv (mkSys h a b ps) -> tstep h a ps h' a' ps' ->
  habs h' b = habs h b.
Proof.
  intros h a b ps h' a' ps' I St. destruct (tstep_inv I St) as (_ & Fr & _).
  destruct I as (_ & HB & D & _). cbn [s_heap s_a s_b s_pubs] in *.
  pose proof (hinv_reach_notin _ _ _ HB (disj_sym _ _ D)) as S.
  destruct HB as (t & F & T & _). pose proof (trep_rep T) as R.
  destruct (frame_rep Fr R S) as (R' & _).
  unfold habs. now rewrite (rep_den _ _ _ R), (rep_den _ _ _ R').
Qed.
Print Assumptions C13_other_txn_isolated.

(* (d) the id test of Txn.clone alone is not enough: without `txn.txnID++` in All/Prefix/LowerBound a
   later Insert of the same transaction changes what the iterator's root denotes (with the bump it does not) *)
Theorem C13_iterator_nobump_refuted :
  exists (h : heap) (x : htxn) (k : lkey) (v : N),
    hinv (fun _ => True) h x /\
    let it := x_root x in
    den (fst (htxn_insert h (htxn_freeze_nobump x) k v)) it <> den h it /\
    den (fst (htxn_insert h (htxn_freeze x) k v)) it = den h it.
Proof.
  exists (fst (htxn_insert [] (htrie_txn htrie_new) ([10], 8) 1)), (snd (htxn_insert [] (htrie_txn htrie_new) ([10], 8) 1)),
    ([10; 128], 9), 2.
  split.
  - apply htxn_insert_spec, hinv_empty.
  - cbn zeta. split; [vm_compute; discriminate|vm_compute; reflexivity].
Qed.
Print Assumptions C13_iterator_nobump_refuted.

(* Commit does not bump: using the Txn after Commit without Reuse changes the committed trie *)
Theorem C13_use_after_commit_refuted :
  exists (h : heap) (x : htxn) (k : lkey) (v : N),
    hinv (fun _ => True) h x /\
    let t := htxn_commit x in
    habs_trie (fst (htxn_insert h x k v)) t <> habs_trie h t /\
    habs_trie (fst (htxn_insert h (htxn_reuse x t) k v)) t = habs_trie h t.
Proof.
  exists (fst (htxn_insert [] (htrie_txn htrie_new) ([10], 8) 1)), (snd (htxn_insert [] (htrie_txn htrie_new) ([10], 8) 1)),
    ([10; 128], 9), 2.
  split.
  - apply htxn_insert_spec, hinv_empty.
  - cbn zeta. split; [vm_compute; discriminate|vm_compute; reflexivity].
Qed.
Print Assumptions C13_use_after_commit_refuted.

(* non-vacuity: a reachable system (14 operations of two transactions, 18 cells, 5 handed-out roots) in
   which two handed-out tries share a cell and the two live transactions, of different lineages, carry
   the same id; an Insert through transaction b appends and writes in place, the denotation of the
   transaction changes, the denotations of all handed-out tries, computed before and after, are equal *)
Example C13_heap_nonvacuous :
  let s := HeapExample.s_end in
  let h := s_heap s in
  let h' := fst (htxn_insert h (s_b s) ([10; 64], 10) 9) in
  ssteps sys0 s /\ SInv s /\ hinv (fun a => ~ In a (x_own (s_a s))) h (s_b s) /\
  (exists t1 t2 a, In t1 (s_pubs s) /\ In t2 (s_pubs s) /\ hr_root t1 <> hr_root t2 /\
     reach h (hr_root t1) a /\ reach h (hr_root t2) a) /\
  x_id (s_a s) = x_id (s_b s) /\ x_root (s_a s) <> x_root (s_b s) /\ x_own (s_b s) = [16; 17]%nat /\
  length h = 18%nat /\ length h' = 21%nat /\ nth_error h' 17 <> nth_error h 17 /\
  den h' (x_root (snd (htxn_insert h (s_b s) ([10; 64], 10) 9))) <> den h (x_root (s_b s)) /\
  map (fun t => den h' (hr_root t)) (s_pubs s) = map (fun t => den h (hr_root t)) (s_pubs s) /\
  den h (hr_root (nth 0 (s_pubs s) htrie_new)) =
    Node ([10], 7) 0 true 2
      (Node ([10], 8) 3 false 2 Nil (Node ([10; 128], 9) 1 false 1 Nil Nil))
      (Node ([11; 0], 16) 5 false 2 Nil Nil).
Proof.
  destruct HeapExample.reachable_mid_end as (A & B & _ & I).
  split; [eapply ssteps_trans; eauto|]. split; [exact I|]. split; [exact (proj1 (proj2 I))|].
  split; [exact HeapExample.tries_share_cells|].
  vm_compute. repeat split; try reflexivity; discriminate.
Qed.
End C13_Heap.
