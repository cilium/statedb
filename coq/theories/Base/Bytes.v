(* Base/Bytes.v — byte strings as lists of N (< 256), bytewise lexicographic order
   (the order of Go's bytes.Compare), prefixes. Stdlib only. *)
From Coq Require Export List NArith ZArith Bool Lia.
From Coq Require Import ZifyN ZifyNat ZifyBool.
Export ListNotations.
Open Scope N_scope.

(* two facts about lists the standard library states only with side conditions *)
Lemma firstn_app_exact {A} (a b : list A) : firstn (length a) (a ++ b) = a.
Proof. induction a; simpl; f_equal; auto. Qed.
Lemma skipn_app_exact {A} (a b : list A) : skipn (length a) (a ++ b) = b.
Proof. induction a; simpl; auto. Qed.

Definition byte := N.
Definition bytes := list N.

Definition is_byte (b : N) : Prop := b < 256.
Definition is_bytes (s : bytes) : Prop := Forall is_byte s.

(* bytes.Compare(a,b) < 0 *)
Fixpoint bytes_ltb (a b : bytes) : bool :=
  match a, b with
  | [], [] => false
  | [], _ :: _ => true
  | _ :: _, [] => false
  | x :: xs, y :: ys => if x <? y then true else if x =? y then bytes_ltb xs ys else false
  end.

Fixpoint bytes_eqb (a b : bytes) : bool :=
  match a, b with
  | [], [] => true
  | x :: xs, y :: ys => (x =? y) && bytes_eqb xs ys
  | _, _ => false
  end.

Definition bytes_leb (a b : bytes) : bool := negb (bytes_ltb b a).

(* bytes.HasPrefix(s, p) *)
Fixpoint has_prefix (s p : bytes) : bool :=
  match p, s with
  | [], _ => true
  | y :: ys, x :: xs => (x =? y) && has_prefix xs ys
  | _ :: _, [] => false
  end.

Inductive lex_lt : bytes -> bytes -> Prop :=
| lex_nil : forall y ys, lex_lt [] (y :: ys)
| lex_hd : forall x y xs ys, x < y -> lex_lt (x :: xs) (y :: ys)
| lex_tl : forall x xs ys, lex_lt xs ys -> lex_lt (x :: xs) (x :: ys).

Lemma bytes_ltb_spec a : forall b, bytes_ltb a b = true <-> lex_lt a b.
Proof.
  induction a as [|x xs IH]; intros [|y ys]; simpl.
  - split; [discriminate|inversion 1].
  - split; [constructor|reflexivity].
  - split; [discriminate|inversion 1].
  - destruct (N.ltb_spec x y) as [Hlt|Hge].
    + split; [intros _; now constructor|reflexivity].
    + destruct (N.eqb_spec x y) as [->|Hne].
      * rewrite IH. split; [now constructor|].
        inversion 1; subst; [lia|assumption].
      * split; [discriminate|]. inversion 1; subst; [lia|congruence].
Qed.

Lemma bytes_eqb_spec a : forall b, bytes_eqb a b = true <-> a = b.
Proof.
  induction a as [|x xs IH]; intros [|y ys]; simpl; try (split; [discriminate|congruence]); [tauto|].
  rewrite andb_true_iff, N.eqb_eq, IH. split; [intros [-> ->]; reflexivity|injection 1; auto].
Qed.

Lemma bytes_eqb_refl a : bytes_eqb a a = true.
Proof. now apply bytes_eqb_spec. Qed.

Lemma bytes_eqb_false a b : bytes_eqb a b = false <-> a <> b.
Proof.
  split; [intros E ->; now rewrite bytes_eqb_refl in E|].
  intros H. destruct (bytes_eqb a b) eqn:E; auto. now apply bytes_eqb_spec in E.
Qed.

Lemma bytes_eq_dec (a b : bytes) : {a = b} + {a <> b}.
Proof. apply list_eq_dec, N.eq_dec. Qed.

Lemma bytes_ltb_false a b : bytes_ltb a b = false <-> ~ lex_lt a b.
Proof.
  rewrite <- bytes_ltb_spec. destruct (bytes_ltb a b); split; intros H; auto; try discriminate. exfalso; auto.
Qed.

Lemma bytes_eqb_sym a b : bytes_eqb a b = bytes_eqb b a.
Proof.
  destruct (bytes_eqb b a) eqn:E; [apply bytes_eqb_spec in E; subst; apply bytes_eqb_refl|].
  apply bytes_eqb_false. intros ->. now rewrite bytes_eqb_refl in E.
Qed.

Lemma lex_lt_irrefl a : ~ lex_lt a a.
Proof. induction a as [|x xs IH]; inversion 1; subst; [lia|auto]. Qed.

Lemma lex_lt_trans a : forall b c, lex_lt a b -> lex_lt b c -> lex_lt a c.
Proof.
  induction a as [|x xs IH]; intros b c H1 H2.
  - inversion H1; subst; inversion H2; subst; constructor.
  - inversion H1; subst; inversion H2; subst.
    + apply lex_hd; lia.
    + now apply lex_hd.
    + now apply lex_hd.
    + apply lex_tl; eauto.
Qed.

Lemma lex_lt_total a : forall b, lex_lt a b \/ a = b \/ lex_lt b a.
Proof.
  induction a as [|x xs IH]; intros [|y ys].
  - auto.
  - left; constructor.
  - right; right; constructor.
  - destruct (N.lt_trichotomy x y) as [H|[->|H]].
    + left; now constructor.
    + destruct (IH ys) as [H|[->|H]]; [left|right;left|right;right]; auto using lex_tl.
    + right; right; now constructor.
Qed.

Lemma lex_lt_asym a b : lex_lt a b -> ~ lex_lt b a.
Proof. intros H1 H2. exact (lex_lt_irrefl _ (lex_lt_trans _ _ _ H1 H2)). Qed.

Lemma has_prefix_spec s : forall p, has_prefix s p = true <-> exists r, s = p ++ r.
Proof.
  induction s as [|x xs IH]; intros [|y ys]; simpl.
  - split; [exists []; reflexivity|reflexivity].
  - split; [discriminate|intros [r H]; discriminate].
  - split; [eexists; reflexivity|reflexivity].
  - rewrite andb_true_iff, N.eqb_eq, IH. split.
    + intros [-> [r ->]]; now exists r.
    + intros [r H]; injection H as -> ->; split; eauto.
Qed.

Lemma has_prefix_refl a : has_prefix a a = true.
Proof. apply has_prefix_spec. exists []. now rewrite app_nil_r. Qed.

Lemma has_prefix_app_l p : forall k q, has_prefix (p ++ k) (p ++ q) = has_prefix k q.
Proof. induction p as [|x p IH]; intros; simpl; auto. now rewrite N.eqb_refl, IH. Qed.

Lemma lex_lt_app_l p : forall a b, lex_lt a b <-> lex_lt (p ++ a) (p ++ b).
Proof.
  induction p as [|x p IH]; intros a b; simpl; [tauto|].
  rewrite IH. split; [apply lex_tl|]. inversion 1; subst; [lia|assumption].
Qed.

Lemma lex_lt_prefix a : forall y r, lex_lt a (a ++ y :: r).
Proof. induction a as [|x xs IH]; intros; simpl; [apply lex_nil|apply lex_tl; auto]. Qed.

(* Comparison of x ++ a with y ++ b when x, y are already ordered and neither is
   a prefix of the other: decided inside x / y. *)
Inductive lex_diverge : bytes -> bytes -> Prop :=
| ld_hd : forall x y xs ys, x < y -> lex_diverge (x :: xs) (y :: ys)
| ld_tl : forall x xs ys, lex_diverge xs ys -> lex_diverge (x :: xs) (x :: ys).

Lemma lex_diverge_app x : forall y a b, lex_diverge x y -> lex_lt (x ++ a) (y ++ b).
Proof. induction x as [|c x IH]; intros y a b H; inversion H; subst; simpl; [now apply lex_hd|apply lex_tl; auto]. Qed.

Lemma lex_lt_cases a : forall b, lex_lt a b -> (exists y r, b = a ++ y :: r) \/ lex_diverge a b.
Proof.
  induction a as [|x xs IH]; intros b H; inversion H; subst.
  - left; exists y, ys; reflexivity.
  - right; now constructor.
  - match goal with Hx : lex_lt xs _ |- _ => destruct (IH _ Hx) as [[y [r ->]]|Hd] end;
      [left; exists y, r; reflexivity|right; now constructor].
Qed.

(* keeps N, Z, positive and nat present in every extraction (ocaml/util.ml relies on them) *)
Definition keep_types : N * Z * nat := (0, 0%Z, O).
