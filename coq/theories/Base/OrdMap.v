(* Base/OrdMap.v — the abstract ordered-map specification: a strictly sorted association
   list keyed by byte strings (bytewise lexicographic order). All tree-like structures
   (part.Tree, part.Map, table indexes) are specified by refinement to this. *)
From SV Require Import Base.Bytes.
Open Scope N_scope.

Section OrdMap.
Context {V : Type}.
Definition omap := list (bytes * V).

Fixpoint om_get (k : bytes) (m : omap) : option V :=
  match m with
  | [] => None
  | (k', v) :: r => if bytes_eqb k k' then Some v else if bytes_ltb k k' then None else om_get k r
  end.

Fixpoint om_insert (k : bytes) (v : V) (m : omap) : omap :=
  match m with
  | [] => [(k, v)]
  | (k', v') :: r => if bytes_eqb k k' then (k, v) :: r
                     else if bytes_ltb k k' then (k, v) :: (k', v') :: r
                     else (k', v') :: om_insert k v r
  end.

Fixpoint om_delete (k : bytes) (m : omap) : omap :=
  match m with
  | [] => []
  | (k', v') :: r => if bytes_eqb k k' then r
                     else if bytes_ltb k k' then (k', v') :: r
                     else (k', v') :: om_delete k r
  end.

Definition om_prefix (p : bytes) (m : omap) : omap := filter (fun kv => has_prefix (fst kv) p) m.

(* entries with key >= k *)
Fixpoint om_lower_bound (k : bytes) (m : omap) : omap :=
  match m with
  | [] => []
  | (k', v') :: r => if bytes_ltb k' k then om_lower_bound k r else (k', v') :: r
  end.

Definition om_keys (m : omap) : list bytes := map fst m.

(* every key of m is greater than k *)
Definition om_above (k : bytes) (m : omap) : Prop := Forall (fun kv => lex_lt k (fst kv)) m.

Fixpoint om_sorted (m : omap) : Prop :=
  match m with
  | [] => True
  | (k, _) :: r => om_above k r /\ om_sorted r
  end.

Lemma om_above_weaken k k' m : lex_lt k k' -> om_above k' m -> om_above k m.
Proof.
  unfold om_above. intros H. apply Forall_impl. intros a Ha. eapply lex_lt_trans; eauto.
Qed.

Lemma bytes_ltb_irrefl k : bytes_ltb k k = false.
Proof. apply bytes_ltb_false, lex_lt_irrefl. Qed.

Lemma bytes_cmp_cases k k' :
  (bytes_eqb k k' = true /\ k = k') \/
  (bytes_eqb k k' = false /\ bytes_ltb k k' = true /\ lex_lt k k') \/
  (bytes_eqb k k' = false /\ bytes_ltb k k' = false /\ lex_lt k' k).
Proof.
  assert (N : forall a b, lex_lt a b -> a <> b) by (intros a b H ->; now apply lex_lt_irrefl in H).
  destruct (lex_lt_total k k') as [H|[->|H]].
  - right; left. split; [now apply bytes_eqb_false, N|]. split; [now apply bytes_ltb_spec|exact H].
  - left. split; auto. apply bytes_eqb_refl.
  - right; right. split; [apply bytes_eqb_false, not_eq_sym; now apply N|]. split; [|exact H].
    now apply bytes_ltb_false, lex_lt_asym.
Qed.

(* the comparison the other way round, from the two the code makes *)
Lemma bytes_ltb_flip k k' : bytes_ltb k' k = negb (bytes_eqb k k') && negb (bytes_ltb k k').
Proof.
  destruct (bytes_cmp_cases k k') as [[E ->]|[[E [L Hl]]|[E [L Hl]]]]; rewrite E, ?L; cbn [negb andb].
  - apply bytes_ltb_irrefl.
  - now apply bytes_ltb_false, lex_lt_asym.
  - now apply bytes_ltb_spec.
Qed.

Lemma om_get_above k m : om_above k m -> om_get k m = None.
Proof.
  destruct m as [|[k' v] r]; simpl; auto. intros H. inversion H; subst. simpl in *.
  destruct (bytes_cmp_cases k k') as [[E ->]|[[E [L _]]|[E [L Hl]]]]; rewrite E.
  - now apply lex_lt_irrefl in H2.
  - now rewrite L.
  - exfalso. eapply lex_lt_asym; eauto.
Qed.

Lemma om_above_insert k0 k v m : lex_lt k0 k -> om_above k0 m -> om_above k0 (om_insert k v m).
Proof.
  intros Hk. induction m as [|[k' v'] r IH]; simpl; intros H.
  - repeat constructor; auto.
  - inversion H; subst. destruct (bytes_eqb k k'); [constructor; auto|].
    destruct (bytes_ltb k k'); constructor; auto. now apply IH.
Qed.

Lemma om_insert_sorted k v m : om_sorted m -> om_sorted (om_insert k v m).
Proof.
  induction m as [|[k' v'] r IH]; simpl; intros H.
  - split; [constructor|exact I].
  - destruct H as [Ha Hs].
    destruct (bytes_cmp_cases k k') as [[E ->]|[[E [L Hl]]|[E [L Hl]]]]; rewrite E; try rewrite L; simpl.
    + auto.
    + split; auto. constructor; auto. eapply om_above_weaken; eauto.
    + split; auto. now apply om_above_insert.
Qed.

Lemma om_above_delete k0 k m : om_above k0 m -> om_above k0 (om_delete k m).
Proof.
  induction m as [|[k' v'] r IH]; simpl; intros H; auto. inversion H; subst.
  destruct (bytes_eqb k k'); auto. destruct (bytes_ltb k k'); constructor; auto. now apply IH.
Qed.

Lemma om_delete_sorted k m : om_sorted m -> om_sorted (om_delete k m).
Proof.
  induction m as [|[k' v'] r IH]; simpl; intros H; auto. destruct H as [Ha Hs].
  destruct (bytes_eqb k k'); auto. destruct (bytes_ltb k k'); simpl; auto.
  split; auto. now apply om_above_delete.
Qed.

Lemma om_get_insert_same k v m : om_get k (om_insert k v m) = Some v.
Proof.
  induction m as [|[k' v'] r IH]; simpl.
  - now rewrite bytes_eqb_refl.
  - destruct (bytes_eqb k k') eqn:E; simpl; [now rewrite bytes_eqb_refl|].
    destruct (bytes_ltb k k') eqn:L; simpl; [now rewrite bytes_eqb_refl|]. now rewrite E, L.
Qed.

Lemma om_get_insert_other k k2 v m : k2 <> k -> om_sorted m -> om_get k2 (om_insert k v m) = om_get k2 m.
Proof.
  intros Hne. pose proof (proj2 (bytes_eqb_false _ _) Hne) as E2.
  induction m as [|[k' v'] r IH]; simpl; intros Hs.
  - rewrite E2. now destruct (bytes_ltb k2 k).
  - destruct Hs as [Ha Hs].
    destruct (bytes_cmp_cases k k') as [[E ->]|[[E [L Hl]]|[E [L Hl]]]]; rewrite E, ?L; simpl.
    + now rewrite E2.
    + rewrite E2. destruct (bytes_ltb k2 k) eqn:L2; auto. apply bytes_ltb_spec in L2.
      symmetry. apply (om_get_above k2 ((k', v') :: r)). pose proof (lex_lt_trans _ _ _ L2 Hl) as L3.
      constructor; [exact L3|]. now apply (om_above_weaken k2 k').
    + destruct (bytes_eqb k2 k'); auto. destruct (bytes_ltb k2 k'); auto.
Qed.

Lemma om_get_delete_same k m : om_sorted m -> om_get k (om_delete k m) = None.
Proof.
  induction m as [|[k' v'] r IH]; simpl; intros Hs; auto. destruct Hs as [Ha Hs].
  destruct (bytes_cmp_cases k k') as [[E ->]|[[E [L Hl]]|[E [L Hl]]]]; rewrite E; try rewrite L; simpl.
  - now apply om_get_above.
  - now rewrite E, L.
  - rewrite E, L. auto.
Qed.

Lemma om_get_delete_other k k2 m : k2 <> k -> om_sorted m -> om_get k2 (om_delete k m) = om_get k2 m.
Proof.
  intros Hne. pose proof (proj2 (bytes_eqb_false _ _) Hne) as E2.
  induction m as [|[k' v'] r IH]; simpl; intros Hs; auto. destruct Hs as [Ha Hs].
  destruct (bytes_cmp_cases k k') as [[E ->]|[[E [L Hl]]|[E [L Hl]]]]; rewrite E, ?L; simpl; auto.
  - rewrite E2. destruct (bytes_ltb k2 k') eqn:L2; auto. apply bytes_ltb_spec in L2.
    apply om_get_above. now apply (om_above_weaken k2 k').
  - destruct (bytes_eqb k2 k'); auto. destruct (bytes_ltb k2 k'); auto.
Qed.

Lemma om_delete_absent k m : om_get k m = None -> om_delete k m = m.
Proof.
  induction m as [|[k' v'] m IH]; simpl; auto.
  destruct (bytes_eqb k k'); [discriminate|]. destruct (bytes_ltb k k'); auto. intros H. now rewrite IH.
Qed.

Lemma om_above_in k m k' v : om_above k m -> In (k', v) m -> lex_lt k k'.
Proof. unfold om_above. rewrite Forall_forall. intros H Hin. exact (H _ Hin). Qed.

Lemma om_get_Some_In k v m : om_get k m = Some v -> In (k, v) m.
Proof.
  induction m as [|[k' v'] r IH]; simpl; [discriminate|].
  destruct (bytes_eqb k k') eqn:E.
  - intros H. injection H as ->. apply bytes_eqb_spec in E. subst. auto.
  - destruct (bytes_ltb k k'); [discriminate|]. auto.
Qed.

Lemma om_in_get k v m : om_sorted m -> (In (k, v) m <-> om_get k m = Some v).
Proof.
  intros Hs. split; [|apply om_get_Some_In].
  induction m as [|[k' v'] r IH]; simpl; [tauto|]. destruct Hs as [Ha Hs]. intros [H|H].
  - injection H as -> ->. now rewrite bytes_eqb_refl.
  - pose proof (om_above_in _ _ _ _ Ha H) as Hl.
    destruct (bytes_cmp_cases k k') as [[_ ->]|[[_ [_ Hl']]|[E [L _]]]].
    + now apply lex_lt_irrefl in Hl.
    + now apply lex_lt_asym in Hl.
    + rewrite E, L. auto.
Qed.

(* without sortedness: what an insert / delete can leave in the list *)
Lemma om_insert_in_weak k v (x : bytes * V) m : In x (om_insert k v m) -> x = (k, v) \/ In x m.
Proof.
  induction m as [|[k' v'] r IH]; simpl.
  - intros [H|[]]; auto.
  - destruct (bytes_eqb k k'); [simpl; intros [H|H]; auto|].
    destruct (bytes_ltb k k'); simpl; intros [H|H]; auto. destruct (IH H); auto.
Qed.

Lemma om_delete_in_weak k (x : bytes * V) m : In x (om_delete k m) -> In x m.
Proof.
  induction m as [|[k' v'] r IH]; simpl; auto.
  destruct (bytes_eqb k k'); auto. destruct (bytes_ltb k k'); simpl; auto. intros [H|H]; auto.
Qed.

Lemma om_ext m1 : forall m2, om_sorted m1 -> om_sorted m2 -> (forall k, om_get k m1 = om_get k m2) -> m1 = m2.
Proof.
  induction m1 as [|[k1 v1] r1 IH]; intros [|[k2 v2] r2] H1 H2 Hg; auto.
  - specialize (Hg k2). simpl in Hg. now rewrite bytes_eqb_refl in Hg.
  - specialize (Hg k1). simpl in Hg. now rewrite bytes_eqb_refl in Hg.
  - destruct H1 as [A1 S1], H2 as [A2 S2].
    assert (k1 = k2 /\ v1 = v2) as [-> ->].
    { pose proof (Hg k1) as G1. pose proof (Hg k2) as G2. simpl in G1, G2. rewrite bytes_eqb_refl in G1, G2.
      destruct (bytes_cmp_cases k1 k2) as [[E ->]|[[E [L Hl]]|[E [L Hl]]]].
      - rewrite bytes_eqb_refl in G1. split; congruence.
      - rewrite E, L in G1. discriminate.
      - rewrite (bytes_eqb_sym k2 k1), (bytes_ltb_flip k1 k2), E, L in G2. discriminate. }
    f_equal. apply IH; auto. intros k. specialize (Hg k). simpl in Hg.
    destruct (bytes_cmp_cases k k2) as [[E ->]|[[E [L Hl]]|[E [L Hl]]]]; rewrite E in Hg; try rewrite L in Hg; auto.
    + rewrite !om_get_above; auto.
    + rewrite !om_get_above; auto; eapply om_above_weaken; eauto.
Qed.

Lemma om_keys_sorted_above k m : om_above k m -> Forall (lex_lt k) (om_keys m).
Proof. unfold om_above, om_keys. intros H. now apply Forall_map. Qed.

Lemma om_prefix_sorted p m : om_sorted m -> om_sorted (om_prefix p m).
Proof.
  induction m as [|[k v] r IH]; simpl; auto. intros [Ha Hs].
  destruct (has_prefix k p); simpl; auto. split; auto.
  unfold om_above, om_prefix in *. rewrite Forall_forall in *. intros x Hx. apply filter_In in Hx. now apply Ha.
Qed.

Lemma om_lower_bound_sorted k m : om_sorted m -> om_sorted (om_lower_bound k m).
Proof.
  induction m as [|[k' v] r IH]; simpl; auto. intros [Ha Hs]. destruct (bytes_ltb k' k); simpl; auto.
Qed.

Lemma om_lower_bound_spec k m : om_sorted m ->
  forall kv, In kv (om_lower_bound k m) <-> In kv m /\ bytes_ltb (fst kv) k = false.
Proof.
  induction m as [|[k' v] r IH]; simpl; intros Hs kv; [tauto|]. destruct Hs as [Ha Hs].
  destruct (bytes_ltb k' k) eqn:L.
  - rewrite IH by auto. split; [tauto|]. intros [[<-|H] H2]; [simpl in H2; congruence|auto].
  - simpl. split.
    + intros [<-|H]; [auto|]. split; auto. unfold om_above in Ha. rewrite Forall_forall in Ha.
      specialize (Ha _ H). destruct (bytes_ltb (fst kv) k) eqn:L2; auto.
      apply bytes_ltb_spec in L2. assert (Hk : lex_lt k' k) by (eapply lex_lt_trans; eauto).
      apply bytes_ltb_spec in Hk. congruence.
    + intros [H _]. exact H.
Qed.
End OrdMap.
Arguments omap : clear implicits.

(* the same map with a function applied to the values *)
Section MapValues.
Context {V W : Type} (f : V -> W).
Definition om_map (m : omap V) : omap W := map (fun kv => (fst kv, f (snd kv))) m.
Lemma om_map_get k m : om_get k (om_map m) = option_map f (om_get k m).
Proof.
  induction m as [|[k' v] r IH]; simpl; auto. destruct (bytes_eqb k k'); auto. destruct (bytes_ltb k k'); auto.
Qed.
Lemma om_map_insert k v m : om_map (om_insert k v m) = om_insert k (f v) (om_map m).
Proof.
  induction m as [|[k' v'] r IH]; simpl; auto. destruct (bytes_eqb k k'); auto. destruct (bytes_ltb k k'); simpl; auto.
  now rewrite IH.
Qed.
Lemma om_map_delete k m : om_map (om_delete k m) = om_delete k (om_map m).
Proof.
  induction m as [|[k' v'] r IH]; simpl; auto. destruct (bytes_eqb k k'); auto. destruct (bytes_ltb k k'); simpl; auto.
  now rewrite IH.
Qed.
Lemma om_map_sorted m : om_sorted m -> om_sorted (om_map m).
Proof.
  induction m as [|[k v] r IH]; simpl; auto. intros [Ha Hs]. split; auto.
  unfold om_above, om_map in *. rewrite Forall_map. exact Ha.
Qed.
End MapValues.
