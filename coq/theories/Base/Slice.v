(* Base/Slice.v — a small memory model of Go slices (property C01: the places where the Go
   code shares backing arrays between snapshots).

   heap   = the backing arrays allocated so far (array id = position in the list); the length
            of an array never changes, only its cells are written.
   slice  = a Go slice header (array, offset of element 0 in the array, len, cap).
   sl_den = the elements a reader of that slice header sees in a given heap.

   Operations mirror the Go semantics: in-place operations write cells of the EXISTING array
   (so every other slice header that covers those cells sees the write), allocating operations
   add a fresh array and leave every existing one untouched. The growth policy of append /
   slices.Clone is abstracted to "a fresh array with `extra` spare cells" (extra arbitrary).
   Out-of-range indices (a Go panic) are modelled as no-ops; the theorems carry the bounds as
   hypotheses. Stdlib only. *)
From Coq Require Import List Arith Bool Lia.
Import ListNotations.

Section Slice.
Context {A : Type}.
Variable zero : A.                 (* the zero value of the element type *)

Definition heap := list (list A).
Record slice := mkS { s_arr : nat; s_off : nat; s_len : nat; s_cap : nat }.

Definition arr_of (h : heap) (a : nat) : list A := nth a h [].
Definition cell (h : heap) (a i : nat) : option A := nth_error (arr_of h a) i.

(* what `for _, x := range s` sees *)
Definition sl_den (h : heap) (s : slice) : list A :=
  firstn (s_len s) (skipn (s_off s) (arr_of h (s_arr s))).

(* a slice header that exists in heap h: len <= cap and the capacity lies inside its array.
   (A header whose array id is not allocated is forced to be the nil slice: len = cap = 0.) *)
Definition sl_wf (h : heap) (s : slice) : Prop :=
  s_len s <= s_cap s /\ s_off s + s_cap s <= length (arr_of h (s_arr s)).

Definition sl_nil : slice := mkS 0 0 0 0.

(* write `data` into l starting at position o (truncated at the end of l; length preserved) *)
Fixpoint write_list (l : list A) (o : nat) (data : list A) : list A :=
  match l with
  | [] => []
  | x :: r => match o with
              | S o' => x :: write_list r o' data
              | O => match data with [] => x :: r | d :: ds => d :: write_list r 0 ds end
              end
  end.

Fixpoint heap_upd (h : heap) (a : nat) (f : list A -> list A) : heap :=
  match h with
  | [] => []
  | x :: r => match a with O => f x :: r | S a' => x :: heap_upd r a' f end
  end.

(* the only way an existing array is ever modified *)
Definition write_range (h : heap) (a o : nat) (data : list A) : heap :=
  heap_upd h a (fun l => write_list l o data).

(* the cells [o, o+n) of array a intersect the cells covered by s *)
Definition overlapb (s : slice) (a o n : nat) : bool :=
  (s_arr s =? a) && (Nat.max (s_off s) o <? Nat.min (s_off s + s_len s) (o + n)).

(* s[i] *)
Definition sl_get (h : heap) (s : slice) (i : nat) : A := nth i (sl_den h s) zero.
(* s[i] = x : in place *)
Definition sl_index_set (h : heap) (s : slice) (i : nat) (x : A) : heap :=
  if i <? s_len s then write_range h (s_arr s) (s_off s + i) [x] else h.
(* s[lo:hi] : shares the array (lo <= hi <= cap) *)
Definition sl_reslice (s : slice) (lo hi : nat) : slice :=
  mkS (s_arr s) (s_off s + lo) (hi - lo) (s_cap s - lo).
(* make([]T, n, n+extra) *)
Definition sl_make (h : heap) (n extra : nat) : heap * slice :=
  (h ++ [repeat zero (n + extra)], mkS (length h) 0 n (n + extra)).
(* slices.Clone(s) / append(s[:0:0], s...) *)
Definition sl_clone (h : heap) (s : slice) (extra : nat) : heap * slice :=
  (h ++ [sl_den h s ++ repeat zero extra], mkS (length h) 0 (s_len s) (s_len s + extra)).
(* append(s, xs...) : in place (beyond len, inside the shared array) when the capacity
   suffices, else a fresh array *)
Definition sl_append_list (h : heap) (s : slice) (xs : list A) (extra : nat) : heap * slice :=
  if s_len s + length xs <=? s_cap s
  then (write_range h (s_arr s) (s_off s + s_len s) xs,
        mkS (s_arr s) (s_off s) (s_len s + length xs) (s_cap s))
  else (h ++ [sl_den h s ++ xs ++ repeat zero extra],
        mkS (length h) 0 (s_len s + length xs) (s_len s + length xs + extra)).
Definition sl_append (h : heap) (s : slice) (x : A) (extra : nat) : heap * slice :=
  sl_append_list h s [x] extra.
(* copy(dst, src) : min(len dst, len src) elements, memmove semantics *)
Definition sl_copy (h : heap) (dst src : slice) : heap :=
  write_range h (s_arr dst) (s_off dst) (firstn (Nat.min (s_len dst) (s_len src)) (sl_den h src)).
(* slices.Delete(s, i, j) : shifts s[j:] down to i inside the shared array, zeroes the
   vacated tail, returns s[:len-(j-i)] *)
Definition sl_delete_inplace (h : heap) (s : slice) (i j : nat) : heap * slice :=
  let d := sl_den h s in
  (write_range h (s_arr s) (s_off s + i) (skipn j d ++ repeat zero (j - i)),
   mkS (s_arr s) (s_off s) (s_len s - (j - i)) (s_cap s)).
(* slices.DeleteFunc(s, del) : compacts the kept elements in place, zeroes the rest
   (cells before the first deleted element are rewritten with their own value) *)
Definition sl_deletefunc_inplace (h : heap) (s : slice) (del : A -> bool) : heap * slice :=
  let d := sl_den h s in
  let kept := filter (fun x => negb (del x)) d in
  (write_range h (s_arr s) (s_off s) (kept ++ repeat zero (s_len s - length kept)),
   mkS (s_arr s) (s_off s) (length kept) (s_cap s)).

Lemma list_ext (l1 : list A) : forall l2, (forall i, nth_error l1 i = nth_error l2 i) -> l1 = l2.
Proof.
  induction l1 as [|x l1 IH]; intros [|y l2] H; auto.
  - specialize (H 0); discriminate.
  - specialize (H 0); discriminate.
  - pose proof (H 0) as H0. cbn in H0. injection H0 as ->. f_equal. apply IH.
    intros i. exact (H (S i)).
Qed.

Lemma nth_error_firstn' (l : list A) : forall n i,
  nth_error (firstn n l) i = if i <? n then nth_error l i else None.
Proof.
  induction l as [|x l IH]; intros [|n] [|i]; cbn [firstn nth_error]; auto.
  - destruct (S i <? S n); auto.
  - change (S i <? S n) with (i <? n). apply IH.
Qed.

Lemma nth_error_skipn' (l : list A) : forall n i, nth_error (skipn n l) i = nth_error l (n + i).
Proof.
  induction l as [|x l IH]; intros [|n] i; cbn [skipn Nat.add nth_error]; auto.
  - now destruct i.
Qed.

Lemma nth_error_repeat' (x : A) n i : nth_error (repeat x n) i = if i <? n then Some x else None.
Proof.
  destruct (Nat.ltb_spec i n) as [H|H].
  - now apply nth_error_repeat.
  - apply nth_error_None. now rewrite repeat_length.
Qed.

Lemma nth_error_app' (l1 l2 : list A) i :
  nth_error (l1 ++ l2) i = if i <? length l1 then nth_error l1 i else nth_error l2 (i - length l1).
Proof.
  destruct (Nat.ltb_spec i (length l1)) as [H|H];
    [now apply nth_error_app1|now apply nth_error_app2].
Qed.

Lemma firstn_exact (l r : list A) n : length l = n -> firstn n (l ++ r) = l.
Proof. intros <-. rewrite <- (Nat.add_0_r (length l)), firstn_app_2. cbn [firstn]. apply app_nil_r. Qed.

Lemma write_list_length (l : list A) : forall o data, length (write_list l o data) = length l.
Proof.
  induction l as [|x l IH]; intros [|o] [|d ds]; cbn [write_list length]; auto.
Qed.

Lemma write_list_nth (l : list A) : forall o data i,
  nth_error (write_list l o data) i =
  if (o <=? i) && (i <? o + length data) && (i <? length l)
  then nth_error data (i - o) else nth_error l i.
Proof.
  induction l as [|x l IH]; intros o data i.
  - cbn. rewrite andb_false_r. now destruct i.
  - (* both sides compute in every case of o, i and data; the successor cases are the induction hypothesis *)
    destruct o as [|o], i as [|i]; try destruct data as [|d ds]; cbn [write_list nth_error]; rewrite ?IH;
      cbn; rewrite ?Nat.sub_0_r; reflexivity.
Qed.

Lemma heap_upd_length h : forall a f, length (heap_upd h a f) = length h.
Proof. induction h as [|x h IH]; intros [|a] f; cbn [heap_upd length]; auto. Qed.

Lemma arr_of_heap_upd h : forall a f a', f [] = [] ->
  arr_of (heap_upd h a f) a' = if a' =? a then f (arr_of h a) else arr_of h a'.
Proof.
  unfold arr_of. induction h as [|x h IH]; intros a f a' Hf.
  - cbn [heap_upd]. destruct a, a'; cbn [nth Nat.eqb]; auto; now destruct (_ =? _).
  - destruct a as [|a], a' as [|a']; cbn [heap_upd nth Nat.eqb]; auto.
Qed.

Lemma arr_of_write_range h a o data a' :
  arr_of (write_range h a o data) a' = if a' =? a then write_list (arr_of h a) o data else arr_of h a'.
Proof. unfold write_range. now rewrite arr_of_heap_upd. Qed.

Lemma write_range_length h a o data : length (write_range h a o data) = length h.
Proof. apply heap_upd_length. Qed.

Lemma arr_length_write_range h a o data a' :
  length (arr_of (write_range h a o data) a') = length (arr_of h a').
Proof.
  rewrite arr_of_write_range. destruct (Nat.eqb_spec a' a) as [->|]; auto. apply write_list_length.
Qed.

Lemma cell_write_range h a o data a' i :
  cell (write_range h a o data) a' i =
  if (a' =? a) && ((o <=? i) && (i <? o + length data) && (i <? length (arr_of h a)))
  then nth_error data (i - o) else cell h a' i.
Proof.
  unfold cell. rewrite arr_of_write_range. destruct (Nat.eqb_spec a' a) as [->|]; cbn [andb]; auto.
  apply write_list_nth.
Qed.

Lemma arr_of_alloc h arr a : a <> length h -> arr_of (h ++ [arr]) a = arr_of h a.
Proof.
  unfold arr_of. intros H. destruct (Nat.lt_ge_cases a (length h)) as [L|L].
  - now apply app_nth1.
  - rewrite app_nth2 by lia. rewrite (nth_overflow h) by lia.
    destruct (a - length h) as [|k] eqn:E; [lia|]. cbn [nth]. now destruct k.
Qed.

Lemma arr_of_alloc_new h arr : arr_of (h ++ [arr]) (length h) = arr.
Proof. unfold arr_of. rewrite app_nth2 by lia. now rewrite Nat.sub_diag. Qed.

Lemma sl_den_nth h s i :
  nth_error (sl_den h s) i = if i <? s_len s then cell h (s_arr s) (s_off s + i) else None.
Proof. unfold sl_den, cell. now rewrite nth_error_firstn', nth_error_skipn'. Qed.

Lemma sl_den_length h s : sl_wf h s -> length (sl_den h s) = s_len s.
Proof. intros [H1 H2]. unfold sl_den. rewrite firstn_length, skipn_length. lia. Qed.

Lemma sl_den_ext h h' s :
  (forall i, i < s_len s -> cell h' (s_arr s) (s_off s + i) = cell h (s_arr s) (s_off s + i)) ->
  sl_den h' s = sl_den h s.
Proof.
  intros H. apply list_ext. intros i. rewrite !sl_den_nth.
  destruct (Nat.ltb_spec i (s_len s)); auto.
Qed.

Lemma sl_den_nil h s : s_len s = 0 -> sl_den h s = [].
Proof. unfold sl_den. now intros ->. Qed.

Lemma sl_wf_unallocated h s : sl_wf h s -> length h <= s_arr s -> s_len s = 0 /\ s_cap s = 0.
Proof.
  intros [H1 H2] L. unfold arr_of in H2. rewrite nth_overflow in H2 by lia. cbn in H2. lia.
Qed.

(* Allocation: a fresh array leaves every existing slice header unchanged. *)
Lemma alloc_frame h arr s : sl_wf h s -> sl_den (h ++ [arr]) s = sl_den h s.
Proof.
  intros W. destruct (Nat.eq_dec (s_arr s) (length h)) as [E|E].
  - destruct (sl_wf_unallocated h s W) as [L _]; [lia|]. now rewrite !sl_den_nil.
  - unfold sl_den. now rewrite arr_of_alloc.
Qed.

Lemma alloc_wf h arr s : sl_wf h s -> sl_wf (h ++ [arr]) s.
Proof.
  intros W. destruct (Nat.eq_dec (s_arr s) (length h)) as [E|E].
  - destruct (sl_wf_unallocated h s W) as [L C]; [lia|]. destruct W as [W1 W2].
    split; [lia|]. rewrite E, arr_of_alloc_new. rewrite C in *.
    unfold arr_of in W2. rewrite nth_overflow in W2 by lia. cbn in W2. lia.
  - destruct W as [W1 W2]. split; auto. now rewrite arr_of_alloc.
Qed.

Lemma alloc_new_den h arr n c : sl_den (h ++ [arr]) (mkS (length h) 0 n c) = firstn n arr.
Proof. unfold sl_den. cbn [s_arr s_off s_len]. now rewrite arr_of_alloc_new. Qed.

Lemma alloc_new_wf h arr n c : n <= c -> c <= length arr -> sl_wf (h ++ [arr]) (mkS (length h) 0 n c).
Proof. intros H1 H2. split; cbn [s_arr s_off s_len s_cap]; auto. now rewrite arr_of_alloc_new. Qed.

Theorem sl_make_frame h n extra s : sl_wf h s -> sl_den (fst (sl_make h n extra)) s = sl_den h s.
Proof. apply alloc_frame. Qed.
Theorem sl_clone_frame h t extra s : sl_wf h s -> sl_den (fst (sl_clone h t extra)) s = sl_den h s.
Proof. apply alloc_frame. Qed.
Theorem sl_append_realloc_frame h t xs extra s : sl_wf h s -> s_cap t < s_len t + length xs ->
  sl_den (fst (sl_append_list h t xs extra)) s = sl_den h s.
Proof.
  intros W C. unfold sl_append_list. destruct (Nat.leb_spec (s_len t + length xs) (s_cap t)); [lia|].
  now apply alloc_frame.
Qed.
Theorem sl_append_full_frame h t x extra s : sl_wf h s -> s_len t = s_cap t ->
  sl_den (fst (sl_append h t x extra)) s = sl_den h s.
Proof. intros W C. apply sl_append_realloc_frame; auto. cbn [length]. lia. Qed.

Lemma sl_make_den h n extra : sl_den (fst (sl_make h n extra)) (snd (sl_make h n extra)) = repeat zero n.
Proof.
  unfold sl_make. cbn [fst snd]. rewrite alloc_new_den.
  rewrite repeat_app. apply firstn_exact, repeat_length.
Qed.
Lemma sl_make_wf h n extra : sl_wf (fst (sl_make h n extra)) (snd (sl_make h n extra)).
Proof. apply alloc_new_wf; [lia|]. now rewrite repeat_length. Qed.

Lemma sl_clone_den h s extra : sl_wf h s ->
  sl_den (fst (sl_clone h s extra)) (snd (sl_clone h s extra)) = sl_den h s.
Proof.
  intros W. unfold sl_clone. cbn [fst snd].
  rewrite alloc_new_den.
  now apply firstn_exact, sl_den_length.
Qed.
Lemma sl_clone_wf h s extra : sl_wf h s -> sl_wf (fst (sl_clone h s extra)) (snd (sl_clone h s extra)).
Proof.
  intros W. apply alloc_new_wf; [lia|]. rewrite app_length, repeat_length, sl_den_length; auto.
Qed.

(* In-place writes: exact pointwise effect, frame for the slices that do not
   overlap the written cells, and change for those that do (when a written value differs). *)
Theorem write_range_den_nth h a o data s i : sl_wf h s ->
  nth_error (sl_den (write_range h a o data) s) i =
  if (i <? s_len s) && (s_arr s =? a) && (o <=? s_off s + i) && (s_off s + i <? o + length data)
  then nth_error data (s_off s + i - o) else nth_error (sl_den h s) i.
Proof.
  intros [W1 W2]. rewrite !sl_den_nth, cell_write_range.
  destruct (Nat.ltb_spec i (s_len s)) as [L|L]; cbn [andb]; auto.
  destruct (Nat.eqb_spec (s_arr s) a) as [<-|]; cbn [andb]; auto.
  (* inside its length a well-formed slice reads allocated cells *)
  now rewrite (proj2 (Nat.ltb_lt (s_off s + i) (length (arr_of h (s_arr s))))), andb_true_r by lia.
Qed.

Theorem write_range_frame h a o data s :
  overlapb s a o (length data) = false -> sl_den (write_range h a o data) s = sl_den h s.
Proof.
  intros Ho. apply sl_den_ext. intros i Hi. rewrite cell_write_range.
  unfold overlapb in Ho. destruct (Nat.eqb_spec (s_arr s) a) as [E|E]; cbn [andb] in *; auto.
  apply Nat.ltb_ge in Ho.
  destruct (Nat.leb_spec o (s_off s + i)); cbn [andb]; auto.
  destruct (Nat.ltb_spec (s_off s + i) (o + length data)); cbn [andb]; auto. lia.
Qed.

Theorem write_range_wf h a o data s : sl_wf h s -> sl_wf (write_range h a o data) s.
Proof. intros [W1 W2]. split; auto. now rewrite arr_length_write_range. Qed.

Theorem write_range_changed_overlaps h a o data s :
  sl_den (write_range h a o data) s <> sl_den h s -> overlapb s a o (length data) = true.
Proof.
  intros H. destruct (overlapb s a o (length data)) eqn:E; auto.
  exfalso. apply H. now apply write_range_frame.
Qed.

Theorem write_range_changes h a o data s i : sl_wf h s ->
  i < s_len s -> s_arr s = a -> o <= s_off s + i < o + length data ->
  nth_error data (s_off s + i - o) <> nth_error (sl_den h s) i ->
  sl_den (write_range h a o data) s <> sl_den h s.
Proof.
  intros W L E [B1 B2] Hd Heq. apply Hd. rewrite <- Heq. rewrite write_range_den_nth by auto.
  now rewrite (proj2 (Nat.ltb_lt _ _) L), (proj2 (Nat.eqb_eq _ _) E), (proj2 (Nat.leb_le _ _) B1),
    (proj2 (Nat.ltb_lt _ _) B2).
Qed.

Lemma leb_add_l a p i : (a + p <=? a + i) = (p <=? i).
Proof. induction a; auto. Qed.
Lemma ltb_add_l a i n : (a + i <? a + n) = (i <? n).
Proof. induction a; auto. Qed.

(* the writing slice's own view: a write at relative position p inside its length *)
Lemma write_range_self h s p data : sl_wf h s -> p + length data <= s_len s ->
  sl_den (write_range h (s_arr s) (s_off s + p) data) s = write_list (sl_den h s) p data.
Proof.
  intros W L. apply list_ext. intros i.
  rewrite write_range_den_nth, write_list_nth, sl_den_length, Nat.eqb_refl by auto.
  rewrite <- Nat.add_assoc, leb_add_l, ltb_add_l.
  destruct (i <? s_len s); cbn [andb]; [|now rewrite andb_false_r].
  rewrite andb_true_r. replace (s_off s + i - (s_off s + p)) with (i - p) by lia. reflexivity.
Qed.

Lemma write_list_suffix (l : list A) : forall i data, i + length data = length l ->
  write_list l i data = firstn i l ++ data.
Proof.
  induction l as [|x l IH]; intros [|i] [|d ds] H; cbn [write_list firstn app length] in *;
    try reflexivity; try lia.
  - f_equal. rewrite IH by lia. reflexivity.
  - f_equal. apply IH. cbn [length]. lia.
  - f_equal. apply IH. cbn [length]. lia.
Qed.

Lemma write_list_full (l data : list A) : length data = length l -> write_list l 0 data = data.
Proof. intros H. now rewrite write_list_suffix. Qed.

Lemma sl_den_shrink h s n c : n <= s_len s ->
  sl_den h (mkS (s_arr s) (s_off s) n c) = firstn n (sl_den h s).
Proof.
  intros H. unfold sl_den. cbn [s_arr s_off s_len]. rewrite firstn_firstn. now rewrite Nat.min_l.
Qed.

Lemma sl_reslice_wf h s lo hi : sl_wf h s -> lo <= hi -> hi <= s_cap s -> sl_wf h (sl_reslice s lo hi).
Proof. intros [W1 W2] H1 H2. split; cbn [sl_reslice s_arr s_off s_len s_cap]; lia. Qed.

Lemma sl_reslice_den h s lo hi : lo <= hi -> hi <= s_len s ->
  sl_den h (sl_reslice s lo hi) = firstn (hi - lo) (skipn lo (sl_den h s)).
Proof.
  intros H1 H2. apply list_ext. intros i.
  rewrite nth_error_firstn', nth_error_skipn', !sl_den_nth. cbn [sl_reslice s_arr s_off s_len].
  destruct (Nat.ltb_spec i (hi - lo)); [|reflexivity].
  rewrite (proj2 (Nat.ltb_lt (lo + i) (s_len s))) by lia. now rewrite Nat.add_assoc.
Qed.

(* s[:k] and s[k:] *)
Lemma sl_prefix_den h s k : k <= s_len s -> sl_den h (sl_reslice s 0 k) = firstn k (sl_den h s).
Proof. intros H. rewrite sl_reslice_den, Nat.sub_0_r by lia. reflexivity. Qed.

Lemma sl_suffix_den h s k : sl_wf h s -> k <= s_len s ->
  sl_den h (sl_reslice s k (s_len s)) = skipn k (sl_den h s).
Proof.
  intros W H. rewrite sl_reslice_den by lia. apply firstn_all2. rewrite skipn_length, sl_den_length by auto. lia.
Qed.

Theorem sl_index_set_wf h s i x t : sl_wf h t -> sl_wf (sl_index_set h s i x) t.
Proof. intros W. unfold sl_index_set. destruct (i <? s_len s); auto. now apply write_range_wf. Qed.

Theorem sl_index_set_den h s i x t : sl_wf h t -> i < s_len s ->
  sl_den (sl_index_set h s i x) t =
  if overlapb t (s_arr s) (s_off s + i) 1
  then write_list (sl_den h t) (s_off s + i - s_off t) [x] else sl_den h t.
Proof.
  intros W L. unfold sl_index_set. rewrite (proj2 (Nat.ltb_lt _ _) L).
  destruct (overlapb t (s_arr s) (s_off s + i) 1) eqn:E.
  - unfold overlapb in E. apply andb_true_iff in E. destruct E as [E1 E2].
    apply Nat.eqb_eq in E1. apply Nat.ltb_lt in E2. rewrite <- E1.
    replace (s_off s + i) with (s_off t + (s_off s + i - s_off t)) at 1 by lia.
    apply write_range_self; auto. cbn [length]. lia.
  - now apply write_range_frame.
Qed.

Theorem sl_index_set_frame h s i x t :
  overlapb t (s_arr s) (s_off s + i) 1 = false -> sl_den (sl_index_set h s i x) t = sl_den h t.
Proof.
  intros E. unfold sl_index_set. destruct (i <? s_len s); auto. now apply write_range_frame.
Qed.

Theorem sl_index_set_self h s i x : sl_wf h s -> i < s_len s ->
  sl_den (sl_index_set h s i x) s = write_list (sl_den h s) i [x].
Proof.
  intros W L. unfold sl_index_set. rewrite (proj2 (Nat.ltb_lt _ _) L).
  apply write_range_self; auto. cbn [length]. lia.
Qed.

Theorem sl_append_list_den h s xs extra : sl_wf h s ->
  sl_den (fst (sl_append_list h s xs extra)) (snd (sl_append_list h s xs extra)) = sl_den h s ++ xs.
Proof.
  intros W. unfold sl_append_list. destruct (Nat.leb_spec (s_len s + length xs) (s_cap s)) as [C|C]; cbn [fst snd].
  - set (s' := mkS (s_arr s) (s_off s) (s_len s + length xs) (s_cap s)).
    assert (W' : sl_wf h s') by (destruct W; split; cbn [s' s_arr s_off s_len s_cap]; lia).
    change (s_arr s) with (s_arr s') at 1. change (s_off s) with (s_off s') at 1.
    rewrite write_range_self by (auto; cbn [s' s_len]; lia).
    rewrite write_list_suffix by (rewrite sl_den_length by auto; reflexivity).
    f_equal. unfold s'. rewrite <- (sl_den_shrink h (mkS (s_arr s) (s_off s) (s_len s + length xs) (s_cap s)) (s_len s) (s_cap s))
      by (cbn [s_len]; lia). cbn [s_arr s_off]. now destruct s.
  - rewrite alloc_new_den.
    rewrite app_assoc. apply firstn_exact. now rewrite app_length, sl_den_length.
Qed.

Theorem sl_append_list_wf h s xs extra : sl_wf h s ->
  sl_wf (fst (sl_append_list h s xs extra)) (snd (sl_append_list h s xs extra)).
Proof.
  intros W. unfold sl_append_list. destruct (Nat.leb_spec (s_len s + length xs) (s_cap s)) as [C|C]; cbn [fst snd].
  - apply write_range_wf. destruct W; split; cbn [s_arr s_off s_len s_cap]; lia.
  - apply alloc_new_wf; [lia|]. rewrite !app_length, repeat_length, sl_den_length by auto. lia.
Qed.

Theorem sl_append_list_wf_other h s xs extra t : sl_wf h t -> sl_wf (fst (sl_append_list h s xs extra)) t.
Proof.
  intros W. unfold sl_append_list. destruct (_ <=? _); cbn [fst]; [now apply write_range_wf|now apply alloc_wf].
Qed.

(* append with spare capacity writes the cells [off+len, off+len+n) of the SHARED array *)
Theorem sl_append_inplace_frame h s xs extra t : s_len s + length xs <= s_cap s ->
  overlapb t (s_arr s) (s_off s + s_len s) (length xs) = false ->
  sl_den (fst (sl_append_list h s xs extra)) t = sl_den h t.
Proof.
  intros C E. unfold sl_append_list. rewrite (proj2 (Nat.leb_le _ _) C).
  now apply write_range_frame.
Qed.

Theorem sl_append_inplace_changes h s xs extra t i : sl_wf h t -> s_len s + length xs <= s_cap s ->
  i < s_len t -> s_arr t = s_arr s -> s_off s + s_len s <= s_off t + i < s_off s + s_len s + length xs ->
  nth_error xs (s_off t + i - (s_off s + s_len s)) <> nth_error (sl_den h t) i ->
  sl_den (fst (sl_append_list h s xs extra)) t <> sl_den h t.
Proof.
  intros W C L E B D. unfold sl_append_list. rewrite (proj2 (Nat.leb_le _ _) C).
  now apply (write_range_changes h (s_arr s) (s_off s + s_len s) xs t i).
Qed.

Lemma sl_copy_data_length h dst src : sl_wf h src ->
  length (firstn (Nat.min (s_len dst) (s_len src)) (sl_den h src)) = Nat.min (s_len dst) (s_len src).
Proof. intros W. rewrite firstn_length, sl_den_length by auto. lia. Qed.

Theorem sl_copy_wf h dst src t : sl_wf h t -> sl_wf (sl_copy h dst src) t.
Proof. apply write_range_wf. Qed.

Theorem sl_copy_frame h dst src t : sl_wf h src ->
  overlapb t (s_arr dst) (s_off dst) (Nat.min (s_len dst) (s_len src)) = false ->
  sl_den (sl_copy h dst src) t = sl_den h t.
Proof. intros W E. apply write_range_frame. now rewrite sl_copy_data_length. Qed.

Theorem sl_copy_self h dst src : sl_wf h dst -> sl_wf h src ->
  sl_den (sl_copy h dst src) dst =
  write_list (sl_den h dst) 0 (firstn (Nat.min (s_len dst) (s_len src)) (sl_den h src)).
Proof.
  intros Wd Ws. unfold sl_copy. rewrite <- (Nat.add_0_r (s_off dst)) at 1.
  apply write_range_self; auto. rewrite sl_copy_data_length by auto. lia.
Qed.

Corollary sl_copy_self_full h dst src : sl_wf h dst -> sl_wf h src -> s_len dst = s_len src ->
  sl_den (sl_copy h dst src) dst = sl_den h src.
Proof.
  intros Wd Ws E. rewrite sl_copy_self by auto. rewrite E, Nat.min_id.
  rewrite <- (sl_den_length h src Ws) at 1. rewrite firstn_all.
  apply write_list_full. now rewrite !sl_den_length.
Qed.

Lemma sl_delete_data_length h s i j : sl_wf h s -> i <= j -> j <= s_len s ->
  length (skipn j (sl_den h s) ++ repeat zero (j - i)) = s_len s - i.
Proof. intros W H1 H2. rewrite app_length, skipn_length, repeat_length, sl_den_length by auto. lia. Qed.

Theorem sl_delete_inplace_frame h s i j t : sl_wf h s -> i <= j -> j <= s_len s ->
  overlapb t (s_arr s) (s_off s + i) (s_len s - i) = false ->
  sl_den (fst (sl_delete_inplace h s i j)) t = sl_den h t.
Proof. intros W H1 H2 E. apply write_range_frame. now rewrite sl_delete_data_length. Qed.

Theorem sl_delete_inplace_wf_other h s i j t : sl_wf h t -> sl_wf (fst (sl_delete_inplace h s i j)) t.
Proof. apply write_range_wf. Qed.

(* what a holder of the old header (same len as before) reads after the call: prefix, shifted suffix, zeroes *)
Theorem sl_delete_inplace_old_view h s i j : sl_wf h s -> i <= j -> j <= s_len s ->
  sl_den (fst (sl_delete_inplace h s i j)) s =
  firstn i (sl_den h s) ++ skipn j (sl_den h s) ++ repeat zero (j - i).
Proof.
  intros W H1 H2. unfold sl_delete_inplace. cbn [fst].
  rewrite write_range_self by (auto; rewrite sl_delete_data_length by auto; lia).
  apply write_list_suffix. rewrite sl_delete_data_length, sl_den_length by auto. lia.
Qed.

Theorem sl_delete_inplace_den h s i j : sl_wf h s -> i <= j -> j <= s_len s ->
  sl_den (fst (sl_delete_inplace h s i j)) (snd (sl_delete_inplace h s i j)) =
  firstn i (sl_den h s) ++ skipn j (sl_den h s).
Proof.
  intros W H1 H2. cbn [sl_delete_inplace snd]. rewrite sl_den_shrink by lia.
  rewrite sl_delete_inplace_old_view, app_assoc by auto. apply firstn_exact.
  rewrite app_length, firstn_length, skipn_length, sl_den_length by auto. lia.
Qed.

Lemma filter_length_le (f : A -> bool) l : length (filter f l) <= length l.
Proof. induction l as [|x l IH]; cbn [filter length]; [lia|]. destruct (f x); cbn [length]; lia. Qed.

Theorem sl_deletefunc_inplace_frame h s del t : sl_wf h s ->
  overlapb t (s_arr s) (s_off s) (s_len s) = false ->
  sl_den (fst (sl_deletefunc_inplace h s del)) t = sl_den h t.
Proof.
  intros W E. apply write_range_frame. rewrite app_length, repeat_length.
  pose proof (filter_length_le (fun x => negb (del x)) (sl_den h s)) as F.
  rewrite sl_den_length in F by auto. replace (_ + _) with (s_len s) by lia. exact E.
Qed.

Theorem sl_deletefunc_inplace_wf h s del : sl_wf h s ->
  sl_wf (fst (sl_deletefunc_inplace h s del)) (snd (sl_deletefunc_inplace h s del)).
Proof.
  intros W. cbn [sl_deletefunc_inplace fst snd]. apply write_range_wf.
  pose proof (filter_length_le (fun x => negb (del x)) (sl_den h s)) as F.
  rewrite sl_den_length in F by auto. destruct W. split; cbn [s_arr s_off s_len s_cap]; lia.
Qed.

Theorem sl_deletefunc_inplace_den h s del : sl_wf h s ->
  sl_den (fst (sl_deletefunc_inplace h s del)) (snd (sl_deletefunc_inplace h s del)) =
  filter (fun x => negb (del x)) (sl_den h s).
Proof.
  intros W. pose proof (filter_length_le (fun x => negb (del x)) (sl_den h s)) as F.
  rewrite sl_den_length in F by auto.
  cbn [sl_deletefunc_inplace snd fst]. rewrite sl_den_shrink by lia.
  rewrite <- (Nat.add_0_r (s_off s)) at 1.
  rewrite write_range_self by (auto; rewrite app_length, repeat_length; lia).
  rewrite write_list_full by (rewrite app_length, repeat_length, sl_den_length by auto; lia).
  now apply firstn_exact.
Qed.

Lemma write_list_nil_data (l : list A) p : write_list l p [] = l.
Proof. revert p. induction l as [|x l IH]; intros [|p]; cbn [write_list]; auto. now rewrite IH. Qed.

Lemma write_list_app_r (l1 l2 : list A) p data :
  write_list (l1 ++ l2) (length l1 + p) data = l1 ++ write_list l2 p data.
Proof. induction l1 as [|x l1 IH]; cbn [app length Nat.add write_list]; auto. now rewrite IH. Qed.

Lemma write_list_app_0 (l1 l2 data : list A) : length data = length l1 ->
  write_list (l1 ++ l2) 0 data = data ++ l2.
Proof.
  revert data. induction l1 as [|x l1 IH]; intros [|d ds] H; cbn [length] in H; try discriminate.
  - cbn [app]. apply write_list_nil_data.
  - cbn [app write_list]. f_equal. apply IH. lia.
Qed.

End Slice.
