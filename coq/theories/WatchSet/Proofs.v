(* WatchSet/Proofs.v — every allowed outcome of the Wait model meets the contract C20. *)
From Coq Require Import List Arith Bool PeanoNat Lia.
From SV Require Import WatchSet.Model.
Import ListNotations.

Lemma NoDup_app_disj : forall (a b : list nat),
  NoDup a -> NoDup b -> (forall x, In x a -> ~ In x b) -> NoDup (a ++ b).
Proof.
  induction a as [|h a IH]; intros b Ha Hb Hd; simpl; [exact Hb|].
  inversion Ha as [|h' a' Hnin Ha']; subst. constructor.
  - rewrite in_app_iff. intros [H | H]; [exact (Hnin H) | exact (Hd h (or_introl eq_refl) H)].
  - apply IH; [exact Ha' | exact Hb | intros x Hx; apply Hd; right; exact Hx].
Qed.

Lemma in_not_nil : forall (A : Type) (x : A) l, In x l -> l <> [].
Proof. intros A x l Hin Heq. subst. exact Hin. Qed.

Lemma ws_has_In : forall s c, ws_has s c = true <-> In c s.
Proof.
  intros s c. unfold ws_has. rewrite existsb_exists. split.
  - intros [x [Hin Heq]]. apply Nat.eqb_eq in Heq. subst. exact Hin.
  - intros Hin. exists c. split; [exact Hin | apply Nat.eqb_refl].
Qed.

Lemma ws_has_false : forall s c, ws_has s c = false <-> ~ In c s.
Proof. intros s c. rewrite <- ws_has_In. symmetry. apply not_true_iff_false. Qed.

Lemma ws_add1_In : forall s c x, In x (ws_add1 s c) <-> In x s \/ x = c.
Proof.
  intros s c x. unfold ws_add1. destruct (ws_has s c) eqn:Hh.
  - apply ws_has_In in Hh. split; [tauto | intros [H | H]; [exact H | subst; exact Hh]].
  - rewrite in_app_iff. simpl. intuition.
Qed.

Lemma ws_add1_NoDup : forall s c, NoDup s -> NoDup (ws_add1 s c).
Proof.
  intros s c Hnd. unfold ws_add1. destruct (ws_has s c) eqn:Hh; [exact Hnd|].
  apply ws_has_false in Hh. apply NoDup_app_disj; [exact Hnd | repeat constructor; intros [] |].
  intros x Hx [Hc | []]. subst. exact (Hh Hx).
Qed.

Lemma ws_add_In : forall s cs x, In x (ws_add s cs) <-> In x s \/ In x cs.
Proof.
  unfold ws_add. intros s cs. revert s. induction cs as [|c cs IH]; intros s x; simpl; [tauto|].
  rewrite IH, ws_add1_In. intuition.
Qed.

Lemma ws_add_NoDup : forall s cs, NoDup s -> NoDup (ws_add s cs).
Proof.
  unfold ws_add. intros s cs. revert s. induction cs as [|c cs IH]; intros s Hnd; simpl; [exact Hnd|].
  apply IH, ws_add1_NoDup, Hnd.
Qed.

Lemma ws_remove_In : forall s rs x, In x (ws_remove s rs) <-> In x s /\ ~ In x rs.
Proof.
  intros s rs x. unfold ws_remove. rewrite filter_In, negb_true_iff, ws_has_false. tauto.
Qed.

Lemma ws_remove1_In : forall s c x, In x (ws_remove s [c]) <-> In x s /\ x <> c.
Proof. intros s c x. rewrite ws_remove_In. simpl. intuition. Qed.

Lemma ws_remove_NoDup : forall s rs, NoDup s -> NoDup (ws_remove s rs).
Proof. intros s rs. apply NoDup_filter. Qed.

Lemma ws_hasany_spec : forall s cs, ws_hasany s cs = true <-> exists c, In c cs /\ In c s.
Proof.
  intros s cs. unfold ws_hasany. rewrite existsb_exists.
  split; intros [c [H1 H2]]; exists c; (split; [exact H1 | apply ws_has_In; exact H2]).
Qed.

Lemma otime_eqb_spec : forall a t, otime_eqb a t = true <-> a = Some t.
Proof.
  intros [x|] t; simpl; [rewrite Nat.eqb_eq; split; [intros; subst; reflexivity | congruence] | split; discriminate].
Qed.

Lemma otime_ltb_spec : forall a t, otime_ltb a t = true <-> exists x, a = Some x /\ x < t.
Proof.
  intros [x|] t; simpl.
  - rewrite Nat.ltb_lt. split; [intros; exists x; tauto | intros [y [Hy Hlt]]; inversion Hy; subst; exact Hlt].
  - split; [discriminate | intros [y [Hy _]]; discriminate].
Qed.

Lemma eclose_inv : forall evs t0 c t, eclose evs t0 c = Some t ->
  exists tc, close_time evs c = Some tc /\ t = Nat.max t0 tc.
Proof.
  intros evs t0 c t. unfold eclose. destruct (close_time evs c) as [tc|]; simpl; [|discriminate].
  intros H. inversion H. exists tc. tauto.
Qed.

Lemma eclose_of : forall evs t0 c tc, close_time evs c = Some tc -> eclose evs t0 c = Some (Nat.max t0 tc).
Proof. intros evs t0 c tc H. unfold eclose. rewrite H. reflexivity. Qed.

Lemma ecancel_of : forall evs t0 tc k, cancel_of evs = Some (tc, k) -> ecancel evs t0 = Some (Nat.max t0 tc).
Proof. intros evs t0 tc k H. unfold ecancel. rewrite H. reflexivity. Qed.

Lemma ecancel_none : forall evs t0, cancel_of evs = None -> ecancel evs t0 = None.
Proof. intros evs t0 H. unfold ecancel. rewrite H. reflexivity. Qed.

Lemma ecancel_inv : forall evs t0 t, ecancel evs t0 = Some t ->
  exists tc k, cancel_of evs = Some (tc, k) /\ t = Nat.max t0 tc.
Proof.
  intros evs t0 t. unfold ecancel. destruct (cancel_of evs) as [[tc k]|]; simpl; [|discriminate].
  intros [= <-]. exists tc, k. tauto.
Qed.

(* omin is the minimum, None counting as "never" *)
Lemma omin_le : forall a b x, a = Some x \/ b = Some x -> exists t, omin a b = Some t /\ t <= x.
Proof.
  intros [y|] [z|] x; simpl; intros [[= ->] | [= ->]]; eexists; (split; [reflexivity | lia]).
Qed.

Lemma omin_attained : forall a b t, omin a b = Some t -> a = Some t \/ b = Some t.
Proof.
  intros [x|] [y|] t; simpl; auto. intros [= <-].
  destruct (Nat.min_spec x y) as [[_ ->] | [_ ->]]; auto.
Qed.

(* first_time is the minimum of the effective close instants of the members and of the
   effective cancellation instant: it is below each of them, and it is one of them *)
Definition ready_at evs t0 ms t :=
  ecancel evs t0 = Some t \/ exists m, In m ms /\ eclose evs t0 m = Some t.

Lemma first_time_le : forall evs t0 ms t, ready_at evs t0 ms t ->
  exists t1, first_time evs t0 ms = Some t1 /\ t1 <= t.
Proof.
  intros evs t0 ms t. unfold first_time. induction ms as [|h ms IH]; simpl.
  - intros [H | [m [[] _]]]. exists t. auto.
  - (* either the head is ready at t, or the tail's minimum is below t and omin is below that *)
    intros H. assert (Hr : eclose evs t0 h = Some t \/ ready_at evs t0 ms t).
    { unfold ready_at. destruct H as [H | [m [[<- | Hm] He]]]; eauto. }
    destruct Hr as [Hh | Hr]; [apply omin_le; left; exact Hh|].
    destruct (IH Hr) as [r [Hr1 Hle]]. destruct (omin_le (eclose evs t0 h) _ r (or_intror Hr1)) as [t1 [H1 Hle1]].
    exists t1. split; [exact H1 | lia].
Qed.

Lemma first_time_attained : forall evs t0 ms t1, first_time evs t0 ms = Some t1 -> ready_at evs t0 ms t1.
Proof.
  intros evs t0 ms t1. unfold ready_at, first_time. induction ms as [|h ms IH]; simpl; [auto|].
  intros H. destruct (omin_attained _ _ _ H) as [Hh | Hr].
  - right. exists h. auto.
  - destruct (IH Hr) as [Hc | [m [Hm He]]]; eauto.
Qed.

Lemma first_time_lb : forall evs t0 ms t1, first_time evs t0 ms = Some t1 -> forall t, ready_at evs t0 ms t -> t1 <= t.
Proof.
  intros evs t0 ms t1 H t Hr. destruct (first_time_le _ _ _ _ Hr) as [t1' [H' Hle]]. congruence.
Qed.

(* everything is seen from the call on: Wait does not return before it was called *)
Lemma first_time_ge : forall evs t0 ms t1, first_time evs t0 ms = Some t1 -> t0 <= t1.
Proof.
  intros evs t0 ms t1 H. destruct (first_time_attained _ _ _ _ H) as [Hc | [m [_ He]]].
  - destruct (ecancel_inv _ _ _ Hc) as [tc [k [_ ->]]]. lia.
  - destruct (eclose_inv _ _ _ _ He) as [tc [_ ->]]. lia.
Qed.

Lemma sublists_incl : forall l s, In s (sublists l) -> forall x, In x s -> In x l.
Proof.
  induction l as [|h l IH]; intros s Hs x Hx; simpl in Hs.
  - destruct Hs as [Hs | []]. subst. exact Hx.
  - rewrite in_app_iff, in_map_iff in Hs. destruct Hs as [Hs | [s' [Heq Hs']]].
    + right. exact (IH s Hs x Hx).
    + subst. destruct Hx as [Hx | Hx]; [left; exact Hx | right; exact (IH s' Hs' x Hx)].
Qed.

Lemma sublists_NoDup : forall l s, NoDup l -> In s (sublists l) -> NoDup s.
Proof.
  induction l as [|h l IH]; intros s Hnd Hs; simpl in Hs.
  - destruct Hs as [Hs | []]. subst. constructor.
  - inversion Hnd as [|h' l' Hnin Hnd']; subst.
    rewrite in_app_iff, in_map_iff in Hs. destruct Hs as [Hs | [s' [Heq Hs']]].
    + exact (IH s Hnd' Hs).
    + subst. constructor; [intros Hin; exact (Hnin (sublists_incl l s' Hs' h Hin)) | exact (IH s' Hnd' Hs')].
Qed.

Lemma sublists_nil : forall l, In [] (sublists l).
Proof. induction l as [|h l IH]; simpl; [left; reflexivity | rewrite in_app_iff; left; exact IH]. Qed.

(* the error after the settle loop is the context's error only if the context ended no later than
   the settle timer, and nil only if it did not end earlier *)
Lemma settle_errs_spec : forall evs t0 t1 settle e, In e (settle_errs evs t0 t1 settle) <->
  match cancel_of evs with
  | None => e = None
  | Some (tc, k) => (e = Some k /\ Nat.max t0 tc <= t1 + settle) \/ (e = None /\ t1 + settle <= Nat.max t0 tc)
  end.
Proof.
  intros evs t0 t1 settle e. unfold settle_errs. destruct (cancel_of evs) as [[tc k]|]; [|simpl; intuition].
  destruct (Nat.ltb_spec (Nat.max t0 tc) (t1 + settle)); [|destruct (Nat.eqb_spec (Nat.max t0 tc) (t1 + settle))];
    simpl; (split; [intros He; decompose [or] He; try contradiction; subst e; [left + right ..]; split; (reflexivity || lia)
                   | intros [[-> Hle] | [-> Hle]]; auto; lia]).
Qed.

Lemma settle_errs_nonempty : forall evs t0 t1 settle, settle_errs evs t0 t1 settle <> [].
Proof.
  intros evs t0 t1 settle. unfold settle_errs. destruct (cancel_of evs) as [[tc k]|]; [|discriminate].
  destruct (Nat.max t0 tc <? t1 + settle); [discriminate|].
  destruct (Nat.max t0 tc =? t1 + settle); discriminate.
Qed.

(* settleCtx ends between t1 and t1 + settle, and not after the parent context *)
Lemma settle_end_spec : forall evs t0 ms t1 settle, first_time evs t0 ms = Some t1 ->
  t1 <= settle_end evs t0 t1 settle <= t1 + settle /\
  (forall tc k, cancel_of evs = Some (tc, k) -> settle_end evs t0 t1 settle = Nat.min (t1 + settle) (Nat.max t0 tc)) /\
  (cancel_of evs = None -> settle_end evs t0 t1 settle = t1 + settle).
Proof.
  intros evs t0 ms t1 settle Hft. pose proof (fun tc H => first_time_lb _ _ _ _ Hft tc (or_introl H)) as Hc.
  unfold settle_end. destruct (cancel_of evs) as [[tc k]|] eqn:Hco.
  - rewrite (ecancel_of _ t0 _ _ Hco) in *. specialize (Hc _ eq_refl).
    split; [lia|]. split; [intros tc' k' H; inversion H; subst; reflexivity | discriminate].
  - rewrite (ecancel_none _ t0 Hco). split; [lia|]. split; [intros tc k H; discriminate | reflexivity].
Qed.

Lemma settle_end_le_cancel : forall evs t0 t1 settle tc, ecancel evs t0 = Some tc -> settle_end evs t0 t1 settle <= tc.
Proof. intros evs t0 t1 settle tc H. unfold settle_end. rewrite H. lia. Qed.

(* the members other than the first-chosen c that the settle loop gathers for sure (closed strictly
   before settleCtx ends at t2), and those it may or may not gather (closed exactly at t2). They repeat the
   local `sure` and `opt` of Model.after_first, which have no name there: the two agree by conversion only,
   and the proof of wait_spec relies on that. *)
Definition sure_of evs t0 ms c t2 := filter (fun m => otime_ltb (eclose evs t0 m) t2) (ws_remove ms [c]).
Definition opt_of evs t0 ms c t2 := filter (fun m => otime_eqb (eclose evs t0 m) t2) (ws_remove ms [c]).

Lemma sure_of_In : forall evs t0 ms c t2 x, In x (sure_of evs t0 ms c t2) <->
  (In x ms /\ x <> c) /\ exists tx, eclose evs t0 x = Some tx /\ tx < t2.
Proof. intros. unfold sure_of. rewrite filter_In, ws_remove1_In, otime_ltb_spec. tauto. Qed.

Lemma opt_of_In : forall evs t0 ms c t2 x, In x (opt_of evs t0 ms c t2) <->
  (In x ms /\ x <> c) /\ eclose evs t0 x = Some t2.
Proof. intros. unfold opt_of. rewrite filter_In, ws_remove1_In, otime_eqb_spec. tauto. Qed.

(* With t1 the instant of the first select: either case 0 (the context) was ready then and chosen;
   or a member c ready then was chosen and, without settle time, is returned alone; or the settle
   loop ran until t2 and gathered c, the sure ones and some of the optional ones. (For an empty set
   first_time is the cancellation instant and only the first case remains.) *)
Inductive shape (evs : list event) (t0 settle : time) (ms : wset) : outcome -> Prop :=
| sh_ctx : forall t1 tc k, first_time evs t0 ms = Some t1 -> cancel_of evs = Some (tc, k) -> Nat.max t0 tc = t1 ->
    shape evs t0 settle ms (mk ms [] (Some k) t1)
| sh_first : forall t1 c, first_time evs t0 ms = Some t1 -> In c ms -> eclose evs t0 c = Some t1 -> settle = 0 ->
    shape evs t0 settle ms (mk ms [c] None t1)
| sh_settle : forall t1 c sub e, first_time evs t0 ms = Some t1 -> In c ms -> eclose evs t0 c = Some t1 -> settle <> 0 ->
    let t2 := settle_end evs t0 t1 settle in
    In sub (sublists (opt_of evs t0 ms c t2)) -> In e (settle_errs evs t0 t1 settle) ->
    shape evs t0 settle ms (mk ms (c :: sure_of evs t0 ms c t2 ++ sub) e t2).

Lemma wait_after_first : forall evs t0 settle ms t1 c o,
  first_time evs t0 ms = Some t1 -> In c ms -> eclose evs t0 c = Some t1 ->
  In o (after_first evs t0 settle ms t1 c) -> In o (wait_outcomes evs t0 settle ms).
Proof.
  intros evs t0 settle ms t1 c o Hft Hc Hec Ho. unfold wait_outcomes. destruct ms as [|m0 ms']; [destruct Hc|].
  rewrite Hft. apply in_or_app. right. apply in_flat_map. exists c. split; [|exact Ho].
  apply filter_In. split; [exact Hc | apply otime_eqb_spec; exact Hec].
Qed.

Lemma wait_spec : forall evs t0 settle ms o, In o (wait_outcomes evs t0 settle ms) <-> shape evs t0 settle ms o.
Proof.
  intros evs t0 settle ms o. split.
  - unfold wait_outcomes. destruct ms as [|m0 ms'] eqn:Ems.
    + destruct (cancel_of evs) as [[tc k]|] eqn:Hco; [|intros []]. intros [<- | []].
      apply (sh_ctx _ _ _ _ _ tc); [exact (ecancel_of _ _ _ _ Hco) | exact Hco | reflexivity].
    + rewrite <- Ems. destruct (first_time evs t0 ms) as [t1|] eqn:Hft; [|intros []].
      intros Hin. apply in_app_or in Hin. destruct Hin as [Hin | Hin].
      * destruct (cancel_of evs) as [[tc k]|] eqn:Hco; [|destruct Hin].
        destruct (Nat.eqb_spec (Nat.max t0 tc) t1) as [Heq | _]; [|destruct Hin].
        destruct Hin as [<- | []]. exact (sh_ctx _ _ _ _ _ _ _ Hft Hco Heq).
      * apply in_flat_map in Hin. destruct Hin as [c [Hc Ho]].
        rewrite filter_In, otime_eqb_spec in Hc. destruct Hc as [Hc Hec].
        unfold after_first in Ho. destruct (Nat.eqb_spec settle 0) as [Hs | Hs].
        -- destruct Ho as [<- | []]. exact (sh_first _ _ _ _ _ _ Hft Hc Hec Hs).
        -- apply in_flat_map in Ho. destruct Ho as [sub [Hsub Ho]].
           apply in_map_iff in Ho. destruct Ho as [e [<- He]]. exact (sh_settle _ _ _ _ _ _ _ _ Hft Hc Hec Hs Hsub He).
  - intros [t1 tc k Hft Hco Ht1 | t1 c Hft Hc Hec Hs | t1 c sub e Hft Hc Hec Hs t2 Hsub He].
    + unfold wait_outcomes. destruct ms; [rewrite Hco | rewrite Hft, Hco, (proj2 (Nat.eqb_eq _ _) Ht1)];
        subst t1; left; reflexivity.
    + apply (wait_after_first _ _ _ _ _ _ _ Hft Hc Hec). unfold after_first. subst settle. left. reflexivity.
    + apply (wait_after_first _ _ _ _ _ _ _ Hft Hc Hec). unfold after_first.
      rewrite (proj2 (Nat.eqb_neq _ _) Hs). apply in_flat_map. exists sub. split; [exact Hsub|].
      exact (in_map (fun e => mk ms _ e t2) _ _ He).
Qed.

Lemma settle_ret_facts : forall evs t0 settle ms t1 c sub,
  first_time evs t0 ms = Some t1 -> In c ms -> eclose evs t0 c = Some t1 ->
  In sub (sublists (opt_of evs t0 ms c (settle_end evs t0 t1 settle))) ->
  let t2 := settle_end evs t0 t1 settle in
  let ret := c :: sure_of evs t0 ms c t2 ++ sub in
  (forall x, In x ret -> In x ms /\ exists tx, eclose evs t0 x = Some tx /\ tx <= t2) /\
  (NoDup ms -> NoDup ret) /\
  (forall m tm, In m ms -> eclose evs t0 m = Some tm -> tm < t2 -> In m ret).
Proof.
  intros evs t0 settle ms t1 c sub Hft Hc Hec Hsub t2 ret.
  destruct (settle_end_spec evs t0 ms t1 settle Hft) as [[Hlo _] _]. fold t2 in Hlo, Hsub.
  assert (Hopt : forall x, In x sub -> (In x ms /\ x <> c) /\ eclose evs t0 x = Some t2).
  { intros x Hx. apply opt_of_In. exact (sublists_incl _ _ Hsub x Hx). }
  split; [|split].
  - intros x [<- | Hx]; [eauto|]. apply in_app_or in Hx. destruct Hx as [Hx | Hx].
    + apply sure_of_In in Hx. destruct Hx as [[Hm _] [tx [Htx Hlt]]]. split; [exact Hm|]. exists tx. split; [exact Htx | lia].
    + destruct (Hopt x Hx) as [[Hm _] Heq]. eauto.
  - intros Hnd. constructor.
    + rewrite in_app_iff, sure_of_In. intros [[[_ Hne] _] | Hx]; [|destruct (Hopt c Hx) as [[_ Hne] _]]; exact (Hne eq_refl).
    + apply NoDup_app_disj.
      * apply NoDup_filter, ws_remove_NoDup, Hnd.
      * apply (sublists_NoDup _ _ (NoDup_filter _ (ws_remove_NoDup ms [c] Hnd)) Hsub).
      * intros x Hx Hx'. apply sure_of_In in Hx. destruct Hx as [_ [tx [Htx Hlt]]]. destruct (Hopt x Hx') as [_ Heq].
        rewrite Heq in Htx. inversion Htx. lia.
  - intros m tm Hm Hem Hlt. destruct (Nat.eq_dec c m) as [E | Hne]; [left; exact E|].
    right. apply in_or_app. left. apply sure_of_In. split; [split; [exact Hm | congruence] | eauto].
Qed.

(* The contract in the model's own terms (instants as seen from the call on): Wait returns between
   the first select and the settle time after it, not after the context; the returned channels are
   distinct members closed by then, among them every member closed earlier; the others remain. *)
Lemma outcome_facts : forall evs t0 settle ms o, In o (wait_outcomes evs t0 settle ms) ->
  exists t1, first_time evs t0 ms = Some t1 /\
  t1 <= o_time o <= t1 + settle /\
  (forall tc, ecancel evs t0 = Some tc -> o_time o <= tc) /\
  o_rem o = ws_remove ms (o_ret o) /\ (NoDup ms -> NoDup (o_ret o)) /\
  (forall x, In x (o_ret o) -> In x ms /\ exists tx, eclose evs t0 x = Some tx /\ tx <= o_time o) /\
  (forall m tm, In m ms -> eclose evs t0 m = Some tm -> tm < o_time o -> In m (o_ret o)).
Proof.
  intros evs t0 settle ms o Hin.
  destruct (proj1 (wait_spec _ _ _ _ _) Hin) as [t1 tc k Hft Hco Ht1 | t1 c Hft Hc Hec Hs | t1 c sub e Hft Hc Hec Hs t2 Hsub He];
    exists t1; (split; [exact Hft|]); simpl;
    pose proof (fun tc H => first_time_lb _ _ _ _ Hft tc (or_introl H)) as Hcan;
    pose proof (fun m tm Hm He => first_time_lb _ _ _ _ Hft tm (or_intror (ex_intro _ m (conj Hm He)))) as Hmem.
  (* without settle loop Wait returns at t1, and nothing is ready before t1 *)
  - split; [lia|]. split; [exact Hcan|]. split; [reflexivity|]. split; [constructor|]. split; [intros x []|].
    intros m tm Hm He Hlt. specialize (Hmem m tm Hm He). lia.
  - split; [lia|]. split; [exact Hcan|]. split; [reflexivity|]. split; [repeat constructor; intros []|].
    split; [intros x [<- | []]; eauto|]. intros m tm Hm He Hlt. specialize (Hmem m tm Hm He). lia.
  - destruct (settle_ret_facts _ _ settle _ _ _ _ Hft Hc Hec Hsub) as [F1 [F2 F3]].
    split; [apply (settle_end_spec evs t0 ms t1 settle Hft)|]. split; [apply settle_end_le_cancel|].
    split; [reflexivity|]. split; [exact F2 | exact (conj F1 F3)].
Qed.

(* the model never blocks where the code would not: some outcome is allowed as soon as a member
   is closed at some time or the context ends *)
Lemma wait_nonempty : forall evs t0 settle ms,
  (exists m, In m ms /\ close_time evs m <> None) \/ cancel_of evs <> None ->
  wait_outcomes evs t0 settle ms <> [].
Proof.
  intros evs t0 settle ms H.
  assert (Hr : exists t, ready_at evs t0 ms t).
  { destruct H as [[m [Hm Hct]] | H].
    - destruct (close_time evs m) as [tc|] eqn:E; [|destruct (Hct eq_refl)].
      exists (Nat.max t0 tc). right. exists m. split; [exact Hm | exact (eclose_of _ _ _ _ E)].
    - destruct (cancel_of evs) as [[tc k]|] eqn:E; [|destruct (H eq_refl)].
      exists (Nat.max t0 tc). left. exact (ecancel_of _ _ _ _ E). }
  destruct Hr as [t Hr]. destruct (first_time_le _ _ _ _ Hr) as [t1 [Hft _]].
  assert (Ho : exists o, shape evs t0 settle ms o).
  { destruct (first_time_attained _ _ _ _ Hft) as [Hc | [c [Hc Hec]]].
    - destruct (ecancel_inv _ _ _ Hc) as [tc [k [Hco Ht1]]]. eexists. exact (sh_ctx _ _ _ _ _ _ _ Hft Hco (eq_sym Ht1)).
    - destruct (Nat.eq_dec settle 0) as [Hs | Hs]; [eexists; exact (sh_first _ _ _ _ _ _ Hft Hc Hec Hs)|].
      destruct (settle_errs evs t0 t1 settle) as [|e es] eqn:He; [destruct (settle_errs_nonempty _ _ _ _ He)|].
      eexists. apply (sh_settle _ _ _ _ _ _ [] e Hft Hc Hec Hs); [apply sublists_nil | rewrite He; left; reflexivity]. }
  destruct Ho as [o Ho]. apply wait_spec in Ho. exact (in_not_nil _ _ _ Ho).
Qed.
