(* WatchSet/Loop.v — the settle loop of WatchSet.Wait select by select, and the proof that the
   set-level description used by Model.wait_outcomes (members closed strictly before the settle
   context ends are gathered for sure, those closing at that very instant optionally) covers
   every run of the loop.

       for len(cases) >= 1 {
           chosen, _, _ := reflect.Select(cases)
           if chosen == 0 /* settleCtx.Done() */ { break }
           closedChannels = append(closedChannels, cases[chosen]...)
           cases[chosen] = cases[len(cases)-1]; cases = cases[:len(cases)-1]
       }

   reflect.Select returns some ready case; when none is ready it blocks, i.e. the clock advances. *)
From Coq Require Import List Arith Bool PeanoNat Lia.
From SV Require Import WatchSet.Model WatchSet.Proofs.
Import ListNotations.

Section Loop.
Variable ec : chan -> option time.   (* instant from which a channel is observably closed *)
Variable t2 : time.                  (* instant at which settleCtx.Done() is closed *)

(* settle_run cases closedChannels now result return-instant *)
Inductive settle_run : list chan -> list chan -> time -> list chan -> time -> Prop :=
| sr_done : forall cs acc now,             (* case 0 is ready and chosen: break *)
    t2 <= now -> settle_run cs acc now acc now
| sr_pick : forall cs acc now c tc r rt,   (* a ready member is chosen and shifted out *)
    In c cs -> ec c = Some tc -> tc <= now ->
    settle_run (ws_remove cs [c]) (acc ++ [c]) now r rt -> settle_run cs acc now r rt
| sr_block : forall cs acc now r rt,       (* nothing is ready: Select blocks, time passes *)
    now < t2 -> (forall c tc, In c cs -> ec c = Some tc -> now < tc) ->
    settle_run cs acc (S now) r rt -> settle_run cs acc now r rt.

Lemma settle_run_spec : forall cs acc now r rt, settle_run cs acc now r rt ->
  NoDup cs -> NoDup acc -> (forall x, In x acc -> ~ In x cs) ->
  (forall x tx, In x cs -> ec x = Some tx -> now <= tx) -> now <= t2 ->
  rt = t2 /\ NoDup r /\
  (forall x, In x r -> In x acc \/ (In x cs /\ exists tx, ec x = Some tx /\ tx <= t2)) /\
  (forall x, In x acc -> In x r) /\
  (forall x tx, In x cs -> ec x = Some tx -> tx < t2 -> In x r).
Proof.
  intros cs acc now r rt Hrun.
  induction Hrun as [cs acc now Hd | cs acc now c tc r rt Hc Hec Htc Hrun IH | cs acc now r rt Hlt Hnone Hrun IH];
    intros Hcs Hacc Hdisj Hinv Hle.
  - split; [lia|]. split; [exact Hacc|]. split; [intros x Hx; left; exact Hx|]. split; [intros x Hx; exact Hx|].
    intros x tx Hx Hex Hlt. specialize (Hinv x tx Hx Hex). lia.
  - pose proof (ws_remove1_In cs c) as Hrm.
    destruct IH as [I1 [I2 [I3 [I4 I5]]]].
    + apply ws_remove_NoDup, Hcs.
    + apply NoDup_app_disj; [exact Hacc | repeat constructor; intros [] |].
      intros x Hx [E | []]. subst x. exact (Hdisj c Hx Hc).
    + intros x Hx Hx'. rewrite Hrm in Hx'. destruct Hx' as [Hx1 Hx2]. rewrite in_app_iff in Hx.
      destruct Hx as [Hx | [E | []]]; [exact (Hdisj x Hx Hx1) | apply Hx2; symmetry; exact E].
    + intros x tx Hx Hex. rewrite Hrm in Hx. exact (Hinv x tx (proj1 Hx) Hex).
    + exact Hle.
    + split; [exact I1|]. split; [exact I2|]. split; [|split].
      * intros x Hx. destruct (I3 x Hx) as [Ha | [Hx' Ht]].
        -- rewrite in_app_iff in Ha. destruct Ha as [Ha | [E | []]]; [left; exact Ha|].
           subst x. right. split; [exact Hc|]. exists tc. split; [exact Hec | lia].
        -- right. rewrite Hrm in Hx'. split; [exact (proj1 Hx') | exact Ht].
      * intros x Hx. apply I4. rewrite in_app_iff. left. exact Hx.
      * intros x tx Hx Hex Hlt. destruct (Nat.eq_dec x c) as [E | Hne].
        -- subst x. apply I4. rewrite in_app_iff. right. left. reflexivity.
        -- apply (I5 x tx); [rewrite Hrm; tauto | exact Hex | exact Hlt].
  - apply IH; [exact Hcs | exact Hacc | exact Hdisj | | lia].
    intros x tx Hx Hex. specialize (Hnone x tx Hx Hex). lia.
Qed.
End Loop.

Lemma filter_in_sublists : forall (f : chan -> bool) l, In (filter f l) (sublists l).
Proof.
  intros f. induction l as [|h l IH]; simpl; [left; reflexivity|].
  rewrite in_app_iff. destruct (f h); [right; apply in_map; exact IH | left; exact IH].
Qed.

(* Every run of the settle loop, started as the code starts it (after the first select chose the
   member c at t1: cases = the other members, closedChannels = [c]), ends at the instant the model
   says and with a set of channels the model allows: some allowed outcome has the same return
   instant, the same error, the same returned channels and the same remaining set (as sets). *)
Lemma settle_loop_refines : forall evs t0 settle ms t1 c e r rt,
  NoDup ms -> first_time evs t0 ms = Some t1 -> In c ms -> eclose evs t0 c = Some t1 -> settle <> 0 ->
  In e (settle_errs evs t0 t1 settle) ->
  settle_run (eclose evs t0) (settle_end evs t0 t1 settle) (ws_remove ms [c]) [c] t1 r rt ->
  exists o, In o (wait_outcomes evs t0 settle ms) /\ o_time o = rt /\ o_err o = e /\
            (forall x, In x (o_ret o) <-> In x r) /\
            (forall x, In x (o_rem o) <-> In x ms /\ ~ In x r).
Proof.
  intros evs t0 settle ms t1 c e r rt Hnd Hft Hc Hec Hs He Hrun.
  set (t2 := settle_end evs t0 t1 settle) in *.
  destruct (settle_end_spec evs t0 ms t1 settle Hft) as [[Slo _] _]. fold t2 in Slo.
  pose proof (ws_remove1_In ms c) as Hrm.
  destruct (settle_run_spec _ _ _ _ _ _ _ Hrun) as [R1 [R2 [R3 [R4 R5]]]].
  - apply ws_remove_NoDup, Hnd.
  - repeat constructor. intros [].
  - intros x [E | []] Hx. subst x. rewrite Hrm in Hx. apply (proj2 Hx). reflexivity.
  - intros x tx Hx Hex. rewrite Hrm in Hx. apply (first_time_lb _ _ _ _ Hft). right. exists x. tauto.
  - exact Slo.
  - set (sub := filter (fun m => ws_has r m) (opt_of evs t0 ms c t2)).
    exists (mk ms (c :: sure_of evs t0 ms c t2 ++ sub) e t2).
    split; [apply wait_spec; exact (sh_settle _ _ _ _ _ _ _ _ Hft Hc Hec Hs (filter_in_sublists _ _) He)|].
    split; [simpl; symmetry; exact R1|]. split; [reflexivity|].
    assert (Hret : forall x, In x (c :: sure_of evs t0 ms c t2 ++ sub) <-> In x r).
    { intros x. simpl. unfold sub. rewrite in_app_iff, filter_In, sure_of_In, opt_of_In, ws_has_In. split.
      - intros [E | [[Hm [tx [Hex Hlt]]] | [_ Hr]]].
        + subst x. apply R4. left. reflexivity.
        + apply (R5 x tx); [apply Hrm; exact Hm | exact Hex | exact Hlt].
        + exact Hr.
      - intros Hr. destruct (R3 x Hr) as [[E | []] | [Hx [tx [Hex Hle]]]]; [left; exact E|].
        apply Hrm in Hx. right. destruct (Nat.eq_dec tx t2) as [E | Hne].
        + subst tx. right. tauto.
        + left. split; [exact Hx|]. exists tx. split; [exact Hex | lia]. }
    split; [exact Hret|]. intros x. unfold mk. cbn [o_rem o_ret]. rewrite ws_remove_In, Hret. tauto.
Qed.
