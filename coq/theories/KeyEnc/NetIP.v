(* KeyEnc/NetIP.v — the IP-prefix key encoders: index/netip.go NetIPPrefix (17-byte key: the 16-byte form of the
   masked address followed by the prefix length) and lpm/key.go NetIPPrefixToIndexKey (EncodeLPMKey of the
   16-byte form; IPv4 prefix lengths shifted by 96). An address is given as its 4 or 16 bytes; is4 says which. *)
From SV Require Import Base.Bytes KeyEnc.Model.
From Coq Require Import ZArith Lia ZifyN ZifyBool.
Open Scope N_scope.

(* netip.Addr.As16: IPv4 a.b.c.d -> ::ffff:a.b.c.d *)
Definition as16 (is4 : bool) (addr : bytes) : bytes :=
  if is4 then repeat 0 10 ++ [255; 255] ++ addr else addr.

(* netip.Prefix.Masked: the bits beyond `bits` are cleared, within the address's own width *)
Fixpoint mask_bytes (d : bytes) (bits : N) : bytes :=
  match d with
  | [] => []
  | b :: r => (if 8 <=? bits then b else if bits =? 0 then 0 else mask_last b bits) :: mask_bytes r (bits - 8)
  end.

(* index.NetIPPrefix *)
Definition netip_prefix_key (is4 : bool) (addr : bytes) (bits : N) : bytes :=
  as16 is4 (mask_bytes addr bits) ++ [bits].

(* lpm.NetIPPrefixToIndexKey *)
Definition netip_prefix_lpm_key (is4 : bool) (addr : bytes) (bits : N) : option bytes :=
  lpmEncode (as16 is4 addr) (if is4 then bits + 96 else bits).

Lemma mask_bytes_length (d : bytes) : forall bits, length (mask_bytes d bits) = length d.
Proof. induction d as [|b r IH]; intro bits; cbn [mask_bytes length]; [reflexivity|]. rewrite IH. reflexivity. Qed.

Lemma as16_length (is4 : bool) (addr : bytes) : length addr = (if is4 then 4 else 16)%nat -> length (as16 is4 addr) = 16%nat.
Proof. destruct is4; cbn [as16]; intro H; [|exact H]. rewrite !app_length, repeat_length, H. reflexivity. Qed.

Lemma as16_inj (is4 : bool) (a b : bytes) : as16 is4 a = as16 is4 b -> a = b.
Proof.
  destruct is4; cbn [as16]; intro H; [|exact H].
  apply app_inv_head in H. apply (app_inv_head [255; 255]) in H. exact H.
Qed.

(* keys of the two families never coincide (prefix lengths valid for the family): bytes 10-11 of an IPv4 key are
   ff ff, those of an IPv6 key whose prefix length is at most 32 are zero *)
Lemma mask_bytes_zero_beyond (d : bytes) : forall bits i, bits <= 8 * N.of_nat i -> (i < length d)%nat -> nth i (mask_bytes d bits) 0 = 0.
Proof.
  induction d as [|b r IH]; intros bits i Hb Hi; cbn [length] in Hi; [lia|].
  cbn [mask_bytes]. destruct i as [|i]; cbn [nth].
  - assert (bits = 0) by lia. subst bits. reflexivity.
  - apply IH; lia.
Qed.

(* masking is idempotent: a key is the key of its own masked prefix (equal values give equal keys) *)
Lemma mask_last_idem (b r : N) : mask_last (mask_last b r) r = mask_last b r.
Proof. unfold mask_last. rewrite N.div_mul; [reflexivity|]. apply N.pow_nonzero. lia. Qed.

Theorem mask_bytes_idem (d : bytes) : forall bits, mask_bytes (mask_bytes d bits) bits = mask_bytes d bits.
Proof.
  induction d as [|b r IH]; intro bits; cbn [mask_bytes]; [reflexivity|]. rewrite IH. f_equal.
  destruct (8 <=? bits); [reflexivity|]. destruct (bits =? 0); [reflexivity|]. apply mask_last_idem.
Qed.

Example netip_examples :
  netip_prefix_key true [10; 1; 2; 3] 9 = [0;0;0;0;0;0;0;0;0;0;255;255;10;0;0;0;9] /\
  netip_prefix_key true [10; 129; 2; 3] 9 = [0;0;0;0;0;0;0;0;0;0;255;255;10;128;0;0;9] /\
  netip_prefix_lpm_key true [10; 1; 2; 3] 8 = Some [0;0;0;0;0;0;0;0;0;0;255;255;10;0;104] /\
  netip_prefix_lpm_key false [0;0;0;0;0;0;0;0;0;0;255;255;10;1;2;3] 24 = Some [0;0;0;0;24].
Proof. vm_compute. repeat split. Qed.
