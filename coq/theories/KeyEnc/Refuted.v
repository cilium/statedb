(* KeyEnc/Refuted.v — the guards of nuk_order / nuk_split are necessary: witnesses
   (known findings K1, K2; reproduced on the implementation by the keyenc engine). *)
From SV Require Import Base.Bytes KeyEnc.Model KeyEnc.Proofs.
From Coq Require Import ZArith ZifyN ZifyNat ZifyBool.
Open Scope N_scope.

(* K1: escaped primary length >= 256: the composite order is inverted *)
Theorem nuk_order_refuted : exists p1 p2 s,
  lex_lt p1 p2 /\ lex_lt (nuk p2 s) (nuk p1 s).
Proof.
  exists (repeat 97 512), (repeat 97 512 ++ [0]), [5].
  split; apply bytes_ltb_spec; vm_compute; reflexivity.
Qed.

(* K2: escaped primary length = 65536: the uint16 length suffix wraps to 0 and the
   accessors do not separate the parts *)
Theorem nuk_split_refuted p s : len (enc p) = 65536 ->
  primaryLen (nuk p s) = 0%Z /\ secondaryLen (nuk p s) <> Z.of_nat (length (enc s)).
Proof.
  intros H. assert (Hp : primaryLen (nuk p s) = 0%Z) by (rewrite primaryLen_nuk, H; reflexivity).
  split; [exact Hp|]. unfold secondaryLen. rewrite Hp, nuk_length. unfold len in H. lia.
Qed.
