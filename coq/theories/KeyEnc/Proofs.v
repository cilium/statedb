(* KeyEnc/Proofs.v — proofs about the key-encoding model. *)
From SV Require Import Base.Bytes KeyEnc.Model.
From Coq Require Import ZArith ZifyN ZifyNat ZifyBool.
Open Scope N_scope.

(* the three ways a byte is written *)
Lemma enc_cons b r :
  (b = 0 /\ enc (b :: r) = 1 :: 1 :: enc r) \/ (b = 1 /\ enc (b :: r) = 1 :: 2 :: enc r) \/
  (2 <= b /\ enc (b :: r) = b :: enc r).
Proof.
  simpl. destruct (N.eqb_spec b 0); [auto|]. destruct (N.eqb_spec b 1); [auto|]. right; right. split; [lia|reflexivity].
Qed.

Lemma enc_no_zero s : ~ In 0 (enc s).
Proof.
  induction s as [|b r IH]; [simpl; tauto|].
  destruct (enc_cons b r) as [[_ ->]|[[_ ->]|[Hb ->]]]; simpl; intuition lia.
Qed.

Lemma enc_ge1 s : Forall (fun b => 1 <= b) (enc s).
Proof.
  induction s as [|b r IH]; [constructor|].
  destruct (enc_cons b r) as [[_ ->]|[[_ ->]|[Hb ->]]]; repeat constructor; auto; lia.
Qed.

Lemma enc_bytes s : is_bytes s -> is_bytes (enc s).
Proof.
  unfold is_bytes, is_byte. induction 1 as [|b r Hb _ IH]; [constructor|].
  destruct (enc_cons b r) as [[_ ->]|[[_ ->]|[_ ->]]]; repeat constructor; auto; lia.
Qed.

(* the first byte written is 1 for 0 and 1, the byte itself otherwise: monotone; ties (0 against 1)
   are decided by the second byte *)
Lemma enc_mono a : forall b, lex_lt a b -> lex_lt (enc a) (enc b).
Proof.
  induction a as [|x xs IH]; intros b H; inversion H as [y ys | x' y xs' ys Hxy | x' xs' ys Hr]; subst.
  - destruct (enc_cons y ys) as [[_ ->]|[[_ ->]|[_ ->]]]; constructor.
  - destruct (enc_cons x xs) as [[-> ->]|[[-> ->]|[Hx ->]]], (enc_cons y ys) as [[-> ->]|[[-> ->]|[Hy ->]]];
      try lia; try (apply lex_hd; lia). apply lex_tl, lex_hd. lia.
  - specialize (IH _ Hr). simpl. destruct (x =? 0); [|destruct (x =? 1)]; repeat apply lex_tl; exact IH.
Qed.

Lemma enc_inj a : forall b, enc a = enc b -> a = b.
Proof.
  induction a as [|x xs IH]; intros [|y ys] H; [reflexivity| | |].
  - destruct (enc_cons y ys) as [[_ E]|[[_ E]|[_ E]]]; rewrite E in H; discriminate.
  - destruct (enc_cons x xs) as [[_ E]|[[_ E]|[_ E]]]; rewrite E in H; discriminate.
  - destruct (enc_cons x xs) as [[Hx E]|[[Hx E]|[Hx E]]], (enc_cons y ys) as [[Hy E']|[[Hy E']|[Hy E']]];
      rewrite E, E' in H; injection H; intros; subst; try lia; f_equal; auto.
Qed.

Lemma enc_mono_iff a b : lex_lt a b <-> lex_lt (enc a) (enc b).
Proof.
  split; [apply enc_mono|]. intros H.
  destruct (lex_lt_total a b) as [Hl|[->|Hg]]; auto.
  - exfalso; exact (lex_lt_irrefl _ H).
  - exfalso; exact (lex_lt_asym _ _ H (enc_mono _ _ Hg)).
Qed.

Lemma dec_enc s : dec (enc s) = s.
Proof.
  induction s as [|b r IH]; [reflexivity|].
  destruct (enc_cons b r) as [[-> ->]|[[-> ->]|[Hb ->]]]; simpl; rewrite IH; [reflexivity..|].
  destruct (N.eqb_spec b 1); [lia|reflexivity].
Qed.

Lemma encodedLength_enc s : encodedLength s = len (enc s).
Proof.
  unfold len. induction s as [|b r IH]; [reflexivity|].
  cbn [encodedLength enc]. rewrite IH.
  destruct (N.eqb_spec b 0), (N.eqb_spec b 1); cbn [orb length]; lia.
Qed.

(* enc a ++ 0 :: x = enc b ++ 0 :: y  splits at the separator *)
Lemma sep_split a : forall b x y, ~ In 0 a -> ~ In 0 b -> a ++ 0 :: x = b ++ 0 :: y -> a = b /\ x = y.
Proof.
  induction a as [|c a IH]; intros [|d b] x y Ha Hb H; simpl in *.
  - injection H; auto.
  - injection H as <- _. tauto.
  - injection H as -> _. tauto.
  - injection H as -> H. destruct (IH b x y) as [-> ->]; auto.
Qed.

Lemma app_inj_tail2 (a b : bytes) x y : length x = length y -> a ++ x = b ++ y -> a = b /\ x = y.
Proof.
  intros Hl H. assert (length a = length b).
  { apply (f_equal (@length N)) in H. rewrite !app_length in H. lia. }
  revert b H H0. induction a as [|c a IH]; intros [|d b] H Hab; simpl in *; try discriminate; auto.
  injection H as -> H. destruct (IH b H) as [-> ->]; auto.
Qed.

Theorem nuk_inj p1 s1 p2 s2 : nuk p1 s1 = nuk p2 s2 -> p1 = p2 /\ s1 = s2.
Proof.
  unfold nuk. simpl. intros H.
  apply sep_split in H; auto using enc_no_zero. destruct H as [Hs H].
  apply app_inj_tail2 in H; [|reflexivity]. destruct H as [Hp _].
  split; now apply enc_inj.
Qed.

(* if a < b and b has no byte 0, then a followed by a 0 is below b followed by anything *)
Lemma lex_lt_app_ge1 a : forall b x y, Forall (fun c => 1 <= c) b ->
  lex_lt a b -> lex_lt (a ++ 0 :: x) (b ++ y).
Proof.
  intros b x y Hb H. destruct (lex_lt_cases _ _ H) as [[c [r ->]]|Hd].
  - rewrite <- app_assoc. apply lex_lt_app_l. simpl. apply lex_hd.
    apply Forall_app in Hb. destruct Hb as [_ Hb]. inversion Hb; subst. lia.
  - now apply lex_diverge_app.
Qed.

Definition nuk_lt (p1 s1 p2 s2 : bytes) : Prop := lex_lt s1 s2 \/ (s1 = s2 /\ lex_lt p1 p2).

Lemma be16_small n : n < 256 -> be16 n = [0; n].
Proof. intros H. unfold be16. f_equal; [|f_equal]; lia. Qed.

(* Why 256: below it the first byte of the length suffix is 0 (be16_small), smaller than every byte of an
   escaped string (enc_ge1), so the suffix ends enc p1 like a terminator when enc p1 is a proper prefix of enc p2;
   the separator 0 after enc s does the same for the secondary parts. *)
Lemma nuk_order_fwd p1 s1 p2 s2 :
  len (enc p1) < 256 -> nuk_lt p1 s1 p2 s2 -> lex_lt (nuk p1 s1) (nuk p2 s2).
Proof.
  intros Hl [Hs|[-> Hp]]; unfold nuk.
  - apply lex_lt_app_ge1; [apply enc_ge1|now apply enc_mono].
  - apply lex_lt_app_l. simpl. apply lex_tl.
    rewrite (N.mod_small (len (enc p1))) by lia. rewrite be16_small by lia.
    apply lex_lt_app_ge1; [apply enc_ge1|now apply enc_mono].
Qed.

Theorem nuk_order p1 s1 p2 s2 :
  len (enc p1) < 256 -> len (enc p2) < 256 ->
  (lex_lt (nuk p1 s1) (nuk p2 s2) <-> nuk_lt p1 s1 p2 s2).
Proof.
  intros H1 H2. split; [|now apply nuk_order_fwd].
  intros H. unfold nuk_lt.
  destruct (lex_lt_total s1 s2) as [Hs|[->|Hs]]; auto.
  - destruct (lex_lt_total p1 p2) as [Hp|[->|Hp]]; auto.
    + exfalso; exact (lex_lt_irrefl _ H).
    + exfalso. apply (lex_lt_asym _ _ H). apply nuk_order_fwd; auto. right; auto.
  - exfalso. apply (lex_lt_asym _ _ H). apply nuk_order_fwd; auto. left; auto.
Qed.


Lemma be16_decode n : n < 65536 -> (n / 256 mod 256) * 256 + n mod 256 = n.
Proof. lia. Qed.

Lemma nuk_length p s : length (nuk p s) = (length (enc s) + length (enc p) + 3)%nat.
Proof. unfold nuk, be16. rewrite !app_length. cbn [length]. lia. Qed.

Lemma nuk_assoc p s : nuk p s = (enc s ++ [0] ++ enc p) ++ be16 (len (enc p) mod 65536).
Proof. unfold nuk. now rewrite <- !app_assoc. Qed.

(* the length suffix read back, wrapped as uint16(primaryLen) wraps it *)
Lemma primaryLen_nuk p s : primaryLen (nuk p s) = Z.of_N (len (enc p) mod 65536).
Proof.
  unfold primaryLen. rewrite nuk_length.
  destruct (Nat.leb_spec (length (enc s) + length (enc p) + 3) 3) as [Hle|Hgt].
  - unfold len. destruct (enc p); [reflexivity|cbn [length] in Hle; lia].
  - replace (length (enc s) + length (enc p) + 3 - 2)%nat with (length (enc s ++ [0] ++ enc p)).
    2:{ rewrite !app_length; simpl; lia. }
    rewrite nuk_assoc, skipn_app_exact. unfold be16.
    rewrite be16_decode by (apply N.mod_lt; discriminate). reflexivity.
Qed.

Lemma slice_ok k lo hi : (0 <= lo)%Z -> (lo <= hi)%Z -> (hi <= Z.of_nat (length k))%Z ->
  slice k lo hi = Some (firstn (Z.to_nat (hi - lo)) (skipn (Z.to_nat lo) k)).
Proof.
  intros H1 H2 H3. unfold slice.
  destruct (Z.leb_spec 0 lo), (Z.leb_spec lo hi), (Z.leb_spec hi (Z.of_nat (length k))); try lia. reflexivity.
Qed.

Theorem nuk_split p s : len (enc p) < 65536 ->
  encodedSecondary (nuk p s) = Some (enc s) /\ encodedPrimary (nuk p s) = Some (enc p) /\
  secondaryLen (nuk p s) = Z.of_nat (length (enc s)).
Proof.
  intros H. unfold encodedSecondary, encodedPrimary, secondaryLen.
  rewrite primaryLen_nuk, N.mod_small by assumption. unfold len. rewrite nuk_length.
  repeat split.
  - rewrite slice_ok by (rewrite ?nuk_length; lia). change (Z.to_nat 0) with O. cbn [skipn].
    match goal with |- context [firstn ?n _] => replace n with (length (enc s)) by lia end.
    unfold nuk. now rewrite firstn_app_exact.
  - rewrite slice_ok by (rewrite ?nuk_length; lia).
    match goal with |- context [skipn ?n _] => replace n with (length (enc s ++ [0])) by (rewrite app_length; simpl; lia) end.
    match goal with |- context [firstn ?n _] => replace n with (length (enc p)) by lia end.
    unfold nuk. rewrite (app_assoc (enc s)). rewrite skipn_app_exact. now rewrite firstn_app_exact.
  - lia.
Qed.

Lemma lex_lt_app_same_len x : forall y a b, length x = length y ->
  (lex_lt (x ++ a) (y ++ b) <-> lex_lt x y \/ (x = y /\ lex_lt a b)).
Proof.
  induction x as [|c x IH]; intros [|d y] a b Hl; simpl in *; try discriminate.
  - split; [auto|]. intros [H|[_ H]]; auto. inversion H.
  - injection Hl as Hl. split.
    + inversion 1; subst; [left; now apply lex_hd|].
      match goal with H : lex_lt (x ++ a) _ |- _ => apply IH in H; auto;
        destruct H as [H1|[-> H1]]; [left; now apply lex_tl|right; auto] end.
    + intros [H|[H1 H2]].
      * inversion H; subst; [now apply lex_hd|apply lex_tl; apply IH; auto].
      * injection H1 as -> ->. apply lex_tl. apply IH; auto.
Qed.

(* [e] writes every n < B with the same number of bytes, injectively and in order *)
Definition ord_enc (B : N) (e : N -> bytes) : Prop :=
  forall a b, a < B -> b < B ->
    length (e a) = length (e b) /\ (e a = e b -> a = b) /\ (a < b <-> lex_lt (e a) (e b)).

Lemma ord_enc_inj B e a b : ord_enc B e -> a < B -> b < B -> e a = e b -> a = b.
Proof. intros He Ha Hb. apply (He a b Ha Hb). Qed.

Lemma ord_enc_mono B e a b : ord_enc B e -> a < B -> b < B -> (a < b <-> lex_lt (e a) (e b)).
Proof. intros He Ha Hb. apply (He a b Ha Hb). Qed.

Lemma byte_ord_enc : ord_enc 256 (fun n => [n]).
Proof.
  intros a b _ _. split; [reflexivity|]. split; [congruence|].
  split; [apply lex_hd|]. inversion 1; [assumption|]. match goal with H : lex_lt [] _ |- _ => inversion H end.
Qed.

(* two digits in base B compare like the numbers they write *)
Lemma two_digits_lt B qa ra qb rb : ra < B -> rb < B ->
  (B * qa + ra < B * qb + rb <-> qa < qb \/ (qa = qb /\ ra < rb)).
Proof.
  intros Ha Hb. destruct (N.lt_trichotomy qa qb) as [H|[->|H]]; [| lia |].
  - assert (B * (qa + 1) <= B * qb) by (apply N.mul_le_mono_l; lia). lia.
  - assert (B * (qb + 1) <= B * qa) by (apply N.mul_le_mono_l; lia). lia.
Qed.

Lemma two_digits a b B : B <> 0 ->
  (a < b <-> a / B < b / B \/ (a / B = b / B /\ a mod B < b mod B)).
Proof.
  intros HB. pose proof (two_digits_lt B (a / B) _ (b / B) _ (N.mod_lt a B HB) (N.mod_lt b B HB)) as H.
  rewrite <- (N.div_mod a B HB), <- (N.div_mod b B HB) in H. exact H.
Qed.

Lemma low_digits x B : B <> 0 -> x mod (B * B) mod B = x mod B /\ x mod (B * B) / B = x / B mod B.
Proof.
  intros HB. rewrite (N.mod_mul_r x B B), (N.mul_comm B) by assumption. split.
  - rewrite N.mod_add by assumption. apply N.mod_mod, HB.
  - rewrite N.div_add by assumption. rewrite (N.div_small (x mod B)) by (apply N.mod_lt, HB). reflexivity.
Qed.

(* doubling the width: the high digit in base B, then the low one. Every encoder below is an instance. *)
Lemma ord_enc_double B e : B <> 0 -> ord_enc B e ->
  ord_enc (B * B) (fun n => e (n / B mod B) ++ e (n mod B)).
Proof.
  intros HB He a b Ha Hb.
  assert (Ha1 : a / B < B) by (apply N.div_lt_upper_bound; assumption).
  assert (Hb1 : b / B < B) by (apply N.div_lt_upper_bound; assumption).
  rewrite !(N.mod_small (_ / B)) by assumption.
  pose proof (N.mod_lt a B HB) as Ha0. pose proof (N.mod_lt b B HB) as Hb0.
  destruct (He _ _ Ha1 Hb1) as [L1 [I1 M1]]. destruct (He _ _ Ha0 Hb0) as [L0 [I0 M0]].
  split; [rewrite !app_length; congruence|]. split.
  - intros H. apply app_inj_tail2 in H; [|exact L0]. destruct H as [H1 H0].
    rewrite (N.div_mod a B HB), (N.div_mod b B HB), (I1 H1), (I0 H0). reflexivity.
  - rewrite lex_lt_app_same_len by exact L1. rewrite <- M1, <- M0, (two_digits a b B HB).
    split; (intros [H|[H1 H0]]; [left; exact H|right; split; [|exact H0]]); [now rewrite H1|now apply I1].
Qed.

Lemma be16_ord : ord_enc 65536 be16.
Proof. exact (ord_enc_double 256 _ ltac:(discriminate) byte_ord_enc). Qed.

(* the bytes of be32 n are those of its two 16-bit halves, which is how be64 is built from be32 *)
Lemma be32_halves n : be32 n = be16 (n / 65536 mod 65536) ++ be16 (n mod 65536).
Proof.
  unfold be32, be16. cbn [app]. change 65536 with (256 * 256).
  destruct (low_digits (n / (256 * 256)) 256) as [E1 E2]; [discriminate|].
  destruct (low_digits n 256) as [E3 E4]; [discriminate|].
  rewrite E1, E2, E3, E4, !N.mod_mod, N.div_div by discriminate. reflexivity.
Qed.

Lemma be32_ord : ord_enc 4294967296 be32.
Proof.
  intros a b Ha Hb. rewrite !be32_halves.
  exact (ord_enc_double 65536 _ ltac:(discriminate) be16_ord a b Ha Hb).
Qed.

Lemma be64_ord : ord_enc 18446744073709551616 be64.
Proof. exact (ord_enc_double 4294967296 _ ltac:(discriminate) be32_ord). Qed.

Lemma be64_inj a b : a < 18446744073709551616 -> b < 18446744073709551616 -> be64 a = be64 b -> a = b.
Proof. apply ord_enc_inj, be64_ord. Qed.

Lemma be64_mono a b : a < 18446744073709551616 -> b < 18446744073709551616 ->
  (a < b <-> lex_lt (be64 a) (be64 b)).
Proof. apply ord_enc_mono, be64_ord. Qed.

Open Scope Z_scope.
(* conversion to the unsigned type of the same width (mod 2H) is injective on [-H, H) *)
Lemma wrap_inj H a b : -H <= a < H -> -H <= b < H -> a mod (2 * H) = b mod (2 * H) -> a = b.
Proof.
  assert (D : forall x y, -H <= x < H -> -H <= y < H -> y <= x -> x mod (2 * H) = y mod (2 * H) -> x = y).
  { intros x y Hx Hy Hle E.
    assert (Z : (x - y) mod (2 * H) = 0) by (rewrite Zminus_mod, E, Z.sub_diag; apply Z.mod_0_l; lia).
    clear E. rewrite Z.mod_small in Z by lia. lia. }
  intros Ha Hb E. destruct (Z.le_ge_cases b a); [apply D | symmetry; apply D]; auto.
Qed.

(* a signed key is the unsigned key of the converted value: injective where the unsigned one is *)
Lemma int_key_inj B e H : ord_enc B e -> B = Z.to_N (2 * H) -> forall a b, -H <= a < H -> -H <= b < H ->
  e (Z.to_N (a mod (2 * H))) = e (Z.to_N (b mod (2 * H))) -> a = b.
Proof.
  intros He -> a b Ha Hb E. assert (HM : 0 < 2 * H) by lia.
  assert (R : forall x, 0 <= x mod (2 * H) /\ (Z.to_N (x mod (2 * H)) < Z.to_N (2 * H))%N).
  { intros x. destruct (Z.mod_pos_bound x (2 * H) HM) as [R0 R1]. split; [exact R0|]. apply Z2N.inj_lt; [exact R0 | lia | exact R1]. }
  apply (wrap_inj H a b Ha Hb), Z2N.inj; try apply R.
  exact (ord_enc_inj _ _ _ _ He (proj2 (R a)) (proj2 (R b)) E).
Qed.

Theorem int_keys_inj :
  (forall a b, -32768 <= a < 32768 -> -32768 <= b < 32768 -> int16_key a = int16_key b -> a = b) /\
  (forall a b, -2147483648 <= a < 2147483648 -> -2147483648 <= b < 2147483648 -> int32_key a = int32_key b -> a = b) /\
  (forall a b, -9223372036854775808 <= a < 9223372036854775808 -> -9223372036854775808 <= b < 9223372036854775808 -> int64_key a = int64_key b -> a = b).
Proof.
  exact (conj (int_key_inj _ _ 32768 be16_ord eq_refl)
        (conj (int_key_inj _ _ 2147483648 be32_ord eq_refl) (int_key_inj _ _ 9223372036854775808 be64_ord eq_refl))).
Qed.
Close Scope Z_scope.

(* the data masked to plen bits, truncated to ceil(plen/8) bytes *)
Definition lpm_masked (data : bytes) (plen : N) : bytes :=
  mask_data data (N.to_nat ((plen + 7) / 8)) (plen mod 8).

Lemma mask_data_length d : forall n r, (n <= length d)%nat -> length (mask_data d n r) = n.
Proof.
  induction d as [|b d IH]; intros [|n] r H; simpl in *; auto; try lia.
  destruct n; simpl; auto. rewrite IH; simpl; auto; lia.
Qed.

Theorem lpm_roundtrip data plen : plen + 7 < 65536 -> (plen + 7) / 8 <= len data ->
  exists k, lpmEncode data plen = Some k /\ lpmDecode k = Some (lpm_masked data plen, plen).
Proof.
  intros Hp Hd. unfold lpmEncode, lpm_dataLen. rewrite N.mod_small by lia.
  destruct (N.ltb_spec (len data) ((plen + 7) / 8)); [lia|].
  eexists; split; [reflexivity|]. unfold lpmDecode.
  set (m := mask_data data _ _).
  assert (Hm : length m = N.to_nat ((plen + 7) / 8)) by (apply mask_data_length; unfold len in *; lia).
  rewrite app_length. simpl length.
  destruct (Nat.ltb_spec (length m + 2) 2); [lia|].
  replace (length m + 2 - 2)%nat with (length m) by lia.
  rewrite firstn_app_exact, skipn_app_exact. unfold be16.
  rewrite be16_decode by lia. unfold lpm_dataLen. rewrite N.mod_small by lia.
  unfold len. rewrite Hm. destruct (N.ltb_spec (N.of_nat (N.to_nat ((plen + 7) / 8))) ((plen + 7) / 8)); [lia|].
  reflexivity.
Qed.

(* masking really clears the bits below the prefix length and keeps those above *)
Lemma mask_last_spec b rem : 0 < rem < 8 -> b < 256 ->
  mask_last b rem mod 2 ^ (8 - rem) = 0 /\ mask_last b rem / 2 ^ (8 - rem) = b / 2 ^ (8 - rem).
Proof.
  intros Hr Hb. unfold mask_last.
  assert (2 ^ (8 - rem) <> 0) by (apply N.pow_nonzero; lia).
  split; [apply N.mod_mul; auto|apply N.div_mul; auto].
Qed.

