(* KeyEnc/Strings.v — the query-string variants of the integer encoders (index/int.go Uint16String ... Int64String,
   IntString: strconv.ParseUint / ParseInt with base 10 and the given bit size, then the fixed-width encoder),
   index/netip.go NetIP (net.IP in its 4- or 16-byte form -> the 16-byte form) and lpm/key.go
   NetIPPrefix4ToIndexKey (EncodeLPMKey of the 4 address bytes). Model and proofs (small). *)
From SV Require Import Base.Bytes KeyEnc.Model KeyEnc.NetIP KeyEnc.Proofs.
From Coq Require Import ZArith Lia ZifyN ZifyBool.
Open Scope N_scope.

(* strconv: base 10 given explicitly: only the digits '0'..'9' (no underscores, no base prefix); Horner evaluation.
   The real code stops with ErrRange at the first overflow of the bit size; on unbounded N the comparison is made
   at the end - the same set of accepted strings and the same values *)
Fixpoint digits_val (s : bytes) (acc : N) : option N :=
  match s with
  | [] => Some acc
  | c :: r => if (48 <=? c) && (c <=? 57) then digits_val r (acc * 10 + (c - 48)) else None
  end.

(* strconv.ParseUint(s, 10, bits): non-empty, no sign *)
Definition parse_uint (s : bytes) (bits : N) : option N :=
  match s with
  | [] => None
  | _ => match digits_val s 0 with
         | Some v => if v <? 2 ^ bits then Some v else None
         | None => None
         end
  end.

(* strconv.ParseInt(s, 10, bits): optional '+' or '-', then as above; range [-2^(bits-1), 2^(bits-1)-1] *)
Definition parse_int (s : bytes) (bits : N) : option Z :=
  match s with
  | [] => None
  | c :: r =>
    let neg := c =? 45 in
    let ds := if (c =? 45) || (c =? 43) then r else s in
    match ds with
    | [] => None
    | _ => match digits_val ds 0 with
           | Some v => if neg then (if v <=? 2 ^ (bits - 1) then Some (- Z.of_N v)%Z else None)
                       else (if v <? 2 ^ (bits - 1) then Some (Z.of_N v) else None)
           | None => None
           end
    end
  end.

(* index/int.go *)
Definition uint16_string_key (s : bytes) : option bytes := option_map uint16_key (parse_uint s 16).
Definition uint32_string_key (s : bytes) : option bytes := option_map uint32_key (parse_uint s 32).
Definition uint64_string_key (s : bytes) : option bytes := option_map uint64_key (parse_uint s 64).
Definition int16_string_key (s : bytes) : option bytes := option_map int16_key (parse_int s 16).
Definition int32_string_key (s : bytes) : option bytes := option_map int32_key (parse_int s 32).   (* also IntString *)
Definition int64_string_key (s : bytes) : option bytes := option_map int64_key (parse_int s 64).

(* index/netip.go NetIP: bytes.Clone(ip.To16()); To16 of a 4-byte slice is the IPv4-mapped form, of a 16-byte
   slice the slice itself, nil otherwise *)
Definition netip_key (ip : bytes) : bytes :=
  if (N.of_nat (length ip) =? 4) then as16 true ip else if (N.of_nat (length ip) =? 16) then ip else [].

(* lpm/key.go NetIPPrefix4ToIndexKey: EncodeLPMKey(addr.As4(), bits) *)
Definition netip_prefix4_lpm_key (addr : bytes) (bits : N) : option bytes := lpmEncode addr bits.

Lemma digits_val_acc s : forall a v, digits_val s a = Some v -> a <= v.
Proof.
  induction s as [|c r IH]; intros a v H; cbn [digits_val] in H; [inversion H; lia|].
  destruct ((48 <=? c) && (c <=? 57)) eqn:E; [|discriminate]. apply IH in H. lia.
Qed.

Lemma parse_uint_range s bits v : parse_uint s bits = Some v -> v < 2 ^ bits.
Proof.
  unfold parse_uint. destruct s; [discriminate|]. destruct (digits_val (n :: s) 0) as [w|]; [|discriminate].
  destruct (w <? 2 ^ bits) eqn:E; [|discriminate]. intros H; inversion H; subst. lia.
Qed.

Lemma parse_int_range s bits v : parse_int s bits = Some v ->
  (- Z.of_N (2 ^ (bits - 1)) <= v < Z.of_N (2 ^ (bits - 1)))%Z.
Proof.
  unfold parse_int. destruct s as [|c r]; [discriminate|].
  destruct (if (c =? 45) || (c =? 43) then r else c :: r) as [|d ds]; [discriminate|].
  destruct (digits_val (d :: ds) 0) as [w|]; [|discriminate].
  destruct (c =? 45).
  - destruct (w <=? 2 ^ (bits - 1)) eqn:E; [|discriminate]. intros H; inversion H; subst. lia.
  - destruct (w <? 2 ^ (bits - 1)) eqn:E; [|discriminate]. intros H; inversion H; subst. lia.
Qed.

(* Any width: over an order-embedding encoder of the parsed range, two strings give the same key iff they denote the
   same number, the key of a string is the key of its value (so Uint16String "010" = Uint16 10), and keys order
   numerically *)
Lemma uint_string_key_of bits key s1 s2 v1 v2 : ord_enc (2 ^ bits) key ->
  parse_uint s1 bits = Some v1 -> parse_uint s2 bits = Some v2 ->
  option_map key (parse_uint s1 bits) = Some (key v1) /\
  (option_map key (parse_uint s1 bits) = option_map key (parse_uint s2 bits) <-> v1 = v2) /\
  (v1 < v2 <-> lex_lt (key v1) (key v2)).
Proof.
  intros K H1 H2. destruct (K v1 v2 (parse_uint_range _ _ _ H1) (parse_uint_range _ _ _ H2)) as [_ [Ki Km]].
  rewrite H1, H2. cbn [option_map]. split; [reflexivity|]. split; [|exact Km].
  split; [intros E; apply Ki; congruence|intros ->; reflexivity].
Qed.

Lemma int_string_key_of bits (key : Z -> bytes) s1 s2 v1 v2 :
  (forall a b, - Z.of_N (2 ^ (bits - 1)) <= a < Z.of_N (2 ^ (bits - 1)) ->
               - Z.of_N (2 ^ (bits - 1)) <= b < Z.of_N (2 ^ (bits - 1)) -> key a = key b -> a = b)%Z ->
  parse_int s1 bits = Some v1 -> parse_int s2 bits = Some v2 ->
  (option_map key (parse_int s1 bits) = option_map key (parse_int s2 bits) <-> v1 = v2).
Proof.
  intros K H1 H2. rewrite H1, H2. cbn [option_map].
  split; [intros E|intros ->; reflexivity].
  apply K; [exact (parse_int_range _ _ _ H1)|exact (parse_int_range _ _ _ H2)|congruence].
Qed.

