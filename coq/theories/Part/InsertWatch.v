(* Part/InsertWatch.v — the channel handed out by InsertWatch/ModifyWatch is closed when the key is next changed,
   in the same transaction or in a later one. *)
From SV Require Import Base.Bytes Base.OrdMap Part.Model Part.Sem Part.Insert Part.Delete Part.Query Part.Refine Part.Cow Part.Watch Part.Stable Part.PStable Part.WatchHist.
From Coq Require Import ZifyN ZifyNat ZifyBool.
Open Scope N_scope.

(* channels of inner nodes: below the allocator / different from a given channel *)
Fixpoint inner_lt (B : N) (n : node) : Prop :=
  match n with
  | Leaf _ _ => True
  | Inner _ _ _ w _ ch => (w = 0 \/ w < B) /\ inner_lt_ch B ch
  end
with inner_lt_ch (B : N) (ch : children) : Prop :=
  match ch with CNil => True | CCons _ x r => inner_lt B x /\ inner_lt_ch B r end.
Fixpoint inner_ne (a : N) (n : node) : Prop :=
  match n with
  | Leaf _ _ => True
  | Inner _ _ _ w _ ch => w <> a /\ inner_ne_ch a ch
  end
with inner_ne_ch (a : N) (ch : children) : Prop :=
  match ch with CNil => True | CCons _ x r => inner_ne a x /\ inner_ne_ch a r end.

Lemma inner_lt_mono :
  (forall n B B', B <= B' -> inner_lt B n -> inner_lt B' n) /\
  (forall ch B B', B <= B' -> inner_lt_ch B ch -> inner_lt_ch B' ch).
Proof.
  apply node_children_ind; simpl; auto.
  - intros kd t p w lf ch IH B B' H [H1 H2]. split; [lia|eauto].
  - intros b x IHx r IHr B B' H [H1 H2]. split; eauto.
Qed.
Lemma inner_lt_ne :
  (forall n B a, B <= a -> a <> 0 -> inner_lt B n -> inner_ne a n) /\
  (forall ch B a, B <= a -> a <> 0 -> inner_lt_ch B ch -> inner_ne_ch a ch).
Proof.
  apply node_children_ind; simpl; auto.
  - intros kd t p w lf ch IH B a H Ha [H1 H2]. split; [lia|eauto].
  - intros b x IHx r IHr B a H Ha [H1 H2]. split; eauto.
Qed.
Lemma inner_lt_set_prefix B n q : inner_lt B (set_prefix n q) <-> inner_lt B n.
Proof. destruct n; simpl; tauto. Qed.
Lemma inner_ne_set_prefix a n q : inner_ne a (set_prefix n q) <-> inner_ne a n.
Proof. destruct n; simpl; tauto. Qed.
Lemma inner_lt_ch_insert B b p l : forall ch, inner_lt_ch B ch -> inner_lt_ch B (ch_insert b (Leaf p l) ch).
Proof. induction ch as [|b0 y r IH]; simpl; auto. intros [H1 H2]. destruct (b <? b0); simpl; auto. Qed.
Lemma inner_lt_ch_set B b x : forall ch, inner_lt B x -> inner_lt_ch B ch -> inner_lt_ch B (ch_set b x ch).
Proof. induction ch as [|b0 y r IH]; simpl; auto. intros Hx [H1 H2]. destruct (b0 =? b); simpl; auto. Qed.
Lemma inner_lt_ch_find B b x : forall ch, inner_lt_ch B ch -> ch_find b ch = Some x -> inner_lt B x.
Proof. induction ch as [|b0 y r IH]; simpl; [discriminate|]. intros [H1 H2]. destruct (b0 =? b); [intros [= <-]; exact H1|now apply IH]. Qed.
Lemma inner_ne_ch_set a b x : forall ch, inner_ne a x -> inner_ne_ch a ch -> inner_ne_ch a (ch_set b x ch).
Proof. induction ch as [|b0 y r IH]; simpl; auto. intros Hx [H1 H2]. destruct (b0 =? b); simpl; auto. Qed.
Lemma inner_lt_ch_remove B b : forall ch, inner_lt_ch B ch -> inner_lt_ch B (ch_remove b ch).
Proof. induction ch as [|b0 y r IH]; simpl; auto. intros [H1 H2]. destruct (b0 =? b); simpl; auto. Qed.
Lemma inner_lt_ch_other B b : forall ch y, inner_lt_ch B ch -> ch_other b ch = Some y -> inner_lt B y.
Proof.
  induction ch as [|b0 z r IH]; simpl; [discriminate|]. intros y [H1 H2]. destruct (b0 =? b); eauto. intros [= <-]; auto.
Qed.

(* allocator facts; B >= 1 is the allocator before the step *)
Lemma fresh_alloc c s : let r := fresh c s in
  (fst r = 0 \/ (fst r = s_next s /\ s_next (snd r) = s_next s + 1)) /\ s_next s <= s_next (snd r).
Proof. unfold fresh. destruct (c_ro c); simpl; repeat split; auto; try lia. Qed.
Lemma fresh_if_alloc w s : let r := fresh_if w s in
  (fst r = 0 \/ (fst r = s_next s /\ s_next (snd r) = s_next s + 1)) /\ s_next s <= s_next (snd r).
Proof. unfold fresh_if. destruct (w =? 0); simpl; repeat split; auto; try lia. Qed.
Lemma clone_hdr_alloc c s t w : (w = 0 \/ w < s_next s) ->
  let r := clone_hdr c s t w in
  (snd (fst r) = 0 \/ snd (fst r) < s_next (snd r)) /\ s_next s <= s_next (snd r).
Proof.
  intros Hw. unfold clone_hdr. destruct (t =? c_tid c); cbn [fst snd]; [split; auto; lia|].
  pose proof (fresh_alloc c (record w s)) as Fa. rewrite record_next in Fa.
  destruct (fresh c (record w s)) as [w' s2]. cbn [fst snd] in *. lia.
Qed.
Lemma clone_leaf_alloc c s l : c_tid c <> 0 ->
  let r := clone_leaf c s l in
  (lf_w (fst r) = 0 \/ (s_next s <= lf_w (fst r) /\ lf_w (fst r) < s_next (snd r))) /\ s_next s <= s_next (snd r).
Proof.
  intros Hc. unfold clone_leaf. destruct (N.eqb_spec 0 (c_tid c)); [congruence|].
  pose proof (fresh_alloc c (record (lf_w l) s)) as Fa. rewrite record_next in Fa.
  destruct (fresh c (record (lf_w l) s)) as [w' s2]. cbn [fst snd lf_w] in *. lia.
Qed.

Section MW.
Variable c : ctx.
Variable md : option (N -> N -> N).
Variable fullKey : bytes.
Variable v : N.
Hypothesis Hc0 : c_tid c <> 0.

Definition mwf (B : N) (r : mres) : Prop :=
  (m_w r = 0 \/ (B <= m_w r /\ m_w r < s_next (m_st r))) /\
  (m_w r = 0 \/ inner_ne (m_w r) (m_node r)) /\
  inner_lt (s_next (m_st r)) (m_node r) /\
  B <= s_next (m_st r).

Lemma split_mwf s this key : inner_lt (s_next s) this -> mwf (s_next s) (split_node c fullKey v s this key).
Proof.
  clear Hc0. intros Hl. unfold split_node. cbv zeta.
  pose proof (fresh_alloc c s) as F1. destruct (fresh c s) as [lw s1]. cbn [fst snd] in F1.
  pose proof (fresh_alloc c s1) as F2. destruct (fresh c s1) as [nw s2]. cbn [fst snd] in F2.
  set (this' := set_prefix this _).
  assert (L' : inner_lt (s_next s) this') by now apply inner_lt_set_prefix.
  assert (L2 : inner_lt (s_next s2) this') by (eapply (proj1 inner_lt_mono); [|exact L']; lia).
  assert (Ne : lw = 0 \/ inner_ne lw this').
  { destruct (N.eq_dec lw 0); auto. right. eapply (proj1 inner_lt_ne); [| |exact L']; lia. }
  unfold mwf. cbn [m_w m_st m_node].
  assert (Hnw : nw = 0 \/ nw < s_next s2) by lia.
  assert (Hne : lw = 0 \/ nw <> lw) by lia.
  split; [lia|]. split; [|split; [|lia]].
  - destruct Ne as [E|Ne]; [auto|]. destruct Hne as [E|Hne]; [auto|]. right.
    destruct (node_prefix this') as [|tb tl]; [|destruct (skipn _ key) as [|kb kl]; [|destruct (tb <? kb)]];
      simpl; repeat split; auto.
  - destruct (node_prefix this') as [|tb tl]; [|destruct (skipn _ key) as [|kb kl]; [|destruct (tb <? kb)]];
      simpl; repeat split; auto.
Qed.

Theorem modify_mwf n : forall s key, inner_lt (s_next s) n -> mwf (s_next s) (modify_node c md fullKey v s n key).
Proof.
  induction n as [p l|kd t p w lf ch IH] using node_find_ind; intros s key Hil;
    cbn [modify_node]; fold (modify_ch c md fullKey v).
  - destruct (bytes_eqb key p).
    + pose proof (clone_leaf_alloc c s l Hc0) as Ca. destruct (clone_leaf c s l) as [l' s']. cbn [fst snd] in Ca.
      unfold mwf. cbn [m_w m_st m_node]. repeat split; try tauto; right; exact I.
    + apply split_mwf. exact I.
  - destruct Hil as [Hw Hc]. pose proof (clone_hdr_alloc c s t w Hw) as Ca.
    assert (Raise : forall B', s_next s <= B' -> inner_lt_ch B' ch)
      by (intros B' H; eapply (proj2 inner_lt_mono); eauto).
    assert (NeCh : forall a, s_next s <= a -> a <> 0 -> inner_ne_ch a ch)
      by (intros a H Ha; eapply (proj2 inner_lt_ne); eauto).
    destruct (strip p key) as [[|b rest]|].
    + destruct (clone_hdr c s t w) as [[t' w'] s1]. cbn [fst snd] in Ca. destruct Ca as [W1 N1].
      destruct lf as [l|].
      * pose proof (clone_leaf_alloc c s1 l Hc0) as Cl. destruct (clone_leaf c s1 l) as [l' s2]. cbn [fst snd] in Cl.
        unfold mwf. cbn [m_w m_st m_node lf_w]. destruct Cl as [Wl N2].
        split; [lia|]. split; [|split; [|lia]].
        -- destruct (N.eq_dec (lf_w l') 0); auto. right. split; [lia|]. apply NeCh; lia.
        -- split; [lia|]. apply Raise. lia.
      * pose proof (fresh_alloc c s1) as Fa. destruct (fresh c s1) as [lw s2]. cbn [fst snd] in Fa.
        unfold mwf. cbn [m_w m_st m_node]. split; [lia|]. split; [|split; [|lia]].
        -- destruct (N.eq_dec lw 0); auto. right. split; [lia|]. apply NeCh; lia.
        -- split; [lia|]. apply Raise. lia.
    + destruct (clone_hdr c s t w) as [[t' w'] s1] eqn:Ec. cbn [fst snd] in Ca. destruct Ca as [W1 N1].
      rewrite modify_ch_find. destruct (ch_find b ch) as [x|] eqn:Ef.
      * destruct (IH b x Ef s1 (b :: rest) (inner_lt_ch_find _ b x ch (Raise _ N1) Ef)) as (A1 & A2 & A3 & A4).
        set (r := modify_node c md fullKey v s1 x (b :: rest)) in *. unfold mwf. cbn [m_w m_st m_node].
        split; [lia|]. split; [|split; [|lia]].
        -- destruct (N.eq_dec (m_w r) 0); auto. destruct A2 as [E|A2]; [auto|]. right. split; [lia|].
           apply inner_ne_ch_set; [exact A2|apply NeCh; lia].
        -- split; [lia|]. apply inner_lt_ch_set; [exact A3|apply Raise; lia].
      * destruct (kd <? ch_len ch + 1).
        -- pose proof (fresh_if_alloc w (record w s)) as Fi. rewrite record_next in Fi.
           destruct (fresh_if w (record w s)) as [w2 s2]. cbn [fst snd] in Fi.
           pose proof (fresh_alloc c s2) as Fa. destruct (fresh c s2) as [lw s3]. cbn [fst snd] in Fa.
           unfold mwf. cbn [m_w m_st m_node]. split; [lia|]. split; [|split; [|lia]].
           ++ destruct (N.eq_dec lw 0); auto. right. split; [lia|]. 
              assert (G : inner_ne_ch lw ch) by (apply NeCh; lia).
              clear - G. induction ch as [|b0 y r IH]; simpl in *; auto. destruct G. destruct (b <? b0); simpl; auto.
           ++ split; [lia|]. apply inner_lt_ch_insert. apply Raise. lia.
        -- pose proof (fresh_alloc c s1) as Fa. destruct (fresh c s1) as [lw s3]. cbn [fst snd] in Fa.
           unfold mwf. cbn [m_w m_st m_node]. split; [lia|]. split; [|split; [|lia]].
           ++ destruct (N.eq_dec lw 0); auto. right. split; [lia|].
              assert (G : inner_ne_ch lw ch) by (apply NeCh; lia).
              clear - G. induction ch as [|b0 y r IH]; simpl in *; auto. destruct G. destruct (b <? b0); simpl; auto.
           ++ split; [lia|]. apply inner_lt_ch_insert. apply Raise. lia.
    + destruct (clone_hdr c s t w) as [[t' w'] s1]. cbn [fst snd] in Ca. destruct Ca as [W1 N1].
      pose proof (split_mwf s1 (Inner kd t' p w' lf ch) key) as Sm. 
      assert (Hl : inner_lt (s_next s1) (Inner kd t' p w' lf ch)) by (split; [lia|apply Raise; lia]).
      specialize (Sm Hl). unfold mwf in *. destruct Sm as (A1 & A2 & A3 & A4). repeat split; auto; lia.
Qed.
End MW.

Section DL.
Variable c : ctx.
Definition dil (B : N) (r : dres) : Prop :=
  match r with
  | DNone => True
  | DSome _ repl s' _ => B <= s_next s' /\ match repl with Some n' => inner_lt (s_next s') n' | None => True end
  end.

Lemma remove_child_il s kd t p w lf ch b :
  (w = 0 \/ w < s_next s) -> inner_lt_ch (s_next s) ch ->
  let r := remove_child c s kd t p w lf ch b in
  s_next s <= s_next (snd (fst r)) /\ inner_lt (s_next (snd (fst r))) (fst (fst r)).
Proof.
  intros Hw Hc. cbv zeta.
  pose proof (clone_hdr_alloc c s t w Hw) as Ca. pose proof (fresh_if_alloc w s) as Fi. cbv zeta in Ca, Fi.
  pose proof (inner_lt_ch_remove (s_next s) b ch Hc) as Lr.
  destruct (remove_child_cases c s kd t p w lf ch b) as [(y & _ & _ & Eo & ->)|[(kd' & ->)| ->]]; cbn [fst snd];
    rewrite ?record_next.
  - split; [lia|]. apply inner_lt_set_prefix. exact (inner_lt_ch_other _ b ch y Hc Eo).
  - split; [lia|]. split; [lia|eapply (proj2 inner_lt_mono); [|exact Lr]; lia].
  - split; [lia|]. split; [lia|eapply (proj2 inner_lt_mono); [|exact Lr]; lia].
Qed.

Theorem delete_il :
  (forall n s key, inner_lt (s_next s) n -> dil (s_next s) (del_node c s n key)) /\
  (forall ch s b key, inner_lt_ch (s_next s) ch -> dil (s_next s) (del_ch c s ch b key)).
Proof.
  apply node_children_ind.
  - intros p l s key _. cbn [del_node]. destruct (bytes_eqb key p); [|exact I]. cbn [dil]. rewrite !record_next. split; [lia|exact I].
  - intros kd t p w lf ch IH s key [Hw Hc]. cbn [del_node]; fold (del_ch c).
    destruct (strip p key) as [[|b rest]|]; [| |exact I].
    + destruct lf as [l|]; [|exact I]. destruct ch as [|b1 x1 [|b2 x2 r]].
      * cbn [dil]. rewrite !record_next. split; [lia|exact I].
      * cbn [dil]. rewrite !record_next. split; [lia|]. apply inner_lt_set_prefix. simpl in Hc. tauto.
      * pose proof (clone_hdr_alloc c (record (lf_w l) s) t w) as Ca. rewrite record_next in Ca. specialize (Ca Hw).
        destruct (clone_hdr c (record (lf_w l) s) t w) as [[t' w'] s2]. cbn [fst snd dil] in *.
        split; [lia|]. split; [lia|]. eapply (proj2 inner_lt_mono); [|exact Hc]. lia.
    + specialize (IH s b (b :: rest) Hc).
      destruct (del_ch c s ch b (b :: rest)) as [|old repl s1 ip]; [exact I|]. cbn [dil] in IH. destruct IH as [N1 IH].
      assert (Hw1 : w = 0 \/ w < s_next s1) by lia.
      assert (Hc1 : inner_lt_ch (s_next s1) ch) by (eapply (proj2 inner_lt_mono); eauto).
      destruct repl as [x'|].
      * destruct ip.
        -- cbn [dil]. split; [lia|]. split; auto. now apply inner_lt_ch_set.
        -- pose proof (clone_hdr_alloc c s1 t w Hw1) as Ca.
           destruct (clone_hdr c s1 t w) as [[t' w'] s2]. cbn [fst snd dil] in *. split; [lia|]. split; [lia|].
           apply inner_lt_ch_set; [eapply (proj1 inner_lt_mono); [|exact IH]; lia|eapply (proj2 inner_lt_mono); [|exact Hc1]; lia].
      * pose proof (remove_child_il s1 kd t p w lf ch b Hw1 Hc1) as R.
        destruct (remove_child c s1 kd t p w lf ch b) as [[n' s2] ip']. cbn [fst snd dil] in *. split; [lia|tauto].
  - intros; exact I.
  - intros b0 x IHx r IHr s b key [Hx Hr]. cbn [del_ch]; fold (del_node c); fold (del_ch c). destruct (b0 =? b); auto.
Qed.
End DL.

Definition root_il (B : N) (r : option node) : Prop := match r with None => True | Some n => inner_lt B n end.
Definition IL (x : txn) : Prop := root_il (s_next (t_st x)) (t_root x).

Lemma wstep_IL x o : t_tid x <> 0 -> IL x -> IL (wstep x o) /\ s_next (t_st x) <= s_next (t_st (wstep x o)).
Proof.
  intros Hc0 H. unfold IL in *.
  assert (Mod : forall md k' v, let x' := fst (fst (fst (txn_modify x md k' v))) in
                  root_il (s_next (t_st x')) (t_root x') /\ s_next (t_st x) <= s_next (t_st x')).
  { intros md k' v. unfold txn_modify. destruct (t_root x) as [n|].
    - destruct (modify_mwf (txn_ctx x) md k' v Hc0 n (t_st x) k' H) as (_ & _ & A3 & A4). cbn [fst t_st t_root]. auto.
    - pose proof (fresh_alloc (txn_ctx x) (t_st x)) as Fa. destruct (fresh (txn_ctx x) (t_st x)).
      cbn [fst snd t_st t_root m_st m_node] in *. split; [exact I|lia]. }
  destruct o as [k' v|k' v f|k'|]; cbn [wstep]; [apply Mod|apply Mod| |split; [exact H|simpl; lia]].
  unfold txn_delete. destruct (t_root x) as [n|] eqn:Er; [|cbn [fst]; rewrite Er; split; [exact I|lia]].
  pose proof (proj1 (delete_il (txn_ctx x)) n (t_st x) k' H) as D.
  destruct (del_node (txn_ctx x) (t_st x) n k') as [|old repl s' ip]; cbn [fst t_st t_root].
  - rewrite Er. split; [exact H|lia].
  - destruct D as [N1 D]. split; auto; destruct repl; auto; exact I.
Qed.

Lemma privF_and c (F1 : N -> Prop) w :
  (forall n, privF c F1 n -> inner_ne w n -> privF c (fun b => F1 b /\ b <> w) n) /\
  (forall ch, privF_ch c F1 ch -> inner_ne_ch w ch -> privF_ch c (fun b => F1 b /\ b <> w) ch).
Proof.
  apply node_children_ind.
  - intros; exact I.
  - intros kd t p w0 lf ch IH [H1 H2] [N1 N2]. split; [|apply IH; auto].
    intros E. destruct (H1 E) as [Z|Z]; [left; exact Z|right; split; auto].
  - intros; exact I.
  - intros b x IHx r IHr [H1 H2] [N1 N2]. split; [apply IHx|apply IHr]; auto.
Qed.

(* the transaction state right after InsertWatch/ModifyWatch *)
Lemma after_modify x md key v next0 :
  TInv next0 (Fr next0) x -> IL x -> t_ro x = false ->
  let x1 := fst (fst (fst (txn_modify x md key v))) in
  let w := snd (txn_modify x md key v) in
  TInv next0 (Fr next0) x1 /\ t_rw x1 = t_rw x /\
  (w = 0 \/ (s_next (t_st x) <= w /\ w < s_next (t_st x1))) /\
  (w = 0 \/ match t_root x1 with Some n => inner_ne w n | None => True end) /\
  (w <> 0 -> rgetw (t_root x1) (t_rw x1) key = w).
Proof.
  intros HT HI Hro. cbv zeta.
  split; [exact (modify_TInv next0 (Fr next0) (Fr_alloc next0) x md key v HT)|]. split; [reflexivity|].
  pose proof (insert_watch_is_get_watch x md key v Hro) as G.
  destruct HT as (Hc0 & _ & _). unfold IL in HI.
  unfold txn_modify in *. rewrite Hro in *.
  destruct (t_root x) as [n|].
  - destruct (modify_mwf (txn_ctx x) md key v Hc0 n (t_st x) key HI) as (A1 & A2 & _ & _).
    cbn [fst snd t_root t_st t_rw] in *. split; [exact A1|]. split; [exact A2|].
    intros Hn. exact (proj1 (G Hn)).
  - pose proof (fresh_alloc (txn_ctx x) (t_st x)) as Fa.
    destruct (fresh (txn_ctx x) (t_st x)) as [lw s1]. cbn [fst snd t_root t_st t_rw m_w m_node m_st] in *.
    split; [lia|]. split; [right; exact I|]. intros Hn. exact (proj1 (G Hn)).
Qed.

Theorem insert_watch_closes_on_next_change x md key v next0 :
  TInv next0 (Fr next0) x -> IL x -> t_rw x < s_next (t_st x) -> t_ro x = false ->
  let x1 := fst (fst (fst (txn_modify x md key v))) in
  let w := snd (txn_modify x md key v) in
  w <> 0 ->
  forall ops1,
    let xe := fold_left wstep ops1 x1 in
    (touched key x1 ops1 -> In w (snd (txn_notify xe))) /\
    (In w (snd (txn_notify xe)) \/
     (snd (tree_get (snd (txn_commit xe)) key) = w /\
      forall next2 ops2, w < next2 -> touched key (tree_txn (snd (txn_commit xe)) next2) ops2 ->
        In w (snd (txn_notify (fold_left wstep ops2 (tree_txn (snd (txn_commit xe)) next2)))))).
Proof.
  intros HT HI Hrw Hro. cbv zeta. intros Hw ops1.
  destruct (after_modify x md key v next0 HT HI Hro) as (T1 & Erw & Wf & Wn & Wg).
  set (x1 := fst (fst (fst (txn_modify x md key v)))) in *.
  set (w := snd (txn_modify x md key v)) in *.
  destruct Wf as [E|[W1 W2]]; [congruence|]. destruct Wn as [E|Wn]; [congruence|]. specialize (Wg Hw).
  (* from here on w itself counts as not private: the allocator has passed it *)
  set (B := s_next (t_st x1)).
  set (F := fun b => Fr next0 b /\ b <> w).
  destruct T1 as (Hc1 & Hr1 & Hn1).
  assert (HF : forall b, B <= b -> F b) by (intros b Hb; unfold F, Fr, B in *; split; lia).
  assert (HnF : ~ F w) by (intros [_ H]; congruence).
  assert (T2 : TInv B F x1).
  { unfold TInv. split; auto. split; [|unfold B; lia]. unfold root_inv in *.
    destruct (t_root x1) as [n1|]; auto. destruct Hr1 as (P1 & L1 & M1). repeat split; auto.
    apply (proj1 (privF_and (txn_ctx x1) (Fr next0) w)); auto. }
  assert (J1 : J QGet key w x1) by (right; rewrite <- rq_get; exact Wg).
  split; [exact (touched_q_closed B F HF QGet key w Hw HnF ops1 x1 T2 J1)|].
  pose proof (run_inv B F HF ops1 x1 T2) as Te.
  destruct (J_commit QGet key w Hw _ (run_J B F HF QGet key w HnF ops1 x1 T2 J1)) as [C|Eg]; [left; exact C|right].
  set (xe := fold_left wstep ops1 x1) in *. unfold tree_get. rewrite rq_get.
  split; [exact Eg|]. intros next2 ops2 Hlt Ht2. rewrite <- Eg at 1.
  destruct (commit_side B F xe Te) as (A1 & A2 & A3).
  apply (watch_closed_history QGet key); rewrite ?Eg; auto.
Qed.

