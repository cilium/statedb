(* Part/LayoutRefuted.v — seeded-style variants of the node layout code, refuted by concrete
   witnesses (vm_compute): why each detail of header.remove / removeChild / the stale-slot
   pattern matters. *)
From SV Require Import Part.Layout Part.LayoutBase Part.LayoutKeyed Part.Layout48 Part.Layout256 Part.LayoutProofs.
From Coq Require Import ZifyN ZifyNat ZifyBool.
Close Scope N_scope.

Lemma LInv_fold : forall ks l, LInv l -> Forall (fun k => (k < 256)%N) ks -> LInv (fold_left l_add ks l).
Proof.
  induction ks as [|k r IH]; intros l HI HB; cbn [fold_left]; [exact HI|].
  apply Forall_cons_iff in HB. destruct HB as [Hk HB]. apply IH; [apply LInv_add; assumption|exact HB].
Qed.
Lemma LInv_empty : LInv (new_node4 false []).
Proof. apply LInv_new_node4; [split; cbn; auto|cbn; lia]. Qed.
Lemma bytes_seq : forall a n, a + n <= 256 -> Forall (fun k => (k < 256)%N) (map N.of_nat (seq a n)).
Proof. intros a n H. apply Forall_forall. intros k Hk. apply in_map_iff in Hk. destruct Hk as (j & <- & Hj). apply in_seq in Hj. lia. Qed.

(* (1) node4/node16 remove that does not clear the vacated child slot (node.go: children[newSize] = nil
   omitted): node4's find ignores the size, so the stale key 255 written by the same remove finds the
   stale child (Properties/C11.v, C11_layout_remove_noclear_refuted). *)
Definition l_remove_noclear (l : layout) (idx : nat) : layout :=
  let size := l_size l in
  mkL (l_kind l) (size - 1) (l_leaf l) (arr_remove idx size 255%N (l_keys l)) (l_index l)
      (arr_remove idx size (child_at (l_children l) (size - 1)) (l_children l)).

(* (2) the stale-slot pattern (255s before 0s) is needed by node4's findIndex, which looks at all
   four key slots: with a 0 before a 255 it returns an index beyond the size (header.insert would
   then slice children[4:3] and panic) *)
Theorem stale_pattern_needed_refuted : exists l key,
  l_kind l = 4%N /\ l_size l = 2 /\ l_abs l = [5%N; 9%N] /\
  l_keys l = [5%N; 9%N; 0%N; 255%N] /\ l_children l = [Some 5%N; Some 9%N; None; None] /\
  snd (l_findIndex l key) = 3 /\ rank key (l_abs l) = 2.
Proof.
  exists (mkL 4 2 false [5%N; 9%N; 0%N; 255%N] [] [Some 5%N; Some 9%N; None; None]), 200%N.
  vm_compute. repeat split; reflexivity.
Qed.

(* (3) node48 remove that forgets "index[key] = 0": find still finds the removed key
   (Properties/C11.v, C11_layout_remove48_noindex_refuted) *)
Definition l_remove48_noindex (l : layout) (idx : nat) : layout :=
  let newSize := l_size l - 1 in
  let '(ix, ch) := rem48_loop (newSize - idx) idx (l_index l) (l_children l) in
  mkL (l_kind l) newSize (l_leaf l) (l_keys l) ix (set_nth newSize None ch).

Definition node48_0_17 : layout := fold_left l_add (map N.of_nat (seq 0 18)) (new_node4 false []).

(* (4) a demotion threshold off by one (node48 -> node16 only when size <= 16): removeChild leaves a
   node48 with 16 children behind, below the occupancy bound of its kind (validateTree:
   "node48 has fewer children than 17"), and the kind differs from Part/Model.v's remove_child *)
Definition l_removeChild_t16 (l : layout) (index : nat) : lres :=
  let size := l_size l in
  if (l_kind l =? 48)%N && (size <=? 16) then l_removeChild l index
  else if (l_kind l =? 48)%N then LNode (l_remove l index) else l_removeChild l index.

Theorem demote_threshold_refuted : exists l idx l',
  LInv l /\ l_removeChild_t16 l idx = LNode l' /\ ~ LOcc l' /\
  l_kind l' <> del_kind (l_kind l) (l_size l).
Proof.
  exists (fold_left l_add (map N.of_nat (seq 0 17)) (new_node4 false [])), 3.
  eexists. split; [apply LInv_fold; [exact LInv_empty|apply bytes_seq; lia]|].
  split; [vm_compute; reflexivity|]. split.
  - intros (_ & H48 & _). cbn [l_kind l_size] in H48. specialize (H48 eq_refl). lia.
  - vm_compute. discriminate.
Qed.
