(* Part/Query.v — search refines om_get; the ordered traversal is the (strictly sorted)
   entry list. *)
From SV Require Import Base.Bytes Base.OrdMap Part.Model Part.Sem Part.Insert Part.Delete.
From Coq Require Import ZifyN ZifyNat ZifyBool.
Open Scope N_scope.

Definition sep (L1 L2 : list ent) : Prop := forall a b, In a L1 -> In b L2 -> lex_lt (fst a) (fst b).

Lemma om_sorted_app (L1 L2 : list ent) : om_sorted L1 -> om_sorted L2 -> sep L1 L2 -> om_sorted (L1 ++ L2).
Proof.
  induction L1 as [|[k v] L1 IH]; simpl; auto. intros [Ha Hs] H2 Hsep. split.
  - unfold om_above in *. apply Forall_app. split; auto. apply Forall_forall. intros b Hb.
    apply (Hsep (k, v) b); simpl; auto.
  - apply IH; auto. intros a b Ha' Hb. apply Hsep; simpl; auto.
Qed.

Lemma om_sorted_pre p (L : list ent) : om_sorted L -> om_sorted (map (pre p) L).
Proof.
  induction L as [|[k v] L IH]; simpl; auto. intros [Ha Hs]. split; auto.
  unfold om_above in *. apply Forall_map. eapply Forall_impl; [|exact Ha].
  intros [k' v']; simpl. apply lex_lt_app_l.
Qed.

Lemma all_gt_sep_nil v (L : list ent) : all_gt L [] -> sep [([], v)] L.
Proof.
  intros H a b [<-|[]] Hb. unfold all_gt in H. rewrite Forall_forall in H. now apply H.
Qed.

Theorem ents_sorted :
  (forall n acc, wfk acc n -> om_sorted (ents n)) /\
  (forall ch acc, wfk_ch acc ch -> om_sorted (ents_ch ch)).
Proof.
  apply node_children_ind.
  - intros p l acc _. simpl. split; [constructor|exact I].
  - intros kd t p w lf ch IH acc [Hl Hc]. cbn [ents]. apply om_sorted_pre.
    apply om_sorted_app; eauto.
    + destruct lf; simpl; auto. split; [constructor|exact I].
    + destruct lf as [l|]; simpl; [|intros a b []].
      apply all_gt_sep_nil. eapply ents_ch_nil_gt; eauto.
  - intros; exact I.
  - intros b x IHx r IHr acc (Hh & Hx & Hg & Hr). cbn [ents_ch]. apply om_sorted_app; eauto.
    intros a e Ha He. pose proof (ents_starts x b Hh) as St. unfold starts in St. rewrite Forall_forall in St.
    specialize (St a Ha). destruct (fst a) as [|c tl] eqn:Ea; simpl in St; [tauto|]. subst c.
    pose proof (ents_ch_all_gt acc r b tl Hr Hg) as G. unfold all_gt in G. rewrite Forall_forall in G.
    now apply G.
Qed.

Theorem entries_ents :
  (forall n acc, wfk acc n -> node_entries n = map (pre acc) (ents n)) /\
  (forall ch acc, wfk_ch acc ch -> ch_entries ch = map (pre acc) (ents_ch ch)).
Proof.
  apply node_children_ind.
  - intros p l acc H. simpl in *. unfold pre; simpl. now rewrite H.
  - intros kd t p w lf ch IH acc [Hl Hc]. cbn [node_entries ents]; fold ch_entries.
    rewrite <- map_pre_app, map_app, (IH _ Hc). f_equal.
    destruct lf as [l|]; simpl; auto. unfold pre; simpl. now rewrite Hl, app_nil_r.
  - reflexivity.
  - intros b x IHx r IHr acc (Hh & Hx & Hg & Hr). cbn [ch_entries ents_ch]; fold node_entries.
    now rewrite map_app, (IHx _ Hx), (IHr _ Hr).
Qed.

Lemma search_ch_find b key w : forall ch,
  search_ch ch b key w = match ch_find b ch with Some x => search_node x key w | None => (None, w) end.
Proof.
  induction ch as [|b' x r IH]; [reflexivity|].
  cbn [search_ch ch_find]; fold search_node; fold search_ch. destruct (b' =? b); auto.
Qed.

Theorem search_spec : forall n acc key w, wfk acc n -> fst (search_node n key w) = om_get key (ents n).
Proof.
  induction n as [p l|kd t p w lf ch IH] using node_find_ind; intros acc key w0 Hw; cbn [search_node]; fold search_ch.
  - cbn [ents om_get].
    destruct (bytes_cmp_cases key p) as [[E ->]|[[E [L _]]|[E [L _]]]]; rewrite E; auto; now rewrite L.
  - destruct Hw as [Hl Hc]. destruct (strip p key) as [[|b rest]|] eqn:Es.
    + apply strip_nil_rest in Es. subst key. rewrite (proj1 (ents_inner_here _ kd t p w lf ch Hc)). now destruct lf.
    + apply strip_some in Es. subst key. rewrite search_ch_find, (proj1 (ents_inner_below kd t p w lf ch b rest)).
      destruct (ch_find b ch) as [x|] eqn:Ef.
      * rewrite (proj1 (ch_find_local _ _ rest _ _ Hc Ef)). eapply IH; eauto. eapply ch_find_wfk; eauto.
      * simpl. symmetry. eapply ch_find_none_get; eauto.
    + cbn [ents fst]. symmetry. now apply om_get_strip_none.
Qed.
