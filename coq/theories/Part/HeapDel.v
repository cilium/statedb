(* Part/HeapDel.v — Txn.delete / removeChild on the heap (Part/Heap.v hdel with the real merge step
   hmerge) refine Part/Model.v del_node / remove_child: same outputs, the replacement node
   represents the model's replacement; writes go only to the footprint. *)
From SV Require Import Base.Bytes Part.Model Part.Sem Part.Delete Part.Heap Part.HeapBase Part.HeapMod.
From Coq Require Import ZArith List Bool Lia ZifyN ZifyNat ZifyBool.
Import ListNotations.
Open Scope N_scope.

Section Delete.
Context {P : nat -> Prop}.
Variable c : ctx.
Notation tid := (c_tid c).
Hypothesis T0 : 0 < tid.

Notation Trep := (@trep P tid).
Notation Tchs := (@tchs P tid).
Notation Plrep := (@plrep P).
Notation owned := (owned_cell tid).
Notation Ext := (ext tid).
Notation PExt := (@Pext P).
Notation post := (@post P c).
Notation inner_at := (@inner_at P c).
Notation hdel := (hdel c (fun _ => hmerge)).
Notation hremove_child := (hremove_child c (fun _ => hmerge)).

Definition hdspec (h : heap) (a : nat) (F : list nat) (r : hdres) (d : dres) : Prop :=
  match d, r with
  | DNone, HDNone => True
  | DSome old repl s inpl, HDSome old' repl' s' h' inpl' =>
    old' = old /\ s' = s /\ inpl' = inpl /\ (inpl = true -> repl' = Some a /\ In a F) /\
    match repl, repl' with
    | None, None => h' = h
    | Some n', Some a' => post h F h' a' n'
    | _, _ => False
    end
  | _, _ => False
  end.

Lemma tchs_case h ch tch F : Tchs h ch tch F ->
  (ch = [] /\ tch = CNil /\ F = []) \/
  (exists b x r n tr F1 F2, ch = (b, x) :: r /\ tch = CCons b n tr /\ F = F1 ++ F2 /\
     Trep h x n F1 /\ Tchs h r tr F2 /\ disj F1 F2).
Proof. intros T. destruct T as [|b x r n tr F1 F2 T1 T2 D]; [left; auto|right; eauto 14]. Qed.

Lemma hremove_spec old s h a kd t0 p w lf ch ol tch Fc F b : PExt h ->
  inner_at h a kd t0 p w lf ch Fc F -> Plrep h lf ol -> Tchs h ch tch Fc ->
  hdspec h a F (hremove_child old s h a kd t0 p w lf ch b)
    (let '(n', s2, ip) := remove_child c s kd t0 p w ol tch b in DSome old (Some n') s2 ip).
Proof.
  intros PE At Hl Tc. unfold hremove_child, remove_child.
  pose proof (inner_at_incl c At) as SubFc.
  rewrite (tchs_len c Tc).
  (* demote or cloneNode, on both sides *)
  set (D1 := if _ || _ then _ else _). set (D2 := if _ || _ then _ else _).
  assert (Dflt : hdspec h a F D1 (let '(n', s2, ip) := D2 in DSome old (Some n') s2 ip)).
  { subst D1 D2. destruct (tchs_remove c h b ch tch Fc Tc) as (Fr & Tr & Ir).
    destruct (_ || _); cbv zeta.
    - destruct (fresh_if w s) as [w' s1]. unfold alloc.
      cbn [hdspec]. repeat (split; [reflexivity|]). split; [discriminate|].
      apply (node_alloc c T0 h F h _ _ _ _ _ _ _ Fr); auto; [apply ext_refl|]. intros y Hy. left. auto.
    - destruct (clone_hdr c s t0 w) as [[t' w'] s1] eqn:Ec. pose proof (clone_hdr_tid c Ec) as ->.
      destruct (hput c h a t0 _) as [h1 a1] eqn:Ep.
      destruct (node_finish c T0 At (ext_refl _ _ _) Hl Tr
                  (fun y Hy => or_introl (Ir y Hy)) Ep) as (Po & Ip).
      cbn [hdspec]. repeat (split; [reflexivity|]). split; [|exact Po].
      intros Hip. apply N.eqb_eq in Hip. destruct (Ip Hip) as [-> Hi]. auto. }
  clearbody D1 D2. destruct (ch_len tch =? 2); [|exact Dflt].
  destruct lf as [la|]; cbn [plrep] in Hl.
  - destruct Hl as (Pla & q & l & Hq & ->). exact Dflt.
  - subst ol. pose proof (tchs_other c h b ch tch Fc Tc) as Ho.
    destruct (hc_other b ch) as [x|]; [|rewrite Ho; exact Dflt].
    destruct Ho as (n & Fn & -> & Tn & In').
    destruct (hmerge h p x) as [h1 x'] eqn:Em.
    cbn [hdspec]. repeat (split; [reflexivity|]). split; [discriminate|].
    eapply (post_trans c T0); [exact (hmerge_spec c T0 h p x n Fn PE Tn h1 x' Em)|apply ext_refl|].
    intros y Hy. left. auto.
Qed.

(* the key ends at an inner node with a leaf: the leaf goes; the node goes with it (no child), gives way to
   its only child (shifted up), or is cloned without the leaf *)
Lemma hdel_here_spec f s h a kd t0 p w la q l ch tch Fc F : PExt h ->
  inner_at h a kd t0 p w (Some la) ch Fc F -> nth_error h la = Some (CLeaf q l) -> Tchs h ch tch Fc ->
  hdspec h a F (hdel (S f) s h a p) (del_node c s (Inner kd t0 p w (Some l) tch) p).
Proof.
  intros PE At Hq Tc. pose proof (inner_at_incl c At) as SubFc.
  cbn [Heap.hdel del_node]. rewrite (hget_some (proj1 At)), (hget_some Hq). cbn [cell_leafrec].
  replace (strip p p) with (Some (@nil N)) by (symmetry; apply strip_some; now rewrite app_nil_r).
  destruct (tchs_case _ _ _ _ Tc) as [(-> & -> & EF)|(b0 & x & r & n & tr & F1 & F2 & -> & -> & EF & T1 & T2 & D)].
  - cbn [hdspec]. repeat (split; [reflexivity|]). split; [discriminate|reflexivity].
  - destruct (tchs_case _ _ _ _ T2) as [(-> & -> & EF2)|(b1 & x1 & r1 & n1 & tr1 & F3 & F4 & -> & -> & EF2 & T3 & T4 & D2)].
    + destruct (hmerge h p x) as [h1 x'] eqn:Em.
      cbn [hdspec]. repeat (split; [reflexivity|]). split; [discriminate|].
      eapply (post_trans c T0); [exact (hmerge_spec c T0 h p x n F1 PE T1 h1 x' Em)|apply ext_refl|].
      intros y Hy. left. apply SubFc. rewrite EF. apply in_or_app. auto.
    + destruct (clone_hdr c (record (lf_w l) s) t0 w) as [[t' w'] s2] eqn:Ec. pose proof (clone_hdr_tid c Ec) as ->.
      destruct (hput c h a t0 _) as [h1 a1] eqn:Ep.
      destruct (node_finish c T0 (lf' := None) (ol' := None) At (ext_refl _ _ _) eq_refl Tc
                  (sub_refl _ _) Ep) as (Po & _).
      cbn [hdspec]. repeat (split; [reflexivity|]). split; [discriminate|exact Po].
Qed.

Theorem hdel_spec : forall f s h a key t F, PExt h -> Trep h a t F -> (height t <= f)%nat ->
  hdspec h a F (hdel f s h a key) (del_node c s t key).
Proof.
  induction f as [|f IH]; intros s h a key t F PE T Hh; [destruct t; cbn [height] in Hh; lia|].
  destruct (trep_inv c _ _ _ _ T) as [(p & l & -> & Hn & Pa & ->)|(kd & t0 & p & w & ol & tch & lf & ch & Fc & -> & At & Hl & Tc)].
  { cbn [Heap.hdel del_node]. rewrite (hget_some Hn). destruct (bytes_eqb key p); cbn [hdspec]; [|exact I].
    repeat (split; [reflexivity|]). split; [discriminate|reflexivity]. }
  destruct (strip p key) as [[|b rest]|] eqn:Es.
  - apply strip_some in Es. rewrite app_nil_r in Es. subst key. destruct lf as [la|]; cbn [plrep] in Hl.
    + destruct Hl as (Pla & q & l & Hq & ->). eapply hdel_here_spec; eauto.
    + subst ol. cbn [Heap.hdel del_node]. rewrite (hget_some (proj1 At)).
      now replace (strip p p) with (Some (@nil N)) by (symmetry; apply strip_some; now rewrite app_nil_r).
  - cbn [Heap.hdel del_node]; fold (del_ch c). rewrite (hget_some (proj1 At)), Es.
    rewrite del_ch_find.
    destruct (hc_find b ch) as [cc|] eqn:Ef; [|rewrite (tchs_find_none c Tc Ef); exact I].
    destruct (node_descend c T0 At Hl Tc Ef) as (n & Fn & Hcf & Tn & K). rewrite Hcf.
    assert (Hh' : (height n <= f)%nat). { pose proof (ch_find_height _ _ _ Hcf). cbn [height] in Hh. lia. }
    pose proof (IH s h cc (b :: rest) n Fn PE Tn Hh') as Hd.
    destruct (del_node c s n (b :: rest)) as [|old repl s1 ip]; destruct (hdel f s h cc (b :: rest)) as [|old' repl' s1' h1 ip'];
      cbn [hdspec] in Hd; try contradiction; [exact I|].
    destruct Hd as (-> & -> & -> & Hip & Hr).
    destruct repl as [n'|]; destruct repl' as [x'|]; try contradiction.
    * destruct (K _ _ _ Hr) as (Up & Keep). destruct ip.
      -- (* the child was updated in place: nothing to rebuild *)
         destruct (Hip eq_refl) as ([= ->] & Hcc). destruct (Keep eq_refl Hcc) as (Ha & Po).
         cbn [hdspec]. repeat (split; [reflexivity|]). split; [auto|exact Po].
      -- destruct (clone_hdr c s1 t0 w) as [[t' w'] s2] eqn:Ec. pose proof (clone_hdr_tid c Ec) as ->.
         destruct (hput c h1 a t0 _) as [h2 a2] eqn:Ep. destruct (Up _ _ _ Ep) as (Po & Ip).
         cbn [hdspec]. repeat (split; [reflexivity|]). split; [|exact Po].
         intros Hi. apply N.eqb_eq in Hi. destruct (Ip Hi) as [-> Ha]. auto.
    * (* the child is gone: removeChild *)
      subst h1. exact (hremove_spec old s1 h a kd t0 p w lf ch ol tch Fc F b PE At Hl Tc).
  - cbn [Heap.hdel del_node]. rewrite (hget_some (proj1 At)), Es. exact I.
Qed.
End Delete.
