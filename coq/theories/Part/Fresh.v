(* Part/Fresh.v — channel accounting: every nonzero channel occurs at most once in a transaction's tree, recorded
   channels do not occur any more, all channels are below the allocator. Consequence: the channels handed out by the
   tree produced by Commit are not in the set closed by that transaction's Notify. *)
From SV Require Import Base.Bytes Base.OrdMap Part.Model Part.Sem Part.Insert Part.Delete Part.Query Part.Refine Part.Cow Part.Watch Part.Stable Part.PStable.
From Coq Require Import ZifyN ZifyNat ZifyBool.
Open Scope N_scope.

Definition ind (a w : N) : nat := if w =? a then 1%nat else 0%nat.
Definition lfc (a : N) (lf : option leafrec) : nat := match lf with Some l => ind a (lf_w l) | None => 0%nat end.
(* number of occurrences of channel a in a tree *)
Fixpoint cnt (a : N) (n : node) : nat :=
  match n with
  | Leaf _ l => ind a (lf_w l)
  | Inner _ _ _ w lf ch => (ind a w + lfc a lf + cnt_ch a ch)%nat
  end
with cnt_ch (a : N) (ch : children) : nat :=
  match ch with CNil => 0%nat | CCons _ x r => (cnt a x + cnt_ch a r)%nat end.

Definition cf := N -> nat.
Definition bounded (B : N) (C : cf) : Prop := forall a, a <> 0 -> B <= a -> C a = 0%nat.

(* one accounting step from state s to s': C the occurrences before, C' after.
   1. channels older than the allocator do not multiply; 2. a channel allocated by the step occurs at most once, and
   only if the allocator has passed it; 3. what the step records was recorded before, or lost an occurrence;
   4. the allocator only grows *)
Definition MS (C C' : cf) (s s' : st) : Prop :=
  (forall a, a <> 0 -> a < s_next s -> (C' a <= C a)%nat) /\
  (forall a, a <> 0 -> s_next s <= a -> (C' a <= 1)%nat /\ ((1 <= C' a)%nat -> a < s_next s')) /\
  (forall a, In a (s_ws s') -> In a (s_ws s) \/ (a <> 0 /\ (C' a + 1 <= C a)%nat)) /\
  s_next s <= s_next s'.

Definition cplus (C1 C2 : cf) : cf := fun a => (C1 a + C2 a)%nat.
Definition czero : cf := fun _ => 0%nat.

Lemma MS_ext C1 C1' C2 C2' s s' : (forall a, C1 a = C2 a) -> (forall a, C1' a = C2' a) -> MS C1 C1' s s' -> MS C2 C2' s s'.
Proof.
  intros E E' (M1 & M2 & M3 & M4). repeat split; auto.
  - intros a H1 H2. rewrite <- E, <- E'. auto.
  - rewrite <- E'. apply M2; auto.
  - rewrite <- E'. apply M2; auto.
  - intros a H. destruct (M3 a H) as [H1|[H1 H2]]; auto. right. rewrite <- E, <- E'. auto.
Qed.
Lemma MS_id C s : bounded (s_next s) C -> (forall a, (C a <= 1)%nat) -> MS C C s s.
Proof.
  intros Hb H1. repeat split; auto; try lia.
  - rewrite (Hb a); auto; lia.
Qed.
Lemma MS_id0 C s : bounded (s_next s) C -> MS C C s s.
Proof.
  intros Hb. repeat split; auto; try lia; rewrite (Hb a); auto; lia.
Qed.
(* an untouched part next to a changed one *)
Lemma MS_frame Ca Ca' Cb s s' : MS Ca Ca' s s' -> bounded (s_next s) Cb -> MS (cplus Ca Cb) (cplus Ca' Cb) s s'.
Proof.
  intros (M1 & M2 & M3 & M4) Hb. unfold cplus. repeat split; auto.
  - intros a H1 H2. specialize (M1 a H1 H2). lia.
  - rewrite (Hb a) by auto. destruct (M2 a H H0). lia.
  - rewrite (Hb a) by auto. destruct (M2 a H H0). intros. apply H2. lia.
  - intros a H. destruct (M3 a H) as [H1|[H1 H2]]; auto. right. split; auto. lia.
Qed.
(* two parts changed one after the other *)
Lemma MS_seq Ca Ca' Cb Cb' s s1 s2 :
  MS Ca Ca' s s1 -> MS Cb Cb' s1 s2 -> bounded (s_next s) Ca -> bounded (s_next s) Cb ->
  MS (cplus Ca Cb) (cplus Ca' Cb') s s2.
Proof.
  intros (A1 & A2 & A3 & A4) (B1 & B2 & B3 & B4) Ha Hb. unfold cplus. repeat split; try lia.
  - intros a H1 H2. specialize (A1 a H1 H2). specialize (B1 a H1 ltac:(lia)). lia.
  - destruct (A2 a H H0) as [X1 X2].
    destruct (N.lt_ge_cases a (s_next s1)) as [L|G].
    + specialize (B1 a H L). rewrite (Hb a) in B1 by auto. lia.
    + destruct (B2 a H G) as [Y1 Y2]. assert (Ca' a = 0)%nat by (destruct (Ca' a); auto; exfalso; specialize (X2 ltac:(lia)); lia). lia.
  - destruct (A2 a H H0) as [X1 X2]. intros Hs.
    destruct (N.lt_ge_cases a (s_next s1)) as [L|G]; [lia|].
    destruct (B2 a H G) as [Y1 Y2]. assert (Ca' a = 0)%nat by (destruct (Ca' a); auto; exfalso; specialize (X2 ltac:(lia)); lia).
    apply Y2. lia.
  - intros a H. destruct (B3 a H) as [H1|[H1 H2]].
    + destruct (A3 a H1) as [H3|[H3 H4]]; auto. right. split; auto.
      assert (a < s_next s) by (destruct (N.lt_ge_cases a (s_next s)); auto; rewrite (Ha a) in H4 by auto; lia).
      specialize (B1 a H3 ltac:(lia)). lia.
    + right. split; auto.
      assert (a < s_next s) by (destruct (N.lt_ge_cases a (s_next s)); auto; rewrite (Hb a) in H2 by auto; lia).
      specialize (A1 a H1 H0). lia.
Qed.

Lemma MS_le C C1' C2' s s' : (forall a, (C2' a <= C1' a)%nat) -> MS C C1' s s' -> MS C C2' s s'.
Proof.
  intros L (M1 & M2 & M3 & M4). repeat split; auto.
  - intros a H1 H2. specialize (M1 a H1 H2). specialize (L a). lia.
  - destruct (M2 a H H0). specialize (L a). lia.
  - destruct (M2 a H H0). specialize (L a). intros. apply H2. lia.
  - intros a H. destruct (M3 a H) as [H1|[H1 H2]]; auto. right. split; auto. specialize (L a). lia.
Qed.

Lemma bounded_after C C' s s' : MS C C' s s' -> bounded (s_next s') C'.
Proof.
  intros (A1 & A2 & _ & A4) a Ha Hge. destruct (A2 a Ha ltac:(lia)) as [X1 X2].
  destruct (C' a); auto. exfalso. specialize (X2 ltac:(lia)). lia.
Qed.

(* the summands in the other order; a part framed on the left *)
Lemma MS_seq_comm Ca Ca' Cb Cb' s s1 s2 :
  MS Ca Ca' s s1 -> MS Cb Cb' s1 s2 -> bounded (s_next s) Ca -> bounded (s_next s) Cb ->
  MS (cplus Cb Ca) (cplus Cb' Ca') s s2.
Proof. intros A B Ha Hb. eapply MS_ext; [| |exact (MS_seq _ _ _ _ _ _ _ A B Ha Hb)]; intros a; unfold cplus; lia. Qed.
Lemma MS_frame_l Ca Ca' Cb s s' : MS Ca Ca' s s' -> bounded (s_next s) Cb -> MS (cplus Cb Ca) (cplus Cb Ca') s s'.
Proof. intros A Hb. eapply MS_ext; [| |exact (MS_frame _ _ Cb _ _ A Hb)]; intros a; unfold cplus; lia. Qed.

Definition Ci (w : N) : cf := fun a => ind a w.
Definition Cl (lf : option leafrec) : cf := fun a => lfc a lf.
Definition Cn (n : node) : cf := fun a => cnt a n.
Definition Cch (ch : children) : cf := fun a => cnt_ch a ch.

Lemma bounded_plus B C1 C2 : bounded B (cplus C1 C2) <-> bounded B C1 /\ bounded B C2.
Proof.
  unfold bounded, cplus. split.
  - intros H. split; intros a H1 H2; specialize (H a H1 H2); lia.
  - intros [H1 H2] a Ha Hb. rewrite H1, H2; auto.
Qed.
Lemma bounded_Ci B w : bounded B (Ci w) <-> (w = 0 \/ w < B).
Proof.
  unfold bounded, Ci, ind. split.
  - intros H. destruct (N.eq_dec w 0); auto. right. destruct (N.lt_ge_cases w B); auto.
    specialize (H w n H0). rewrite N.eqb_refl in H. discriminate.
  - intros H a Ha Hb. destruct (N.eqb_spec w a); auto. lia.
Qed.
Lemma bounded_mono B B' C : B <= B' -> bounded B C -> bounded B' C.
Proof. unfold bounded. intros H Hb a Ha Hb'. apply Hb; auto. lia. Qed.
Lemma bounded_zero B : bounded B czero.
Proof. intros a _ _. reflexivity. Qed.
Lemma bounded_ext B C1 C2 : (forall a, C1 a = C2 a) -> bounded B C1 -> bounded B C2.
Proof. intros E H a Ha Hb. rewrite <- E. auto. Qed.

Lemma ind_le1 a w : (ind a w <= 1)%nat.
Proof. unfold ind. destruct (w =? a); lia. Qed.

(* a channel replaced by a fresh one (or nil), the old one recorded: cloneNode, promote, demote *)
Lemma chan_replace s s' w w' :
  (w = 0 \/ w < s_next s) ->
  (w' = 0 \/ (w' = s_next s /\ s_next s' = s_next s + 1)) -> s_next s <= s_next s' ->
  (forall a, In a (s_ws s') -> In a (s_ws s) \/ (a = w /\ w <> 0)) ->
  MS (Ci w) (Ci w') s s'.
Proof.
  intros Hw Hw' Hn Hrec. unfold Ci, ind. repeat split; auto.
  - intros a Ha Hlt. destruct (N.eqb_spec w' a), (N.eqb_spec w a); lia.
  - destruct (w' =? a); lia.
  - destruct (N.eqb_spec w' a); [|lia]. intros _. lia.
  - intros a H. destruct (Hrec a H) as [H1|[-> H2]]; auto. right. split; auto.
    rewrite N.eqb_refl. destruct (N.eqb_spec w' w); [|lia]. lia.
Qed.
Lemma chan_new c s : MS czero (Ci (fst (fresh c s))) s (snd (fresh c s)).
Proof.
  unfold fresh, czero, Ci, ind. destruct (c_ro c); cbn [fst snd s_next s_ws]; (split; [|split; [|split]]);
    try (cbn [s_next]; lia); auto;
    try (intros; cbn [s_next s_ws]; match goal with |- context [?x =? ?y] => destruct (N.eqb_spec x y) end; try split; intros; lia).
Qed.
(* a channel dropped and recorded *)
Lemma chan_drop s w : (w = 0 \/ w < s_next s) -> MS (Ci w) czero s (record w s).
Proof.
  intros Hw. unfold record, czero, Ci, ind. destruct (N.eqb_spec w 0) as [->|Hn]; repeat split; auto; cbn [s_next s_ws]; try lia.
  - intros a H. destruct H as [<-|H]; auto. right. rewrite N.eqb_refl. split; auto.
Qed.
Lemma chan_drop2 s w : (w = 0 \/ w < s_next s) -> MS (Ci w) czero s (record w (record w s)).
Proof.
  intros Hw. unfold record, czero, Ci, ind. destruct (N.eqb_spec w 0) as [->|Hn]; repeat split; auto; cbn [s_next s_ws]; try lia.
  - intros a H. destruct H as [<-|[<-|H]]; auto; right; rewrite N.eqb_refl; split; auto.
Qed.

Lemma clone_hdr_MS c s t w : (w = 0 \/ w < s_next s) ->
  MS (Ci w) (Ci (snd (fst (clone_hdr c s t w)))) s (snd (clone_hdr c s t w)).
Proof.
  intros Hw. unfold clone_hdr. destruct (t =? c_tid c); cbn [fst snd].
  - apply MS_id0. now apply bounded_Ci.
  - unfold fresh, record. destruct (c_ro c), (N.eqb_spec w 0); cbn [fst snd];
      (apply chan_replace; cbn [s_next s_ws]; auto; try lia; intros a [<-|H]; auto).
Qed.
Lemma clone_leaf_MS c s l : c_tid c <> 0 -> (lf_w l = 0 \/ lf_w l < s_next s) ->
  MS (Ci (lf_w l)) (Ci (lf_w (fst (clone_leaf c s l)))) s (snd (clone_leaf c s l)).
Proof.
  intros Hc Hw. unfold clone_leaf. destruct (N.eqb_spec 0 (c_tid c)); [congruence|].
  unfold fresh, record. destruct (c_ro c), (N.eqb_spec (lf_w l) 0); cbn [fst snd lf_w];
    (apply chan_replace; cbn [s_next s_ws]; auto; try lia; intros a [<-|H]; auto).
Qed.
(* promote: record w; fresh_if w  — demote: fresh_if w; record w *)
Lemma promote_MS s w : (w = 0 \/ w < s_next s) ->
  MS (Ci w) (Ci (fst (fresh_if w (record w s)))) s (snd (fresh_if w (record w s))).
Proof.
  intros Hw. unfold fresh_if, record. destruct (N.eqb_spec w 0); cbn [fst snd].
  - subst. apply MS_id0. apply bounded_Ci. auto.
  - apply chan_replace; cbn [s_next s_ws]; auto; try lia. intros a [<-|H]; auto.
Qed.
Lemma demote_MS s w : (w = 0 \/ w < s_next s) ->
  MS (Ci w) (Ci (fst (fresh_if w s))) s (record w (snd (fresh_if w s))).
Proof.
  intros Hw. unfold fresh_if, record. destruct (N.eqb_spec w 0); cbn [fst snd].
  - subst. apply MS_id0. apply bounded_Ci. auto.
  - apply chan_replace; cbn [s_next s_ws]; auto; try lia. intros a [<-|H]; auto.
Qed.

Lemma cnt_set_prefix a n q : cnt a (set_prefix n q) = cnt a n.
Proof. destruct n; reflexivity. Qed.
Lemma cnt_ch_insert a b x : forall ch, cnt_ch a (ch_insert b x ch) = (cnt a x + cnt_ch a ch)%nat.
Proof. induction ch as [|b0 y r IH]; simpl; auto. destruct (b <? b0); simpl; rewrite ?IH; lia. Qed.
Lemma cnt_ch_find a b : forall ch x, ch_find b ch = Some x ->
  cnt_ch a ch = (cnt a x + cnt_ch a (ch_remove b ch))%nat /\
  forall x', cnt_ch a (ch_set b x' ch) = (cnt a x' + cnt_ch a (ch_remove b ch))%nat.
Proof.
  induction ch as [|b0 y r IH]; simpl; [discriminate|]. intros x Hf. destruct (b0 =? b).
  - injection Hf as <-. split; auto.
  - destruct (IH x Hf) as [E1 E2]. simpl. split; [lia|]. intros x'. rewrite E2. lia.
Qed.
Lemma cnt_ch_other a b : forall ch y, ch_other b ch = Some y -> (cnt a y <= cnt_ch a (ch_remove b ch))%nat.
Proof.
  induction ch as [|b0 z r IH]; simpl; [discriminate|]. intros y H. destruct (b0 =? b).
  - specialize (IH y H). assert (G : (cnt_ch a (ch_remove b r) <= cnt_ch a r)%nat).
    { clear. induction r as [|b1 z1 r1 IH1]; simpl; auto. destruct (b1 =? b); simpl; lia. }
    lia.
  - injection H as <-. simpl. lia.
Qed.

(* the occurrences in a list of children = those in the child under b + those in the others: a step on that child
   frames the others. C' and ch' : what the child and the list become (ch_set b x' ch, or ch_remove b ch) *)
Lemma child_MS b ch x (C' : cf) ch' s s' : ch_find b ch = Some x ->
  (forall a, cnt_ch a ch' = (C' a + cnt_ch a (ch_remove b ch))%nat) ->
  MS (Cn x) C' s s' -> bounded (s_next s) (Cch ch) ->
  MS (Cch ch) (Cch ch') s s' /\ bounded (s_next s) (Cn x) /\ bounded (s_next s) (Cch (ch_remove b ch)).
Proof.
  intros Ef E' Mx Bc.
  assert (Ech : forall a, Cch ch a = cplus (Cn x) (Cch (ch_remove b ch)) a)
    by (intros a; unfold cplus, Cch, Cn; apply (cnt_ch_find a b ch x Ef)).
  assert (Bx : bounded (s_next s) (Cn x) /\ bounded (s_next s) (Cch (ch_remove b ch)))
    by (apply bounded_plus; eapply bounded_ext; [|exact Bc]; exact Ech).
  split; [|exact Bx]. eapply MS_ext; [| |exact (MS_frame _ _ (Cch (ch_remove b ch)) _ _ Mx (proj2 Bx))].
  - intros a. symmetry. apply Ech.
  - intros a. unfold cplus, Cch. symmetry. apply E'.
Qed.

(* a new leaf among the children *)
Lemma ch_insert_MS b q k v lw ch s s' : MS czero (Ci lw) s s' -> bounded (s_next s) (Cch ch) ->
  MS (Cch ch) (Cch (ch_insert b (Leaf q (mkLeaf k v lw)) ch)) s s'.
Proof.
  intros Mn Bc. eapply MS_ext; [| |exact (MS_frame _ _ (Cch ch) _ _ Mn Bc)]; intros a; [reflexivity|].
  unfold cplus, Cch, Ci. now rewrite cnt_ch_insert.
Qed.

Section ModAcc.
Variable c : ctx.
Variable md : option (N -> N -> N).
Variable fullKey : bytes.
Variable v : N.
Hypothesis Hc0 : c_tid c <> 0.

Lemma split_MS s this key : bounded (s_next s) (Cn this) ->
  MS (Cn this) (Cn (m_node (split_node c fullKey v s this key))) s (m_st (split_node c fullKey v s this key)).
Proof.
  clear Hc0. intros Hb. unfold split_node. cbv zeta.
  pose proof (chan_new c s) as N1. destruct (fresh c s) as [lw s1]. cbn [fst snd] in N1.
  pose proof (chan_new c s1) as N2. destruct (fresh c s1) as [nw s2]. cbn [fst snd] in N2.
  cbn [m_node m_st].
  assert (M : MS (cplus (cplus czero czero) (Cn this)) (cplus (cplus (Ci lw) (Ci nw)) (Cn this)) s s2).
  { apply MS_frame; auto. eapply MS_seq; eauto; apply bounded_zero. }
  eapply MS_le; [|eapply MS_ext; [| |exact M]; [intros a; unfold cplus, czero; simpl; reflexivity|intros a; reflexivity]].
  intros a. unfold cplus, Cn, Ci. set (this' := set_prefix this _).
  assert (E : cnt a this' = cnt a this) by apply cnt_set_prefix.
  destruct (node_prefix this') as [|tb tl]; [|destruct (skipn _ key) as [|kb kl]; [|destruct (tb <? kb)]];
    cbn [cnt cnt_ch lfc lf_w]; try lia.
  (* target prefix exhausted: only its leaf is kept *)
  destruct this' as [p0 l0|kd0 t0 p0 w0 lf0 ch0]; cbn [node_leaf lfc cnt] in *; lia.
Qed.

Lemma Cn_inner kd t p w lf ch a : Cn (Inner kd t p w lf ch) a = cplus (cplus (Ci w) (Cl lf)) (Cch ch) a.
Proof. reflexivity. Qed.

Lemma bounded_inner B kd t p w lf ch : bounded B (Cn (Inner kd t p w lf ch)) ->
  bounded B (Ci w) /\ bounded B (Cl lf) /\ bounded B (Cch ch).
Proof.
  intros H. assert (H' : bounded B (cplus (cplus (Ci w) (Cl lf)) (Cch ch))) by (eapply bounded_ext; [|exact H]; reflexivity).
  apply bounded_plus in H'. destruct H' as [H1 H2]. apply bounded_plus in H1. tauto.
Qed.

(* header step + frame of leaf and children *)
Lemma inner_hdr_MS kd kd' t t' p w w' lf ch s s' :
  MS (Ci w) (Ci w') s s' -> bounded (s_next s) (Cl lf) -> bounded (s_next s) (Cch ch) ->
  MS (Cn (Inner kd t p w lf ch)) (Cn (Inner kd' t' p w' lf ch)) s s'.
Proof.
  intros M B1 B2. pose proof (MS_frame _ _ (Cch ch) s s' (MS_frame _ _ (Cl lf) s s' M B1) B2) as M2.
  exact M2.
Qed.

Theorem modify_MS :
  (forall n s key, bounded (s_next s) (Cn n) ->
     MS (Cn n) (Cn (m_node (modify_node c md fullKey v s n key))) s (m_st (modify_node c md fullKey v s n key))) /\
  (forall ch s b key, bounded (s_next s) (Cch ch) ->
     match modify_ch c md fullKey v s ch b key with
     | Some (ch', r) => MS (Cch ch) (Cch ch') s (m_st r)
     | None => True
     end).
Proof.
  apply node_children_ind.
  - intros p l s key Hb. cbn [modify_node]. destruct (bytes_eqb key p).
    + assert (Hw : lf_w l = 0 \/ lf_w l < s_next s) by (apply bounded_Ci; exact Hb).
      pose proof (clone_leaf_MS c s l Hc0 Hw) as M. destruct (clone_leaf c s l) as [l' s']. cbn [fst snd m_node m_st] in *.
      exact M.
    + now apply split_MS.
  - intros kd t p w lf ch IH s key Hb. cbn [modify_node]; fold (modify_ch c md fullKey v).
    destruct (bounded_inner _ _ _ _ _ _ _ Hb) as (Bw & Bl & Bc).
    assert (Hw : w = 0 \/ w < s_next s) by now apply bounded_Ci.
    assert (Bwl : bounded (s_next s) (cplus (Ci w) (Cl lf))) by now apply bounded_plus.
    pose proof (clone_hdr_MS c s t w Hw) as Mh.
    destruct (strip p key) as [[|b rest]|].
    + destruct (clone_hdr c s t w) as [[t' w'] s1]. cbn [fst snd] in Mh.
      assert (N1 : s_next s <= s_next s1) by apply Mh.
      destruct lf as [l|].
      * assert (Hl : lf_w l = 0 \/ lf_w l < s_next s1).
        { assert (X : lf_w l = 0 \/ lf_w l < s_next s) by (apply bounded_Ci; exact Bl). lia. }
        pose proof (clone_leaf_MS c s1 l Hc0 Hl) as Ml. destruct (clone_leaf c s1 l) as [l' s2]. cbn [fst snd m_node m_st] in *.
        pose proof (MS_frame _ _ (Cch ch) s s2 (MS_seq _ _ _ _ s s1 s2 Mh Ml Bw Bl) Bc) as M.
        exact M.
      * pose proof (chan_new c s1) as Mn. destruct (fresh c s1) as [lw s2]. cbn [fst snd m_node m_st] in *.
        pose proof (MS_frame _ _ (Cch ch) s s2 (MS_seq _ _ _ _ s s1 s2 Mh Mn Bw (bounded_zero _)) Bc) as M.
        exact M.
    + destruct (clone_hdr c s t w) as [[t' w'] s1] eqn:Ec. cbn [fst snd] in Mh.
      assert (N1 : s_next s <= s_next s1) by apply Mh.
      specialize (IH s1 b (b :: rest) (bounded_mono _ _ _ N1 Bc)).
      destruct (modify_ch c md fullKey v s1 ch b (b :: rest)) as [[ch' r]|].
      * exact (MS_seq _ _ _ _ s s1 (m_st r) (MS_frame _ _ (Cl lf) _ _ Mh Bl) IH Bwl Bc).
      * destruct (kd <? ch_len ch + 1).
        -- pose proof (promote_MS s w Hw) as Mp. destruct (fresh_if w (record w s)) as [w2 s2]. cbn [fst snd] in Mp.
           pose proof (chan_new c s2) as Mn. destruct (fresh c s2) as [lw s3]. cbn [fst snd m_node m_st] in *.
           assert (N2 : s_next s <= s_next s2) by apply Mp.
           exact (MS_seq _ _ _ _ s s2 s3 (MS_frame _ _ (Cl lf) _ _ Mp Bl) (ch_insert_MS _ _ _ _ _ _ _ _ Mn (bounded_mono _ _ _ N2 Bc)) Bwl Bc).
        -- pose proof (chan_new c s1) as Mn. destruct (fresh c s1) as [lw s3]. cbn [fst snd m_node m_st] in *.
           exact (MS_seq _ _ _ _ s s1 s3 (MS_frame _ _ (Cl lf) _ _ Mh Bl) (ch_insert_MS _ _ _ _ _ _ _ _ Mn (bounded_mono _ _ _ N1 Bc)) Bwl Bc).
    + destruct (clone_hdr c s t w) as [[t' w'] s1]. cbn [fst snd] in Mh.
      assert (N1 : s_next s <= s_next s1) by apply Mh.
      (* header step, then the split (which records nothing) *)
      pose proof (inner_hdr_MS kd kd t t' p w w' lf ch s s1 Mh Bl Bc) as M1.
      pose proof (split_MS s1 (Inner kd t' p w' lf ch) key (bounded_after _ _ _ _ M1)) as M2.
      assert (Ews : s_ws (m_st (split_node c fullKey v s1 (Inner kd t' p w' lf ch) key)) = s_ws s1).
      { unfold split_node. cbv zeta. unfold fresh. destruct (c_ro c); reflexivity. }
      destruct M1 as (A1 & A2 & A3 & A4). destruct M2 as (B1 & B2 & B3 & B4).
      repeat split; try lia.
      * intros a Ha Hlt. specialize (A1 a Ha Hlt). specialize (B1 a Ha ltac:(lia)). lia.
      * destruct (N.lt_ge_cases a (s_next s1)) as [L|G].
        -- specialize (B1 a H L). destruct (A2 a H H0). lia.
        -- destruct (B2 a H G). lia.
      * intros Hs. destruct (N.lt_ge_cases a (s_next s1)) as [L|G]; [lia|]. destruct (B2 a H G). auto.
      * intros a Hin. rewrite Ews in Hin. destruct (A3 a Hin) as [H1|[H1 H2]]; auto. right. split; auto.
        assert (a < s_next s) by (destruct (N.lt_ge_cases a (s_next s)); auto; rewrite (Hb a) in H2 by auto; lia).
        specialize (B1 a H1 ltac:(lia)). lia.
  - intros; exact I.
  - intros b0 x IHx r IHr s b key Hb. cbn [modify_ch]; fold (modify_node c md fullKey v); fold (modify_ch c md fullKey v).
    assert (Hb' : bounded (s_next s) (cplus (Cn x) (Cch r))) by (eapply bounded_ext; [|exact Hb]; reflexivity).
    apply bounded_plus in Hb'. destruct Hb' as [Bx Br].
    destruct (b0 =? b).
    + pose proof (MS_frame _ _ (Cch r) _ _ (IHx s key Bx) Br) as M. exact M.
    + specialize (IHr s b key Br). destruct (modify_ch c md fullKey v s r b key) as [[r' res]|]; [|exact I].
      pose proof (MS_frame _ _ (Cn x) _ _ IHr Bx) as M. eapply MS_ext; [| |exact M]; intros a; unfold cplus, Cch, Cn; simpl; lia.
Qed.
End ModAcc.

Section DelAcc.
Variable c : ctx.

Definition Cres (r : option node) : cf := match r with Some n => Cn n | None => czero end.
Definition dMS (C : cf) (s : st) (r : dres) : Prop :=
  match r with DNone => True | DSome _ repl s' _ => MS C (Cres repl) s s' end.

Lemma remove_child_MS s kd t p w lf ch b x (Cx' : cf) s0 :
  (* the child under b has already been accounted for: Cn x -> czero from s0 to s *)
  ch_find b ch = Some x ->
  bounded (s_next s0) (Ci w) -> bounded (s_next s0) (Cl lf) -> bounded (s_next s0) (Cch ch) ->
  MS (Cn x) czero s0 s ->
  let r := remove_child c s kd t p w lf ch b in
  MS (Cn (Inner kd t p w lf ch)) (Cn (fst (fst r))) s0 (snd (fst r)).
Proof.
  intros Hf Bw Bl Bc Mx. cbv zeta.
  destruct (child_MS b ch x czero (ch_remove b ch) s0 s Hf (fun a => eq_refl) Mx Bc) as (Mc & _).
  assert (N1 : s_next s0 <= s_next s) by apply Mx.
  assert (Hw : w = 0 \/ w < s_next s) by (apply bounded_Ci in Bw; lia).
  assert (Bwl : bounded (s_next s0) (cplus (Ci w) (Cl lf))) by now apply bounded_plus.
  (* the children's step first (s0 -> s), then a step of the header with the leaf framed (s -> s') *)
  assert (Generic : forall (Ch' : cf) s', MS (Ci w) Ch' s s' ->
            MS (Cn (Inner kd t p w lf ch)) (cplus (cplus Ch' (Cl lf)) (Cch (ch_remove b ch))) s0 s')
    by (intros Ch' s' Mh; exact (MS_seq_comm _ _ _ _ s0 s s' Mc (MS_frame _ _ (Cl lf) _ _ Mh (bounded_mono _ _ _ N1 Bl)) Bc Bwl)).
  destruct (remove_child_cases c s kd t p w lf ch b) as [(y & _ & -> & Eo & ->)|[(kd' & ->)| ->]]; cbn [fst snd].
  - eapply MS_le; [|exact (Generic _ _ (chan_drop s w Hw))].
    intros a. unfold cplus, czero, Cl, Cn, Cch, merge_child. rewrite cnt_set_prefix. pose proof (cnt_ch_other a b ch y Eo).
    cbn [lfc]. lia.
  - exact (Generic _ _ (demote_MS s w Hw)).
  - exact (Generic _ _ (clone_hdr_MS c s t w Hw)).
Qed.

Theorem delete_MS :
  (forall n s key, bounded (s_next s) (Cn n) -> dMS (Cn n) s (del_node c s n key)) /\
  (forall ch s b key, bounded (s_next s) (Cch ch) ->
     match del_ch c s ch b key with
     | DNone => True
     | DSome _ repl s' _ =>
       exists x, ch_find b ch = Some x /\ MS (Cn x) (Cres repl) s s'
     end).
Proof.
  apply node_children_ind.
  - intros p l s key Hb. cbn [del_node]. destruct (bytes_eqb key p); [|exact I]. cbn [dMS Cres].
    apply chan_drop2. apply bounded_Ci. exact Hb.
  - intros kd t p w lf ch IH s key Hb. cbn [del_node]; fold (del_ch c).
    destruct (bounded_inner _ _ _ _ _ _ _ Hb) as (Bw & Bl & Bc).
    assert (Hw : w = 0 \/ w < s_next s) by now apply bounded_Ci.
    destruct (strip p key) as [[|b rest]|]; [| |exact I].
    + destruct lf as [l|]; [|exact I].
      assert (Hl : lf_w l = 0 \/ lf_w l < s_next s) by (apply bounded_Ci; exact Bl).
      pose proof (chan_drop s (lf_w l) Hl) as Ml. set (s1 := record (lf_w l) s) in *.
      assert (N1 : s_next s1 = s_next s) by (unfold s1, record; destruct (lf_w l =? 0); reflexivity).
      assert (Hw1 : w = 0 \/ w < s_next s1) by lia.
      destruct ch as [|b1 x1 [|b2 x2 r]].
      * exact (MS_frame _ _ (Cch CNil) _ _ (MS_seq_comm _ _ _ _ s s1 _ Ml (chan_drop s1 w Hw1) Bl Bw) Bc).
      * cbn [dMS Cres].
        pose proof (MS_frame _ _ (Cch (CCons b1 x1 CNil)) _ _ (MS_seq_comm _ _ _ _ s s1 _ Ml (chan_drop s1 w Hw1) Bl Bw) Bc) as M.
        eapply MS_ext; [| |exact M]; intros a; [reflexivity|].
        unfold cplus, Cn, Cch, czero, merge_child. rewrite cnt_set_prefix. cbn [cnt_ch]. lia.
      * pose proof (clone_hdr_MS c s1 t w Hw1) as Mh. destruct (clone_hdr c s1 t w) as [[t' w'] s2]. cbn [fst snd dMS Cres] in *.
        exact (MS_frame _ _ (Cch (CCons b1 x1 (CCons b2 x2 r))) _ _ (MS_seq_comm _ _ _ _ s s1 s2 Ml Mh Bl Bw) Bc).
    + specialize (IH s b (b :: rest) Bc).
      destruct (del_ch c s ch b (b :: rest)) as [|old repl s1 ip]; [exact I|].
      destruct IH as (x & Ef & Mx).
      assert (N1 : s_next s <= s_next s1) by apply Mx.
      assert (Hw1 : w = 0 \/ w < s_next s1) by lia.
      assert (Bwl : bounded (s_next s) (cplus (Ci w) (Cl lf))) by now apply bounded_plus.
      destruct repl as [x'|].
      * cbn [Cres] in Mx.
        destruct (child_MS b ch x (Cn x') (ch_set b x' ch) s s1 Ef (fun a => proj2 (cnt_ch_find a b ch x Ef) x') Mx Bc) as (Mc & _).
        destruct ip.
        -- exact (MS_frame_l _ _ _ _ _ Mc Bwl).
        -- pose proof (clone_hdr_MS c s1 t w Hw1) as Mh. destruct (clone_hdr c s1 t w) as [[t' w'] s2]. cbn [fst snd dMS Cres] in *.
           exact (MS_seq_comm _ _ _ _ s s1 s2 Mc (MS_frame _ _ (Cl lf) _ _ Mh (bounded_mono _ _ _ N1 Bl)) Bc Bwl).
      * cbn [Cres] in Mx.
        pose proof (remove_child_MS s1 kd t p w lf ch b x czero s Ef Bw Bl Bc Mx) as R.
        destruct (remove_child c s1 kd t p w lf ch b) as [[n' s2] ip']. cbn [fst snd dMS Cres] in *. exact R.
  - intros; exact I.
  - intros b0 y IHy r IHr s b key Hb. cbn [del_ch ch_find]; fold (del_node c); fold (del_ch c).
    assert (Hb' : bounded (s_next s) (cplus (Cn y) (Cch r))) by (eapply bounded_ext; [|exact Hb]; reflexivity).
    apply bounded_plus in Hb'. destruct Hb' as [By Br].
    destruct (b0 =? b).
    + specialize (IHy s key By). destruct (del_node c s y key) as [|old repl s' ip]; [exact I|].
      exists y. split; auto.
    + apply IHr. exact Br.
Qed.
End DelAcc.

Lemma ind_self a : ind a a = 1%nat.
Proof. unfold ind. now rewrite N.eqb_refl. Qed.

Definition Croot (r : option node) : cf := match r with Some n => Cn n | None => czero end.

(* a channel a query meets occurs in the tree *)
Lemma trail_occurs m :
  (forall n k a, In a (trail m n k) -> (1 <= cnt a n)%nat) /\
  (forall ch b k a, In a (trail_ch m ch b k) -> (1 <= cnt_ch a ch)%nat).
Proof.
  apply node_children_ind.
  - intros p l k a Ha. apply own_leaf_in in Ha. subst a. cbn [cnt]. rewrite ind_self. lia.
  - intros kd t p w lf ch IH k a. rewrite trail_inner. cbn [cnt].
    assert (Hw : a = w -> (1 <= ind a w + lfc a lf + cnt_ch a ch)%nat) by (intros ->; rewrite ind_self; lia).
    destruct (strip p k) as [[|b rest]|];
      try (intros Ha; apply own_inner_in in Ha; destruct Ha as [E|(_ & l & -> & ->)]; [auto|cbn [lfc]; rewrite ind_self; lia]).
    intros Ha. apply in_app_or in Ha. destruct Ha as [Ha|Ha]; [|apply IH in Ha; lia].
    apply Hw. destruct m; cbn in Ha; intuition.
  - intros b k a [].
  - intros b0 x IHx r IHr b k a. rewrite trail_ch_cons. cbn [cnt_ch].
    destruct (b0 =? b); intros Ha; [apply IHx in Ha|apply IHr in Ha]; lia.
Qed.
(* what a query hands out: the inherited channel, or a channel occurring in the tree *)
Lemma rq_occurs m r rw k : rq m r rw k = rw \/ (rq m r rw k <> 0 /\ (1 <= Croot r (rq m r rw k))%nat).
Proof.
  destruct r as [n|]; [|left; reflexivity]. cbn [rq Croot].
  destruct (pickl_in (trail m n k) rw) as [E|[I Hn]]; [left; exact E|right]. split; [exact Hn|now apply (proj1 (trail_occurs m) n k)].
Qed.

Record CKp (C : cf) (s : st) (rw : N) : Prop := mkCK {
  ck_bound : bounded (s_next s) C;
  ck_uniq : forall a, a <> 0 -> (C a <= 1)%nat;
  ck_ws : forall a, In a (s_ws s) -> a <> 0 /\ a < s_next s /\ C a = 0%nat /\ a <> rw;
  ck_rw : rw = 0 \/ (rw < s_next s /\ C rw = 0%nat);
  ck_pos : 0 < s_next s
}.
Definition CK (x : txn) : Prop := CKp (Croot (t_root x)) (t_st x) (t_rw x).

Lemma CK_step C C' s s' rw : CKp C s rw -> MS C C' s s' -> CKp C' s' rw.
Proof.
  intros [Hb Hu Hw Hr Hp] M. pose proof (bounded_after _ _ _ _ M) as Hb'. destruct M as (M1 & M2 & M3 & M4).
  constructor; auto.
  - intros a Ha. destruct (N.lt_ge_cases a (s_next s)) as [L|G].
    + specialize (M1 a Ha L). specialize (Hu a Ha). lia.
    + apply M2; auto.
  - intros a Hin. destruct (M3 a Hin) as [H|[Ha H]].
    + destruct (Hw a H) as (A1 & A2 & A3 & A4). repeat split; auto; try lia. specialize (M1 a A1 A2). lia.
    + assert (L : a < s_next s) by (destruct (N.lt_ge_cases a (s_next s)); auto; rewrite (Hb a) in H by auto; lia).
      specialize (Hu a Ha). repeat split; auto; try lia.
      intros ->. destruct Hr as [E|[_ E]]; [congruence|]. rewrite E in H. lia.
  - destruct (N.eq_dec rw 0) as [Z|Z]; [left; exact Z|]. destruct Hr as [E|[L E]]; [congruence|]. right. split; [lia|].
    specialize (M1 rw Z L). lia.
  - lia.
Qed.

Lemma wstep_CK x o : t_tid x <> 0 -> CK x -> CK (wstep x o).
Proof.
  intros Hc0 H. unfold CK in *.
  assert (Mod : forall md k' v, CKp (Croot (t_root (fst (fst (fst (txn_modify x md k' v))))))
                  (t_st (fst (fst (fst (txn_modify x md k' v))))) (t_rw (fst (fst (fst (txn_modify x md k' v)))))).
  { intros md k' v. unfold txn_modify. destruct (t_root x) as [n|].
    - cbn [fst t_root t_st t_rw Croot] in *. eapply CK_step; [exact H|].
      apply (proj1 (modify_MS (txn_ctx x) md k' v Hc0)). apply H.
    - pose proof (chan_new (txn_ctx x) (t_st x)) as Mn. destruct (fresh (txn_ctx x) (t_st x)) as [lw s1].
      cbn [fst snd t_root t_st t_rw Croot m_node m_st] in *. eapply CK_step; [exact H|exact Mn]. }
  destruct o as [k' v|k' v f|k'|]; cbn [wstep]; [apply Mod|apply Mod| |exact H].
  unfold txn_delete. destruct (t_root x) as [n|] eqn:Er; [|cbn [fst]; rewrite Er; exact H].
  cbn [Croot] in H. pose proof (proj1 (delete_MS (txn_ctx x)) n (t_st x) k' (ck_bound _ _ _ H)) as D.
  destruct (del_node (txn_ctx x) (t_st x) n k') as [|old repl s' ip]; cbn [fst t_root t_st t_rw].
  - rewrite Er. exact H.
  - cbn [dMS] in D. eapply CK_step; [exact H|]. destruct repl; exact D.
Qed.

Lemma wstep_tid x o : t_tid x <> 0 -> t_tid (wstep x o) <> 0.
Proof.
  intros H. destruct o as [k' v|k' v f|k'|]; cbn [wstep]; auto.
  - unfold txn_delete. destruct (t_root x); auto. destruct (del_node _ _ _ _); auto.
  - simpl. lia.
Qed.
Lemma run_CK ops : forall x, t_tid x <> 0 -> CK x -> CK (fold_left wstep ops x).
Proof.
  induction ops as [|o r IH]; intros x H0 H; simpl; auto. apply IH; [now apply wstep_tid|now apply wstep_CK].
Qed.

(* tree-level invariant, inductive along commits *)
Definition CKt (t : tree) (next : N) : Prop := CKp (Croot (tr_root t)) (mkSt [] next) (tr_rw t).

(* CommitAndNotify (Notify, then Commit) produces the same tree as Commit *)
Lemma commit_notify_same_tree x : snd (fst (txn_commit_notify x)) = snd (txn_commit x).
Proof. unfold txn_commit_notify, txn_notify, txn_commit. destruct (t_dirty x); reflexivity. Qed.

Theorem new_tree_channels_open t next ops :
  CKt t next -> tr_next t <> 0 ->
  let xe := fold_left wstep ops (tree_txn t next) in
  let cl := snd (txn_notify xe) in
  let t' := snd (txn_commit xe) in
  (forall k, snd (tree_get t' k) <> 0 -> ~ In (snd (tree_get t' k)) cl) /\
  (forall q, snd (tree_prefix t' q) <> 0 -> ~ In (snd (tree_prefix t' q)) cl) /\
  (tr_rw t' <> 0 -> ~ In (tr_rw t') cl) /\
  CKt t' (s_next (t_st (fst (txn_commit xe)))).
Proof.
  intros Ht Hnz. cbv zeta.
  pose proof (run_CK ops (tree_txn t next) Hnz Ht) as Hk.
  set (xe := fold_left wstep ops (tree_txn t next)) in *. unfold CK in Hk. destruct Hk as [Hb Hu Hw Hr Hpos].
  rewrite notify_closes.
  set (C := Croot (t_root xe)) in *. set (B := s_next (t_st xe)) in *.
  (* the new root channel *)
  assert (Rw' : tr_rw (snd (txn_commit xe)) = if t_dirty xe then B else t_rw xe)
    by (unfold txn_commit; destruct (t_dirty xe); reflexivity).
  assert (Root' : tr_root (snd (txn_commit xe)) = t_root xe)
    by (unfold txn_commit; destruct (t_dirty xe); reflexivity).
  assert (ClB : forall a, In a (s_ws (t_st xe) ++ (if t_dirty xe && negb (t_rw xe =? 0) then [t_rw xe] else [])) ->
                a <> 0 /\ a < B /\ C a = 0%nat /\ (t_dirty xe = false -> a <> t_rw xe)).
  { intros a Hin. apply in_app_or in Hin. destruct Hin as [Hin|Hin].
    - destruct (Hw a Hin) as (A1 & A2 & A3 & A4). auto.
    - destruct (t_dirty xe); [|destruct Hin]. destruct (N.eqb_spec (t_rw xe) 0); [destruct Hin|].
      destruct Hin as [<-|[]]. destruct Hr as [E|[L E]]; [congruence|]. repeat split; auto. discriminate. }
  assert (NewRw : tr_rw (snd (txn_commit xe)) <> 0 ->
            ~ In (tr_rw (snd (txn_commit xe))) (s_ws (t_st xe) ++ (if t_dirty xe && negb (t_rw xe =? 0) then [t_rw xe] else []))).
  { intros Hn Hin. destruct (ClB _ Hin) as (A1 & A2 & A3 & A4). rewrite Rw' in *. destruct (t_dirty xe); [lia|]. now apply A4. }
  assert (Occ : forall a, a <> 0 -> (1 <= C a)%nat ->
            ~ In a (s_ws (t_st xe) ++ (if t_dirty xe && negb (t_rw xe =? 0) then [t_rw xe] else []))).
  { intros a Ha Hc Hin. destruct (ClB _ Hin) as (_ & _ & A3 & _). lia. }
  split; [|split; [|split]].
  - intros k. unfold tree_get. rewrite rq_get, Root'. intros Hn.
    destruct (rq_occurs QGet (t_root xe) (tr_rw (snd (txn_commit xe))) k) as [E|[_ E]]; [rewrite E in *; now apply NewRw|now apply Occ].
  - intros q. unfold tree_prefix. rewrite rq_prefix, Root'. intros Hn.
    destruct (rq_occurs QPre (t_root xe) (tr_rw (snd (txn_commit xe))) q) as [E|[_ E]]; [rewrite E in *; now apply NewRw|now apply Occ].
  - exact NewRw.
  - unfold CKt. rewrite Root', Rw'. fold C.
    assert (Nx : s_next (t_st (fst (txn_commit xe))) = if t_dirty xe then B + 1 else B)
      by (unfold txn_commit; destruct (t_dirty xe); reflexivity).
    rewrite Nx. constructor; cbn [s_next s_ws].
    + eapply bounded_mono; [|exact Hb]. destruct (t_dirty xe); fold B; lia.
    + exact Hu.
    + intros a [].
    + destruct (t_dirty xe).
      * right. split; [lia|]. apply Hb; fold B; lia.
      * destruct Hr as [E|[L E]]; auto.
    + destruct (t_dirty xe); fold B in Hpos; lia.
Qed.

Lemma tree_new_CKt ro next : 0 < next -> CKt (fst (tree_new ro next)) (next + 1).
Proof.
  intros Hp. unfold CKt, tree_new. cbn [fst tr_root tr_rw Croot]. constructor; cbn [s_next s_ws].
  - apply bounded_zero.
  - intros; unfold czero; lia.
  - intros a [].
  - right. split; [lia|reflexivity].
  - lia.
Qed.
Lemma CKt_mono t next next' : next <= next' -> CKt t next -> CKt t next'.
Proof.
  intros H [Hb Hu Hw Hr Hp]. constructor; cbn [s_next s_ws] in *;
    [eapply bounded_mono; eauto|exact Hu|intros a []|destruct Hr as [E|[L E]]; [left; exact E|right; split; [lia|exact E]]|lia].
Qed.

(* exact root-watch clause: the root channel of the previous tree is closed iff the txn changed something *)
Theorem root_watch_closed_iff_exact t next ops :
  tree_ok t -> CKt t next -> tr_next t <> 0 -> tr_rw t <> 0 ->
  (In (tr_rw t) (snd (txn_notify (fold_left wstep ops (tree_txn t next)))) <-> any_change (abs_tree t) ops = true).
Proof.
  intros Hok Hck Hnz Hrw.
  pose proof (root_watch_closed_iff t next ops Hok Hrw) as R. cbv zeta in R. rewrite R.
  pose proof (run_CK ops (tree_txn t next) Hnz Hck) as Hk.
  destruct (tree_txn_ok t next Hok) as [H1 _]. destruct (dirty_iff_changed ops _ H1) as [_ Erw]. cbn [tree_txn t_rw] in Erw.
  split; [|auto]. intros [H|H]; auto. exfalso.
  destruct (ck_ws _ _ _ Hk _ H) as (_ & _ & _ & Hne). rewrite Erw in Hne. congruence.
Qed.
