(* Part/TxnHandles.v — C06: watch handles taken INSIDE a write transaction (on the txn's own uncommitted tree).

   part_index.go, queries on a partIndexTxn (the index inside an open WriteTxn):
     list / prefix / lowerBound / lowerBoundNext / all : `snapshot := r.tx.Clone()` (txn.txnID++), then the Tree
        operation on the snapshot (snapshot.Get / snapshot.Prefix) or r.tx.RootWatch();
     get on a non-unique index                       : r.tx.Prefix(key)  (txn.txnID++ first, part/txn.go);
     get on a unique index                           : r.tx.Get(key)     (NO txnID bump: search(txn.root, txn.rootWatch, key)).
   After the query the transaction goes on writing (ops2), then Commit and Notify.

   [txn_query_clone]: the first two cases. The bump freezes every node reachable at query time: whatever a later
   operation of the transaction changes below a node, it clones the node and records its channel. PROVED
   (handle_inside_txn): the channel handed out is closed by the transaction's Notify if the committed tree differs
   from the tree at query time at a key the handle covers; otherwise it is closed or it is still the channel the
   committed tree returns for the handle; the committed tree satisfies tree_inv again, so the history theorem
   (Part/Footprint.v chain_changed_key_closes_handle) applies from there (Properties/C06.v C06_handle_inside_txn_history).

   [txn_query_get]: Txn.Get without a bump. The same holds PROVIDED the channel is not the channel of an inner node
   private to the transaction at hand-out (root_priv_ne; e.g. the channel existed before the transaction began)
   (get_inside_txn, get_inside_txn_old_channel).
   WITHOUT the proviso it is FALSE (the witness rf_* below, Properties/C06.v C06_get_handle_inside_txn_own_later_write_refuted): Get of an absent key returns the channel of the deepest
   inner node on the search path; if an earlier write of the same transaction created or cloned that node, a later
   Insert of the key mutates the node in place (cloneNode returns n when n.txnID == txn.txnID, the channel is not
   recorded): the channel is neither closed by Notify nor what Get returns on the committed tree. This case is OUTSIDE the
   quantifier of C06/C12 (handles taken on snapshots / committed trees, changes by LATER transactions); the node and its
   channel stay in the committed tree on the search path of the key, so a later transaction that changes the key clones
   the node and closes the channel: shown for the witness, for every later transaction and every chain of later
   transactions (get_inside_txn_witness_later_closes). The general form of that last statement ("not closed => still the
   channel of Prefix(q) on the committed tree for a prefix q of the key") needs stability lemmas for channels of
   txn-private nodes, which Part/Stable.v does not provide (private channels are the `F a` case of its vrec); not proved. *)
From SV Require Import Base.Bytes Base.OrdMap Part.Model Part.Sem Part.Refine Part.Cow Part.Watch Part.Stable
  Part.PStable Part.WatchHist Part.PrefixHist Part.InsertWatch Part.Fresh Part.Footprint.
From Coq Require Import ZifyN ZifyNat ZifyBool.
Open Scope N_scope.

(* Clone, then the handle on the snapshot: (the transaction afterwards, the channel handed out) *)
Definition txn_query_clone (x : txn) (h : handle) : txn * N :=
  (fst (txn_clone x), h_chan (snd (txn_clone x)) h).
(* Txn.Get, no bump *)
Definition txn_query_get (x : txn) (k : bytes) : txn * N := (x, snd (txn_get x k)).

(* Txn.Prefix (bump, then prefixSearch on the txn's root) is the Clone query for HPrefix *)
Lemma txn_prefix_is_clone_query x q :
  (fst (txn_prefix x q), snd (snd (txn_prefix x q))) = txn_query_clone x (HPrefix q).
Proof. reflexivity. Qed.
(* Txn.RootWatch *)
Lemma txn_root_is_clone_query x : snd (txn_query_clone x HRoot) = t_rw x.
Proof. reflexivity. Qed.

(* the transaction's current tree as a Tree value (what Clone returns, up to the id) *)
Definition txn_view (x : txn) : tree := mkTree (t_root x) (t_rw x) (t_size x) (t_ro x) (t_tid x).

Lemma view_clone x h : h_chan (snd (txn_clone x)) h = h_chan (txn_view x) h.
Proof. destruct h; reflexivity. Qed.
Lemma view_get x k : snd (txn_get x k) = h_chan (txn_view x) (HGet k).
Proof. reflexivity. Qed.

Section Priv.
Variable c : ctx.
Variable a : N.
Fixpoint priv_ne (n : node) : Prop :=
  match n with
  | Leaf _ _ => True
  | Inner _ t _ w _ ch => (t = c_tid c -> w <> a) /\ priv_ne_ch ch
  end
with priv_ne_ch (ch : children) : Prop :=
  match ch with CNil => True | CCons _ x r => priv_ne x /\ priv_ne_ch r end.

Lemma privF_and_priv (F1 : N -> Prop) :
  (forall n, privF c F1 n -> priv_ne n -> privF c (fun b => F1 b /\ b <> a) n) /\
  (forall ch, privF_ch c F1 ch -> priv_ne_ch ch -> privF_ch c (fun b => F1 b /\ b <> a) ch).
Proof.
  apply node_children_ind.
  - intros; exact I.
  - intros kd t p w0 lf ch IH [H1 H2] [N1 N2]. split; [|apply IH; auto].
    intros E. destruct (H1 E) as [Z|Z]; [left; exact Z|right; split; auto].
  - intros; exact I.
  - intros b x IHx r IHr [H1 H2] [N1 N2]. split; [apply IHx|apply IHr]; auto.
Qed.

(* no node private: nothing to check *)
Lemma priv_ne_of_tids_lt T : T < c_tid c ->
  (forall n, tids_le T n -> priv_ne n) /\ (forall ch, tids_le_ch T ch -> priv_ne_ch ch).
Proof.
  intros HT. apply node_children_ind.
  - intros; exact I.
  - intros kd t p w lf ch IH [H1 H2]. split; [intros E; lia|apply IH; exact H2].
  - intros; exact I.
  - intros b x IHx r IHr [H1 H2]. split; [apply IHx; exact H1|apply IHr; exact H2].
Qed.

(* private nodes carry channels allocated by the transaction: an older channel is none of them *)
Lemma priv_ne_of_privF next0 : a <> 0 -> a < next0 ->
  (forall n, privF c (Fr next0) n -> priv_ne n) /\ (forall ch, privF_ch c (Fr next0) ch -> priv_ne_ch ch).
Proof.
  intros Ha Hlt. apply node_children_ind.
  - intros; exact I.
  - intros kd t p w lf ch IH [H1 H2]. split; [|apply IH; exact H2].
    intros E Hw. destruct (H1 E) as [Z|Z]; [congruence|]. unfold Fr in Z. lia.
  - intros; exact I.
  - intros b x IHx r IHr [H1 H2]. split; [apply IHx; exact H1|apply IHr; exact H2].
Qed.

Lemma priv_ne_of_inner_ne :
  (forall n, inner_ne a n -> priv_ne n) /\ (forall ch, inner_ne_ch a ch -> priv_ne_ch ch).
Proof.
  apply node_children_ind.
  - intros; exact I.
  - intros kd t p w lf ch IH [H1 H2]. split; [auto|apply IH; exact H2].
  - intros; exact I.
  - intros b x IHx r IHr [H1 H2]. split; [apply IHx; exact H1|apply IHr; exact H2].
Qed.
End Priv.

Definition root_priv_ne (x : txn) (a : N) : Prop :=
  match t_root x with Some n => priv_ne (txn_ctx x) a n | None => True end.

Lemma view_CKt x : CK x -> CKt (txn_view x) (s_next (t_st x)).
Proof.
  intros [Hb Hu Hw Hr Hp]. unfold CKt. cbn [txn_view tr_root tr_rw]. constructor; cbn [s_next s_ws]; auto.
  intros a [].
Qed.

Theorem handle_in_txn_state next x h ops :
  TInv next (Fr next) x -> CK x -> txn_ok x -> t_rw x <> 0 ->
  let a := h_chan (txn_view x) h in
  root_priv_ne x a ->
  let xe := fold_left wstep ops x in
  a <> 0 /\ a < s_next (t_st x) /\
  ((exists K, h_covers h K = true /\ om_get K (abs_tree (snd (txn_commit xe))) <> om_get K (abs_txn x)) ->
   In a (snd (txn_notify xe))) /\
  (In a (snd (txn_notify xe)) \/ h_chan (snd (txn_commit xe)) h = a).
Proof.
  intros HT HCK Hok Hrw a Hpn xe.
  assert (Ha0 : a <> 0) by (apply h_chan_nz; exact Hrw).
  set (B := s_next (t_st x)).
  assert (Hlt : a < B) by (apply h_chan_lt; [now apply view_CKt|exact Ha0]).
  split; [exact Ha0|]. split; [exact Hlt|].
  destruct HT as (Hc0 & Hr & Hn).
  (* from here on a itself counts as not private: the allocator has passed it *)
  set (F := fun b => Fr next b /\ b <> a).
  assert (HF : forall b, B <= b -> F b) by (intros b Hb; unfold F, Fr; split; lia).
  assert (HnF : ~ F a) by (intros [_ H]; congruence).
  assert (T2 : TInv B F x).
  { unfold TInv. split; [exact Hc0|]. split; [|unfold B; lia]. unfold root_inv, root_priv_ne in *.
    destruct (t_root x) as [n|]; auto. destruct Hr as (P1 & L1 & M1). split; [|split; assumption].
    apply (proj1 (privF_and_priv (txn_ctx x) a (Fr next))); assumption. }
  destruct (history_refines ops x Hok) as [Xok Xa]. fold xe in Xok, Xa.
  destruct (txn_commit_ok xe Xok) as (_ & Ca & _).
  assert (J1 : J (h_mode h) (h_key h) a x) by (right; symmetry; apply (h_chan_rq (txn_view x))).
  split.
  - intros [K [Hc Hd]]. rewrite Ca, Xa in Hd.
    apply (touched_q_closed B F HF (h_mode h) (h_key h) a Ha0 HnF ops x T2 J1), differ_touched; [exact Hok|].
    exists K. split; [now apply h_covers_spec|exact Hd].
  - rewrite h_chan_rq. apply (J_commit _ _ a Ha0). exact (run_J B F HF _ _ a HnF ops x T2 J1).
Qed.

Lemma txn_state_invs t next ops1 : tree_inv t next ->
  let x := fold_left wstep ops1 (tree_txn t next) in
  TInv next (Fr next) x /\ CK x /\ txn_ok x /\ t_rw x <> 0 /\ abs_txn x = fold_left mstep ops1 (abs_tree t).
Proof.
  intros (Hok & Hids & Hnz & Hm & Hck & Hrw). cbv zeta.
  destruct (tree_txn_ok t next Hok) as [Tok Ta].
  destruct (history_refines ops1 _ Tok) as [Xok Xa].
  split; [apply run_TInv; now apply tree_txn_TInv|].
  split; [apply run_CK; [exact Hnz|exact Hck]|].
  split; [exact Xok|]. split; [now rewrite run_rw|]. now rewrite Xa, Ta.
Qed.

(* (1) QUERIES THAT FREEZE THE TREE (Clone / Txn.Prefix). t: a committed tree; ops1: the operations of the write
   transaction before the query; h: any handle; a: the channel handed out; ops2: the operations after the query. *)
Theorem handle_inside_txn t next ops1 ops2 h :
  tree_inv t next ->
  let x := fold_left wstep ops1 (tree_txn t next) in
  let a := snd (txn_query_clone x h) in
  let xe := fold_left wstep ops2 (fst (txn_query_clone x h)) in
  a <> 0 /\
  ((exists K, h_covers h K = true /\ om_get K (abs_tree (snd (txn_commit xe))) <> om_get K (abs_txn x)) ->
   In a (snd (txn_notify xe))) /\
  (In a (snd (txn_notify xe)) \/ h_chan (snd (txn_commit xe)) h = a) /\
  tree_inv (snd (txn_commit xe)) (s_next (t_st (fst (txn_commit xe)))).
Proof.
  intros HI. cbv zeta. cbn [txn_query_clone fst snd].
  destruct (txn_state_invs t next ops1 HI) as (HT & HCK & Hok & Hrw & Ea). cbv zeta in *.
  set (x := fold_left wstep ops1 (tree_txn t next)) in *.
  change (fst (txn_clone x)) with (wstep x WBump).
  assert (HT' : TInv next (Fr next) (wstep x WBump)) by (apply (wstep_TInv next (Fr next) (Fr_alloc next)); exact HT).
  assert (HCK' : CK (wstep x WBump)) by (apply wstep_CK; [apply HT|exact HCK]).
  destruct (wstep_refines x WBump Hok) as [Hok' Ea'].
  rewrite view_clone.
  change (h_chan (txn_view x) h) with (h_chan (txn_view (wstep x WBump)) h).
  assert (Hpn : root_priv_ne (wstep x WBump) (h_chan (txn_view (wstep x WBump)) h)).
  { unfold root_priv_ne. cbn [wstep bump t_root txn_ctx t_tid t_ro].
    destruct HT as (_ & Hr & _). unfold root_inv in Hr. destruct (t_root x) as [n|]; [|exact I].
    destruct Hr as (_ & Hl & _).
    apply (proj1 (priv_ne_of_tids_lt (mkCtx (t_tid x + 1) (t_ro x)) _ (t_tid x) ltac:(simpl; lia))). exact Hl. }
  pose proof (handle_in_txn_state next (wstep x WBump) h ops2 HT' HCK' Hok' Hrw Hpn) as H. cbv zeta in H.
  destruct H as (A & _ & C & D).
  assert (Eabs : abs_txn (wstep x WBump) = abs_txn x) by reflexivity.
  rewrite Eabs in C.
  split; [exact A|]. split; [exact C|]. split; [exact D|].
  unfold x. change (fold_left wstep ops2 (wstep ?y WBump)) with (fold_left wstep (WBump :: ops2) y).
  rewrite <- fold_left_app. apply commit_tree_inv. exact HI.
Qed.


(* (2) Txn.Get WITHOUT a bump: the same, provided the channel is not the channel of an inner node private to the txn *)
Theorem get_inside_txn t next ops1 ops2 k :
  tree_inv t next ->
  let x := fold_left wstep ops1 (tree_txn t next) in
  let a := snd (txn_query_get x k) in
  let xe := fold_left wstep ops2 (fst (txn_query_get x k)) in
  root_priv_ne x a ->
  a <> 0 /\
  ((om_get k (abs_tree (snd (txn_commit xe))) <> om_get k (abs_txn x)) -> In a (snd (txn_notify xe))) /\
  (In a (snd (txn_notify xe)) \/ snd (tree_get (snd (txn_commit xe)) k) = a) /\
  tree_inv (snd (txn_commit xe)) (s_next (t_st (fst (txn_commit xe)))).
Proof.
  intros HI. cbv zeta. cbn [txn_query_get fst snd]. intros Hpn.
  destruct (txn_state_invs t next ops1 HI) as (HT & HCK & Hok & Hrw & Ea). cbv zeta in *.
  set (x := fold_left wstep ops1 (tree_txn t next)) in *.
  rewrite view_get in *.
  pose proof (handle_in_txn_state next x (HGet k) ops2 HT HCK Hok Hrw Hpn) as H. cbv zeta in H.
  destruct H as (A & _ & C & D). cbn [h_chan h_covers] in *.
  split; [exact A|]. split; [|split; [exact D|]].
  - intros Hd. apply C. exists k. split; [apply bytes_eqb_refl|exact Hd].
  - unfold x. rewrite <- fold_left_app. apply commit_tree_inv. exact HI.
Qed.

(* the proviso holds when the channel existed before the transaction began *)
Corollary get_inside_txn_old_channel t next ops1 k :
  tree_inv t next ->
  let x := fold_left wstep ops1 (tree_txn t next) in
  snd (txn_get x k) < next -> root_priv_ne x (snd (txn_get x k)).
Proof.
  intros HI x Hlt.
  destruct (txn_state_invs t next ops1 HI) as (HT & HCK & Hok & Hrw & Ea). cbv zeta in *. fold x in HT, HCK, Hok, Hrw.
  assert (Ha0 : snd (txn_get x k) <> 0) by (rewrite view_get; apply h_chan_nz; exact Hrw).
  destruct HT as (_ & Hr & _). unfold root_priv_ne, root_inv in *. destruct (t_root x) as [n|]; [|exact I].
  destruct Hr as (Hp & _ & _). exact (proj1 (priv_ne_of_privF (txn_ctx x) _ next Ha0 Hlt) n Hp).
Qed.

Definition rf_t : tree := fst (tree_new false 1).
Definition rf_ops1 : list wop := [WIns [1;2] 10; WIns [1;3] 11].
Definition rf_ops2 : list wop := [WIns [1;4] 12].
Definition rf_k : bytes := [1;4].
Definition rf_x : txn := fold_left wstep rf_ops1 (tree_txn rf_t 2).
Definition rf_xe : txn := fold_left wstep rf_ops2 rf_x.
Definition rf_T' : tree := snd (txn_commit rf_xe).

Lemma rf_inv : tree_inv rf_t 2.
Proof. apply (tree_inv_new false 1). lia. Qed.


(* the hand-out of the witness rf_* (the Get of C06_get_handle_inside_txn_own_later_write_refuted), made through a query
   that freezes the tree first (Clone / Prefix): closed *)
Example handle_inside_txn_nonvacuous :
  let x := fold_left wstep rf_ops1 (tree_txn rf_t 2) in
  let a := snd (txn_query_clone x (HGet rf_k)) in
  let xe := fold_left wstep rf_ops2 (fst (txn_query_clone x (HGet rf_k))) in
  tree_inv rf_t 2 /\ a = 4 /\ h_covers (HGet rf_k) rf_k = true /\
  om_get rf_k (abs_tree (snd (txn_commit xe))) <> om_get rf_k (abs_txn x) /\
  snd (txn_notify xe) = [4; 1].
Proof. split; [exact rf_inv|]. vm_compute. repeat split; discriminate. Qed.

(* a Get inside the transaction whose channel is older than the transaction: covered by get_inside_txn *)
Example get_inside_txn_nonvacuous :
  let ops0 := [WIns [1;2] 10; WIns [1;3] 11; WIns [2;1] 5] in
  let t1 := snd (txn_commit (fold_left wstep ops0 (tree_txn rf_t 2))) in
  let x := fold_left wstep [WIns [2;2] 7] (tree_txn t1 10) in
  tree_inv t1 10 /\ snd (txn_get x [1;4]) = 4 /\ 4 < 10 /\ root_priv_ne x 4 /\
  In 4 (snd (txn_notify (fold_left wstep [WIns [1;4] 12] x))).
Proof.
  cbv zeta. split.
  - eapply tree_inv_mono; [|exact (proj1 (commit_tree_inv _ 2 [WIns [1;2] 10; WIns [1;3] 11; WIns [2;1] 5] rf_inv))].
    vm_compute. discriminate.
  - vm_compute. repeat split; auto; intros; discriminate.
Qed.

(* LATER transactions do close the witness's channel: it is the channel Prefix([1]) returns on the committed tree,
   [1] is a prefix of the key, and the committed tree satisfies tree_inv: every later transaction, and every chain of
   later transactions, that changes the binding of the key closes it *)
Theorem get_inside_txn_witness_later_closes :
  let a := snd (txn_query_get rf_x rf_k) in
  let next' := s_next (t_st (fst (txn_commit rf_xe))) in
  a = 4 /\ tree_inv rf_T' next' /\ h_chan rf_T' (HPrefix [1]) = a /\ h_covers (HPrefix [1]) rf_k = true /\
  (forall gap ops, let xe2 := fold_left wstep ops (tree_txn rf_T' (next' + gap)) in
     om_get rf_k (abs_tree (snd (txn_commit xe2))) <> om_get rf_k (abs_tree rf_T') -> In a (snd (txn_notify xe2))) /\
  (forall txns, om_get rf_k (abs_tree (fst (chain_end rf_T' next' txns))) <> om_get rf_k (abs_tree rf_T') ->
     exists cl, In cl (chain_closed rf_T' next' txns) /\ In a cl).
Proof.
  cbv zeta.
  assert (HI : tree_inv rf_T' (s_next (t_st (fst (txn_commit rf_xe))))).
  { unfold rf_T', rf_xe, rf_x. rewrite <- fold_left_app. apply commit_tree_inv. exact rf_inv. }
  assert (Ea : snd (txn_query_get rf_x rf_k) = 4) by (vm_compute; reflexivity).
  assert (Eh : h_chan rf_T' (HPrefix [1]) = 4) by (vm_compute; reflexivity).
  rewrite Ea. split; [reflexivity|]. split; [exact HI|]. split; [exact Eh|]. split; [reflexivity|]. split.
  - intros gap ops Hd. rewrite <- Eh.
    apply (changed_key_closes_handle rf_T' _ ops (HPrefix [1])).
    + eapply tree_inv_mono; [|exact HI]. lia.
    + exists rf_k. split; [reflexivity|exact Hd].
  - intros txns Hd. rewrite <- Eh. apply chain_changed_key_closes_handle; [exact HI|].
    exists rf_k. split; [reflexivity|exact Hd].
Qed.

Example get_inside_txn_witness_later_nonvacuous :
  let next' := s_next (t_st (fst (txn_commit rf_xe))) in
  let xe2 := fold_left wstep [WDel [1;4]] (tree_txn rf_T' (next' + 0)) in
  om_get rf_k (abs_tree (snd (txn_commit xe2))) <> om_get rf_k (abs_tree rf_T') /\ In 4 (snd (txn_notify xe2)).
Proof. vm_compute. split; [discriminate|auto]. Qed.

Print Assumptions handle_in_txn_state.
Print Assumptions handle_inside_txn.
Print Assumptions get_inside_txn.
Print Assumptions get_inside_txn_old_channel.
Print Assumptions get_inside_txn_witness_later_closes.
