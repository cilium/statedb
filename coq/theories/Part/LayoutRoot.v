(* Part/LayoutRoot.v — the root of a tree holding only the empty key and 1-byte keys (the trees the
   `layout` engine drives): each of Insert / Delete keeps the root well-formed (closed world for LInv)
   and moves (leaf flag, child keys) like a flag and a set; the induction over histories is
   C11_layout_root_history in Properties/C11.v. *)
From SV Require Import Part.Layout Part.LayoutBase Part.LayoutKeyed Part.Layout48 Part.Layout256 Part.LayoutProofs.
From Coq Require Import ZifyN ZifyNat ZifyBool.
Close Scope N_scope.

(* reachable roots: an inner root is well-formed, within the occupancy bounds, and has a leaf or >= 2 children *)
Definition RInv (r : lroot) : Prop :=
  match r with
  | RNil => True
  | RLeaf None => True
  | RLeaf (Some k) => (k < 256)%N
  | RNode l => LInv l /\ (l_leaf l = false -> 2 <= l_size l)
  end.
(* (the empty key is present, the sorted 1-byte keys) *)
Definition r_abs (r : lroot) : bool * list N :=
  match r with
  | RNil => (false, [])
  | RLeaf None => (true, [])
  | RLeaf (Some k) => (false, [k])
  | RNode l => (l_leaf l, l_abs l)
  end.
Definition set_add (k : N) (ks : list N) : list N := if memb k ks then ks else ins k ks.
Definition set_del (k : N) (ks : list N) : list N := if memb k ks then rem k ks else ks.

Lemma LInv_setleaf : forall l b, LInv l -> LInv (l_setleaf l b) /\ l_abs (l_setleaf l b) = l_abs l.
Proof.
  intros l b [HW HO]. split; [split|].
  - destruct HW as [kd lf ks m z Hkd HG Hcap | lf ks HG HL | lf ks HG].
    + exact (LWF_keyed kd b ks m z Hkd HG Hcap).
    + exact (LWF_48 b ks HG HL).
    + exact (LWF_256 b ks HG).
  - exact HO.
  - reflexivity.
Qed.

Lemma good_two : forall j k, (j < k)%N -> (k < 256)%N -> good [j; k].
Proof. intros j k H1 H2. split; cbn; repeat constructor; auto; lia. Qed.
Lemma good_one : forall k, (k < 256)%N -> good [k].
Proof. intros k H. split; cbn; repeat constructor; auto. Qed.

(* the roots built by Txn.modify's split: a fresh node4 with a leaf or with two children *)
Lemma RInv_new_node4 : forall lf ks, good ks -> length ks <= 4 -> (lf = false -> 2 <= length ks) ->
  RInv (RNode (new_node4 lf ks)) /\ r_abs (RNode (new_node4 lf ks)) = (lf, ks).
Proof.
  intros lf ks HG HL H2. destruct (LWF_new_node4 lf ks HG HL) as [_ Ea]. cbn [RInv r_abs]. rewrite Ea.
  split; [split; [apply LInv_new_node4; assumption|exact H2]|reflexivity].
Qed.

Theorem r_add_correct : forall r k, RInv r -> (k < 256)%N ->
  RInv (r_add r k) /\ r_abs (r_add r k) = (fst (r_abs r), set_add k (snd (r_abs r))).
Proof.
  intros r k HI Hk. destruct r as [|[j|]|l]; cbn [r_add RInv r_abs fst snd] in *.
  - split; [exact Hk|reflexivity].
  - unfold set_add. cbn [memb existsb ins orb]. rewrite (N.eqb_sym k j).
    destruct (N.eqb_spec j k) as [->|Hne]; [split; [exact HI|reflexivity]|].
    (* a node4 with the two keys in order *)
    destruct (N.ltb_spec j k), (N.ltb_spec k j); try lia;
      (apply RInv_new_node4; [apply good_two; (assumption || lia)|cbn; lia|cbn; lia]).
  - apply (RInv_new_node4 true [k]); [apply good_one, Hk|cbn; lia|discriminate].
  - destruct HI as [[HW HO] H2]. unfold set_add. destruct (memb k (l_abs l)) eqn:Em.
    + rewrite l_add_present by assumption. split; [split; [split|]; assumption|reflexivity].
    + destruct (l_add_correct l k HW Hk Em) as (HW' & Ea & El & Es & _).
      split; [split; [apply LInv_add; [split|]; assumption|]|].
      * rewrite El, Es. intros H. specialize (H2 H). lia.
      * rewrite Ea, El. reflexivity.
Qed.

Theorem r_addleaf_correct : forall r, RInv r ->
  RInv (r_addleaf r) /\ r_abs (r_addleaf r) = (true, snd (r_abs r)).
Proof.
  intros r HI. destruct r as [|[j|]|l]; cbn [r_addleaf RInv r_abs fst snd] in *.
  - split; [exact I|reflexivity].
  - apply (RInv_new_node4 true [j]); [apply good_one, HI|cbn; lia|discriminate].
  - split; [exact I|reflexivity].
  - destruct HI as [HL H2]. destruct (LInv_setleaf l true HL) as [HL' Ea].
    split; [split; [exact HL'|cbn; discriminate]|]. rewrite Ea. reflexivity.
Qed.

Lemma rem_incl : forall k ks c, In c (rem k ks) -> In c ks.
Proof.
  intros k ks c; induction ks as [|x r IH]; cbn [rem]; [auto|].
  destruct (x =? k)%N; [right; assumption|]. intros [->|H]; [left; reflexivity|right; auto].
Qed.

Theorem r_del_correct : forall r k, RInv r -> (k < 256)%N ->
  RInv (r_del r k) /\ r_abs (r_del r k) = (fst (r_abs r), set_del k (snd (r_abs r))).
Proof.
  intros r k HI Hk. destruct r as [|[j|]|l]; cbn [r_del RInv r_abs fst snd] in *.
  - split; [exact I|reflexivity].
  - unfold set_del. cbn [memb existsb rem]. rewrite (N.eqb_sym k j).
    destruct (N.eqb_spec j k) as [->|Hne]; cbn [orb RInv r_abs]; (split; [auto|reflexivity]).
  - split; [exact I|reflexivity].
  - destruct HI as [[HW HO] H2]. unfold set_del. destruct (memb k (l_abs l)) eqn:Em.
    + pose proof (l_del_correct l k HW HO Hk Em) as HC.
      destruct ((l_size l =? 2) && negb (l_leaf l)) eqn:Ecol.
      * destruct HC as (c & Ed & Er). rewrite Ed. cbn [RInv r_abs].
        apply andb_true_iff in Ecol. destruct Ecol as [_ Enl]. apply negb_true_iff in Enl.
        destruct (LWF_abs l HW) as ([_ HB] & _).
        split; [|rewrite Er, Enl; reflexivity].
        rewrite Forall_forall in HB. apply HB, (rem_incl k). rewrite Er. left; reflexivity.
      * destruct HC as (l' & Ed & HW' & Ea & El & Es & _). rewrite Ed. cbn [RInv r_abs].
        split; [split; [exact (LInv_del l l' k (conj HW HO) Hk Ed)|]|rewrite Ea, El; reflexivity].
        rewrite El, Es. intros Hlf. specialize (H2 Hlf). rewrite Hlf in Ecol. cbn [negb] in Ecol.
        rewrite andb_true_r in Ecol. apply Nat.eqb_neq in Ecol. lia.
    + rewrite l_del_absent by assumption. cbn [RInv r_abs]. split; [split; [split|]; assumption|reflexivity].
Qed.

Lemma first_child_single : forall l c, LInv l -> l_abs l = [c] -> child_at (l_children_go l) 0 = Some c.
Proof.
  intros l c [HW HO] Ha. destruct (LWF_abs l HW) as (_ & Hs & _). rewrite Ha in Hs. cbn [length] in Hs.
  assert (Hnk : l_kind l <> 256%N) by (intros Ek; apply HO in Ek; lia).
  unfold l_children_go. replace (l_kind l =? 256)%N with false by (symmetry; apply N.eqb_neq, Hnk). rewrite Hs.
  transitivity (child_at (l_children l) 0); [destruct (l_children l); reflexivity|].
  rewrite LWF_child_at, Hs, Ha by assumption. reflexivity.
Qed.

Theorem r_delleaf_correct : forall r, RInv r ->
  RInv (r_delleaf r) /\ r_abs (r_delleaf r) = (false, snd (r_abs r)).
Proof.
  intros r HI. destruct r as [|[j|]|l]; cbn [r_delleaf RInv r_abs fst snd] in *.
  - split; [exact I|reflexivity].
  - split; [exact HI|reflexivity].
  - split; [exact I|reflexivity].
  - destruct HI as [HL H2]. destruct (LWF_abs l (proj1 HL)) as ([_ HB] & Es & _).
    destruct (l_leaf l) eqn:Elf.
    + destruct (Nat.eqb_spec (l_size l) 0) as [E0|E0].
      * cbn [RInv r_abs]. split; [exact I|]. destruct (l_abs l); [reflexivity|cbn in Es; lia].
      * destruct (Nat.eqb_spec (l_size l) 1) as [E1|E1].
        -- destruct (l_abs l) as [|c [|? ?]] eqn:Ea; cbn [length] in Es; try lia.
           rewrite (first_child_single l c HL Ea). cbn [RInv r_abs]. split; [|reflexivity].
           apply Forall_cons_iff in HB. apply HB.
        -- destruct (LInv_setleaf l false HL) as [HL' Ea]. cbn [RInv r_abs].
           split; [split; [exact HL'|cbn; lia]|]. rewrite Ea. reflexivity.
    + cbn [RInv r_abs]. split; [split; [exact HL|intros _; apply H2; reflexivity]|rewrite Elf; reflexivity].
Qed.

(* the operations, and their effect on (leaf flag, child keys) *)
Inductive rop := OAdd (k : N) | ODel (k : N) | OAddLeaf | ODelLeaf.
Definition rop_ok (o : rop) : Prop := match o with OAdd k | ODel k => (k < 256)%N | _ => True end.
Definition r_step (r : lroot) (o : rop) : lroot :=
  match o with OAdd k => r_add r k | ODel k => r_del r k | OAddLeaf => r_addleaf r | ODelLeaf => r_delleaf r end.
Definition s_step (s : bool * list N) (o : rop) : bool * list N :=
  match o with
  | OAdd k => (fst s, set_add k (snd s)) | ODel k => (fst s, set_del k (snd s))
  | OAddLeaf => (true, snd s) | ODelLeaf => (false, snd s)
  end.
