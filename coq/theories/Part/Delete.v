(* Part/Delete.v — Txn.delete / removeChild refine om_delete and preserve wfk. *)
From SV Require Import Base.Bytes Base.OrdMap Part.Model Part.Sem Part.Insert.
From Coq Require Import ZifyN ZifyNat ZifyBool.
Open Scope N_scope.

Lemma wfk_merge acc p x : wfk (acc ++ p) x -> wfk acc (merge_child p x).
Proof.
  intros H. unfold merge_child. apply wfk_set_prefix. now rewrite set_prefix_id.
Qed.
Lemma ents_merge p x : ents (merge_child p x) = map (pre p) (ents x).
Proof. unfold merge_child. rewrite ents_set_prefix. now rewrite set_prefix_id. Qed.
Lemma prefix_merge p x : node_prefix (merge_child p x) = p ++ node_prefix x.
Proof. destruct x; reflexivity. Qed.

Lemma om_delete_all_gt k (L : list ent) : all_gt L k -> om_delete k L = L.
Proof. exact (om_delete_app_r k [] L). Qed.
Lemma om_delete_all_lt k (L : list ent) : all_lt L k -> om_delete k L = L.
Proof. intros H. rewrite <- (app_nil_r L) at 1. rewrite om_delete_app_l by auto. simpl. now rewrite app_nil_r. Qed.

Lemma ch_gt_remove b0 b ch : ch_gt b0 ch -> ch_gt b0 (ch_remove b ch).
Proof.
  induction ch as [|b' y r IH]; simpl; auto. intros [H1 H2]. destruct (b' =? b); simpl; auto.
Qed.
Lemma wfk_ch_remove acc b : forall ch, wfk_ch acc ch -> wfk_ch acc (ch_remove b ch).
Proof.
  induction ch as [|b' y r IH]; simpl; auto. intros (Hh & Hy & Hg & Hr).
  destruct (b' =? b); simpl; repeat split; auto. now apply ch_gt_remove.
Qed.

Lemma ch_find_none_get acc b tl : forall ch,
  wfk_ch acc ch -> ch_find b ch = None -> om_get (b :: tl) (ents_ch ch) = None.
Proof.
  intros ch Hw Hf. destruct (ents_ch_at _ b _ Hw) as (L1 & L2 & HL & H). rewrite Hf in H. destruct H as (E & _).
  destruct (HL tl) as [A G]. now rewrite E, om_get_app_l, om_get_all_gt.
Qed.

(* looking up or deleting a key that starts with b concerns the child under b only *)
Lemma ch_find_local acc b tl ch x : wfk_ch acc ch -> ch_find b ch = Some x ->
  om_get (b :: tl) (ents_ch ch) = om_get (b :: tl) (ents x) /\
  (forall x', ents x' = om_delete (b :: tl) (ents x) -> ents_ch (ch_set b x' ch) = om_delete (b :: tl) (ents_ch ch)) /\
  (om_delete (b :: tl) (ents x) = [] -> ents_ch (ch_remove b ch) = om_delete (b :: tl) (ents_ch ch)).
Proof.
  intros Hw Hf. destruct (ents_ch_at _ b _ Hw) as (L1 & L2 & HL & H). rewrite Hf in H. destruct H as (E & Es & Er).
  destruct (HL tl) as [A G].
  rewrite E, om_get_app_l, om_get_app_r, om_delete_app_l, om_delete_app_r by auto.
  repeat split; auto; [intros x' <-; apply Es|intros ->; apply Er].
Qed.

Lemma om_get_strip_none p key (L : list ent) : strip p key = None -> om_get key (map (pre p) L) = None.
Proof.
  intros Hs. induction L as [|[k' v'] L IH]; simpl; auto.
  destruct (bytes_eqb key (p ++ k')) eqn:E.
  - apply bytes_eqb_spec in E. subst key. rewrite strip_app in Hs. discriminate.
  - destruct (bytes_ltb key (p ++ k')); auto.
Qed.

(* with two children, removing the one under b leaves exactly ch_other *)
Lemma ch_two_remove b : forall ch y x,
  ch_len ch = 2 -> ch_find b ch = Some y -> ch_other b ch = Some x ->
  ents_ch (ch_remove b ch) = ents x /\ forall acc, wfk_ch acc ch -> wfk acc x.
Proof.
  intros ch y x Hl Hf Ho.
  destruct ch as [|b1 x1 [|b2 x2 [|b3 x3 r]]]; cbn [ch_len] in Hl; try lia.
  simpl in *. destruct (N.eqb_spec b1 b) as [->|N1].
  - destruct (b2 =? b); [discriminate|]. injection Ho as ->. simpl. rewrite app_nil_r. split; auto.
    intros acc H. tauto.
  - injection Ho as ->. destruct (N.eqb_spec b2 b) as [->|N2]; [|discriminate].
    simpl. rewrite app_nil_r. split; auto. intros acc H. tauto.
Qed.

Section Del.
Variable c : ctx.

(* removeChild demotes (inline in txn.go) when the node drops to the capacity of the next smaller kind *)
Definition demoted (kd sz : N) : N :=
  if ((kd =? 256) && (sz <=? 49)) || ((kd =? 48) && (sz <=? 17)) || ((kd =? 16) && (sz <=? 5))
  then if kd =? 256 then 48 else if kd =? 48 then 16 else 4 else kd.

(* removeChild either shifts the only remaining child up into the place of a leafless parent, or keeps
   the parent (possibly demoted, always with the txn's id) without the child under b *)
Lemma remove_child_node s kd t p w lf ch b :
  (exists x, ch_len ch = 2 /\ lf = None /\ ch_other b ch = Some x /\
     fst (fst (remove_child c s kd t p w lf ch b)) = merge_child p x) \/
  (exists w', (ch_len ch = 2 -> lf = None -> ch_other b ch = None) /\
     fst (fst (remove_child c s kd t p w lf ch b)) = Inner (demoted kd (ch_len ch)) (c_tid c) p w' lf (ch_remove b ch)).
Proof.
  unfold remove_child, demoted.
  destruct (ch_len ch =? 2) eqn:E2; [destruct lf as [l|]; [|destruct (ch_other b ch) as [x|] eqn:Eo]|].
  2: now left; exists x; apply N.eqb_eq in E2.
  (* in the three other cases the parent stays: as a demoted new object, or cloned *)
  all: right; destruct (_ || _);
    [destruct (fresh_if w s) as [w' s1]
    |pose proof (clone_hdr_fst c s t w) as Et; destruct (clone_hdr c s t w) as [[t' w'] s1]; simpl in Et; subst t'];
    exists w'; (split; [|reflexivity]); try discriminate; auto.
  all: intros E; apply N.eqb_neq in E2; contradiction.
Qed.

Lemma remove_child_spec acc s kd t p w lf ch b tl y :
  wfk_ch (acc ++ p) ch -> match lf with Some l => lf_key l = acc ++ p | None => True end ->
  ch_find b ch = Some y -> om_delete (b :: tl) (ents y) = [] ->
  let n' := fst (fst (remove_child c s kd t p w lf ch b)) in
  wfk acc n' /\
  ents n' = map (pre p) (lfe lf ++ om_delete (b :: tl) (ents_ch ch)) /\
  (forall b0, hd_is b0 p -> hd_is b0 (node_prefix n')).
Proof.
  intros Hc Hl Hf Hd. pose proof (wfk_ch_remove _ b _ Hc) as W.
  destruct (ch_find_local _ _ tl _ _ Hc Hf) as (_ & _ & E). specialize (E Hd).
  destruct (remove_child_node s kd t p w lf ch b) as [(x & E2 & -> & Eo & ->)|(w' & _ & ->)]; cbv zeta.
  - (* merge with the remaining child *)
    destruct (ch_two_remove b ch y x E2 Hf Eo) as (Ee & Wx).
    rewrite ents_merge, prefix_merge. simpl lfe. rewrite <- E, Ee. simpl.
    repeat split; auto.
    + apply wfk_merge; auto.
    + intros b0 H. now apply hd_is_app.
  - simpl. rewrite E. repeat split; auto.
Qed.

Definition dspec (acc : bytes) (n : node) (key : bytes) (r : dres) : Prop :=
  match r with
  | DNone => om_get key (ents n) = None
  | DSome old repl _ _ =>
    om_get key (ents n) = Some old /\
    match repl with
    | Some n' => wfk acc n' /\ ents n' = om_delete key (ents n) /\
                 (forall b, hd_is b (node_prefix n) -> hd_is b (node_prefix n'))
    | None => om_delete key (ents n) = []
    end
  end.

Lemma del_ch_find s b key : forall ch,
  del_ch c s ch b key = match ch_find b ch with Some x => del_node c s x key | None => DNone end.
Proof.
  induction ch as [|b' x r IH]; [reflexivity|].
  cbn [del_ch ch_find]; fold (del_node c); fold (del_ch c). destruct (b' =? b); auto.
Qed.

Theorem del_node_spec : forall n acc s key, wfk acc n -> dspec acc n key (del_node c s n key).
Proof.
  induction n as [p l|kd t p w lf ch IH] using node_find_ind; intros acc s key Hw; cbn [del_node]; fold (del_ch c).
  - destruct (bytes_cmp_cases key p) as [[E ->]|[[E [L _]]|[E [L _]]]]; rewrite E; simpl; rewrite E; auto.
    + now rewrite L.
    + now rewrite L.
  - destruct Hw as [Hl Hc].
    destruct (strip p key) as [[|b rest]|] eqn:Es.
    + apply strip_nil_rest in Es. subst key.
      destruct (ents_inner_here _ kd t p w lf ch Hc) as (Gt & Dl & _).
      destruct lf as [l|]; [|exact Gt]. cbn [option_map] in Gt.
      destruct ch as [|b1 x1 [|b2 x2 r]].
      * cbn [dspec]. rewrite Gt, Dl. split; auto.
      * cbn [dspec]. rewrite Gt, Dl. split; auto. rewrite ents_merge, prefix_merge. simpl. rewrite app_nil_r.
        repeat split; auto. { apply wfk_merge. simpl in Hc. tauto. } intros b H. now apply hd_is_app.
      * destruct (clone_hdr c (record (lf_w l) s) t w) as [[t' w'] s2]. cbn [dspec]. rewrite Gt, Dl.
        repeat split; auto; simpl in Hc; tauto.
    + apply strip_some in Es. subst key. rewrite del_ch_find.
      destruct (ents_inner_below kd t p w lf ch b rest) as (Gp & Dp & _).
      destruct (ch_find b ch) as [x|] eqn:Ef.
      * destruct (ch_find_wfk _ _ _ _ Hc Ef) as [Wx Hx].
        destruct (ch_find_local _ _ rest _ _ Hc Ef) as (G & Eset & _).
        specialize (IH b x Ef (acc ++ p) s (b :: rest) Wx).
        destruct (del_node c s x (b :: rest)) as [|old repl s1 ip]; cbn [dspec] in IH.
        { cbn [dspec]. now rewrite Gp, G. }
        destruct IH as [Go IH]. destruct repl as [x'|].
        -- destruct IH as (Wx' & Ex' & Hp).
           pose proof (wfk_ch_set _ b x' _ Hc Wx' (Hp _ Hx)) as W. specialize (Eset x' Ex').
           destruct ip; [|destruct (clone_hdr c s1 t w) as [[t' w'] s2]];
             cbn [dspec]; rewrite Gp, Dp, G; cbn [ents wfk node_prefix]; rewrite Eset; repeat split; auto.
        -- pose proof (remove_child_spec acc s1 kd t p w lf ch b rest x Hc Hl Ef IH) as R.
           destruct (remove_child c s1 kd t p w lf ch b) as [[n' s2] ip']. cbn [fst] in R.
           destruct R as (W & E & Hp).
           cbn [dspec]. rewrite Gp, Dp, G. repeat split; auto.
      * cbn [dspec]. rewrite Gp. eapply ch_find_none_get; eauto.
    + cbn [dspec ents]. now apply om_get_strip_none.
Qed.

Theorem delete_spec :
  (forall n acc s key, wfk acc n -> dspec acc n key (del_node c s n key)) /\
  (forall ch acc s x key, wfk_ch acc ch -> wfk acc x -> (exists b, ch_find b ch = Some x) ->
     dspec acc x key (del_node c s x key)).
Proof. split; intros; now apply del_node_spec. Qed.
End Del.
