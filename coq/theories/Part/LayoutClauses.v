(* Part/LayoutClauses.v — the slot-wise reading of the well-formedness invariant LWF
   (LayoutProofs.v defines it through canonical forms). *)
From SV Require Import Part.Layout Part.LayoutBase Part.LayoutKeyed Part.Layout48 Part.Layout256 Part.LayoutProofs.
From Coq Require Import ZifyN ZifyNat ZifyBool.
Close Scope N_scope.

Lemma pos_in_of_nth : forall ks i, ssorted ks -> i < length ks -> pos_in (nth i ks 0%N) ks = S i.
Proof.
  induction ks as [|x r IH]; intros i HS Hi; cbn [length] in Hi; [lia|].
  destruct HS as [Hx HS]. destruct i as [|i]; cbn [nth pos_in].
  - rewrite N.eqb_refl. reflexivity.
  - assert (Hin : In (nth i r 0%N) r) by (apply nth_In; lia).
    rewrite Forall_forall in Hx. specialize (Hx _ Hin).
    destruct (N.eqb_spec x (nth i r 0%N)); [lia|]. rewrite IH by (auto; lia). reflexivity.
Qed.

Lemma nth_stale : forall m z j, j < m + z -> nth j (stale m z) 0%N = if j <? m then 255%N else 0%N.
Proof.
  intros m z j Hj. unfold stale. destruct (Nat.ltb_spec j m) as [Hlt|Hge].
  - rewrite app_nth1 by (rewrite repeat_length; exact Hlt).
    rewrite (nth_indep _ 0%N 255%N) by (rewrite repeat_length; exact Hlt). apply nth_repeat.
  - rewrite app_nth2 by (rewrite repeat_length; exact Hge). apply nth_repeat.
Qed.

Theorem LWF_clauses : forall l, LWF l ->
  let ks := l_abs l in
  (* the child keys: strictly increasing bytes; size = their number, within the capacity *)
  ssorted ks /\ Forall (fun k => (k < 256)%N) ks /\ l_size l = length ks /\ l_size l <= l_cap l /\
  length (l_children l) = l_cap l /\
  (* node4/16/48: children non-nil exactly in the used slots, in key order *)
  (l_kind l <> 256%N ->
     (forall i, i < l_size l -> child_at (l_children l) i = Some (nth i ks 0%N)) /\
     (forall i, l_size l <= i -> child_at (l_children l) i = None)) /\
  (* node4/16: keys of the used slots; stale slots: 255s (left by remove) before 0s (fresh array) *)
  (l_kind l = 4%N \/ l_kind l = 16%N ->
     length (l_keys l) = l_cap l /\
     (forall i, i < l_size l -> key_at (l_keys l) i = nth i ks 0%N) /\
     exists m, forall i, l_size l <= i < l_cap l -> key_at (l_keys l) i = if i <? l_size l + m then 255%N else 0%N) /\
  (* node48: index[k] = i+1 iff children[i] is the child with key k (other entries 0) *)
  (l_kind l = 48%N ->
     length (l_index l) = 256 /\
     forall k i, (k < 256)%N ->
       (nth (N.to_nat k) (l_index l) 0 = S i <-> i < l_size l /\ child_at (l_children l) i = Some k)) /\
  (* node256: children[k] is the child with key k, or nil *)
  (l_kind l = 256%N ->
     forall k, (k < 256)%N -> child_at (l_children l) (N.to_nat k) = if memb k ks then Some k else None).
Proof.
  intros l H. cbn zeta. destruct (LWF_abs l H) as ([HS HB] & Hsz & Hcap' & _). unfold l_cap in *.
  split; [exact HS|]. split; [exact HB|]. split; [exact Hsz|]. split; [exact Hcap'|]. clear HB Hsz Hcap'.
  assert (Hch : l_kind l <> 256%N ->
            (forall i, i < l_size l -> child_at (l_children l) i = Some (nth i (l_abs l) 0%N)) /\
            (forall i, l_size l <= i -> child_at (l_children l) i = None)).
  { intros Hnk. split; intros i Hi; rewrite LWF_child_at by assumption;
      destruct (Nat.ltb_spec i (l_size l)); (reflexivity || lia). }
  destruct H as [kd lf ks m z Hkd HG Hcap | lf ks _ HL | lf ks HG].
  - rewrite abs_keyed in * by exact Hkd. cbn [l_kind l_size l_keys l_children l_index canon_keyed] in *.
    split; [rewrite app_length, map_length, repeat_length; lia|]. split; [exact Hch|].
    split; [intros _|split; [intros E|intros E]; destruct Hkd as [-> | ->]; discriminate E].
    split; [rewrite app_length, stale_length; lia|]. split.
    + intros i Hi. unfold key_at. apply app_nth1. exact Hi.
    + exists m. intros i Hi. unfold key_at. rewrite app_nth2 by lia. rewrite nth_stale by lia.
      destruct (Nat.ltb_spec (i - length ks) m), (Nat.ltb_spec i (length ks + m)); try reflexivity; lia.
  - rewrite abs48 in *. cbn [l_kind l_size l_keys l_children l_index canon48] in *. change (l_cap_of 48) with 48.
    split; [rewrite app_length, map_length, repeat_length; lia|]. split; [exact Hch|].
    split; [intros [E|E]; discriminate E|]. split; [intros _|intros E; discriminate E].
    split; [apply index_of_length|]. intros k i Hk. rewrite nth_index_key by exact Hk. split.
    + intros Hp. destruct (pos_in_nth _ _ _ Hp) as [Hi Hn]. split; [exact Hi|].
      unfold child_at. rewrite nth_map_some by exact Hi. rewrite Hn. reflexivity.
    + intros [Hi Hc]. unfold child_at in Hc. rewrite nth_map_some in Hc by exact Hi. inversion Hc as [Hn].
      apply pos_in_of_nth; assumption.
  - rewrite abs256 by exact HG. cbn [l_kind l_size l_keys l_children l_index canon256].
    split; [apply slots256_length|].
    split; [intros E; congruence|]. split; [intros [E|E]; discriminate E|]. split; [intros E; discriminate E|].
    intros _ k Hk. unfold child_at. apply nth_slots. exact Hk.
Qed.
