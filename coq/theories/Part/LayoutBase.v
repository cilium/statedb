(* Part/LayoutBase.v — list / array lemmas and strictly sorted key lists used by the
   proofs about Part/Layout.v. *)
From SV Require Import Part.Layout.
From Coq Require Import ZifyN ZifyNat ZifyBool.
Close Scope N_scope.

Lemma nth_app_exact : forall A (a : list A) y r d, nth (length a) (a ++ y :: r) d = y.
Proof. intros. rewrite app_nth2, Nat.sub_diag by lia. reflexivity. Qed.

Lemma nth_app_S : forall A (a : list A) y r d, nth (S (length a)) (a ++ y :: r) d = nth 0 r d.
Proof. intros. rewrite app_nth2 by lia. replace (S (length a) - length a) with 1 by lia. reflexivity. Qed.
Lemma skipn_app_S : forall A (a b : list A) y, skipn (S (length a)) (a ++ y :: b) = b.
Proof.
  intros. change (a ++ y :: b) with (a ++ [y] ++ b). rewrite app_assoc.
  replace (S (length a)) with (length (a ++ [y])) by (rewrite app_length; apply Nat.add_1_r). apply skipn_app_exact.
Qed.

Lemma set_nth_length : forall A i (x : A) l, length (set_nth i x l) = length l.
Proof. intros A i x l; revert i; induction l as [|y r IH]; intros [|i]; cbn; auto. Qed.

Lemma nth_set_nth : forall A i j (x d : A) l, i < length l ->
  nth j (set_nth i x l) d = if j =? i then x else nth j l d.
Proof.
  intros A i j x d l; revert i j; induction l as [|y r IH]; intros i j Hi; cbn in Hi; [lia|].
  destruct i as [|i], j as [|j]; cbn; auto.
  rewrite IH by lia. reflexivity.
Qed.

Lemma set_nth_mid : forall A (a : list A) y x r, set_nth (length a) x (a ++ y :: r) = a ++ x :: r.
Proof. intros A a; induction a as [|z a IH]; intros; cbn; [reflexivity|]. rewrite IH; reflexivity. Qed.

Lemma set_nth_app_S : forall A (a : list A) y z x r, set_nth (S (length a)) x (a ++ y :: z :: r) = a ++ y :: x :: r.
Proof. intros A a; induction a as [|w a IH]; intros; cbn [app length set_nth]; [reflexivity|]. f_equal. apply IH. Qed.

Lemma set_nth_comm : forall A i j (x y : A) l, i <> j ->
  set_nth i x (set_nth j y l) = set_nth j y (set_nth i x l).
Proof.
  intros A i j x y l; revert i j; induction l as [|z r IH]; intros [|i] [|j] H; cbn; try reflexivity; [lia|].
  rewrite IH by lia. reflexivity.
Qed.

Lemma set_nth_map_seq : forall A (f : nat -> A) i x a n, a <= i < a + n ->
  set_nth (i - a) x (map f (seq a n)) = map (fun j => if j =? i then x else f j) (seq a n).
Proof.
  intros A f i x a n; revert a; induction n as [|n IH]; intros a H; [lia|].
  cbn [seq map]. destruct (Nat.eq_dec i a) as [->|Hne].
  - rewrite Nat.sub_diag; cbn. rewrite Nat.eqb_refl. f_equal.
    apply map_ext_in; intros j Hj; apply in_seq in Hj. destruct (Nat.eqb_spec j a); [lia|reflexivity].
  - replace (i - a) with (S (i - S a)) by lia. cbn. destruct (Nat.eqb_spec a i); [lia|]. f_equal.
    apply IH; lia.
Qed.

Lemma arr_insert_app : forall A (a b : list A) y rest x,
  arr_insert (length a) (length a + length b) x (a ++ b ++ y :: rest) = a ++ x :: b ++ rest.
Proof.
  intros. unfold arr_insert.
  rewrite firstn_app_exact, skipn_app_exact. replace (length a + length b - length a) with (length b) by lia.
  rewrite firstn_app_exact, <- app_length, app_assoc, skipn_app_S. reflexivity.
Qed.

Lemma arr_remove_app : forall A (a b : list A) y rest fill,
  arr_remove (length a) (length a + S (length b)) fill (a ++ y :: b ++ rest) = a ++ b ++ fill :: rest.
Proof.
  intros. unfold arr_remove.
  rewrite firstn_app_exact, skipn_app_S. replace (length a + S (length b) - S (length a)) with (length b) by lia.
  rewrite firstn_app_exact. change (S (length b)) with (length (y :: b)). rewrite <- app_length.
  change (a ++ y :: b ++ rest) with (a ++ (y :: b) ++ rest). rewrite (app_assoc a (y :: b) rest), skipn_app_exact. reflexivity.
Qed.

Lemma skip_nth_app : forall A (a b : list A) y, skip_nth (length a) (a ++ y :: b) = a ++ b.
Proof. intros. unfold skip_nth. rewrite firstn_app_exact, skipn_app_S. reflexivity. Qed.

Lemma copy_into_repeat : forall A (src : list A) d n, length src <= n ->
  copy_into src (repeat d n) = src ++ repeat d (n - length src).
Proof.
  intros. unfold copy_into. f_equal.
  replace n with (length src + (n - length src)) at 1 by lia.
  rewrite repeat_app. rewrite <- (repeat_length d (length src)) at 1. apply skipn_app_exact.
Qed.

Lemma cat_some_map_some : forall ks, cat_some (map (@Some N) ks) = ks.
Proof. induction ks; cbn; congruence. Qed.
Lemma cat_some_app : forall a b, cat_some (a ++ b) = cat_some a ++ cat_some b.
Proof. induction a as [|[x|] a IH]; intros; cbn; rewrite ?IH; reflexivity. Qed.
Lemma cat_some_repeat_none : forall n, cat_some (repeat None n) = [].
Proof. induction n; cbn; auto. Qed.

Lemma nth_map_some : forall (ks : list N) rest i, i < length ks ->
  nth i (map (@Some N) ks ++ rest) None = Some (nth i ks 0%N).
Proof.
  intros ks rest i Hi. rewrite app_nth1 by (rewrite map_length; exact Hi).
  rewrite (nth_indep _ None (Some 0%N)) by (rewrite map_length; exact Hi). apply (map_nth (@Some N) ks 0%N i).
Qed.

Lemma nth_dense : forall (ks : list N) n i,
  nth i (map (@Some N) ks ++ repeat None n) None = if i <? length ks then Some (nth i ks 0%N) else None.
Proof.
  intros ks n i. destruct (Nat.ltb_spec i (length ks)) as [Hi|Hi]; [apply nth_map_some, Hi|].
  rewrite app_nth2, nth_repeat by (rewrite map_length; exact Hi). reflexivity.
Qed.

Lemma firstn_map_some : forall (ks : list N) rest, firstn (length ks) (map (@Some N) ks ++ rest) = map (@Some N) ks.
Proof. intros. rewrite <- (map_length (@Some N) ks). apply firstn_app_exact. Qed.

Fixpoint ssorted (ks : list N) : Prop :=
  match ks with [] => True | k :: r => Forall (fun x => (k < x)%N) r /\ ssorted r end.
(* the key lists of nodes: strictly increasing bytes *)
Definition good (ks : list N) : Prop := ssorted ks /\ Forall (fun x => (x < 256)%N) ks.

(* number of keys smaller than k: the insertion position *)
Definition rank (k : N) (ks : list N) : nat := length (filter (fun x => (x <? k)%N) ks).
Definition memb (k : N) (ks : list N) : bool := existsb (N.eqb k) ks.
(* sorted insertion / removal: the child-list operations of Part/Model.v (ch_insert / ch_remove) on the key bytes *)
Fixpoint ins (k : N) (ks : list N) : list N :=
  match ks with [] => [k] | x :: r => if (k <? x)%N then k :: ks else x :: ins k r end.
Fixpoint rem (k : N) (ks : list N) : list N :=
  match ks with [] => [] | x :: r => if (x =? k)%N then r else x :: rem k r end.
(* 1 + position of k, 0 when absent: the contents of node48.index *)
Fixpoint pos_in (k : N) (ks : list N) : nat :=
  match ks with
  | [] => 0
  | x :: r => if (x =? k)%N then 1 else match pos_in k r with 0 => 0 | S p => S (S p) end
  end.

Lemma memb_In : forall k ks, memb k ks = true <-> In k ks.
Proof.
  intros; unfold memb; rewrite existsb_exists; split.
  - intros [x [Hx He]]. apply N.eqb_eq in He; subst; auto.
  - intros H; exists k; split; auto. apply N.eqb_refl.
Qed.
Lemma memb_false : forall k ks, memb k ks = false <-> ~ In k ks.
Proof. intros. rewrite <- memb_In. destruct (memb k ks); split; congruence. Qed.
Lemma memb_app : forall k a b, memb k (a ++ b) = memb k a || memb k b.
Proof. intros; unfold memb; apply existsb_app. Qed.
Lemma memb_mid : forall x a k b, memb x (a ++ k :: b) = (x =? k)%N || memb x (a ++ b).
Proof. intros. rewrite !memb_app. cbn [memb existsb]. destruct (x =? k)%N, (memb x a); reflexivity. Qed.

Lemma memb_lt : forall k a, Forall (fun x => (x < k)%N) a -> memb k a = false.
Proof. intros k a H. apply memb_false. intros Hin. rewrite Forall_forall in H. specialize (H _ Hin). lia. Qed.
Lemma memb_gt : forall k b, Forall (fun x => (k < x)%N) b -> memb k b = false.
Proof. intros k b H. apply memb_false. intros Hin. rewrite Forall_forall in H. specialize (H _ Hin). lia. Qed.

Lemma ssorted_app : forall a b, ssorted (a ++ b) <->
  ssorted a /\ ssorted b /\ (forall x y, In x a -> In y b -> (x < y)%N).
Proof.
  induction a as [|k a IH]; intros b; cbn.
  - split; [intros H; repeat split; auto; intros ? ? []|tauto].
  - rewrite IH, Forall_app, !Forall_forall. split.
    + intros [[H1 H2] [H3 [H4 H5]]]. repeat split; auto.
      intros x y [<-|Hx] Hy; auto.
    + intros [[H1 H2] [H3 H4]]. repeat split; auto.
Qed.

(* A sorted list splits around any key k: the smaller keys, k itself if present, the larger keys.
   Everything the layout proofs say about k and ks is said on this form. *)
Lemma split_at : forall k ks, ssorted ks ->
  exists a b, ks = a ++ (if memb k ks then k :: b else b) /\
    Forall (fun x => (x < k)%N) a /\ Forall (fun x => (k < x)%N) b.
Proof.
  intros k ks; induction ks as [|x r IH]; intros HS; [exists [], []; auto|].
  destruct HS as [Hx HS]. destruct (N.compare_spec x k) as [->|Hlt|Hgt].
  - exists [], r. cbn [memb existsb]. rewrite N.eqb_refl. auto.
  - destruct (IH HS) as (a & b & E & Ha & Hb). exists (x :: a), b. cbn [memb existsb].
    replace (k =? x)%N with false by (symmetry; apply N.eqb_neq; lia).
    cbn [orb app]. fold (memb k r). rewrite <- E. auto.
  - assert (Hb : Forall (fun y => (k < y)%N) (x :: r)).
    { constructor; [exact Hgt|]. eapply Forall_impl; [|exact Hx]. cbn; intros; lia. }
    exists [], (x :: r). rewrite (memb_gt _ _ Hb). auto.
Qed.

Lemma split_mid : forall k b (m : bool), Forall (fun x => (k < x)%N) b ->
  let mid := if m then k :: b else b in
  Forall (fun x => (k <= x)%N) mid /\ match mid with x :: _ => (x =? k)%N | [] => false end = m.
Proof.
  intros k b m Hb. assert (Hb' : Forall (fun x => (k <= x)%N) b) by (eapply Forall_impl; [|exact Hb]; cbn; intros; lia).
  destruct m; cbn zeta.
  - split; [constructor; [lia|exact Hb']|apply N.eqb_refl].
  - split; [exact Hb'|]. destruct Hb as [|x r Hx _]; [reflexivity|]. apply N.eqb_neq. lia.
Qed.

Lemma rank_split : forall k a mid, Forall (fun x => (x < k)%N) a -> Forall (fun x => (k <= x)%N) mid ->
  rank k (a ++ mid) = length a.
Proof.
  intros k a mid Ha Hm. unfold rank. induction Ha as [|x l Hx _ IHl]; cbn [app filter].
  - induction Hm as [|y l Hy _ IHl]; cbn; [reflexivity|]. destruct (N.ltb_spec y k); [lia|exact IHl].
  - destruct (N.ltb_spec x k); [|lia]. cbn [length]. rewrite IHl. reflexivity.
Qed.

Lemma ins_split : forall k a b, Forall (fun x => (x < k)%N) a -> Forall (fun x => (k < x)%N) b ->
  ins k (a ++ b) = a ++ k :: b.
Proof.
  intros k a b Ha Hb. induction Ha as [|x l Hx _ IHl]; cbn [app ins].
  - destruct Hb as [|y l Hy _]; cbn [ins]; [reflexivity|]. destruct (N.ltb_spec k y); [reflexivity|lia].
  - destruct (N.ltb_spec k x); [lia|]. rewrite IHl. reflexivity.
Qed.

Lemma rem_split : forall k a b, Forall (fun x => (x < k)%N) a -> rem k (a ++ k :: b) = a ++ b.
Proof.
  intros k a b Ha. induction Ha as [|x l Hx _ IHl]; cbn [app rem]; [rewrite N.eqb_refl; reflexivity|].
  destruct (N.eqb_spec x k); [lia|]. rewrite IHl. reflexivity.
Qed.

Lemma pos_in_app : forall k a b,
  pos_in k (a ++ b) = match pos_in k a with
                      | S p => S p
                      | 0 => match pos_in k b with 0 => 0 | S p => length a + S p end
                      end.
Proof.
  intros k a b; induction a as [|x a IH]; cbn [app pos_in length].
  - destruct (pos_in k b); reflexivity.
  - destruct (x =? k)%N; [reflexivity|]. rewrite IH.
    destruct (pos_in k a); [|reflexivity]. destruct (pos_in k b) as [|q]; [reflexivity|].
    rewrite !Nat.add_succ_r. cbn [Nat.add]. reflexivity.
Qed.

Lemma pos_in_memb : forall k ks, memb k ks = negb (pos_in k ks =? 0).
Proof.
  intros k ks; induction ks as [|x r IH]; cbn [memb existsb pos_in]; [reflexivity|].
  rewrite (N.eqb_sym k x). destruct (x =? k)%N; cbn [orb]; [reflexivity|].
  change (existsb (N.eqb k) r) with (memb k r). rewrite IH. destruct (pos_in k r); reflexivity.
Qed.

Lemma pos_in_zero : forall k ks, memb k ks = false -> pos_in k ks = 0.
Proof. intros k ks H. rewrite pos_in_memb in H. destruct (pos_in k ks); [reflexivity|discriminate]. Qed.

Lemma pos_in_nth : forall k ks p, pos_in k ks = S p -> p < length ks /\ nth p ks 0%N = k.
Proof.
  intros k ks; induction ks as [|x r IH]; intros p H; cbn [pos_in] in H; [discriminate|].
  destruct (N.eqb_spec x k) as [->|Hne].
  - inversion H; subst. cbn. split; [lia|reflexivity].
  - destruct (pos_in k r) as [|q] eqn:E; [discriminate|]. inversion H; subst.
    destruct (IH q eq_refl) as [H1 H2]. cbn. split; [lia|exact H2].
Qed.

Lemma pos_in_In : forall k ks p, pos_in k ks = S p -> In k ks.
Proof. intros k ks p H. destruct (pos_in_nth _ _ _ H) as [Hp <-]. apply nth_In, Hp. Qed.

Lemma pos_in_split : forall k a b, memb k a = false -> pos_in k (a ++ k :: b) = S (length a).
Proof.
  intros k a b H. rewrite pos_in_app, (pos_in_zero _ _ H). cbn [pos_in]. rewrite N.eqb_refl. apply Nat.add_1_r.
Qed.

Definition index_of (ks : list N) : list nat := map (fun j => pos_in (N.of_nat j) ks) (seq 0 256).

Lemma index_of_length : forall ks, length (index_of ks) = 256.
Proof. intros; unfold index_of; rewrite map_length, seq_length; reflexivity. Qed.

Lemma nth_index_of : forall ks j, j < 256 -> nth j (index_of ks) 0 = pos_in (N.of_nat j) ks.
Proof.
  intros ks j Hj. unfold index_of.
  rewrite (nth_indep _ 0 ((fun j => pos_in (N.of_nat j) ks) 0)) by (rewrite map_length, seq_length; exact Hj).
  rewrite (map_nth (fun j => pos_in (N.of_nat j) ks) (seq 0 256) 0 j), seq_nth by exact Hj. reflexivity.
Qed.

Lemma index_ext : forall ix ks, length ix = 256 ->
  (forall j, j < 256 -> nth j ix 0 = pos_in (N.of_nat j) ks) -> ix = index_of ks.
Proof.
  intros ix ks HL H. apply (nth_ext _ _ 0 0); [rewrite index_of_length; exact HL|].
  intros j Hj. rewrite HL in Hj. rewrite H, nth_index_of by exact Hj. reflexivity.
Qed.

Lemma nth_split_lo : forall (a b : list N) k i, Forall (fun x => (x < k)%N) a -> i < length a -> (nth i (a ++ b) 0 < k)%N.
Proof.
  intros a b k i Ha Hi. rewrite app_nth1 by exact Hi. rewrite Forall_forall in Ha. apply Ha. apply nth_In; exact Hi.
Qed.
Lemma nth_split_hi : forall (a b : list N) k i, Forall (fun x => (k < x)%N) b -> length a <= i < length a + length b ->
  (k < nth i (a ++ b) 0)%N.
Proof.
  intros a b k i Hb Hi. rewrite app_nth2 by lia. rewrite Forall_forall in Hb. apply Hb. apply nth_In; lia.
Qed.

Lemma good_app_inv : forall a k b, good (a ++ k :: b) ->
  Forall (fun x => (x < k)%N) a /\ Forall (fun x => (k < x)%N) b /\ (k < 256)%N /\ good (a ++ b).
Proof.
  intros a k b [HS HB]. apply ssorted_app in HS. destruct HS as (Ha & [Hkb Hb] & Hab).
  rewrite Forall_app in HB. destruct HB as [HBa HBkb]. apply Forall_cons_iff in HBkb. destruct HBkb as [Hk HBb].
  split; [apply Forall_forall; intros x Hx; apply Hab; [exact Hx|left; reflexivity]|].
  repeat split; auto.
  - apply ssorted_app. repeat split; auto. intros x y Hx Hy. apply Hab; [exact Hx|right; exact Hy].
  - rewrite Forall_app; split; auto.
Qed.

Lemma good_ins : forall a k b, good (a ++ b) -> Forall (fun x => (x < k)%N) a -> Forall (fun x => (k < x)%N) b ->
  (k < 256)%N -> good (a ++ k :: b).
Proof.
  intros a k b [HS HB] Ha Hb Hk. apply ssorted_app in HS. destruct HS as (HSa & HSb & Hab).
  rewrite Forall_app in HB. destruct HB as [HBa HBb]. split.
  - apply ssorted_app. repeat split; auto.
    intros x y Hx [<-|Hy].
    + rewrite Forall_forall in Ha. apply Ha; exact Hx.
    + apply Hab; auto.
  - rewrite Forall_app; split; auto.
Qed.

Lemma ssorted_bound : forall ks lo, ssorted ks -> Forall (fun x => (lo <= x)%N) ks ->
  Forall (fun x => (x < 256)%N) ks -> (lo <= 256)%N -> (N.of_nat (length ks) + lo <= 256)%N.
Proof.
  induction ks as [|x r IH]; intros lo HS Hlo HB Hl; cbn [length].
  - lia.
  - destruct HS as [Hx HS]. apply Forall_cons_iff in Hlo. destruct Hlo as [Hlx _].
    apply Forall_cons_iff in HB. destruct HB as [Hbx HB].
    assert (H : (N.of_nat (length r) + (x + 1) <= 256)%N).
    { apply IH; auto; [|lia]. eapply Forall_impl; [|exact Hx]. cbn; intros; lia. }
    lia.
Qed.
Lemma good_length : forall ks, good ks -> length ks <= 256.
Proof.
  intros ks [HS HB]. pose proof (ssorted_bound ks 0%N HS) as H.
  assert (H0 : Forall (fun x => (0 <= x)%N) ks) by (apply Forall_forall; intros; lia).
  specialize (H H0 HB). lia.
Qed.
