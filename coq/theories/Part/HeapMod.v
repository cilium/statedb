(* Part/HeapMod.v — Txn.modify on the heap (Part/Heap.v hmod) refines Part/Model.v modify_node:
   same outputs, the new root represents the model's new tree; writes go only to cells of the
   footprint (owned cells under the root), everything else is appended. Also what HeapDel.v shares:
   the outcome of an operation below a node ([post], composed by [post_trans]), child lists,
   allocation ([node_alloc]), node replacement ([node_finish]) and merge. *)
From SV Require Import Base.Bytes Base.OrdMap Part.Model Part.Sem Part.Insert Part.Heap Part.HeapBase.
From Coq Require Import ZArith List Bool Lia ZifyN ZifyNat ZifyBool.
Import ListNotations.
Open Scope N_scope.

Lemma ch_find_height b : forall ch x, ch_find b ch = Some x -> (height x <= height_ch ch)%nat.
Proof.
  induction ch as [|b' y r IH]; intros x; cbn [ch_find height_ch]; [discriminate|].
  destruct (b' =? b); [intros [= ->]; lia|]. intros H. specialize (IH _ H). lia.
Qed.

Lemma hc_set_same b cc : forall ch, hc_find b ch = Some cc -> hc_set b cc ch = ch.
Proof.
  induction ch as [|[b' x] r IH]; cbn [hc_find hc_set]; [reflexivity|].
  destruct (N.eqb_spec b' b) as [E|_]; [intros [= ->]; reflexivity|]. intros H. now rewrite IH.
Qed.
Lemma upd_same (h : heap) : forall a cl, nth_error h a = Some cl -> upd h a cl = h.
Proof. induction h as [|x h IH]; intros [|a] cl; simpl; try discriminate; [now intros [= ->]|]. intros H. now rewrite IH. Qed.

Lemma node_prefix_set n q : node_prefix (set_prefix n q) = q.
Proof. destruct n; reflexivity. Qed.

(* P holds of every address not yet allocated *)
Definition Pext {P : nat -> Prop} (h : heap) : Prop := forall x, (length h <= x)%nat -> P x.
Lemma Pext_mono {P : nat -> Prop} h h' : @Pext P h -> (length h <= length h')%nat -> @Pext P h'.
Proof. intros H L x Hx. apply H. lia. Qed.

Section Common.
Context {P : nat -> Prop}.
Variable c : ctx.
Notation tid := (c_tid c).
Hypothesis T0 : 0 < tid.

Notation Trep := (@trep P tid).
Notation Tchs := (@tchs P tid).
Notation Plrep := (@plrep P).
Notation owned := (owned_cell tid).
Notation Ext := (ext tid).

Lemma clone_hdr_tid s t w t' w' s' : clone_hdr c s t w = (t', w', s') -> t' = tid.
Proof. intros E. pose proof (clone_hdr_fst c s t w) as H. now rewrite E in H. Qed.

(* cell a holds an inner node of the transaction's tree whose children have footprint Fc: either it
   is frozen and owns nothing below, or it carries the txn id and heads the footprint *)
Definition inner_at (h : heap) (a : nat) kd t0 p w lf ch (Fc F : list nat) : Prop :=
  nth_error h a = Some (CInner kd t0 p w lf ch) /\
  ((t0 < tid /\ P a /\ Fc = [] /\ F = []) \/ (t0 = tid /\ ~ In a Fc /\ F = a :: Fc)).

Lemma inner_at_incl h a kd t0 p w lf ch Fc F : inner_at h a kd t0 p w lf ch Fc F -> incl Fc F.
Proof. intros (_ & [(_ & _ & -> & ->)|(_ & _ & ->)]); [apply incl_refl|apply incl_tl, incl_refl]. Qed.

Lemma trep_inv h a t F : Trep h a t F ->
  (exists p l, t = Leaf p l /\ nth_error h a = Some (CLeaf p l) /\ P a /\ F = []) \/
  (exists kd t0 p w ol tch lf ch Fc, t = Inner kd t0 p w ol tch /\
     inner_at h a kd t0 p w lf ch Fc F /\ Plrep h lf ol /\ Tchs h ch tch Fc).
Proof.
  intros T. destruct T as [a p l Hn Pa|a kd t p w lf ch ol tch Hn Ht Pa Hl Tc|a kd p w lf ch ol tch F Hn Hl Tc Na].
  - left. eauto 8.
  - right. exists kd, t, p, w, ol, tch, lf, ch, []. unfold inner_at. auto 10.
  - right. exists kd, tid, p, w, ol, tch, lf, ch, F. unfold inner_at. auto 10.
Qed.

Lemma tchs_len h ch tch F : Tchs h ch tch F -> hc_len ch = ch_len tch.
Proof. induction 1 as [|b x r n tr F1 F2 _ _ IH _]; cbn [hc_len ch_len]; congruence. Qed.

Lemma tchs_find_none h b ch tch F : Tchs h ch tch F -> hc_find b ch = None -> ch_find b tch = None.
Proof.
  induction 1 as [|b' x r n tr F1 F2 _ _ IH _]; cbn [hc_find ch_find]; [auto|].
  destruct (b' =? b); [discriminate|auto].
Qed.

Definition sub (F' F : list nat) (h : heap) : Prop := forall y, In y F' -> In y F \/ (length h <= y)%nat.
Lemma sub_refl F h : sub F F h.
Proof. intros y Hy. now left. Qed.

Lemma tchs_F_lt h ch tch F : Tchs h ch tch F -> forall x, In x F -> (x < length h)%nat.
Proof. intros T x Hx. eapply owned_lt. eapply (proj2 (trep_F_cell tid h)); eauto. Qed.
Lemma trep_F_lt h a t F : Trep h a t F -> forall x, In x F -> (x < length h)%nat.
Proof. intros T x Hx. eapply owned_lt. eapply (proj1 (trep_F_cell tid h)); eauto. Qed.

(* what an operation below a node with footprint F leaves behind: the new node is represented in the
   new heap, its footprint lies in F or in new cells, and only cells of F were overwritten *)
Definition post (h : heap) (F : list nat) (h' : heap) (a' : nat) (n' : node) : Prop :=
  exists F', Trep h' a' n' F' /\ sub F' F h /\ Ext h h' F.

(* ... after an earlier step that stayed inside F0 and from whose footprint F comes *)
Lemma post_trans h0 F0 h F h' a' n' : post h F h' a' n' -> Ext h0 h F0 -> sub F F0 h0 -> post h0 F0 h' a' n'.
Proof.
  intros (F' & T & S & (L & A & O)) (L0 & A0 & O0) S0. exists F'. split; [exact T|]. split.
  - intros y Hy. destruct (S y Hy) as [H|H]; [destruct (S0 y H); [now left|now right]|right; lia].
  - split; [lia|]. split; [|auto]. intros a cl Hn Na. apply A; [auto|]. intros Hi.
    destruct (S0 a Hi) as [H|H]; [exact (Na H)|]. apply nth_error_lt in Hn. lia.
Qed.

(* writes inside one part of the footprint leave what has a disjoint footprint alone *)
Lemma tchs_ext h h' W ch tch F : Ext h h' W -> (forall x, In x W -> owned h x) -> Tchs h ch tch F ->
  disj W F -> Tchs h' ch tch F.
Proof. intros E OW T D. eapply (proj2 (trep_ext tid h h' W T0 E OW)); eauto. Qed.
Lemma trep_ext1 h h' W a t F : Ext h h' W -> (forall x, In x W -> owned h x) -> Trep h a t F ->
  disj W F -> Trep h' a t F.
Proof. intros E OW T D. eapply (proj1 (trep_ext tid h h' W T0 E OW)); eauto. Qed.

(* the zipper: take the child for byte b out, put back what an operation below it left *)
Lemma tchs_split h b ch tch F : Tchs h ch tch F -> forall cc, hc_find b ch = Some cc ->
  exists n Fn, ch_find b tch = Some n /\ Trep h cc n Fn /\ incl Fn F /\
    forall h' c' n', post h Fn h' c' n' ->
      exists F', Tchs h' (hc_set b c' ch) (ch_set b n' tch) F' /\ sub F' F h /\ Ext h h' F.
Proof.
  induction 1 as [|b' x r n tr F1 F2 T1 T2 IH D]; intros cc; cbn [hc_find ch_find hc_set ch_set]; [discriminate|].
  destruct (b' =? b).
  - intros [= <-]. exists n, F1. split; [reflexivity|]. split; [exact T1|]. split; [apply incl_appl, incl_refl|].
    intros h' c' n' (Fn' & T' & S & E). exists (Fn' ++ F2).
    split; [|split; [|eapply ext_weaken; [exact E|apply incl_appl, incl_refl]]].
    + constructor; [exact T'| |].
      * eapply tchs_ext; [exact E| |exact T2|exact D]. intros y Hy. eapply (proj1 (trep_F_cell tid h)); eauto.
      * intros y Hy Hy2. destruct (S y Hy) as [H|H]; [exact (D y H Hy2)|].
        pose proof (tchs_F_lt _ _ _ _ T2 y Hy2). lia.
    + intros y Hy. apply in_app_or in Hy as [Hy|Hy]; [destruct (S y Hy); [left; apply in_or_app|]; auto|left; apply in_or_app; auto].
  - intros Hf. destruct (IH cc Hf) as (n0 & Fn & Hc & Tn & In2 & K). exists n0, Fn. split; [exact Hc|]. split; [exact Tn|].
    split; [apply incl_appr, In2|]. intros h' c' n' Po. destruct (K h' c' n' Po) as (F' & Tc' & S' & E). exists (F1 ++ F').
    split; [|split; [|eapply ext_weaken; [exact E|apply incl_appr, incl_refl]]].
    + constructor; [|exact Tc'|].
      * eapply trep_ext1; [exact E| |exact T1|]. { intros y Hy. eapply (proj2 (trep_F_cell tid h)); eauto. }
        intros y Hy Hy1. exact (D y Hy1 Hy).
      * intros y Hy1 Hy. destruct (S' y Hy) as [H|H]; [exact (D y Hy1 H)|].
        pose proof (trep_F_lt _ _ _ _ T1 y Hy1). lia.
    + intros y Hy. apply in_app_or in Hy as [Hy|Hy]; [left; apply in_or_app; auto|].
      destruct (S' y Hy); [left; apply in_or_app|]; auto.
Qed.

Lemma tchs_insert_frozen h b la n ch tch F : Tchs h ch tch F -> Trep h la n [] ->
  Tchs h (hc_insert b la ch) (ch_insert b n tch) F.
Proof.
  intros T Tl. induction T as [|b' x r n' tr F1 F2 T1 T2 IH D]; cbn [hc_insert ch_insert].
  - change (@nil nat) with (@nil nat ++ []). constructor; [exact Tl|constructor|apply disj_nil_l].
  - destruct (b <? b').
    + change (F1 ++ F2) with ([] ++ (F1 ++ F2)). constructor; [exact Tl|constructor; auto|apply disj_nil_l].
    + constructor; auto.
Qed.

Lemma tchs_remove h b ch tch F : Tchs h ch tch F ->
  exists F', Tchs h (hc_remove b ch) (ch_remove b tch) F' /\ incl F' F.
Proof.
  induction 1 as [|b' x r n tr F1 F2 T1 T2 IH D]; cbn [hc_remove ch_remove].
  - exists []. split; [constructor|apply incl_refl].
  - destruct (b' =? b).
    + exists F2. split; [exact T2|apply incl_appr, incl_refl].
    + destruct IH as (F' & T' & I'). exists (F1 ++ F'). split.
      * constructor; auto. intros y H1 H2. exact (D y H1 (I' y H2)).
      * apply incl_app; [apply incl_appl, incl_refl|apply incl_appr, I'].
Qed.

Lemma tchs_other h b ch tch F : Tchs h ch tch F ->
  match hc_other b ch with
  | None => ch_other b tch = None
  | Some x => exists n Fn, ch_other b tch = Some n /\ Trep h x n Fn /\ incl Fn F
  end.
Proof.
  induction 1 as [|b' x r n tr F1 F2 T1 T2 IH D]; cbn [hc_other ch_other]; [reflexivity|].
  destruct (b' =? b).
  - destruct (hc_other b r) as [y|]; [|exact IH]. destruct IH as (n0 & Fn & H1 & H2 & H3).
    exists n0, Fn. split; [exact H1|]. split; [exact H2|apply incl_appr, H3].
  - exists n, F1. split; [reflexivity|]. split; [exact T1|apply incl_appl, incl_refl].
Qed.

(* a new cell disturbs nothing *)
Lemma alloc_keeps h cl W : let h1 := h ++ [cl] in
  Ext h h1 W /\ (forall a t F, Trep h a t F -> Trep h1 a t F) /\
  (forall ch tch F, Tchs h ch tch F -> Tchs h1 ch tch F) /\ (forall lf ol, Plrep h lf ol -> Plrep h1 lf ol).
Proof.
  intros h1. assert (E : Ext h h1 []) by apply ext_alloc.
  assert (OW : forall x, In x (@nil nat) -> owned h x) by (intros x []).
  split; [eapply ext_weaken; [exact E|apply incl_nil_l]|]. split; [|split].
  - intros a t F T. eapply trep_ext1; eauto. apply disj_nil_l.
  - intros ch tch F T. eapply tchs_ext; eauto. apply disj_nil_l.
  - intros lf ol. eapply plrep_ext; eauto.
Qed.

Lemma leaf_alloc h p l : @Pext P h -> let h1 := h ++ [CLeaf p l] in
  @Pext P h1 /\ Trep h1 (length h) (Leaf p l) [] /\ Plrep h1 (Some (length h)) (Some l).
Proof.
  intros PE h1. split; [eapply Pext_mono; [exact PE|]; unfold h1; rewrite app_length; lia|].
  split; [constructor; [apply nth_error_app_new|apply PE; lia]|].
  cbn [plrep]. split; [apply PE; lia|]. exists p, l. split; [apply nth_error_app_new|reflexivity].
Qed.

(* promote, demote, the new node4 of a split: always a new object with the txn's id *)
Lemma node_alloc h0 F h kd p w lf ch ol tch Fc : Ext h0 h F -> Plrep h lf ol -> Tchs h ch tch Fc -> sub Fc F h0 ->
  post h0 F (h ++ [CInner kd tid p w lf ch]) (length h) (Inner kd tid p w ol tch).
Proof.
  intros E0 Hl Tc S. destruct (alloc_keeps h (CInner kd tid p w lf ch) []) as (E & _ & KC & KL).
  exists (length h :: Fc). split; [|split].
  - apply (tr_own tid _ _ kd p w lf ch ol tch Fc); auto; [apply nth_error_app_new|].
    intros Hi. pose proof (tchs_F_lt _ _ _ _ Tc _ Hi). lia.
  - intros y [<-|Hy]; [right; apply E0|auto].
  - eapply ext_weaken; [eapply ext_trans; eauto|]. intros y Hy. now rewrite app_nil_r in Hy.
Qed.

(* this = txn.cloneNode(this) followed by the writes that give it new contents, after the heap was
   extended by writes below the node: in place iff the node carries the txn id *)
Lemma node_finish h a kd t0 p0 w0 lf0 ch0 Fc F h' kd' p' w' lf' ch' ol' tch' Fc' :
  inner_at h a kd t0 p0 w0 lf0 ch0 Fc F -> Ext h h' Fc ->
  Plrep h' lf' ol' -> Tchs h' ch' tch' Fc' -> sub Fc' Fc h ->
  forall h2 a2, hput c h' a t0 (CInner kd' tid p' w' lf' ch') = (h2, a2) ->
  post h F h2 a2 (Inner kd' tid p' w' ol' tch') /\ (t0 = tid -> a2 = a /\ In a F).
Proof.
  intros (Hn & St) E Hl Tc S h2 a2. unfold hput, alloc. pose proof E as (L & _ & OE).
  destruct St as [(Ht & Pa & -> & ->)|(-> & Na & ->)].
  - destruct (N.eqb_spec t0 tid) as [Et|_]; [lia|]. intros [= <- <-]. split; [|lia].
    apply (node_alloc h [] h' _ _ _ _ _ _ _ Fc'); auto.
  - rewrite N.eqb_refl. intros [= <- <-]. split; [|intros _; split; [reflexivity|now left]].
    assert (La : (a < length h)%nat) by (eapply nth_error_lt; eauto).
    assert (Oa' : owned h' a) by (apply OE; red; eauto 8).
    assert (Na' : ~ In a Fc'). { intros Hi. destruct (S a Hi) as [H|H]; [exact (Na H)|lia]. }
    set (nc := CInner kd' tid p' w' lf' ch').
    assert (E' : Ext h' (upd h' a nc) [a]) by (apply ext_upd; lia).
    assert (OW : forall x, In x [a] -> owned h' x) by (intros x [<-|[]]; exact Oa').
    exists (a :: Fc'). split; [|split].
    + apply (tr_own tid _ _ kd' p' w' lf' ch' ol' tch' Fc'); [apply nth_error_upd_eq; lia| | |exact Na'].
      * eapply plrep_ext; eauto.
      * eapply tchs_ext; eauto. intros y [<-|[]] Hy. exact (Na' Hy).
    + intros y [<-|Hy]; [left; now left|]. destruct (S y Hy) as [H|H]; [left; now right|right; exact H].
    + eapply ext_weaken; [eapply ext_trans; eauto|]. intros y Hy. apply in_app_or in Hy as [Hy|[<-|[]]]; [now right|now left].
Qed.

(* one step down and back up: the child under b, and what its parent becomes once an operation below
   the child has left its outcome: cloned, or written in place, with the new child pointer - or, when the
   child itself was updated in place, left as it is (the parent is then owned, too) *)
Lemma node_descend h a kd t0 p w lf ch ol tch Fc F b cc :
  inner_at h a kd t0 p w lf ch Fc F -> Plrep h lf ol -> Tchs h ch tch Fc -> hc_find b ch = Some cc ->
  exists n Fn, ch_find b tch = Some n /\ Trep h cc n Fn /\
    forall h1 c' n', post h Fn h1 c' n' ->
      (forall w' h2 a2, hput c h1 a t0 (CInner kd tid p w' lf (hc_set b c' ch)) = (h2, a2) ->
         post h F h2 a2 (Inner kd tid p w' ol (ch_set b n' tch)) /\ (t0 = tid -> a2 = a /\ In a F)) /\
      (c' = cc -> In cc Fn -> In a F /\ post h F h1 a (Inner kd t0 p w ol (ch_set b n' tch))).
Proof.
  intros At Hl Tc Ef. destruct (tchs_split h b ch tch Fc Tc cc Ef) as (n & Fn & Hcf & Tn & InFn & K).
  exists n, Fn. split; [exact Hcf|]. split; [exact Tn|]. intros h1 c' n' Po.
  destruct (K _ _ _ Po) as (Fc' & Tc' & Sc' & E1).
  assert (Hl' : Plrep h1 lf ol).
  { eapply plrep_ext; [exact E1| |exact Hl]. intros y Hy. eapply (proj2 (trep_F_cell tid h)); eauto. }
  split; [intros w' h2 a2 Ep; eapply node_finish; eauto|]. intros -> Hcc.
  pose proof At as (Hn & [(_ & _ & EF & _)|(Et & Na & EF)]); [rewrite EF in InFn; destruct (InFn _ Hcc)|].
  split; [rewrite EF; now left|]. subst t0.
  (* the parent's cell already holds the pointer: writing cloneNode's result back changes nothing *)
  eapply node_finish; [exact At|exact E1|exact Hl'|exact Tc'|exact Sc'|].
  unfold hput. rewrite N.eqb_refl, (hc_set_same _ _ _ Ef), upd_same; [reflexivity|].
  destruct E1 as (_ & A1 & _). apply A1; [exact Hn|exact Na].
Qed.

(* setLeaf on the cloned node: a new leaf object, then the node with the pointer to it *)
Lemma set_leaf_spec h a kd t0 p w lf ch tch Fc F q nl w' : @Pext P h ->
  inner_at h a kd t0 p w lf ch Fc F -> Tchs h ch tch Fc ->
  forall h2 a2, hput c (h ++ [CLeaf q nl]) a t0 (CInner kd tid p w' (Some (length h)) ch) = (h2, a2) ->
  post h F h2 a2 (Inner kd tid p w' (Some nl) tch).
Proof.
  intros PE At Tc h2 a2 Ep. destruct (leaf_alloc h q nl PE) as (_ & _ & PL).
  destruct (alloc_keeps h (CLeaf q nl) Fc) as (E1 & _ & KC & _).
  eapply node_finish; eauto using sub_refl.
Qed.

(* a new leaf in a free slot: under a promoted copy (always a new object) or under the cloned node *)
Lemma free_slot_spec h a kd t0 p w lf ch ol tch Fc F b q nl : @Pext P h ->
  inner_at h a kd t0 p w lf ch Fc F -> Plrep h lf ol -> Tchs h ch tch Fc ->
  let h1 := h ++ [CLeaf q nl] in
  (forall kd' w2, post h F (h1 ++ [CInner kd' tid p w2 lf (hc_insert b (length h) ch)]) (length h1)
                    (Inner kd' tid p w2 ol (ch_insert b (Leaf q nl) tch))) /\
  (forall w' h2 a2, hput c h1 a t0 (CInner kd tid p w' lf (hc_insert b (length h) ch)) = (h2, a2) ->
     post h F h2 a2 (Inner kd tid p w' ol (ch_insert b (Leaf q nl) tch))).
Proof.
  intros PE At Hl Tc h1. destruct (leaf_alloc h q nl PE) as (_ & TL & _).
  assert (Tc2 : forall W, Ext h h1 W /\ Plrep h1 lf ol /\
            Tchs h1 (hc_insert b (length h) ch) (ch_insert b (Leaf q nl) tch) Fc).
  { intros W. destruct (alloc_keeps h (CLeaf q nl) W) as (E1 & _ & KC & KL).
    split; [exact E1|]. split; [auto|]. apply tchs_insert_frozen; auto. }
  split.
  - intros kd' w2. destruct (Tc2 F) as (E1 & Hl1 & T2). apply (node_alloc h F h1 _ _ _ _ _ _ _ Fc); auto.
    intros y Hy. left. exact (inner_at_incl _ _ _ _ _ _ _ _ _ _ At y Hy).
  - intros w' h2 a2 Ep. destruct (Tc2 Fc) as (E1 & Hl1 & T2). eapply node_finish; eauto using sub_refl.
Qed.

(* childClone := child.clone(false); watch retained; prefix extended: a new cell with the child's id *)
Lemma hmerge_spec h pp x n Fn : @Pext P h -> Trep h x n Fn ->
  forall h1 x', hmerge h pp x = (h1, x') -> post h Fn h1 x' (merge_child pp n).
Proof.
  intros PE T h1 x'. unfold hmerge, alloc. intros [= <- <-].
  destruct (trep_inv _ _ _ _ T) as [(p & l & -> & Hn & Pa & ->)|(kd & t0 & p & w & ol & tch & lf & ch & Fc & -> & (Hn & St) & Hl & Tc)];
    rewrite (hget_some Hn); cbn [cell_set_prefix cell_prefix merge_child set_prefix node_prefix].
  - exists []. split; [apply leaf_alloc, PE|]. split; [intros y []|apply alloc_keeps].
  - destruct St as [(Ht & Pa & -> & ->)|(-> & Na & ->)].
    + destruct (alloc_keeps h (CInner kd t0 (pp ++ p) w lf ch) []) as (E & _ & KC & KL).
      exists []. split; [|split; [intros y []|exact E]].
      apply (tr_old tid _ _ kd t0 (pp ++ p) w lf ch ol tch); [apply nth_error_app_new|exact Ht|apply PE; lia|auto|auto].
    + apply (node_alloc h _ h _ _ _ _ _ _ _ Fc); auto; [apply ext_refl|]. intros y Hy. left. now right.
Qed.
End Common.
Arguments clone_hdr_tid c {s t w t' w' s'}.
Arguments inner_at_incl {P} c {h a kd t0 p w lf ch Fc F}.
Arguments tchs_len {P} c {h ch tch F}.
Arguments tchs_find_none {P} c {h b ch tch F}.
Arguments set_leaf_spec {P} c T0 {h a kd t0 p w lf ch tch Fc F} q nl w'.
Arguments free_slot_spec {P} c T0 {h a kd t0 p w lf ch ol tch Fc F} b q nl.
Arguments node_descend {P} c T0 {h a kd t0 p w lf ch ol tch Fc F b cc}.
Arguments node_finish {P} c T0 {h a kd t0 p0 w0 lf0 ch0 Fc F h' kd' p' w' lf' ch' ol' tch' Fc'} _ _ _ _ _ {h2 a2}.
Arguments post_trans {P} c T0 {h0 F0 h F h' a' n'}.

Section Modify.
Context {P : nat -> Prop}.
Variable c : ctx.
Notation tid := (c_tid c).
Hypothesis T0 : 0 < tid.
Variable md : option (N -> N -> N).
Variable fk : bytes.
Variable v : N.

Notation Trep := (@trep P tid).
Notation Tchs := (@tchs P tid).
Notation Plrep := (@plrep P).
Notation owned := (owned_cell tid).
Notation Ext := (ext tid).
Notation PExt := (@Pext P).
Notation post := (@post P c).

(* the heap result agrees with the model result: outputs, representation, frame *)
Definition hmspec (h : heap) (F : list nat) (r : hres) (m : mres) : Prop :=
  r_st r = m_st m /\ r_old r = m_old m /\ r_w r = m_w m /\ r_val r = m_val m /\
  post h F (r_heap r) (r_addr r) (m_node m).

Lemma hsplit_spec s h ta this key tl Fthis : PExt h ->
  let cp := common key (node_prefix this) in
  let this' := set_prefix this (skipn (length cp) (node_prefix this)) in
  Trep h ta this' Fthis -> Plrep h tl (node_leaf this') ->
  hmspec h Fthis (hsplit c fk v s h ta (node_prefix this') tl cp (skipn (length cp) key)) (split_node c fk v s this key).
Proof.
  intros PE cp this' T Hl. unfold hsplit, split_node, alloc. fold cp. fold this'.
  destruct (fresh c s) as [lw s1]. destruct (fresh c s1) as [nw s2].
  set (key' := skipn (length cp) key). set (nl := mkLeaf fk v lw).
  destruct (leaf_alloc c T0 h key' nl PE) as (_ & TL & PL).
  destruct (@alloc_keeps P c T0 h (CLeaf key' nl) Fthis) as (E1 & KT & _ & KL).
  set (h1 := h ++ [CLeaf key' nl]) in *.
  (* the new node4 over children that live in h1 *)
  assert (Fin : forall lf ch ol tch Fc, Plrep h1 lf ol -> Tchs h1 ch tch Fc -> sub Fc Fthis h ->
            hmspec h Fthis (mkHR (h1 ++ [CInner 4 tid cp nw lf ch]) (length h1) s2 None lw v)
                          (mkM (Inner 4 tid cp nw ol tch) s2 None lw v)).
  { intros lf ch ol tch Fc Hlf Tc S. repeat (split; [reflexivity|]). cbn [r_heap r_addr m_node].
    apply (node_alloc c T0 h Fthis h1 _ _ _ _ _ _ _ Fc); auto. }
  cbn [r_heap r_addr r_st r_old r_w r_val].
  destruct (node_prefix this') as [|tb tpl] eqn:Etp.
  - apply (Fin _ _ _ _ []); auto.
    + change (@nil nat) with (@nil nat ++ []). constructor; [exact TL|constructor|apply disj_nil_l].
    + intros y [].
  - destruct key' as [|kb kl] eqn:Ek.
    + apply (Fin _ _ _ _ (Fthis ++ [])); auto.
      * constructor; [auto|constructor|apply disj_nil_r].
      * intros y Hy. rewrite app_nil_r in Hy. auto.
    + destruct (tb <? kb).
      * apply (Fin _ _ _ _ (Fthis ++ ([] ++ []))).
        -- reflexivity.
        -- constructor; [auto| |apply disj_nil_r]. constructor; [exact TL|constructor|apply disj_nil_l].
        -- intros y Hy. cbn [app] in Hy. rewrite app_nil_r in Hy. auto.
      * apply (Fin _ _ _ _ ([] ++ (Fthis ++ []))).
        -- reflexivity.
        -- constructor; [exact TL| |apply disj_nil_l]. constructor; [auto|constructor|apply disj_nil_r].
        -- intros y Hy. cbn [app] in Hy. rewrite app_nil_r in Hy. auto.
Qed.

(* the split after an inner node whose prefix the key leaves: the cloned node gets the shortened prefix first *)
Lemma hsplit_inner_spec s1 h a kd t0 p w w' lf ch ol tch Fc F key h1 ta : PExt h ->
  @inner_at P c h a kd t0 p w lf ch Fc F -> Plrep h lf ol -> Tchs h ch tch Fc ->
  (forall y, In y F -> owned h y) ->
  let cp := common key p in
  hput c h a t0 (CInner kd tid (skipn (length cp) p) w' lf ch) = (h1, ta) ->
  hmspec h F (hsplit c fk v s1 h1 ta (skipn (length cp) p) lf cp (skipn (length cp) key))
            (split_node c fk v s1 (Inner kd tid p w' ol tch) key).
Proof.
  intros PE At Hl Tc OF cp Ep.
  destruct (node_finish c T0 At (ext_refl _ _ _) Hl Tc (sub_refl _ _) Ep) as ((F1 & T' & S' & E') & _).
  assert (PE1 : PExt h1) by (eapply Pext_mono; [exact PE|apply E']).
  assert (Hl1 : Plrep h1 lf ol).
  { eapply plrep_ext; [exact E'|exact OF|exact Hl]. }
  pose proof (hsplit_spec s1 h1 ta (Inner kd tid p w' ol tch) key lf F1 PE1) as K.
  cbn [node_prefix set_prefix node_leaf] in K. fold cp in K. destruct (K T' Hl1) as (A1 & A2 & A3 & A4 & Po).
  repeat (split; [assumption|]). exact (post_trans c T0 Po E' S').
Qed.

(* the split after a leaf: leafCopy (a new leaf object with the shortened prefix) takes the leaf's place *)
Lemma hsplit_leaf_spec s h p l key : PExt h ->
  let cp := common key p in
  hmspec h [] (hsplit c fk v s (h ++ [CLeaf (skipn (length cp) p) l]) (length h) (skipn (length cp) p)
                (Some (length h)) cp (skipn (length cp) key))
             (split_node c fk v s (Leaf p l) key).
Proof.
  intros PE cp. destruct (leaf_alloc c T0 h (skipn (length cp) p) l PE) as (PE1 & TL & PL).
  pose proof (hsplit_spec s _ (length h) (Leaf p l) key (Some (length h)) [] PE1) as K.
  cbn [node_prefix set_prefix node_leaf] in K. fold cp in K. destruct (K TL PL) as (A1 & A2 & A3 & A4 & Po).
  repeat (split; [assumption|]). eapply (post_trans c T0); [exact Po|apply (@alloc_keeps P c T0)|apply sub_refl].
Qed.

Theorem hmod_spec : forall f s h a key t F, PExt h -> Trep h a t F -> (height t <= f)%nat ->
  hmspec h F (hmod c md fk v f s h a key) (modify_node c md fk v s t key).
Proof.
  induction f as [|f IH]; intros s h a key t F PE T Hh; [destruct t; cbn [height] in Hh; lia|].
  destruct (trep_inv c _ _ _ _ T) as [(p & l & -> & Hn & Pa & ->)|(kd & t0 & p & w & ol & tch & lf & ch & Fc & -> & At & Hl & Tc)];
    cbn [hmod modify_node]; fold (modify_ch c md fk v); [rewrite (hget_some Hn)|rewrite (hget_some (proj1 At))].
  - destruct (bytes_eqb key p); [|now apply hsplit_leaf_spec].
    unfold hleaf_update, alloc. destruct (clone_leaf c s l) as [l' s']. destruct (N.eqb_spec 0 tid) as [E0|_]; [lia|].
    repeat (split; [reflexivity|]). cbn [r_heap r_addr m_node lf_w lf_val lf_key].
    exists []. split; [apply (leaf_alloc c T0), PE|]. split; [intros y []|apply (@alloc_keeps P c T0)].
  - destruct (clone_hdr c s t0 w) as [[t' w'] s1] eqn:Ec. pose proof (clone_hdr_tid c Ec) as ->.
    destruct (strip p key) as [[|b rest]|] eqn:Es.
    + destruct lf as [la|]; cbn [plrep] in Hl.
      * destruct Hl as (Pla & q & l & Hq & ->). rewrite (hget_some Hq). cbn [cell_leafrec cell_prefix].
        unfold hleaf_update, alloc. destruct (clone_leaf c s1 l) as [l' s2]. destruct (N.eqb_spec 0 tid) as [E0|_]; [lia|].
        destruct (hput c _ a t0 _) as [h2 a2] eqn:Ep. repeat (split; [reflexivity|]).
        exact (set_leaf_spec c T0 _ _ _ PE At Tc h2 a2 Ep).
      * subst ol. destruct (fresh c s1) as [lw s2]. unfold alloc.
        destruct (hput c _ a t0 _) as [h2 a2] eqn:Ep. repeat (split; [reflexivity|]).
        exact (set_leaf_spec c T0 _ _ _ PE At Tc h2 a2 Ep).
    + rewrite modify_ch_find. destruct (hc_find b ch) as [cc|] eqn:Ef.
      * destruct (node_descend c T0 At Hl Tc Ef) as (n & Fn & Hcf & Tn & K). rewrite Hcf.
        assert (Hh' : (height n <= f)%nat). { pose proof (ch_find_height _ _ _ Hcf). cbn [height] in Hh. lia. }
        destruct (IH s1 h cc (b :: rest) n Fn PE Tn Hh') as (A1 & A2 & A3 & A4 & Po).
        set (r := hmod c md fk v f s1 h cc (b :: rest)) in *. set (m := modify_node c md fk v s1 n (b :: rest)) in *.
        destruct (hput c (r_heap r) a t0 _) as [h2 a2] eqn:Ep.
        cbn [m_node m_st m_old m_w m_val]. repeat (split; [assumption|]). cbn [r_heap r_addr].
        apply (proj1 (K _ _ _ Po) _ _ _ Ep).
      * rewrite (tchs_find_none c Tc Ef), (tchs_len c Tc).
        destruct (kd <? ch_len tch + 1).
        -- destruct (fresh_if w (record w s)) as [w2 s2]. destruct (fresh c s2) as [lw s3]. unfold alloc.
           repeat (split; [reflexivity|]). apply (free_slot_spec c T0 b _ _ PE At Hl Tc).
        -- destruct (fresh c s1) as [lw s3]. unfold alloc.
           destruct (hput c _ a t0 _) as [h2 a2] eqn:Ep. repeat (split; [reflexivity|]).
           exact (proj2 (free_slot_spec c T0 b _ _ PE At Hl Tc) _ _ _ Ep).
    + destruct (hput c h a t0 _) as [h1 ta] eqn:Ep. exact (hsplit_inner_spec s1 _ _ _ _ _ _ _ _ _ _ _ _ _ key _ _ PE At Hl Tc (proj1 (trep_F_cell tid h) _ _ _ T) Ep).
Qed.
End Modify.
