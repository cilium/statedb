(* Part/HeapBase.v — basic lemmas about the heap model Part/Heap.v: cells, the relational
   denotation rep (deterministic; acyclic, so den with fuel = heap size computes it),
   reachability, heap extension [ext] (append + in-place writes to a write set), and trep: the
   representation invariant of a transaction (frozen cells: leaves and inner nodes below the txn
   id; owned cells: inner nodes carrying the txn id, forming an unshared tree with footprint F).
   trep's parameter P is a property every frozen cell of the representation has and keeps; HeapProofs.v
   instantiates it with "not in the own-set of the other transaction". *)
From SV Require Import Base.Bytes Part.Model Part.Sem Part.Heap.
From Coq Require Import ZArith List Bool Lia ZifyN ZifyNat ZifyBool.
Import ListNotations.
Open Scope N_scope.

Lemma upd_length h : forall a n, length (upd h a n) = length h.
Proof. induction h as [|x h IH]; intros [|a] n; simpl; auto. Qed.
Lemma nth_error_upd_eq h : forall a n, (a < length h)%nat -> nth_error (upd h a n) a = Some n.
Proof. induction h as [|x h IH]; intros [|a] n H; simpl in *; try lia; auto. apply IH. lia. Qed.
Lemma nth_error_upd_neq h : forall a b n, a <> b -> nth_error (upd h a n) b = nth_error h b.
Proof. induction h as [|x h IH]; intros [|a] [|b] n H; simpl; auto; try congruence. Qed.
Lemma hget_some h a n : nth_error h a = Some n -> hget h a = n.
Proof. intros H. unfold hget. now apply nth_error_nth. Qed.
Arguments hget_some {h a n}.
Lemma nth_error_lt (h : heap) a n : nth_error h a = Some n -> (a < length h)%nat.
Proof. intros H. apply nth_error_Some. congruence. Qed.
Lemma nth_error_app_old (h l : heap) a n : nth_error h a = Some n -> nth_error (h ++ l) a = Some n.
Proof. intros H. rewrite nth_error_app1; [exact H|]. eapply nth_error_lt; eauto. Qed.
Lemma nth_error_app_new (h : heap) n : nth_error (h ++ [n]) (length h) = Some n.
Proof. rewrite nth_error_app2 by lia. now rewrite Nat.sub_diag. Qed.

Definition disj (A B : list nat) : Prop := forall x, In x A -> In x B -> False.
Lemma disj_sym A B : disj A B -> disj B A.
Proof. intros D x H1 H2. exact (D x H2 H1). Qed.
Lemma disj_nil_l B : disj [] B.
Proof. intros x []. Qed.
Lemma disj_nil_r A : disj A [].
Proof. intros x _ []. Qed.

Inductive lrep (h : heap) : option nat -> option leafrec -> Prop :=
| lrep_none : lrep h None None
| lrep_some la p l : nth_error h la = Some (CLeaf p l) -> lrep h (Some la) (Some l).

Inductive rep (h : heap) : nat -> node -> Prop :=
| rep_leaf a p l : nth_error h a = Some (CLeaf p l) -> rep h a (Leaf p l)
| rep_inner a kd t p w lf ch ol tch : nth_error h a = Some (CInner kd t p w lf ch) ->
    lrep h lf ol -> reps h ch tch -> rep h a (Inner kd t p w ol tch)
with reps (h : heap) : list (N * nat) -> children -> Prop :=
| reps_nil : reps h [] CNil
| reps_cons b c r n tr : rep h c n -> reps h r tr -> reps h ((b, c) :: r) (CCons b n tr).
Scheme rep_mind := Minimality for rep Sort Prop
  with reps_mind := Minimality for reps Sort Prop.
Combined Scheme rep_reps_ind from rep_mind, reps_mind.

Definition rep_root (h : heap) (r : option nat) (t : option node) : Prop :=
  match r with None => t = None | Some a => exists n, t = Some n /\ rep h a n end.

Lemma lrep_det h lf ol : lrep h lf ol -> forall ol', lrep h lf ol' -> ol = ol'.
Proof. intros H ol' H'. destruct H; inversion H'; subst; auto. congruence. Qed.

Lemma rep_det h :
  (forall a t, rep h a t -> forall t', rep h a t' -> t = t') /\
  (forall ch tch, reps h ch tch -> forall tch', reps h ch tch' -> tch = tch').
Proof.
  apply rep_reps_ind.
  - intros a p l Hn t' H'. inversion H'; subst; congruence.
  - intros a kd t p w lf ch ol tch Hn Hl _ IH t' H'. inversion H'; subst; try congruence.
    match goal with H : nth_error h a = Some (CInner _ _ _ _ _ _) |- _ => rewrite Hn in H; injection H as -> -> -> -> -> -> end.
    f_equal; [eapply lrep_det; eauto|auto].
  - intros tch' H'. inversion H'. reflexivity.
  - intros b c r n tr _ IH1 _ IH2 tch' H'. inversion H'; subst. f_equal; auto.
Qed.

Fixpoint height (n : node) : nat :=
  match n with Leaf _ _ => 1%nat | Inner _ _ _ _ _ ch => S (height_ch ch) end
with height_ch (ch : children) : nat :=
  match ch with CNil => O | CCons _ x r => Nat.max (height x) (height_ch r) end.

Lemma den_leaf_lrep h lf ol : lrep h lf ol -> den_leaf h lf = Some ol.
Proof. intros H. destruct H; cbn [den_leaf]; [reflexivity|]. now rewrite H. Qed.

Lemma denf_rep h :
  (forall a t, rep h a t -> forall f, (height t <= f)%nat -> denf f h a = Some t) /\
  (forall ch tch, reps h ch tch -> forall f, (height_ch tch <= f)%nat -> den_ch (denf f h) ch = Some tch).
Proof.
  apply rep_reps_ind.
  - intros a p l Hn f Hf. destruct f as [|f]; [cbn [height] in Hf; lia|]. cbn [denf]. now rewrite Hn.
  - intros a kd t p w lf ch ol tch Hn Hl _ IH f Hf. destruct f as [|f]; [cbn [height] in Hf; lia|].
    cbn [denf height] in *. rewrite Hn, (den_leaf_lrep _ _ _ Hl), IH by lia. reflexivity.
  - intros f _. reflexivity.
  - intros b c r n tr _ IH1 _ IH2 f Hf. cbn [den_ch height_ch] in *. rewrite IH1, IH2 by lia. reflexivity.
Qed.

(* pigeonhole: a chain of distinct ancestor cells plus the height below fits in the heap *)
Lemma pigeon (h : heap) l : NoDup l -> (forall a, In a l -> (a < length h)%nat) -> (length l <= length h)%nat.
Proof.
  intros ND Hb. replace (length h) with (length (seq 0 (length h))) by apply seq_length.
  apply NoDup_incl_length; [exact ND|]. intros x Hx. apply in_seq. specialize (Hb x Hx). lia.
Qed.

(* along a path from a represented pointer the heights strictly decrease, so (determinism) its
   addresses are distinct: l collects ancestors, all strictly higher than what hangs below *)
Lemma rep_height_aux h :
  (forall a t, rep h a t -> forall l, NoDup l -> (forall x, In x l -> (x < length h)%nat) ->
     (forall x t', In x l -> rep h x t' -> (height t < height t')%nat) ->
     (height t + length l <= length h)%nat) /\
  (forall ch tch, reps h ch tch -> forall l, NoDup l -> (forall x, In x l -> (x < length h)%nat) ->
     (forall x t', In x l -> rep h x t' -> (height_ch tch < height t')%nat) ->
     (height_ch tch + length l <= length h)%nat).
Proof.
  (* a node joins its ancestors *)
  assert (Push : forall a t, rep h a t -> forall l, NoDup l -> (forall x, In x l -> (x < length h)%nat) ->
            (forall x t', In x l -> rep h x t' -> (height t < height t')%nat) ->
            NoDup (a :: l) /\ (forall x, In x (a :: l) -> (x < length h)%nat)).
  { intros a t Rt l ND Hb Hs. split.
    - constructor; [|exact ND]. intros Hi. specialize (Hs a t Hi Rt). lia.
    - intros x [<-|Hx]; [destruct Rt; eapply nth_error_lt; eauto|auto]. }
  apply rep_reps_ind.
  - intros a p l Hn L ND Hb Hs. destruct (Push a _ (rep_leaf h a p l Hn) L ND Hb Hs) as (ND' & Hb').
    exact (pigeon h (a :: L) ND' Hb').
  - intros a kd t p w lf ch ol tch Hn Hl Rc IH L ND Hb Hs.
    pose proof (rep_inner h a kd t p w lf ch ol tch Hn Hl Rc) as Rt.
    destruct (Push a _ Rt L ND Hb Hs) as (ND' & Hb'). specialize (IH (a :: L) ND' Hb'). cbn [length height] in *.
    assert (height_ch tch + S (length L) <= length h)%nat; [|lia]. apply IH.
    intros x t' [<-|Hx] Rx; [rewrite <- (proj1 (rep_det h) _ _ Rt _ Rx); cbn [height]; lia|].
    specialize (Hs x t' Hx Rx). lia.
  - intros L ND Hb _. cbn [height_ch]. apply pigeon; auto.
  - intros b c r n tr _ IH1 _ IH2 L ND Hb Hs. cbn [height_ch] in *.
    assert (height n + length L <= length h)%nat.
    { apply IH1; auto. intros x t' Hx Rx. specialize (Hs x t' Hx Rx). lia. }
    assert (height_ch tr + length L <= length h)%nat.
    { apply IH2; auto. intros x t' Hx Rx. specialize (Hs x t' Hx Rx). lia. }
    lia.
Qed.

Lemma rep_height h a t : rep h a t -> (height t <= length h)%nat.
Proof.
  intros R. pose proof (proj1 (rep_height_aux h) a t R [] (NoDup_nil _)) as H. cbn [length] in H.
  specialize (H ltac:(intros x []) ltac:(intros x t' [])). lia.
Qed.

Theorem rep_den h a t : rep h a t -> den h a = Some t.
Proof. intros R. apply (proj1 (denf_rep h)); [exact R|]. eapply rep_height; eauto. Qed.

Lemma rep_root_den h r t : rep_root h r t -> den_root h r = t.
Proof. destruct r as [a|]; cbn [rep_root den_root]; [|congruence]. intros (n & -> & R). now apply rep_den. Qed.

Inductive reach (h : heap) : nat -> nat -> Prop :=
| reach_here a : reach h a a
| reach_step a cl c x : nth_error h a = Some cl -> In c (cell_ptrs cl) -> reach h c x -> reach h a x.
Definition reach_root (h : heap) (r : option nat) (x : nat) : Prop :=
  match r with None => False | Some a => reach h a x end.

Lemma reach_trans h a b : reach h a b -> forall x, reach h b x -> reach h a x.
Proof. induction 1 as [a|a cl c y Hn Hi _ IH]; intros x Hx; [exact Hx|]. eapply reach_step; eauto. Qed.

Lemma reach_inv h a x : reach h a x ->
  a = x \/ exists cl c, nth_error h a = Some cl /\ In c (cell_ptrs cl) /\ reach h c x.
Proof. intros H. destruct H as [a|a cl c x Hn Hi Hr]; [now left|right; eauto]. Qed.
Lemma reach_leaf h a p l x : nth_error h a = Some (CLeaf p l) -> reach h a x -> x = a.
Proof.
  intros Hn Hx. apply reach_inv in Hx as [->|(cl & c & Hn' & Hi & _)]; [reflexivity|].
  rewrite Hn in Hn'. injection Hn' as <-. destruct Hi.
Qed.

Lemma in_ptrs_leaf kd t p w la ch : In la (cell_ptrs (CInner kd t p w (Some la) ch)).
Proof. cbn [cell_ptrs]. apply in_or_app. left. now left. Qed.
Lemma in_ptrs_child kd t p w lf ch b c : In (b, c) ch -> In c (cell_ptrs (CInner kd t p w lf ch)).
Proof. intros H. cbn [cell_ptrs]. apply in_or_app. right. apply in_map_iff. exists (b, c). auto. Qed.
Lemma in_ptrs_inv kd t p w lf ch x : In x (cell_ptrs (CInner kd t p w lf ch)) ->
  lf = Some x \/ exists b, In (b, x) ch.
Proof.
  cbn [cell_ptrs]. intros H. apply in_app_or in H as [H|H].
  - destruct lf as [la|]; [destruct H as [<-|[]]; auto|destruct H].
  - right. apply in_map_iff in H as ([b c] & <- & H). eauto.
Qed.

(* frame: a represented pointer is not affected by changes outside what it reaches *)
Lemma rep_frame h h' :
  (forall a t, rep h a t -> (forall x, reach h a x -> nth_error h' x = nth_error h x) -> rep h' a t) /\
  (forall ch tch, reps h ch tch ->
     (forall b c x, In (b, c) ch -> reach h c x -> nth_error h' x = nth_error h x) -> reps h' ch tch).
Proof.
  apply rep_reps_ind.
  - intros a p l Hn Hf. constructor. rewrite Hf; [exact Hn|constructor].
  - intros a kd t p w lf ch ol tch Hn Hl _ IH Hf. econstructor.
    + rewrite Hf; [exact Hn|constructor].
    + destruct Hl as [|la q l Hl]; [constructor|]. apply (lrep_some _ _ q). rewrite Hf; [exact Hl|].
      eapply reach_step; [exact Hn|apply in_ptrs_leaf|constructor].
    + apply IH. intros b c x Hi Hx. apply Hf. eapply reach_step; [exact Hn|eapply in_ptrs_child; eauto|exact Hx].
  - intros _. constructor.
  - intros b c r n tr _ IH1 _ IH2 Hf. constructor.
    + apply IH1. intros x Hx. eapply Hf; [now left|exact Hx].
    + apply IH2. intros b' c' x Hi Hx. eapply Hf; [right; exact Hi|exact Hx].
Qed.

Lemma reach_frame h h' a : (forall x, reach h a x -> nth_error h' x = nth_error h x) ->
  forall x, reach h' a x -> reach h a x.
Proof.
  intros Hf x Hx. induction Hx as [a|a cl c x Hn Hi _ IH]; [constructor|]. rewrite Hf in Hn by constructor.
  eapply reach_step; eauto. apply IH. intros y Hy. apply Hf. eapply reach_step; eauto.
Qed.

(* every cell reachable from a represented pointer is a represented pointer *)
Lemma rep_reach h :
  (forall a t, rep h a t -> forall x, reach h a x -> exists t', rep h x t') /\
  (forall ch tch, reps h ch tch -> forall b c x, In (b, c) ch -> reach h c x -> exists t', rep h x t').
Proof.
  apply rep_reps_ind.
  - intros a p l Hn x Hx. rewrite (reach_leaf _ _ _ _ _ Hn Hx). eexists. eapply rep_leaf; eauto.
  - intros a kd t p w lf ch ol tch Hn Hl Rc IH x Hx.
    apply reach_inv in Hx as [<-|(cl & c' & Hn' & Hi & Hr)]; [eexists; eapply rep_inner; eauto|].
    rewrite Hn in Hn'. injection Hn' as <-. apply in_ptrs_inv in Hi as [->|(b & Hi)].
    + inversion Hl as [|la q l Hq]; subst. rewrite (reach_leaf _ _ _ _ _ Hq Hr). eexists. eapply rep_leaf; eauto.
    + eapply IH; eauto.
  - intros b c x [].
  - intros b c r n tr _ IH1 _ IH2 b' c' x [E|Hi] Hx; [injection E as <- <-; auto|eauto].
Qed.

Lemma reach_lt h a t x : rep h a t -> reach h a x -> (x < length h)%nat.
Proof.
  intros R Hx. destruct (proj1 (rep_reach h) _ _ R _ Hx) as (t' & R'). destruct R'; eapply nth_error_lt; eauto.
Qed.

Section TRep.
Context {P : nat -> Prop}.
Variable tid : N.

(* the leaf pointer of an inner node *)
Definition plrep (h : heap) (lf : option nat) (ol : option leafrec) : Prop :=
  match lf with
  | None => ol = None
  | Some la => P la /\ exists p l, nth_error h la = Some (CLeaf p l) /\ ol = Some l
  end.

Inductive trep (h : heap) : nat -> node -> list nat -> Prop :=
| tr_leaf a p l : nth_error h a = Some (CLeaf p l) -> P a -> trep h a (Leaf p l) []
| tr_old a kd t p w lf ch ol tch : nth_error h a = Some (CInner kd t p w lf ch) -> t < tid -> P a ->
    plrep h lf ol -> tchs h ch tch [] -> trep h a (Inner kd t p w ol tch) []
| tr_own a kd p w lf ch ol tch F : nth_error h a = Some (CInner kd tid p w lf ch) ->
    plrep h lf ol -> tchs h ch tch F -> ~ In a F -> trep h a (Inner kd tid p w ol tch) (a :: F)
with tchs (h : heap) : list (N * nat) -> children -> list nat -> Prop :=
| tc_nil : tchs h [] CNil []
| tc_cons b c r n tr F1 F2 : trep h c n F1 -> tchs h r tr F2 -> disj F1 F2 ->
    tchs h ((b, c) :: r) (CCons b n tr) (F1 ++ F2).
Scheme trep_mind := Minimality for trep Sort Prop
  with tchs_mind := Minimality for tchs Sort Prop.
Combined Scheme trep_tchs_ind from trep_mind, tchs_mind.

Definition owned_cell (h : heap) (a : nat) : Prop :=
  exists kd p w lf ch, nth_error h a = Some (CInner kd tid p w lf ch).

Lemma plrep_lrep h lf ol : plrep h lf ol -> lrep h lf ol.
Proof. destruct lf as [la|]; cbn [plrep]; [intros (_ & p & l & H & ->); econstructor; eauto|intros ->; constructor]. Qed.

Lemma trep_rep h :
  (forall a t F, trep h a t F -> rep h a t) /\ (forall ch tch F, tchs h ch tch F -> reps h ch tch).
Proof.
  apply trep_tchs_ind.
  - intros; constructor; auto.
  - intros; econstructor; eauto using plrep_lrep.
  - intros; econstructor; eauto using plrep_lrep.
  - constructor.
  - intros; constructor; auto.
Qed.

Lemma trep_F_cell h :
  (forall a t F, trep h a t F -> forall x, In x F -> owned_cell h x) /\
  (forall ch tch F, tchs h ch tch F -> forall x, In x F -> owned_cell h x).
Proof.
  apply trep_tchs_ind.
  - intros a p l _ _ x [].
  - intros a kd t p w lf ch ol tch _ _ _ _ _ _ x [].
  - intros a kd p w lf ch ol tch F Hn _ _ IH _ x [<-|Hx]; [red; eauto 8|auto].
  - intros x [].
  - intros b c r n tr F1 F2 _ IH1 _ IH2 _ x Hx. apply in_app_or in Hx as [Hx|Hx]; auto.
Qed.

Lemma owned_lt h a : owned_cell h a -> (a < length h)%nat.
Proof. intros (kd & p & w & lf & ch & H). eapply nth_error_lt; eauto. Qed.

(* every reachable cell is either owned (in the footprint) or frozen (id below tid, satisfies P) *)
Lemma trep_reach h : 0 < tid ->
  (forall a t F, trep h a t F -> forall x, reach h a x ->
     In x F \/ (P x /\ exists cl, nth_error h x = Some cl /\ cell_tid cl < tid)) /\
  (forall ch tch F, tchs h ch tch F -> forall b c x, In (b, c) ch -> reach h c x ->
     In x F \/ (P x /\ exists cl, nth_error h x = Some cl /\ cell_tid cl < tid)).
Proof.
  intros T0.
  (* below an inner node: the leaf cell is frozen, the rest lies below the children *)
  assert (Below : forall a kd t p w lf ch ol F x, nth_error h a = Some (CInner kd t p w lf ch) -> plrep h lf ol ->
    (forall b c x, In (b, c) ch -> reach h c x -> In x F \/ (P x /\ exists cl, nth_error h x = Some cl /\ cell_tid cl < tid)) ->
    reach h a x -> x = a \/ In x F \/ (P x /\ exists cl, nth_error h x = Some cl /\ cell_tid cl < tid)).
  { intros a kd t p w lf ch ol F x Hn Hl IH Hx.
    apply reach_inv in Hx as [<-|(cl & c' & Hn' & Hi & Hr)]; [now left|right].
    rewrite Hn in Hn'. injection Hn' as <-. apply in_ptrs_inv in Hi as [->|(b & Hi)]; [|eauto].
    destruct Hl as (Pl & q & l & Hq & _). rewrite (reach_leaf _ _ _ _ _ Hq Hr). right. eauto. }
  apply trep_tchs_ind.
  - intros a p l Hn HP x Hx. rewrite (reach_leaf _ _ _ _ _ Hn Hx). right. eauto.
  - intros a kd t p w lf ch ol tch Hn Ht HP Hl _ IH x Hx.
    destruct (Below _ _ _ _ _ _ _ _ _ _ Hn Hl IH Hx) as [->|H]; [right; eauto|exact H].
  - intros a kd p w lf ch ol tch F Hn Hl _ IH Na x Hx.
    destruct (Below _ _ _ _ _ _ _ _ _ _ Hn Hl IH Hx) as [->|[H|H]]; [left; now left|left; now right|now right].
  - intros b c x [].
  - intros b c r n tr F1 F2 _ IH1 _ IH2 _ b' c' x [E|Hi] Hx.
    + injection E as <- <-. destruct (IH1 _ Hx) as [H|H]; [left; apply in_or_app; auto|auto].
    + destruct (IH2 _ _ _ Hi Hx) as [H|H]; [left; apply in_or_app; auto|auto].
Qed.

Lemma trep_F_reach h :
  (forall a t F, trep h a t F -> forall x, In x F -> reach h a x) /\
  (forall ch tch F, tchs h ch tch F -> forall x, In x F -> exists b c, In (b, c) ch /\ reach h c x).
Proof.
  apply trep_tchs_ind.
  - intros a p l _ _ x [].
  - intros a kd t p w lf ch ol tch _ _ _ _ _ _ x [].
  - intros a kd p w lf ch ol tch F Hn _ _ IH _ x [<-|Hx]; [constructor|].
    destruct (IH _ Hx) as (b & c & Hi & Hr). eapply reach_step; [exact Hn|eapply in_ptrs_child; eauto|exact Hr].
  - intros x [].
  - intros b c r n tr F1 F2 _ IH1 _ IH2 _ x Hx. apply in_app_or in Hx as [Hx|Hx].
    + exists b, c. split; [now left|auto].
    + destruct (IH2 _ Hx) as (b' & c' & Hi & Hr). exists b', c'. split; [now right|auto].
Qed.

End TRep.

Arguments trep {P} tid h a t F.
Arguments tchs {P} tid h ch tch F.
Arguments plrep {P} h lf ol.

(* moving a representation to another heap and another predicate on frozen cells: the frozen cells
   must be kept (and satisfy the new predicate), the footprint must be kept *)
Lemma trep_transport (P Q : nat -> Prop) tid h h' : 0 < tid ->
  (forall x cl, nth_error h x = Some cl -> P x -> cell_tid cl < tid -> nth_error h' x = Some cl /\ Q x) ->
  (forall a t F, @trep P tid h a t F ->
     (forall x cl, nth_error h x = Some cl -> In x F -> nth_error h' x = Some cl) -> @trep Q tid h' a t F) /\
  (forall ch tch F, @tchs P tid h ch tch F ->
     (forall x cl, nth_error h x = Some cl -> In x F -> nth_error h' x = Some cl) -> @tchs Q tid h' ch tch F).
Proof.
  intros T0 Fz.
  assert (PL : forall lf ol, @plrep P h lf ol -> @plrep Q h' lf ol).
  { intros [la|] ol; cbn [plrep]; [|auto]. intros (Pl & q & l & Hq & ->).
    destruct (Fz _ _ Hq Pl T0). eauto 6. }
  apply trep_tchs_ind.
  - intros a p l Hn HP _. destruct (Fz _ _ Hn HP T0). now constructor.
  - intros a kd t p w lf ch ol tch Hn Ht HP Hl _ IH _. destruct (Fz _ _ Hn HP Ht).
    eapply tr_old; eauto. apply IH. intros x cl _ [].
  - intros a kd p w lf ch ol tch F Hn Hl _ IH Na Hf. eapply tr_own; eauto.
    + apply Hf; [exact Hn|now left].
    + apply IH. intros x cl Hx Hi. apply Hf; [exact Hx|now right].
  - intros _. constructor.
  - intros b c r n tr F1 F2 _ IH1 _ IH2 D Hf. constructor; auto.
    + apply IH1. intros x cl Hx Hi. apply Hf; [exact Hx|apply in_or_app; auto].
    + apply IH2. intros x cl Hx Hi. apply Hf; [exact Hx|apply in_or_app; auto].
Qed.

(* the id bump freezes everything *)
Lemma trep_bump (P Q : nat -> Prop) tid tid' h : tid < tid' ->
  (forall x cl, nth_error h x = Some cl -> P x -> Q x) ->
  (forall a t F, @trep P tid h a t F -> (forall x, In x F -> Q x) -> @trep Q tid' h a t []) /\
  (forall ch tch F, @tchs P tid h ch tch F -> (forall x, In x F -> Q x) -> @tchs Q tid' h ch tch []).
Proof.
  intros Ht PQ.
  assert (PL : forall lf ol, @plrep P h lf ol -> @plrep Q h lf ol).
  { intros [la|] ol; cbn [plrep]; [|auto]. intros (Pl & q & l & Hq & ->). split; [eapply PQ; eauto|eauto]. }
  apply trep_tchs_ind.
  - intros a p l Hn HP _. constructor; eauto.
  - intros a kd t p w lf ch ol tch Hn Hlt HP Hl _ IH _. eapply tr_old; eauto; try lia. apply IH. intros x [].
  - intros a kd p w lf ch ol tch F Hn Hl _ IH Na HF. eapply tr_old; eauto.
    + apply HF. now left.
    + apply IH. intros x Hx. apply HF. now right.
  - intros _. constructor.
  - intros b c r n tr F1 F2 _ IH1 _ IH2 D HF. change (@nil nat) with (@nil nat ++ []). constructor.
    + apply IH1. intros x Hx. apply HF. apply in_or_app. auto.
    + apply IH2. intros x Hx. apply HF. apply in_or_app. auto.
    + apply disj_nil_l.
Qed.

Section Ext.
Variable tid : N.
Notation owned := (owned_cell tid).

Definition ext (h h' : heap) (W : list nat) : Prop :=
  (length h <= length h')%nat /\
  (forall a cl, nth_error h a = Some cl -> ~ In a W -> nth_error h' a = Some cl) /\
  (forall a, owned h a -> owned h' a).

Lemma ext_refl h W : ext h h W.
Proof. repeat split; auto. Qed.
Lemma ext_trans h h1 h2 W1 W2 : ext h h1 W1 -> ext h1 h2 W2 -> ext h h2 (W1 ++ W2).
Proof.
  intros (L1 & A1 & O1) (L2 & A2 & O2). split; [lia|]. split; [|auto].
  intros a cl Hn Hi. apply A2; [apply A1; auto|]; intros Hx; apply Hi, in_or_app; auto.
Qed.
Lemma ext_weaken h h' W W' : ext h h' W -> incl W W' -> ext h h' W'.
Proof. intros (L & A & O) I. split; [exact L|]. split; [|exact O]. intros a cl Hn Hi. apply A; auto. Qed.
Lemma ext_alloc h cl : ext h (h ++ [cl]) [].
Proof.
  split; [rewrite app_length; simpl; lia|]. split.
  - intros a cl' Hn _. now apply nth_error_app_old.
  - intros a (kd & p & w & lf & ch & Hn). red. eauto 8 using nth_error_app_old.
Qed.
Lemma ext_upd h a kd p w lf ch : (a < length h)%nat -> ext h (upd h a (CInner kd tid p w lf ch)) [a].
Proof.
  intros La. split; [rewrite upd_length; lia|]. split.
  - intros b cl Hn Hi. rewrite nth_error_upd_neq; [exact Hn|]. intros ->. apply Hi. now left.
  - intros b (kd' & p' & w' & lf' & ch' & Hn). destruct (Nat.eq_dec a b) as [<-|Ne].
    + red. rewrite nth_error_upd_eq by exact La. eauto 8.
    + red. rewrite nth_error_upd_neq by exact Ne. eauto 8.
Qed.

End Ext.

Section ExtP.
Context {P : nat -> Prop}.
Variable tid : N.
Notation owned := (owned_cell tid).
Notation ext := (ext tid).

(* frame through an extension whose writes avoid the footprint *)
Lemma trep_ext h h' W : 0 < tid -> ext h h' W -> (forall x, In x W -> owned h x) ->
  (forall a t F, @trep P tid h a t F -> disj W F -> @trep P tid h' a t F) /\
  (forall ch tch F, @tchs P tid h ch tch F -> disj W F -> @tchs P tid h' ch tch F).
Proof.
  intros T0 (L & A & O) HW.
  assert (Fz : forall x cl, nth_error h x = Some cl -> P x -> cell_tid cl < tid -> nth_error h' x = Some cl /\ P x).
  { intros x cl Hn Px Hc. split; [|exact Px]. apply A; [exact Hn|]. intros Hi.
    destruct (HW x Hi) as (kd & p & w & lf & ch & Hn'). rewrite Hn in Hn'. injection Hn' as ->. cbn [cell_tid] in Hc. lia. }
  split; intros ? ? F T D; eapply (trep_transport P P tid h h' T0 Fz); eauto;
    intros x cl Hn Hi; (apply A; [exact Hn|]); intros Hw; exact (D x Hw Hi).
Qed.

Lemma plrep_ext h h' W lf ol : ext h h' W -> (forall x, In x W -> owned h x) ->
  @plrep P h lf ol -> @plrep P h' lf ol.
Proof.
  intros (L & A & O) HW. destruct lf as [la|]; cbn [plrep]; [|auto]. intros (Pl & q & l & Hq & ->).
  split; [exact Pl|]. exists q, l. split; [|reflexivity]. apply A; [exact Hq|]. intros Hi.
  destruct (HW la Hi) as (kd & p & w & lf & ch & Hn'). congruence.
Qed.
End ExtP.
