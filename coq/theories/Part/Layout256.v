(* Part/Layout256.v — node256 (children indexed directly by the key byte): canonical form,
   lookups, insert, remove, promotion 48->256 and the loop of the demotion 256->48. *)
From SV Require Import Part.Layout Part.LayoutBase Part.LayoutKeyed Part.Layout48.
From Coq Require Import ZifyN ZifyNat ZifyBool.
Close Scope N_scope.

Definition slot (ks : list N) (j : nat) : option N :=
  if memb (N.of_nat j) ks then Some (N.of_nat j) else None.
Definition slots256 (ks : list N) : list (option N) := map (slot ks) (seq 0 256).
(* a well-formed node256 holding the sorted keys ks *)
Definition canon256 (lf : bool) (ks : list N) : layout := mkL 256 (length ks) lf [] [] (slots256 ks).

Lemma slots256_length : forall ks, length (slots256 ks) = 256.
Proof. intros; unfold slots256; rewrite map_length, seq_length; reflexivity. Qed.

Lemma slots_ext : forall ks ks', (forall j, j < 256 -> memb (N.of_nat j) ks = memb (N.of_nat j) ks') ->
  slots256 ks = slots256 ks'.
Proof.
  intros ks ks' H. unfold slots256. apply map_ext_in. intros j Hj. apply in_seq in Hj.
  unfold slot. rewrite H by lia. reflexivity.
Qed.

Lemma nth_slots : forall ks k, (k < 256)%N ->
  nth (N.to_nat k) (slots256 ks) None = if memb k ks then Some k else None.
Proof.
  intros ks k Hk. unfold slots256.
  rewrite (nth_indep _ None (slot ks 0)) by (rewrite map_length, seq_length; lia).
  rewrite (map_nth (slot ks) (seq 0 256) 0 (N.to_nat k)), seq_nth by lia.
  unfold slot. cbn [Nat.add]. rewrite N2Nat.id. reflexivity.
Qed.

Lemma slot_some : forall ks j x, slot ks j = Some x -> x = N.of_nat j.
Proof. intros ks j x. unfold slot. destruct (memb _ ks); congruence. Qed.

Lemma cat_some_slots : forall n a ks, ssorted ks ->
  Forall (fun x => (N.of_nat a <= x < N.of_nat (a + n))%N) ks ->
  cat_some (map (slot ks) (seq a n)) = ks.
Proof.
  induction n as [|n IH]; intros a ks HS HB.
  - destruct ks as [|x r]; [reflexivity|]. apply Forall_cons_iff in HB. destruct HB as [Hx _]. lia.
  - cbn [seq map]. destruct ks as [|x r]; [apply (IH (S a) []); auto|].
    destruct HS as [Hxr HS]. apply Forall_cons_iff in HB. destruct HB as [Hx HB].
    assert (HB' : Forall (fun y => (N.of_nat (S a) <= y < N.of_nat (S a + n))%N) r).
    { rewrite Forall_forall in *. intros y Hy. specialize (Hxr _ Hy). specialize (HB _ Hy). lia. }
    unfold slot at 1. cbn [memb existsb]. destruct (N.eqb_spec (N.of_nat a) x) as [<-|Hne]; cbn [orb cat_some].
    + (* slot a holds the first key; the later slots do not see it *)
      f_equal. rewrite (map_ext_in _ (slot r)); [apply IH; assumption|].
      intros j Hj. apply in_seq in Hj. unfold slot. cbn [memb existsb].
      destruct (N.eqb_spec (N.of_nat j) (N.of_nat a)); [lia|reflexivity].
    + change (existsb _ r) with (memb (N.of_nat a) r).
      rewrite memb_gt by (eapply Forall_impl; [|exact Hxr]; cbn; intros; lia).
      apply IH; [split; assumption|]. constructor; [lia|]. eapply Forall_impl; [|exact HB']. cbn; intros; lia.
Qed.

Lemma cat_some_slots256 : forall ks, good ks -> cat_some (slots256 ks) = ks.
Proof. intros ks [HS HB]. apply cat_some_slots; [exact HS|]. eapply Forall_impl; [|exact HB]. cbn; intros; lia. Qed.

Lemma abs256 : forall lf ks, good ks -> l_abs (canon256 lf ks) = ks.
Proof. intros lf ks HG. apply cat_some_slots256, HG. Qed.

Lemma find256 : forall lf ks key, (key < 256)%N -> l_find (canon256 lf ks) key = memb key ks.
Proof.
  intros lf ks key Hk. unfold l_find. cbn [l_kind l_children canon256 N.eqb Pos.eqb].
  unfold child_at. rewrite nth_slots by exact Hk. destruct (memb key ks); reflexivity.
Qed.
(* node256.findIndex: found, int(key) — the slot, not the number of smaller keys *)
Lemma findIndex256 : forall lf ks key, (key < 256)%N ->
  l_findIndex (canon256 lf ks) key = (memb key ks, N.to_nat key).
Proof.
  intros lf ks key Hk. unfold l_findIndex. cbn [l_kind l_children canon256 N.eqb Pos.eqb].
  unfold child_at. rewrite nth_slots by exact Hk. destruct (memb key ks); reflexivity.
Qed.

(* insert, remove and the step of the promotion 48 -> 256 each set one slot *)
Lemma set_slot : forall ks ks' k (v : bool), (k < 256)%N ->
  (forall x, memb x ks' = if (x =? k)%N then v else memb x ks) ->
  set_nth (N.to_nat k) (if v then Some k else None) (slots256 ks) = slots256 ks'.
Proof.
  intros ks ks' k v Hk H. unfold slots256. rewrite <- (Nat.sub_0_r (N.to_nat k)) at 1.
  rewrite set_nth_map_seq by lia. apply map_ext_in. intros j Hj. apply in_seq in Hj.
  unfold slot. rewrite H. destruct (Nat.eqb_spec j (N.to_nat k)) as [->|Hne].
  - rewrite N2Nat.id, N.eqb_refl. destruct v; reflexivity.
  - destruct (N.eqb_spec (N.of_nat j) k); [lia|reflexivity].
Qed.

Lemma insert256 : forall lf a b k idx, (k < 256)%N ->
  l_insert (canon256 lf (a ++ b)) idx k = canon256 lf (a ++ k :: b).
Proof.
  intros lf a b k idx Hk. unfold l_insert, canon256.
  cbn [l_kind l_size l_leaf l_keys l_index l_children N.eqb Pos.eqb orb]. f_equal.
  - rewrite !app_length. cbn [length]. lia.
  - apply (set_slot _ _ k true Hk). intros x. rewrite memb_mid. destruct (x =? k)%N; reflexivity.
Qed.

Lemma remove256 : forall lf a b k, (k < 256)%N -> memb k (a ++ b) = false ->
  l_remove (canon256 lf (a ++ k :: b)) (N.to_nat k) = canon256 lf (a ++ b).
Proof.
  intros lf a b k Hk Hm. unfold l_remove, canon256.
  cbn [l_kind l_size l_leaf l_keys l_index l_children N.eqb Pos.eqb orb]. f_equal.
  - rewrite !app_length. cbn [length]. lia.
  - apply (set_slot _ _ k false Hk). intros x. rewrite memb_mid. destruct (N.eqb_spec x k) as [->|]; [exact Hm|reflexivity].
Qed.

Lemma promote_children256_spec : forall ks acc, Forall (fun x => (x < 256)%N) ks ->
  promote_children256 (map (@Some N) ks) (slots256 acc) = slots256 (acc ++ ks).
Proof.
  induction ks as [|k r IH]; intros acc HB; cbn [map promote_children256 child_key]; [rewrite app_nil_r; reflexivity|].
  apply Forall_cons_iff in HB. destruct HB as [Hk HB].
  rewrite (set_slot acc (acc ++ [k]) k true Hk).
  - rewrite IH, <- app_assoc by exact HB. reflexivity.
  - intros x. rewrite memb_mid, app_nil_r. destruct (x =? k)%N; reflexivity.
Qed.

Lemma promote_48 : forall lf ks, good ks -> l_promote (canon48 lf ks) = canon256 lf ks.
Proof.
  intros lf ks [HS HB]. unfold l_promote, canon48, canon256.
  cbn [l_kind l_size l_leaf l_keys l_children N.eqb Pos.eqb]. f_equal. rewrite firstn_map_some.
  change (repeat None 256) with (slots256 []). apply promote_children256_spec, HB.
Qed.

(* it collects the children of all slots but idx, and enters each at its new position into the index *)
Lemma demote256_loop_spec : forall n a sl idx ix acc, (forall j x, sl j = Some x -> x = N.of_nat j) ->
  demote256_loop a (map sl (seq a n)) idx ix acc =
  let cs := cat_some (map (fun j => if j =? idx then None else sl j) (seq a n)) in
  (promote_index (length acc) cs ix, acc ++ map (@Some N) cs).
Proof.
  induction n as [|n IH]; intros a sl idx ix acc Hsl; cbn [seq map demote256_loop]; cbn zeta.
  - cbn. rewrite app_nil_r. reflexivity.
  - destruct (a =? idx); cbn [negb andb cat_some]; [apply IH, Hsl|].
    destruct (sl a) as [x|] eqn:Ea; cbn [is_some cat_some]; [|apply IH, Hsl].
    rewrite (IH (S a) sl idx _ (acc ++ [Some x]) Hsl). cbn zeta.
    rewrite app_length, Nat.add_1_r, <- app_assoc. cbn [promote_index map app].
    rewrite (Hsl a x Ea), Nat2N.id. reflexivity.
Qed.

Lemma demote_256_arrays : forall lf a b k, good (a ++ k :: b) -> length a + length b <= 48 ->
  (let '(ix, acc) := demote256_loop 0 (l_children (canon256 lf (a ++ k :: b))) (N.to_nat k) (repeat 0 256) [] in
   mkL 48 (length (a ++ k :: b) - 1) lf [] ix (copy_into acc (repeat None 48)))
  = canon48 lf (a ++ b).
Proof.
  intros lf a b k HG HL.
  destruct (good_app_inv a k b HG) as (Ha & Hb & Hk & HGab).
  unfold canon256. cbn [l_children]. unfold slots256.
  rewrite demote256_loop_spec by apply slot_some. cbn zeta.
  (* the slots other than k hold a ++ b *)
  rewrite (map_ext_in _ (slot (a ++ b))).
  - fold (slots256 (a ++ b)). rewrite (cat_some_slots256 _ HGab). cbn [length app]. unfold canon48. f_equal.
    + rewrite !app_length. cbn [length]. lia.
    + apply promote_index_canon, HGab.
    + rewrite copy_into_repeat by (rewrite map_length, app_length; lia). rewrite map_length. reflexivity.
  - intros j Hj. apply in_seq in Hj. unfold slot. rewrite memb_mid.
    destruct (Nat.eqb_spec j (N.to_nat k)) as [->|Hne].
    + rewrite N2Nat.id, memb_app, (memb_lt _ _ Ha), (memb_gt _ _ Hb). reflexivity.
    + destruct (N.eqb_spec (N.of_nat j) k); [lia|reflexivity].
Qed.
