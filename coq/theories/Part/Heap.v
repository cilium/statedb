(* Part/Heap.v — heap-level (pointer) model of the write path of part.Txn (txn.go modify / delete /
   removeChild, node.go clone / promote): nodes AND leaves are cells of a heap (a list; address =
   index; allocation appends), inner nodes hold addresses of their children and of their leaf.
   `Txn.cloneNode(n)` returns n itself — which is then WRITTEN IN PLACE — exactly when
   n.txnID() = txn.txnID, otherwise it allocates a shallow copy (sharing children and leaf with the
   original) stamped with txn.txnID. No proofs here except computed sanity examples; the theorems
   (refinement of Part/Model.v, ownership, persistence) are in HeapMod.v, HeapDel.v, HeapProofs.v.

   Correspondence with the Go code (what is mirrored, what is normalised):
   - which node is cloned (cloneNode, clone(false), promote, demote, leafCopy, newLeaf, new node4)
     and which is written in place is mirrored statement by statement: [hput] is "this =
     txn.cloneNode(this); <writes to this>" (in place iff this.txnID = txn.txnID), [alloc] is an
     unconditional allocation (the writes that initialise a fresh object are folded into it);
   - the iterative loops are recursions over the path, as in Part/Model.v; the write of the new
     child pointer into the (cloned) parent happens when the recursion returns, so a parent's
     clone is allocated AFTER the clones below it: only the numbering of fresh addresses differs
     from Go, not the set of cloned cells nor the set of cells written in place;
   - the child container (node4/16/48/256) is one byte-sorted list + kind tag, as in Part/Model.v;
   - watch channels are the numbers of Part/Model.v, threaded through the same state [st]. *)
From SV Require Import Base.Bytes Part.Model.
From Coq Require Import ZArith List.
Import ListNotations.
Open Scope N_scope.

(* leaf[T] objects and node4/16/48/256 objects; pointers are addresses *)
Inductive cell :=
| CLeaf (p : bytes) (l : leafrec)
| CInner (kd t : N) (p : bytes) (w : N) (lf : option nat) (ch : list (N * nat)).
Definition heap := list cell.

Definition cdflt : cell := CLeaf [] (mkLeaf [] 0 0).
Definition hget (h : heap) (a : nat) : cell := nth a h cdflt.

(* *addr = c (in-place write) *)
Fixpoint upd (h : heap) (a : nat) (c : cell) : heap :=
  match h, a with
  | [], _ => []
  | _ :: h', O => c :: h'
  | x :: h', S a' => x :: upd h' a' c
  end.
(* new(...) *)
Definition alloc (h : heap) (c : cell) : heap * nat := (h ++ [c], length h).

(* header.txnID(): leaves report 0 *)
Definition cell_tid (c : cell) : N := match c with CLeaf _ _ => 0 | CInner _ t _ _ _ _ => t end.
Definition cell_prefix (c : cell) : bytes := match c with CLeaf p _ => p | CInner _ _ p _ _ _ => p end.
Definition cell_set_prefix (c : cell) (q : bytes) : cell :=
  match c with CLeaf _ l => CLeaf q l | CInner kd t _ w lf ch => CInner kd t q w lf ch end.
Definition cell_leafrec (c : cell) : leafrec := match c with CLeaf _ l => l | _ => mkLeaf [] 0 0 end.
Definition cell_ptrs (c : cell) : list nat :=
  match c with
  | CLeaf _ _ => []
  | CInner _ _ _ _ lf ch => (match lf with Some la => [la] | None => [] end) ++ map snd ch
  end.

(* children()/find/insert/remove on the byte-sorted child list (the ch_ functions of Part/Model.v) *)
Fixpoint hc_len (ch : list (N * nat)) : N := match ch with [] => 0 | _ :: r => 1 + hc_len r end.
Fixpoint hc_find (b : N) (ch : list (N * nat)) : option nat :=
  match ch with [] => None | (b', c) :: r => if b' =? b then Some c else hc_find b r end.
Fixpoint hc_insert (b : N) (a : nat) (ch : list (N * nat)) : list (N * nat) :=
  match ch with
  | [] => [(b, a)]
  | (b', c) :: r => if b <? b' then (b, a) :: ch else (b', c) :: hc_insert b a r
  end.
Fixpoint hc_set (b : N) (a : nat) (ch : list (N * nat)) : list (N * nat) :=
  match ch with [] => [] | (b', c) :: r => if b' =? b then (b', a) :: r else (b', c) :: hc_set b a r end.
Fixpoint hc_remove (b : N) (ch : list (N * nat)) : list (N * nat) :=
  match ch with [] => [] | (b', c) :: r => if b' =? b then r else (b', c) :: hc_remove b r end.
Fixpoint hc_other (b : N) (ch : list (N * nat)) : option nat :=
  match ch with [] => None | (b', c) :: r => if b' =? b then hc_other b r else Some c end.

(* ---- denotation into the tree type of Part/Model.v ---- *)
Fixpoint den_ch (df : nat -> option node) (ch : list (N * nat)) : option children :=
  match ch with
  | [] => Some CNil
  | (b, c) :: r => match df c, den_ch df r with Some n, Some tr => Some (CCons b n tr) | _, _ => None end
  end.
(* the leaf pointer of an inner node: the leaf object's own header prefix is not part of the model *)
Definition den_leaf (h : heap) (lf : option nat) : option (option leafrec) :=
  match lf with
  | None => Some None
  | Some la => match nth_error h la with Some (CLeaf _ l) => Some (Some l) | _ => None end
  end.
(* None: dangling pointer or fuel exhausted (cyclic structure) *)
Fixpoint denf (f : nat) (h : heap) (a : nat) : option node :=
  match f with
  | O => None
  | S f' =>
    match nth_error h a with
    | None => None
    | Some (CLeaf p l) => Some (Leaf p l)
    | Some (CInner kd t p w lf ch) =>
      match den_leaf h lf, den_ch (denf f' h) ch with
      | Some ol, Some tch => Some (Inner kd t p w ol tch)
      | _, _ => None
      end
    end
  end.
(* fuel = number of cells: enough for every acyclic pointer structure (HeapBase.v rep_den) *)
Definition den (h : heap) (a : nat) : option node := denf (length h) h a.
(* a root pointer (nil = empty tree) *)
Definition den_root (h : heap) (r : option nat) : option node :=
  match r with None => None | Some a => den h a end.

(* result of modify below a node: heap, address of the node that replaces it, and the outputs of
   Part/Model.v mres *)
Record hres := mkHR { r_heap : heap; r_addr : nat; r_st : st; r_old : option N; r_w : N; r_val : N }.

Section Ops.
Variable c : ctx.
Notation tid := (c_tid c).

(* this = txn.cloneNode(this) on a node with txnID t, followed by the writes that turn it into
   [nc]: IN PLACE iff t = txn.txnID, else a fresh copy *)
Definition hput (h : heap) (a : nat) (t : N) (nc : cell) : heap * nat :=
  if t =? tid then (upd h a nc, a) else alloc h nc.

Section Modify.
Variable md : option (N -> N -> N).
Variable fullKey : bytes.
Variable v : N.

(* txn.go modify, tail ("only a partially matching prefix"). ta = this (leafCopy or cloned node,
   prefix already shortened to tp), tl = this.getLeaf(), cp = common, key' = key[len(common):].
   newLeaf and the new node4 are allocated *)
Definition hsplit (s : st) (h : heap) (ta : nat) (tp : bytes) (tl : option nat) (cp key' : bytes) : hres :=
  let '(lw, s1) := fresh c s in
  let '(h1, la) := alloc h (CLeaf key' (mkLeaf fullKey v lw)) in
  let '(nw, s2) := fresh c s1 in
  let mk lf ch := CInner 4 tid cp nw lf ch in
  let nn :=
    match tp, key' with
    | [], _ => mk tl [(hd 0 key', la)]
    | tb :: _, [] => mk (Some la) [(tb, ta)]
    | tb :: _, kb :: _ => if tb <? kb then mk None [(tb, ta); (kb, la)] else mk None [(kb, la); (tb, ta)]
    end in
  let '(h2, na) := alloc h1 nn in
  mkHR h2 na s2 None lw v.

(* leaf = txn.cloneNode(leaf.self()).getLeaf(); leaf.value = nv: leaf.txnID() is the constant 0, so
   the leaf object is written in place iff txn.txnID = 0 (never, since ids start at 1) *)
Definition hleaf_update (s : st) (h : heap) (a : nat) (p : bytes) (l : leafrec) : heap * nat * st * leafrec :=
  let '(l', s') := clone_leaf c s l in
  let nl := mkLeaf (lf_key l') (new_val md v (lf_val l)) (lf_w l') in
  let '(h1, a1) := if 0 =? tid then (upd h a (CLeaf p nl), a) else alloc h (CLeaf p nl) in
  (h1, a1, s', nl).

Fixpoint hmod (f : nat) (s : st) (h : heap) (a : nat) (key : bytes) : hres :=
  match f with
  | O => mkHR h a s None 0 0
  | S f' =>
    match hget h a with
    | CLeaf p l =>
      if bytes_eqb key p then
        (* exact match on a leaf: this = cloneNode(this); leaf.value = ... *)
        let '(h1, a1, s', nl) := hleaf_update s h a p l in
        mkHR h1 a1 s' (Some (lf_val l)) (lf_w nl) (lf_val nl)
      else
        (* leafCopy := *this.getLeaf(); this.setPrefix(...) *)
        let cp := common key p in
        let '(h1, ta) := alloc h (CLeaf (skipn (length cp) p) l) in
        hsplit s h1 ta (skipn (length cp) p) (Some ta) cp (skipn (length cp) key)
    | CInner kd t p w lf ch =>
      match strip p key with
      | None =>
        (* this = txn.cloneNode(this); this.setPrefix(...) *)
        let '(t', w', s') := clone_hdr c s t w in
        let cp := common key p in
        let '(h1, ta) := hput h a t (CInner kd t' (skipn (length cp) p) w' lf ch) in
        hsplit s' h1 ta (skipn (length cp) p) lf cp (skipn (length cp) key)
      | Some [] =>
        (* exact match on a non-leaf node: this = txn.cloneNode(this); this.setLeaf(...) *)
        let '(t', w', s1) := clone_hdr c s t w in
        match lf with
        | Some la =>
          let l := cell_leafrec (hget h la) in
          let '(h1, la', s2, nl) := hleaf_update s1 h la (cell_prefix (hget h la)) l in
          let '(h2, a2) := hput h1 a t (CInner kd t' p w' (Some la') ch) in
          mkHR h2 a2 s2 (Some (lf_val l)) (lf_w nl) (lf_val nl)
        | None =>
          let '(lw, s2) := fresh c s1 in
          let '(h1, la) := alloc h (CLeaf p (mkLeaf fullKey v lw)) in
          let '(h2, a2) := hput h1 a t (CInner kd t' p w' (Some la) ch) in
          mkHR h2 a2 s2 None lw v
        end
      | Some ((b :: _) as rest) =>
        match hc_find b ch with
        | Some cc =>
          (* this = txn.cloneNode(this); *thisp = this; thisp = &this.children()[idx]; recurse *)
          let '(t', w', s1) := clone_hdr c s t w in
          let r := hmod f' s1 h cc rest in
          let '(h2, a2) := hput (r_heap r) a t (CInner kd t' p w' lf (hc_set b (r_addr r) ch)) in
          mkHR h2 a2 (r_st r) (r_old r) (r_w r) (r_val r)
        | None =>
          (* free slot: promote (always a new object) if full, else cloneNode; insert a new leaf *)
          if kd <? hc_len ch + 1 then
            let '(w2, s2) := fresh_if w (record w s) in
            let '(lw, s3) := fresh c s2 in
            let '(h1, la) := alloc h (CLeaf rest (mkLeaf fullKey v lw)) in
            let '(h2, a2) := alloc h1 (CInner (promote_kind kd) tid p w2 lf (hc_insert b la ch)) in
            mkHR h2 a2 s3 None lw v
          else
            let '(t2, w2, s2) := clone_hdr c s t w in
            let '(lw, s3) := fresh c s2 in
            let '(h1, la) := alloc h (CLeaf rest (mkLeaf fullKey v lw)) in
            let '(h2, a2) := hput h1 a t (CInner kd t2 p w2 lf (hc_insert b la ch)) in
            mkHR h2 a2 s3 None lw v
        end
      end
    end
  end.
End Modify.

(* ---- Txn.delete / removeChild ---- *)
(* childClone := child.clone(false); childClone.watch = child.watch;
   childClone.setPrefix(Concat(parent.prefix(), childClone.prefix())): ALWAYS a new object; its
   txnID is the child's *)
Definition hmerge (h : heap) (pp : bytes) (x : nat) : heap * nat :=
  alloc h (cell_set_prefix (hget h x) (pp ++ cell_prefix (hget h x))).
(* the seeded variant: "the parent is ours, so write the child in place" (refuted in Properties/C11.v, C11_shallow_child_merge_refuted) *)
Definition hmerge_bug (pt : N) (h : heap) (pp : bytes) (x : nat) : heap * nat :=
  if pt =? tid then (upd h x (cell_set_prefix (hget h x) (pp ++ cell_prefix (hget h x))), x)
  else hmerge h pp x.

Inductive hdres := HDNone | HDSome (old : N) (repl : option nat) (s : st) (h : heap) (inpl : bool).

Section Delete.
(* the merge used by the single-child branches: [hmerge] in the real code *)
Variable merge : N -> heap -> bytes -> nat -> heap * nat.

(* txn.go removeChild(parent, index) *)
Definition hremove_child (old : N) (s : st) (h : heap) (a : nat) (kd t : N) (p : bytes) (w : N)
    (lf : option nat) (ch : list (N * nat)) (b : N) : hdres :=
  let size := hc_len ch in
  match (size =? 2), lf, hc_other b ch with
  | true, None, Some x =>
    let '(h1, x') := merge t h p x in HDSome old (Some x') (record w s) h1 false
  | _, _, _ =>
    if ((kd =? 256) && (size <=? 49)) || ((kd =? 48) && (size <=? 17)) || ((kd =? 16) && (size <=? 5)) then
      (* demote: always a new object *)
      let kd' := if kd =? 256 then 48 else if kd =? 48 then 16 else 4 in
      let '(w', s1) := fresh_if w s in
      let '(h1, a1) := alloc h (CInner kd' tid p w' lf (hc_remove b ch)) in
      HDSome old (Some a1) (record w s1) h1 false
    else
      (* newParent = txn.cloneNode(parent); newParent.remove(index) *)
      let '(t', w', s1) := clone_hdr c s t w in
      let '(h1, a1) := hput h a t (CInner kd t' p w' lf (hc_remove b ch)) in
      HDSome old (Some a1) s1 h1 (t =? tid)
  end.

Fixpoint hdel (f : nat) (s : st) (h : heap) (a : nat) (key : bytes) : hdres :=
  match f with
  | O => HDNone
  | S f' =>
    match hget h a with
    | CLeaf p l =>
      if bytes_eqb key p then HDSome (lf_val l) None (record (lf_w l) (record (lf_w l) s)) h false else HDNone
    | CInner kd t p w lf ch =>
      match strip p key with
      | None => HDNone
      | Some [] =>
        match lf with
        | None => HDNone
        | Some la =>
          let l := cell_leafrec (hget h la) in
          let s1 := record (lf_w l) s in
          match ch with
          | [] => HDSome (lf_val l) None (record w s1) h false
          | [(_, x)] =>
            (* single child: shift the child up (childClone) *)
            let '(h1, x') := merge t h p x in HDSome (lf_val l) (Some x') (record w s1) h1 false
          | _ =>
            (* this.node = txn.cloneNode(this.node); this.node.setLeaf(nil) *)
            let '(t', w', s2) := clone_hdr c s1 t w in
            let '(h1, a1) := hput h a t (CInner kd t' p w' None ch) in
            HDSome (lf_val l) (Some a1) s2 h1 false
          end
        end
      | Some ((b :: _) as rest) =>
        match hc_find b ch with
        | None => HDNone
        | Some cc =>
          match hdel f' s h cc rest with
          | HDNone => HDNone
          | HDSome old (Some x) s1 h1 true =>
            (* parent.node == oldParent && parent.node.txnID() == txn.txnID: nothing to rebuild *)
            HDSome old (Some a) s1 h1 true
          | HDSome old (Some x) s1 h1 false =>
            (* parent.node = txn.cloneNode(parent.node); parent.node.children()[this.index] = this.node *)
            let '(t', w', s2) := clone_hdr c s1 t w in
            let '(h2, a2) := hput h1 a t (CInner kd t' p w' lf (hc_set b x ch)) in
            HDSome old (Some a2) s2 h2 (t =? tid)
          | HDSome old None s1 h1 _ => hremove_child old s1 h1 a kd t p w lf ch b
          end
        end
      end
    end
  end.
End Delete.
End Ops.

(* ---- Txn records on the heap ---- *)
(* x_own: the cells this transaction allocated AND stamped with its id since the id was last
   set/bumped (the cells cloneNode returns as they are) *)
Record htxn := mkHTxn { x_root : option nat; x_rw : N; x_size : N; x_ro : bool; x_tid : N;
                        x_dirty : bool; x_st : st; x_own : list nat }.
Record htree := mkHTree { hr_root : option nat; hr_rw : N; hr_size : N; hr_ro : bool; hr_next : N }.

Definition htxn_ctx (x : htxn) : ctx := mkCtx (x_tid x) (x_ro x).

(* the cells appended between two heaps, and those of them stamped with tid *)
Definition fresh_cells (h h' : heap) : list nat := seq (length h) (length h' - length h).
Definition stamped (tid : N) (h : heap) (l : list nat) : list nat :=
  filter (fun a => match hget h a with CInner _ t _ _ _ _ => t =? tid | CLeaf _ _ => false end) l.
Definition own_after (x : htxn) (h h' : heap) : list nat :=
  x_own x ++ stamped (x_tid x) h' (fresh_cells h h').

(* Tree.Txn *)
Definition htree_txn (t : htree) (next : N) : htxn :=
  mkHTxn (hr_root t) (hr_rw t) (hr_size t) (hr_ro t) (hr_next t) false (mkSt [] next) [].
Definition htree_new (ro : bool) (next : N) : htree * N := (mkHTree None next 0 ro 1, next + 1).

(* Txn.ModifyWatch / InsertWatch: (heap, txn, old, new value, watch) *)
Definition htxn_modify (h : heap) (x : htxn) (md : option (N -> N -> N)) (key : bytes) (v : N)
    : heap * htxn * option N * N * N :=
  let c := htxn_ctx x in
  let r := match x_root x with
           | None => let '(lw, s1) := fresh c (x_st x) in
                     let '(h1, a) := alloc h (CLeaf key (mkLeaf key v lw)) in mkHR h1 a s1 None lw v
           | Some a => hmod c md key v (length h) (x_st x) h a key
           end in
  let size := match r_old r with None => x_size x + 1 | Some _ => x_size x end in
  (r_heap r,
   mkHTxn (Some (r_addr r)) (x_rw x) size (x_ro x) (x_tid x) true (r_st r) (own_after x h (r_heap r)),
   r_old r, r_val r, if x_ro x then x_rw x else r_w r).

(* Txn.Delete, parametric in the merge step (hmerge = the real code) *)
Definition htxn_delete_with (merge : ctx -> N -> heap -> bytes -> nat -> heap * nat)
    (h : heap) (x : htxn) (key : bytes) : heap * htxn * option N :=
  match x_root x with
  | None => (h, x, None)
  | Some a =>
    match hdel (htxn_ctx x) (merge (htxn_ctx x)) (length h) (x_st x) h a key with
    | HDNone => (h, x, None)
    | HDSome old repl s h' _ =>
      (h', mkHTxn repl (x_rw x) (x_size x - 1) (x_ro x) (x_tid x) true s (own_after x h h'), Some old)
    end
  end.
Definition htxn_delete := htxn_delete_with (fun _ _ => hmerge).
Definition htxn_delete_bug := htxn_delete_with hmerge_bug.

(* txn.txnID++ (Iterator / Prefix / LowerBound / All / Clone): nothing is owned any more *)
Definition hbump (x : htxn) : htxn :=
  mkHTxn (x_root x) (x_rw x) (x_size x) (x_ro x) (x_tid x + 1) (x_dirty x) (x_st x) [].
(* Txn.Clone *)
Definition htxn_clone (x : htxn) : htxn * htree :=
  let x' := hbump x in (x', mkHTree (x_root x) (x_rw x) (x_size x) (x_ro x) (x_tid x')).
(* Txn.Commit (= commit()) *)
Definition htxn_commit (x : htxn) : htxn * htree :=
  let s := x_st x in
  let '(rw', s') := if x_dirty x then (s_next s, mkSt (s_ws s) (s_next s + 1)) else (x_rw x, s) in
  (mkHTxn (x_root x) (x_rw x) (x_size x) (x_ro x) (x_tid x + 1) (x_dirty x) s' [],
   mkHTree (x_root x) rw' (x_size x) (x_ro x) (x_tid x + 1)).

(* abstraction to the records of Part/Model.v *)
Definition habs (h : heap) (x : htxn) : txn :=
  mkTxn (den_root h (x_root x)) (x_rw x) (x_size x) (x_ro x) (x_tid x) (x_dirty x) (x_st x).
Definition habs_tree (h : heap) (t : htree) : tree :=
  mkTree (den_root h (hr_root t)) (hr_rw t) (hr_size t) (hr_ro t) (hr_next t).

(* ---- computed sanity checks against the tree model ---- *)
Module HeapSanity.
Inductive op := OIns (k : bytes) (v : N) | OMod (k : bytes) (v : N) | ODel (k : bytes) | OBump.
Definition hstep (s : heap * htxn) (o : op) : heap * htxn :=
  let (h, x) := s in
  match o with
  | OIns k v => fst (fst (fst (htxn_modify h x None k v)))
  | OMod k v => fst (fst (fst (htxn_modify h x (Some mod_fun) k v)))
  | ODel k => fst (htxn_delete h x k)
  | OBump => (h, hbump x)
  end.
Definition mstep (x : txn) (o : op) : txn :=
  match o with
  | OIns k v => fst (fst (fst (txn_modify x None k v)))
  | OMod k v => fst (fst (fst (txn_modify x (Some mod_fun) k v)))
  | ODel k => fst (txn_delete x k)
  | OBump => bump x
  end.
Definition t0 : htree := fst (htree_new false 1).
Definition m0 : tree := fst (tree_new false 1).

Definition ops1 : list op :=
  [OIns [1;2] 10; OIns [] 11; OIns [1] 12; OIns [1;2;3] 13; OBump; ODel [1]; OMod [1;2] 5; OIns [1;3] 14;
   OIns [2] 15; OIns [1;4] 16; OIns [1;5] 17; OIns [1;6] 18; OBump; OIns [1;7] 19; ODel [1;3]; ODel [1;4];
   ODel [1;2]; ODel [1;2;3]; OMod [9] 1; ODel []; OIns [1;6;1] 20; ODel [1;6]; ODel [2]; ODel [7]].
Example sanity_ops1 :
  let '(h, x) := fold_left hstep ops1 ([], htree_txn t0 2) in
  habs h x = fold_left mstep ops1 (tree_txn m0 2).
Proof. vm_compute. reflexivity. Qed.

(* every prefix of the history agrees, too *)
Example sanity_prefixes :
  map (fun n => let '(h, x) := fold_left hstep (firstn n ops1) ([], htree_txn t0 2) in habs h x) (seq 0 25)
  = map (fun n => fold_left mstep (firstn n ops1) (tree_txn m0 2)) (seq 0 25).
Proof. vm_compute. reflexivity. Qed.
End HeapSanity.
