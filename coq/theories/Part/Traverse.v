(* Part/Traverse.v — Prefix search refines om_prefix, LowerBound (with traverseToMin and the node256
   variant) refines om_lower_bound; Iterator.Next agrees with Iterator.All. *)
From SV Require Import Base.Bytes Base.OrdMap Part.Model Part.Sem Part.Insert Part.Delete Part.Query Part.Refine.
From Coq Require Import ZifyN ZifyNat ZifyBool.
Open Scope N_scope.

Definition opt_entries (o : option node) : list ent := match o with Some m => node_entries m | None => [] end.

Lemma has_prefix_weaken p : forall q k, has_prefix p q = true -> has_prefix (p ++ k) q = true.
Proof.
  induction p as [|x p IH]; intros [|y q] k; simpl; auto; try discriminate.
  - destruct k; auto.
  - destruct (x =? y); simpl; auto.
Qed.

Lemma om_prefix_pre p q (L : list ent) : om_prefix (p ++ q) (map (pre p) L) = map (pre p) (om_prefix q L).
Proof.
  unfold om_prefix. induction L as [|[k v] L IH]; simpl; auto.
  rewrite has_prefix_app_l. destruct (has_prefix k q); simpl; now rewrite IH.
Qed.
Lemma om_prefix_all p q (L : list ent) : has_prefix p q = true -> om_prefix q (map (pre p) L) = map (pre p) L.
Proof.
  intros H. unfold om_prefix. induction L as [|[k v] L IH]; simpl; auto.
  rewrite has_prefix_weaken by auto. now rewrite IH.
Qed.
Lemma has_prefix_app_inv q : forall p k, has_prefix (p ++ k) q = true -> has_prefix p q = true \/ exists r, strip p q = Some r.
Proof.
  induction q as [|y q IH]; intros [|x p] k; simpl; auto.
  - intros _. right. eexists; reflexivity.
  - destruct (N.eqb_spec x y) as [->|Hne]; simpl; [|discriminate]. intros H.
    destruct (IH p k H) as [H1|[r H1]]; auto. right. rewrite ?N.eqb_refl. eauto.
Qed.
Lemma om_prefix_none p q (L : list ent) : has_prefix p q = false -> strip p q = None -> om_prefix q (map (pre p) L) = [].
Proof.
  intros H1 H2. unfold om_prefix. induction L as [|[k v] L IH]; simpl; auto.
  destruct (has_prefix (p ++ k) q) eqn:E; auto.
  destruct (has_prefix_app_inv q p k E) as [H|[r H]]; congruence.
Qed.
Lemma om_prefix_app q (L1 L2 : list ent) : om_prefix q (L1 ++ L2) = om_prefix q L1 ++ om_prefix q L2.
Proof. unfold om_prefix. apply filter_app. Qed.
Lemma om_prefix_starts_other b b' q (L : list ent) : starts b' L -> b' <> b -> om_prefix (b :: q) L = [].
Proof.
  intros H Hne. unfold om_prefix. induction L as [|[k v] L IH]; simpl; auto.
  inversion H; subst. simpl in *. destruct k as [|c k]; simpl in *; [tauto|]. subst c.
  apply N.eqb_neq in Hne. rewrite Hne. simpl. auto.
Qed.

Lemma prefix_ch_find b q w : forall ch,
  prefix_ch ch b q w = match ch_find b ch with Some x => prefix_node x q w | None => (None, w) end.
Proof.
  induction ch as [|b' x r IH]; [reflexivity|].
  cbn [prefix_ch ch_find]; fold prefix_node; fold prefix_ch. destruct (b' =? b); auto.
Qed.

(* entries of the children that can match a query starting with b: only the child under b *)
Lemma om_prefix_children acc b q : forall ch, wfk_ch acc ch ->
  om_prefix (b :: q) (ents_ch ch) = match ch_find b ch with Some x => om_prefix (b :: q) (ents x) | None => [] end.
Proof.
  induction ch as [|b' x r IH]; simpl; auto. intros (Hh & Hx & Hg & Hr). rewrite om_prefix_app.
  destruct (N.eqb_spec b' b) as [->|Hne].
  - assert (E : om_prefix (b :: q) (ents_ch r) = []).
    { rewrite IH by auto. destruct (ch_find b r) as [y|] eqn:Ef; auto.
      pose proof (ch_gt_find _ _ _ _ Hg Ef). lia. }
    now rewrite E, app_nil_r.
  - rewrite (om_prefix_starts_other b b' q (ents x)); auto. now apply ents_starts.
Qed.

Theorem prefix_spec : forall n acc q w, wfk acc n ->
  opt_entries (fst (prefix_node n q w)) = map (pre acc) (om_prefix q (ents n)).
Proof.
  induction n as [p l|kd t p w lf ch IH] using node_find_ind; intros acc q w0 Hw; cbn [prefix_node]; fold prefix_ch.
  - cbn [ents]. unfold om_prefix. simpl filter.
    destruct (has_prefix p q); simpl; auto. simpl in Hw. unfold pre; simpl. now rewrite Hw.
  - pose proof Hw as [Hl Hc]. destruct (has_prefix p q) eqn:Hp.
    + cbn [fst opt_entries]. rewrite (proj1 entries_ents _ acc Hw). cbn [ents]. now rewrite om_prefix_all.
    + destruct (strip p q) as [[|b rest]|] eqn:Es.
      * apply strip_nil_rest in Es. subst q. exfalso.
        assert (has_prefix p p = true) by (apply has_prefix_spec; exists []; now rewrite app_nil_r). congruence.
      * rewrite prefix_ch_find. apply strip_some in Es. subst q. cbn [ents].
        rewrite om_prefix_pre, om_prefix_app.
        assert (E0 : om_prefix (b :: rest) (lfe lf) = []) by (destruct lf; reflexivity).
        rewrite E0, app_nil_l, (om_prefix_children (acc ++ p)) by auto.
        destruct (ch_find b ch) as [x|] eqn:Ef; [|reflexivity].
        rewrite <- map_pre_app. eapply IH; eauto. eapply ch_find_wfk; eauto.
      * cbn [fst opt_entries ents]. now rewrite om_prefix_none.
Qed.

Definition leaf_part (n : node) : list ent :=
  match node_leaf n with Some l => [(lf_key l, lf_val l)] | None => [] end.
Lemma node_entries_split n : node_entries n = leaf_part n ++ ch_entries (node_children n).
Proof. destruct n as [p l|kd t p w [l|] ch]; reflexivity. Qed.

Lemma edges_fuel_pos e : (1 <= edges_fuel e)%nat.
Proof. unfold edges_fuel. induction e; simpl; lia. Qed.
Lemma edges_fuel_cons c e : edges_fuel (c :: e) = (ch_count c + edges_fuel e + 1)%nat.
Proof. reflexivity. Qed.

(* the edge-stack loop pops the head of what the stack still has to yield *)
Lemma next_edges_spec : forall fuel edges, (edges_fuel edges <= fuel)%nat ->
  match next_edges fuel edges with
  | Some (kv, e') => flat_map ch_entries edges = kv :: flat_map ch_entries e'
  | None => flat_map ch_entries edges = []
  end.
Proof.
  induction fuel as [|f IH]; intros edges Hf.
  - pose proof (edges_fuel_pos edges). lia.
  - destruct edges as [|[|b n r] rest].
    + reflexivity.
    + cbn [next_edges]. rewrite edges_fuel_cons in Hf. cbn [ch_count] in Hf. apply (IH rest). lia.
    + cbn [next_edges]. rewrite edges_fuel_cons in Hf. cbn [ch_count] in Hf.
      set (e1 := match r with CNil => rest | _ => r :: rest end).
      set (e2 := match node_children n with CNil => e1 | chn => chn :: e1 end).
      assert (F1 : flat_map ch_entries e1 = ch_entries r ++ flat_map ch_entries rest)
        by (unfold e1; destruct r; reflexivity).
      assert (F2 : flat_map ch_entries e2 = ch_entries (node_children n) ++ ch_entries r ++ flat_map ch_entries rest)
        by (unfold e2; destruct (node_children n); simpl; rewrite F1; reflexivity).
      assert (Fall : flat_map ch_entries (CCons b n r :: rest) = leaf_part n ++ flat_map ch_entries e2).
      { cbn [flat_map ch_entries]. rewrite node_entries_split, F2, <- !app_assoc. reflexivity. }
      rewrite Fall. unfold leaf_part.
      destruct (node_leaf n) as [l|] eqn:El; [reflexivity|]. simpl. apply IH.
      assert (C1 : (edges_fuel e1 <= ch_count r + edges_fuel rest + 1)%nat)
        by (unfold e1; destruct r; rewrite ?edges_fuel_cons; cbn [ch_count]; lia).
      assert (Cn : (node_count n = S (ch_count (node_children n)))%nat)
        by (destruct n; [discriminate|reflexivity]).
      unfold e2. destruct (node_children n) eqn:En; rewrite ?edges_fuel_cons; cbn [ch_count] in *; lia.
Qed.

Theorem iter_next_agrees_all it :
  match iter_next it with
  | (Some kv, it') => iter_all it = kv :: iter_all it'
  | (None, it') => iter_all it = [] /\ iter_all it' = []
  end.
Proof.
  unfold iter_next, iter_all. destruct (it_start it) as [n|].
  - set (e := match node_children n with CNil => [] | chn => [chn] end).
    assert (Fe : flat_map ch_entries e = ch_entries (node_children n))
      by (unfold e; destruct (node_children n); simpl; rewrite ?app_nil_r; reflexivity).
    rewrite node_entries_split. unfold leaf_part. destruct (node_leaf n) as [l|].
    + cbn [it_start it_edges]. now rewrite Fe.
    + pose proof (next_edges_spec _ e (le_n _)) as S. rewrite Fe in S. simpl.
      destruct (next_edges _ e) as [[kv e']|]; cbn [it_start it_edges]; auto.
  - pose proof (next_edges_spec _ (it_edges it) (le_n _)) as S.
    destruct (next_edges _ _) as [[kv e']|]; cbn [it_start it_edges]; auto.
Qed.

Lemma om_lb_pre p k (L : list ent) : om_lower_bound (p ++ k) (map (pre p) L) = map (pre p) (om_lower_bound k L).
Proof.
  induction L as [|[k' v'] L IH]; simpl; auto. rewrite bytes_ltb_app. destruct (bytes_ltb k' k); auto.
Qed.
Lemma om_lb_app_l k (L1 L2 : list ent) : all_lt L1 k -> om_lower_bound k (L1 ++ L2) = om_lower_bound k L2.
Proof.
  induction L1 as [|[k' v'] L1 IH]; simpl; auto. intros H. inversion H; subst. simpl in *.
  assert (E : bytes_ltb k' k = true) by now apply bytes_ltb_spec. rewrite E. auto.
Qed.
Lemma om_lb_all_lt k (L : list ent) : all_lt L k -> om_lower_bound k L = [].
Proof. intros H. rewrite <- (app_nil_r L). now rewrite om_lb_app_l. Qed.
Lemma om_lb_all_gt k (L : list ent) : all_gt L k -> om_lower_bound k L = L.
Proof.
  destruct L as [|[k' v'] L]; simpl; auto. intros H. inversion H; subst. simpl in *.
  now destruct (ltb_of_gt k' k H2) as [_ ->].
Qed.
Lemma om_lb_app_r k (L1 L2 : list ent) : all_gt L2 k -> om_lower_bound k (L1 ++ L2) = om_lower_bound k L1 ++ L2.
Proof.
  intros H. induction L1 as [|[k' v'] L1 IH]; simpl; [now apply om_lb_all_gt|].
  destruct (bytes_ltb k' k); auto.
Qed.
Lemma om_lb_hd_ge k (L : list ent) : (forall kv, In kv L -> bytes_ltb (fst kv) k = false) -> om_lower_bound k L = L.
Proof.
  destruct L as [|[k' v'] L]; simpl; auto. intros H. specialize (H (k', v') (or_introl eq_refl)). simpl in H.
  now rewrite H.
Qed.

Lemma ents_pref n : exists L, ents n = map (pre (node_prefix n)) L.
Proof.
  destruct n as [p l|kd t p w lf ch]; simpl.
  - exists [([], lf_val l)]. unfold pre; simpl. now rewrite app_nil_r.
  - eexists; reflexivity.
Qed.

Lemma tmin_entries : forall n edges,
  flat_map ch_entries (tmin n edges) = node_entries n ++ flat_map ch_entries edges.
Proof.
  induction n as [p l|kd t p w lf ch IH] using node_find_ind; intros edges.
  - simpl. now rewrite ?app_nil_r.
  - destruct lf as [l|]; [cbn [tmin flat_map ch_entries]; now rewrite ?app_nil_r|].
    cbn [tmin node_entries]; fold ch_entries. destruct ch as [|b x r]; [reflexivity|].
    cbn [ch_entries]; fold node_entries. rewrite (IH b x) by (simpl; now rewrite N.eqb_refl).
    destruct r; simpl; now rewrite <- ?app_assoc.
Qed.

(* the three outcomes of comparing the node prefix with the same-length head of the key *)
Lemma cmp3 p : forall key,
  (bytes_ltb p (firstn (length p) key) = true /\ forall k, lex_lt (p ++ k) key) \/
  (bytes_ltb p (firstn (length p) key) = false /\ bytes_eqb p (firstn (length p) key) = true /\
   key = p ++ skipn (length p) key) \/
  (bytes_ltb p (firstn (length p) key) = false /\ bytes_eqb p (firstn (length p) key) = false /\
   forall k, lex_lt key (p ++ k)).
Proof.
  induction p as [|x p IH]; intros [|y key]; simpl; auto.
  - right; right. repeat split; auto. constructor.
  - destruct (N.ltb_spec x y) as [Hlt|Hge]; [left; split; auto; intros; now constructor|].
    destruct (N.eqb_spec x y) as [->|Hne].
    + destruct (IH key) as [(L & H)|[(L & E & H)|(L & E & H)]]; rewrite L; [left|right; left|right; right];
        rewrite ?E; repeat split; auto; try (intros k; apply lex_tl, H). now rewrite <- H.
    + right; right. repeat split; auto. intros k. apply lex_hd. lia.
Qed.

Lemma bytes_ltb_app_nil p r : bytes_ltb p (p ++ r) = bytes_ltb [] r.
Proof. rewrite <- (app_nil_r p) at 1. apply bytes_ltb_app. Qed.
Lemma length_eqb_app (p r : bytes) : (length p =? length (p ++ r))%nat = match r with [] => true | _ => false end.
Proof.
  rewrite app_length. destruct r; simpl; [rewrite Nat.add_0_r; apply Nat.eqb_refl|apply Nat.eqb_neq; lia].
Qed.

(* a key that leaves the node's prefix on the high (low) side has none (all) of the node's entries at or above it *)
Lemma lb_outside n key :
  ((forall k, lex_lt (node_prefix n ++ k) key) -> om_lower_bound key (ents n) = []) /\
  ((forall k, lex_lt key (node_prefix n ++ k)) -> om_lower_bound key (ents n) = ents n).
Proof.
  destruct (ents_pref n) as [L ->].
  split; intros H; [apply om_lb_all_lt|apply om_lb_all_gt]; apply Forall_map, Forall_forall; intros [k v] _; apply H.
Qed.

(* a key equal to the node's prefix is at or below every entry of the node *)
Lemma om_lb_inner_here kd t p w lf ch :
  om_lower_bound p (ents (Inner kd t p w lf ch)) = ents (Inner kd t p w lf ch).
Proof.
  apply om_lb_hd_ge. intros [k v] Hin. cbn [ents] in Hin. apply in_map_iff in Hin.
  destruct Hin as ([k0 v0] & Eq & _). injection Eq as <- <-. simpl.
  rewrite <- (app_nil_r p) at 2. rewrite bytes_ltb_app. now destruct k0.
Qed.

(* one child of the scan for the first byte >= b (both the sorted-list and the node256 variant): a child with a
   smaller byte is skipped, otherwise the search goes on below it with the later children pushed *)
Lemma lb_ch_cons acc b rest b' x r :
  wfk_ch acc (CCons b' x r) ->
  (forall key edges, flat_map ch_entries (lb_node x key edges) =
     map (pre acc) (om_lower_bound key (ents x)) ++ flat_map ch_entries edges) ->
  (forall edges, flat_map ch_entries (lb_ch r b (b :: rest) edges) =
     map (pre acc) (om_lower_bound (b :: rest) (ents_ch r)) ++ flat_map ch_entries edges /\
     flat_map ch_entries (lb_ch256 r b (b :: rest) edges) =
     map (pre acc) (om_lower_bound (b :: rest) (ents_ch r)) ++ flat_map ch_entries edges) ->
  forall edges,
  flat_map ch_entries (lb_ch (CCons b' x r) b (b :: rest) edges) =
  map (pre acc) (om_lower_bound (b :: rest) (ents_ch (CCons b' x r))) ++ flat_map ch_entries edges /\
  flat_map ch_entries (lb_ch256 (CCons b' x r) b (b :: rest) edges) =
  map (pre acc) (om_lower_bound (b :: rest) (ents_ch (CCons b' x r))) ++ flat_map ch_entries edges.
Proof.
  intros (Hh & Hx & Hg & Hr) IHx IHr edges.
  cbn [lb_ch lb_ch256 ents_ch]; fold lb_node; fold lb_ch; fold lb_ch256.
  destruct (IHr edges) as [R1 R2].
  assert (Er : ch_entries r = map (pre acc) (ents_ch r)) by (apply (proj2 entries_ents); auto).
  assert (Push : flat_map ch_entries (match r with CNil => edges | _ => r :: edges end) =
                 ch_entries r ++ flat_map ch_entries edges) by (destruct r; reflexivity).
  destruct (N.ltb_spec b' b) as [Hlt|Hge].
  + assert (A : all_lt (ents x) (b :: rest)) by (eapply starts_lt; eauto; now apply ents_starts).
    rewrite om_lb_app_l by auto. auto.
  + assert (G : all_gt (ents_ch r) (b :: rest)).
    { destruct (N.eq_dec b' b) as [->|Hne]; [eapply ents_ch_all_gt; eauto|].
      eapply ents_ch_all_gt; eauto. eapply ch_gt_trans; [|exact Hg]. lia. }
    rewrite om_lb_app_r by auto. rewrite map_app, <- app_assoc. rewrite Er in Push.
    split.
    * rewrite IHx, Push. reflexivity.
    * destruct (N.eqb_spec b' b) as [->|Hne].
      -- rewrite IHx. cbn [flat_map]. rewrite Er. reflexivity.
      -- assert (Gx : all_gt (ents x) (b :: rest)) by (eapply starts_gt; [apply ents_starts; eauto|lia]).
         rewrite om_lb_all_gt by auto. cbn [flat_map ch_entries]; fold node_entries; fold ch_entries.
         rewrite (proj1 entries_ents _ acc Hx), Er, <- app_assoc. reflexivity.
Qed.

Theorem lb_spec :
  (forall n acc key edges, wfk acc n ->
     flat_map ch_entries (lb_node n key edges) =
     map (pre acc) (om_lower_bound key (ents n)) ++ flat_map ch_entries edges) /\
  (forall ch acc b rest edges, wfk_ch acc ch ->
     flat_map ch_entries (lb_ch ch b (b :: rest) edges) =
     map (pre acc) (om_lower_bound (b :: rest) (ents_ch ch)) ++ flat_map ch_entries edges /\
     flat_map ch_entries (lb_ch256 ch b (b :: rest) edges) =
     map (pre acc) (om_lower_bound (b :: rest) (ents_ch ch)) ++ flat_map ch_entries edges).
Proof.
  apply node_children_ind.
  - intros p l acc key edges Hw. cbn [lb_node node_prefix].
    destruct (cmp3 p key) as [(L & Hlt)|[(L & E & Hk)|(L & E & Hgt)]]; rewrite L; try rewrite E.
    + now rewrite (proj1 (lb_outside (Leaf p l) key) Hlt).
    + remember (skipn (length p) key) as r eqn:Er. clear Er. subst key. rewrite length_eqb_app.
      cbn [ents om_lower_bound]. rewrite bytes_ltb_app_nil.
      destruct r; [|reflexivity]. simpl in Hw. unfold pre; simpl. now rewrite Hw, ?app_nil_r.
    + rewrite tmin_entries, (proj1 entries_ents _ acc Hw), (proj2 (lb_outside (Leaf p l) key) Hgt). reflexivity.
  - intros kd t p w lf ch IH acc key edges Hw. pose proof Hw as [Hl Hc].
    cbn [lb_node node_prefix]; fold lb_ch; fold lb_ch256.
    destruct (cmp3 p key) as [(L & Hlt)|[(L & E & Hk)|(L & E & Hgt)]]; rewrite L; try rewrite E.
    + now rewrite (proj1 (lb_outside (Inner kd t p w lf ch) key) Hlt).
    + remember (skipn (length p) key) as r eqn:Er. clear Er. subst key. rewrite length_eqb_app.
      destruct r as [|b rest].
      * rewrite app_nil_r. cbn [flat_map ch_entries].
        now rewrite (proj1 entries_ents _ acc Hw), app_nil_r, om_lb_inner_here.
      * cbn [hd ents]. rewrite om_lb_pre.
        pose proof (lfe_lt lf b rest) as Lf.
        rewrite om_lb_app_l by auto. rewrite <- map_pre_app.
        destruct (IH (acc ++ p) b rest edges Hc) as [I1 I2]. destruct (kd =? 256); auto.
    + rewrite tmin_entries, (proj1 entries_ents _ acc Hw), (proj2 (lb_outside (Inner kd t p w lf ch) key) Hgt). reflexivity.
  - intros acc b rest edges _. simpl. auto.
  - intros b' x IHx r IHr acc b rest edges Hw. pose proof Hw as (_ & Hx & _ & Hr).
    apply (lb_ch_cons acc b rest b' x r Hw); [intros key e; now apply IHx|intros e; now apply IHr].
Qed.
