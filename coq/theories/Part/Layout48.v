(* Part/Layout48.v — node48 (index[256] of 1-based positions + dense children[48]):
   canonical form, lookups (incl. the binary search of findIndex), the index-maintaining
   loops of insert / remove, promotion 16->48 and the arrays of the demotion 48->16. *)
From SV Require Import Part.Layout Part.LayoutBase Part.LayoutKeyed.
From Coq Require Import ZifyN ZifyNat ZifyBool.
Close Scope N_scope.

(* a well-formed node48 holding the sorted keys ks *)
Definition canon48 (lf : bool) (ks : list N) : layout :=
  mkL 48 (length ks) lf [] (index_of ks) (map (@Some N) ks ++ repeat None (48 - length ks)).

Lemma abs48 : forall lf ks, l_abs (canon48 lf ks) = ks.
Proof.
  intros. unfold l_abs, l_children_go. cbn [l_kind l_size l_children canon48 N.eqb Pos.eqb].
  rewrite firstn_map_some. apply cat_some_map_some.
Qed.

Lemma nth_index_key : forall ks key, (key < 256)%N -> nth (N.to_nat key) (index_of ks) 0 = pos_in key ks.
Proof. intros ks key Hk. rewrite nth_index_of by lia. rewrite N2Nat.id. reflexivity. Qed.

Lemma find48 : forall lf ks key, (key < 256)%N -> l_find (canon48 lf ks) key = memb key ks.
Proof.
  intros lf ks key Hk. unfold l_find. cbn [l_kind l_index l_children canon48 N.eqb Pos.eqb].
  rewrite nth_index_key by exact Hk. rewrite pos_in_memb.
  destruct (pos_in key ks) as [|p] eqn:E; [reflexivity|].
  destruct (pos_in_nth _ _ _ E) as [Hp _]. cbn [Nat.eqb negb]. unfold child_at.
  replace (S p - 1) with p by lia. rewrite nth_map_some by exact Hp. reflexivity.
Qed.

Lemma mid_between : forall lo hi, lo < hi -> lo <= (lo + hi) / 2 < hi.
Proof. intros lo hi H. split; [apply Nat.div_le_lower_bound | apply Nat.div_lt_upper_bound]; lia. Qed.

Lemma bsearch48_spec : forall fuel a b rest key lo hi,
  Forall (fun x => (x < key)%N) a -> Forall (fun x => (key < x)%N) b ->
  lo <= length a <= hi -> hi <= length a + length b -> hi - lo <= fuel ->
  bsearch48 fuel (map (@Some N) (a ++ b) ++ rest) key lo hi = length a.
Proof.
  induction fuel as [|f IH]; intros a b rest key lo hi Ha Hb Hlo Hhi Hf; cbn [bsearch48]; [lia|].
  destruct (Nat.ltb_spec lo hi) as [Hlt|Hge]; [|lia].
  pose proof (mid_between lo hi Hlt) as Hmid. remember ((lo + hi) / 2) as mid eqn:Emid. clear Emid.
  unfold child_at. rewrite nth_map_some by (rewrite app_length; lia). cbn [child_key].
  (* the key at mid tells on which side of the split mid lies *)
  destruct (Nat.lt_ge_cases mid (length a)) as [Hc|Hc].
  - pose proof (nth_split_lo a b key mid Ha Hc). destruct (N.ltb_spec (nth mid (a ++ b) 0%N) key); [|lia].
    apply IH; auto; lia.
  - assert (key < nth mid (a ++ b) 0)%N by (apply nth_split_hi; [exact Hb|lia]).
    destruct (N.ltb_spec (nth mid (a ++ b) 0%N) key); [lia|]. apply IH; auto; lia.
Qed.

Lemma findIndex48 : forall lf ks key, good ks -> 1 <= length ks <= 48 -> (key < 256)%N ->
  l_findIndex (canon48 lf ks) key = (memb key ks, rank key ks).
Proof.
  intros lf ks key [HS HB] HL Hk.
  destruct (split_at key ks HS) as (a & b & E & Ha & Hb).
  destruct (split_mid key b (memb key ks) Hb) as [Hmid _]. cbn zeta in Hmid.
  rewrite (f_equal (rank key) E), (rank_split key a _ Ha Hmid). clear Hmid.
  unfold l_findIndex. cbn [l_kind l_size l_index l_children canon48 N.eqb Pos.eqb].
  rewrite nth_index_key by exact Hk. unfold child_at.
  destruct (memb key ks) eqn:Em; subst ks; rewrite app_length in HL; cbn [length] in HL.
  - (* present: the index gives its slot *)
    rewrite pos_in_split by (apply memb_lt, Ha). cbn [Nat.eqb negb].
    replace (S (length a) - 1) with (length a) by lia.
    rewrite nth_map_some, nth_app_exact by (rewrite app_length; cbn; lia). reflexivity.
  - (* absent: below the first key, above the last, or binary search *)
    rewrite (pos_in_zero _ _ Em). cbn [Nat.eqb negb].
    rewrite !nth_map_some by (rewrite app_length; lia). cbn [child_key].
    destruct (N.ltb_spec key (nth 0 (a ++ b) 0%N)) as [H0|H0].
    + destruct a as [|x a]; [reflexivity|].
      pose proof (nth_split_lo (x :: a) b key 0 Ha) as Hn. cbn [length] in Hn. lia.
    + destruct (N.ltb_spec (nth (length (a ++ b) - 1) (a ++ b) 0%N) key) as [H1|H1].
      * rewrite app_length in *. destruct b as [|y b]; [cbn; f_equal; lia|].
        pose proof (nth_split_hi a (y :: b) key (length a + length (y :: b) - 1) Hb). cbn [length] in *. lia.
      * f_equal. apply bsearch48_spec; auto; rewrite ?app_length; lia.
Qed.

(* [promote_index i ks ix] enters the keys ks at the positions i+1, i+2, ... The loops of insert,
   remove and of the demotion 256->48 write exactly that for the children they move. *)
Lemma promote_index_length : forall ks i ix, length (promote_index i ks ix) = length ix.
Proof. induction ks as [|k r IH]; intros; cbn [promote_index]; [reflexivity|]. rewrite IH. apply set_nth_length. Qed.

Lemma promote_index_app : forall a b i ix,
  promote_index i (a ++ b) ix = promote_index (i + length a) b (promote_index i a ix).
Proof.
  induction a as [|k a IH]; intros; cbn [app promote_index length]; [rewrite Nat.add_0_r; reflexivity|].
  rewrite IH, Nat.add_succ_comm. reflexivity.
Qed.

Lemma promote_index_set_nth : forall ks i ix k v, memb k ks = false ->
  promote_index i ks (set_nth (N.to_nat k) v ix) = set_nth (N.to_nat k) v (promote_index i ks ix).
Proof.
  induction ks as [|x r IH]; intros i ix k v H; cbn [promote_index]; [reflexivity|].
  cbn [memb existsb] in H. apply orb_false_iff in H. destruct H as [Hx Hr]. apply N.eqb_neq in Hx.
  rewrite set_nth_comm by lia. apply IH, Hr.
Qed.

Lemma nth_promote_index : forall ks i ix j,
  ssorted ks -> Forall (fun x => (x < 256)%N) ks -> length ix = 256 -> j < 256 ->
  nth j (promote_index i ks ix) 0 = match pos_in (N.of_nat j) ks with 0 => nth j ix 0 | S p => i + S p end.
Proof.
  induction ks as [|k r IH]; intros i ix j HS HB HL Hj; cbn [promote_index pos_in]; [reflexivity|].
  destruct HS as [Hk HS]. apply Forall_cons_iff in HB. destruct HB as [Hk256 HB].
  rewrite IH by (rewrite ?set_nth_length; assumption).
  destruct (N.eqb_spec k (N.of_nat j)) as [->|Hne].
  - rewrite pos_in_zero by (apply memb_gt, Hk). rewrite nth_set_nth by lia. rewrite Nat2N.id, Nat.eqb_refl. lia.
  - destruct (pos_in (N.of_nat j) r) as [|t]; [|lia].
    rewrite nth_set_nth by lia. destruct (Nat.eqb_spec j (N.to_nat k)); [lia|reflexivity].
Qed.

(* entering the keys b behind a, into an index that is right for a wherever b has no say, gives the
   index of a ++ b *)
Lemma index_of_tail : forall a b ix, good (a ++ b) -> length ix = 256 ->
  (forall j, j < 256 -> pos_in (N.of_nat j) b = 0 -> nth j ix 0 = pos_in (N.of_nat j) a) ->
  promote_index (length a) b ix = index_of (a ++ b).
Proof.
  intros a b ix [HS HB] HL H. apply ssorted_app in HS. destruct HS as (_ & HSb & Hab).
  apply Forall_app in HB. destruct HB as [_ HBb].
  apply index_ext; [rewrite promote_index_length; exact HL|]. intros j Hj.
  rewrite nth_promote_index, pos_in_app by assumption.
  destruct (pos_in (N.of_nat j) b) as [|p] eqn:Eb.
  - rewrite H by assumption. destruct (pos_in (N.of_nat j) a); reflexivity.
  - rewrite pos_in_zero; [reflexivity|]. apply memb_false. intros Hin.
    specialize (Hab _ _ Hin (pos_in_In _ _ _ Eb)). lia.
Qed.

Lemma promote_index_canon : forall ks, good ks -> promote_index 0 ks (repeat 0 256) = index_of ks.
Proof.
  intros ks HG. apply (index_of_tail [] ks); [exact HG|apply repeat_length|]. intros j _ _. apply nth_repeat.
Qed.

(* header.insert, node48: the loop shifts children[idx..size-1] up by one and re-indexes them *)
Lemma ins48_loop_spec : forall Bk A c0 C ix, ssorted Bk ->
  exists c', ins48_loop (length Bk) (length A + length Bk - 1) ix (A ++ map (@Some N) Bk ++ c0 :: C)
             = (promote_index (S (length A)) Bk ix, A ++ c' :: map (@Some N) Bk ++ C).
Proof.
  intros Bk. induction Bk as [|b Bk' IH] using rev_ind; intros A c0 C ix HS; [exists c0; reflexivity|].
  apply ssorted_app in HS. destruct HS as (HS' & _ & Hlt).
  rewrite app_length. cbn [length]. rewrite Nat.add_1_r. cbn [ins48_loop].
  replace (length A + S (length Bk') - 1) with (length A + length Bk') by lia.
  rewrite map_app, <- app_assoc. cbn [map app].
  (* the loop starts at the last child, b *)
  assert (Ech : child_at (A ++ map Some Bk' ++ Some b :: c0 :: C) (length A + length Bk') = Some b).
  { unfold child_at. rewrite app_assoc, <- (map_length (@Some N) Bk'), <- app_length. apply nth_app_exact. }
  assert (Eset : set_nth (S (length A + length Bk')) (Some b) (A ++ map Some Bk' ++ Some b :: c0 :: C)
                 = A ++ map Some Bk' ++ Some b :: Some b :: C).
  { rewrite app_assoc, <- (map_length (@Some N) Bk'), <- app_length, set_nth_app_S, <- app_assoc. reflexivity. }
  rewrite Ech, Eset.
  destruct (IH A (Some b) (Some b :: C) (set_nth (N.to_nat b) (length A + length Bk' + 2) ix) HS') as (c' & ->).
  exists c'. f_equal; [|rewrite <- app_assoc; reflexivity].
  rewrite promote_index_app, promote_index_set_nth.
  - cbn [promote_index]. do 2 f_equal. lia.
  - apply memb_lt, Forall_forall. intros x Hx. apply Hlt; [exact Hx|left; reflexivity].
Qed.

Lemma insert48 : forall lf a b k, good (a ++ k :: b) -> length a + length b < 48 ->
  l_insert (canon48 lf (a ++ b)) (length a) k = canon48 lf (a ++ k :: b).
Proof.
  intros lf a b k HG HL.
  destruct (good_app_inv a k b HG) as (Ha & Hb & Hk & [HSab _]).
  apply ssorted_app in HSab. destruct HSab as (_ & HSb & _).
  unfold l_insert. cbn [l_kind l_size l_leaf l_keys l_index l_children canon48 N.eqb Pos.eqb orb].
  rewrite app_length. replace (length a + length b - length a) with (length b) by lia.
  replace (48 - (length a + length b)) with (S (48 - (length a + S (length b)))) by lia.
  cbn [repeat]. rewrite map_app, <- app_assoc.
  destruct (ins48_loop_spec b (map Some a) None (repeat None (48 - (length a + S (length b)))) (index_of (a ++ b)) HSb)
    as (c' & E).
  rewrite map_length in E. rewrite E. unfold canon48. f_equal.
  - rewrite app_length. cbn [length]. lia.
  - rewrite <- promote_index_set_nth by (apply memb_gt, Hb).
    apply (index_of_tail a (k :: b) (index_of (a ++ b)) HG (index_of_length _)).
    intros j Hj H0. rewrite nth_index_of, pos_in_app by exact Hj. cbn [pos_in] in H0.
    destruct (k =? N.of_nat j)%N; [discriminate|]. destruct (pos_in (N.of_nat j) b); [|discriminate].
    destruct (pos_in (N.of_nat j) a); reflexivity.
  - rewrite <- (map_length (@Some N) a) at 1. rewrite set_nth_mid, map_app, <- app_assoc, app_length. reflexivity.
Qed.

(* header.remove, node48: the loop shifts children[idx+1..size-1] down by one and re-indexes them *)
Lemma rem48_loop_spec : forall Bk A c0 C ix,
  exists c', rem48_loop (length Bk) (length A) ix (A ++ c0 :: map (@Some N) Bk ++ C)
             = (promote_index (length A) Bk ix, A ++ map (@Some N) Bk ++ c' :: C).
Proof.
  induction Bk as [|b Bk' IH]; intros A c0 C ix; [exists c0; reflexivity|].
  cbn [length rem48_loop map app promote_index]. unfold child_at. rewrite nth_app_S, set_nth_mid. cbn [nth].
  destruct (IH (A ++ [Some b]) (Some b) C (set_nth (N.to_nat b) (S (length A)) ix)) as (c' & E).
  rewrite app_length, Nat.add_1_r, <- !app_assoc in E. exists c'. exact E.
Qed.

Lemma remove48 : forall lf a b k, good (a ++ k :: b) -> length a + S (length b) <= 48 ->
  l_remove (canon48 lf (a ++ k :: b)) (length a) = canon48 lf (a ++ b).
Proof.
  intros lf a b k HG HL.
  destruct (good_app_inv a k b HG) as (Ha & Hb & Hk & HGab).
  unfold l_remove. cbn [l_kind l_size l_leaf l_keys l_index l_children canon48 N.eqb Pos.eqb orb].
  rewrite app_length. cbn [length]. replace (length a + S (length b) - 1 - length a) with (length b) by lia.
  rewrite map_app. cbn [map]. rewrite <- app_assoc. cbn [app].
  unfold child_at at 1. rewrite <- (map_length (@Some N) a), nth_app_exact. cbn [child_key].
  destruct (rem48_loop_spec b (map Some a) (Some k) (repeat None (48 - (length (map (@Some N) a) + S (length b))))
              (index_of (a ++ k :: b))) as (c' & E).
  rewrite E. rewrite map_length. unfold canon48. f_equal.
  - rewrite app_length. lia.
  - rewrite <- promote_index_set_nth by (apply memb_gt, Hb).
    apply (index_of_tail a b); [exact HGab|rewrite set_nth_length; apply index_of_length|].
    intros j Hj H0. rewrite nth_set_nth by (rewrite index_of_length; lia).
    destruct (Nat.eqb_spec j (N.to_nat k)) as [->|Hne].
    + rewrite N2Nat.id, pos_in_zero by (apply memb_lt, Ha). reflexivity.
    + rewrite nth_index_of, pos_in_app by exact Hj. cbn [pos_in]. rewrite H0.
      destruct (N.eqb_spec k (N.of_nat j)); [lia|]. destruct (pos_in (N.of_nat j) a); reflexivity.
  - replace (length a + S (length b) - 1) with (length (map (@Some N) a ++ map (@Some N) b))
      by (rewrite app_length, !map_length; lia).
    rewrite app_assoc, set_nth_mid, map_app, <- app_assoc.
    replace (48 - length (a ++ b)) with (S (48 - (length a + S (length b)))) by (rewrite app_length; lia).
    rewrite <- app_assoc. reflexivity.
Qed.

Lemma promote_16 : forall lf ks m z, good ks -> length ks <= 48 ->
  l_promote (canon_keyed 16 lf ks m z) = canon48 lf ks.
Proof.
  intros lf ks m z HG HL. unfold l_promote, canon_keyed, canon48.
  cbn [l_kind l_size l_leaf l_keys l_children N.eqb Pos.eqb]. f_equal.
  - rewrite firstn_app_exact. apply promote_index_canon, HG.
  - rewrite firstn_map_some, copy_into_repeat by (rewrite map_length; lia). rewrite map_length. reflexivity.
Qed.

Lemma demote_48_arrays : forall lf a b k, length a + length b <= 16 ->
  let cs := skip_nth (length a) (firstn (length (a ++ k :: b)) (l_children (canon48 lf (a ++ k :: b)))) in
  mkL 16 (length (a ++ k :: b) - 1) lf (copy_into (map child_key cs) (repeat 0%N 16)) [] (copy_into cs (repeat None 16))
  = canon_keyed 16 lf (a ++ b) 0 (16 - length (a ++ b)).
Proof.
  intros lf a b k HL. cbn zeta. unfold canon48, canon_keyed. cbn [l_children].
  rewrite firstn_map_some, map_app. cbn [map]. rewrite <- (map_length (@Some N) a), skip_nth_app, <- map_app.
  rewrite map_map. cbn [child_key]. rewrite map_id.
  rewrite !copy_into_repeat by (rewrite ?map_length, app_length; lia).
  f_equal.
  - rewrite !app_length. cbn [length]. lia.
  - rewrite map_length. reflexivity.
Qed.
