(* Part/LayoutProofs.v — the physical child layouts of node4/16/48/256 (Part/Layout.v) refine
   the sorted child list: well-formedness invariant LWF, correctness of find / findIndex,
   refinement of the transaction-level add / delete of a child including promotions,
   demotions and the collapse into the last child. The proofs about add and delete do not look at
   the kind of a node: is_node says what a layout is as a node of Part/Model.v, and promote_node,
   insert_node, remove_node carry the case analysis over the four kinds. *)
From SV Require Import Part.Layout Part.LayoutBase Part.LayoutKeyed Part.Layout48 Part.Layout256.
From Coq Require Import ZifyN ZifyNat ZifyBool.
Close Scope N_scope.

(* Well-formed layouts: exactly the canonical images of a strictly sorted list of bytes.
   - node4/node16: keys = ks ++ 255^m ++ 0^z, children = Some ks ++ nil^(m+z), |ks|+m+z = cap;
   - node48: children = Some ks ++ nil.., index[k] = 1 + position of k in ks (0 if absent), 1 <= |ks| <= 48;
   - node256: children[k] = Some k iff k in ks.
   The slot-wise reading of this definition is LWF_clauses in LayoutClauses.v. *)
Inductive LWF : layout -> Prop :=
| LWF_keyed : forall kd lf ks m z, (kd = 4 \/ kd = 16)%N -> good ks -> length ks + m + z = l_cap_of kd ->
    LWF (canon_keyed kd lf ks m z)
| LWF_48 : forall lf ks, good ks -> 1 <= length ks <= 48 -> LWF (canon48 lf ks)
| LWF_256 : forall lf ks, good ks -> LWF (canon256 lf ks).

(* the occupancy bounds of the kinds (txn.go validateTree asserts them) *)
Definition LOcc (l : layout) : Prop :=
  (l_kind l = 16%N -> 5 <= l_size l) /\ (l_kind l = 48%N -> 17 <= l_size l) /\ (l_kind l = 256%N -> 49 <= l_size l).

(* a layout seen as a node of Part/Model.v: well-formed, with its child keys, leaf flag, size and kind *)
Definition is_node (l : layout) (kd : N) (lf : bool) (ks : list N) : Prop :=
  LWF l /\ l_abs l = ks /\ l_leaf l = lf /\ l_size l = length ks /\ l_kind l = kd.

Lemma node_keyed : forall kd lf ks m z, (kd = 4 \/ kd = 16)%N -> good ks -> length ks + m + z = l_cap_of kd ->
  is_node (canon_keyed kd lf ks m z) kd lf ks.
Proof. intros. split; [apply LWF_keyed; assumption|]. rewrite abs_keyed by assumption. repeat split. Qed.
Lemma node_48 : forall lf ks, good ks -> 1 <= length ks <= 48 -> is_node (canon48 lf ks) 48 lf ks.
Proof. intros. split; [apply LWF_48; assumption|]. rewrite abs48. repeat split. Qed.
Lemma node_256 : forall lf ks, good ks -> is_node (canon256 lf ks) 256 lf ks.
Proof. intros. split; [apply LWF_256; assumption|]. rewrite abs256 by assumption. repeat split. Qed.

Lemma keyed_small : forall kd, (kd = 4 \/ kd = 16)%N -> (kd =? 256)%N = false /\ (kd =? 48)%N = false.
Proof. intros kd [-> | ->]; split; reflexivity. Qed.


Theorem LWF_abs : forall l, LWF l ->
  good (l_abs l) /\ l_size l = length (l_abs l) /\ l_size l <= l_cap l /\
  (l_kind l = 4 \/ l_kind l = 16 \/ l_kind l = 48 \/ l_kind l = 256)%N.
Proof.
  intros l H; unfold l_cap; destruct H as [kd lf ks m z Hkd HG Hcap | lf ks HG HL | lf ks HG];
    cbn [l_kind l_size canon_keyed canon48 canon256].
  - rewrite abs_keyed by exact Hkd.
    split; [exact HG|]. split; [reflexivity|]. split; [lia|]. destruct Hkd as [-> | ->]; auto.
  - rewrite abs48. change (l_cap_of 48) with 48. split; [exact HG|]. split; [reflexivity|]. split; [lia|]. auto.
  - rewrite abs256 by exact HG. change (l_cap_of 256) with 256.
    split; [exact HG|]. split; [reflexivity|]. split; [apply good_length, HG|]. auto.
Qed.

(* the empty node4 and the node4s built by Txn.modify's split are well-formed *)
Lemma new_node4_canon : forall lf ks, length ks <= 4 -> new_node4 lf ks = canon_keyed 4 lf ks 0 (4 - length ks).
Proof.
  intros lf ks HL. unfold new_node4, canon_keyed.
  rewrite !copy_into_repeat by (rewrite ?map_length; lia). rewrite map_length. reflexivity.
Qed.
Theorem LWF_new_node4 : forall lf ks, good ks -> length ks <= 4 -> LWF (new_node4 lf ks) /\ l_abs (new_node4 lf ks) = ks.
Proof.
  intros lf ks HG HL. rewrite new_node4_canon by exact HL.
  destruct (node_keyed 4 lf ks 0 (4 - length ks)) as (HW & Ea & _); auto. change (l_cap_of 4) with 4. lia.
Qed.

(* node4/16/48 keep their children densely in key order: the used slots hold them, the others are nil *)
Lemma LWF_child_at : forall l i, LWF l -> l_kind l <> 256%N ->
  child_at (l_children l) i = if i <? l_size l then Some (nth i (l_abs l) 0%N) else None.
Proof.
  intros l i H Hnk. destruct H as [kd lf ks m z Hkd _ _ | lf ks _ _ | lf ks _];
    cbn [l_kind l_size l_children canon_keyed canon48 canon256] in *;
    [rewrite abs_keyed by exact Hkd|rewrite abs48|congruence]; apply nth_dense.
Qed.

Theorem l_find_correct : forall l key, LWF l -> (key < 256)%N -> l_find l key = memb key (l_abs l).
Proof.
  intros l key H Hk; destruct H as [kd lf ks m z Hkd HG Hcap | lf ks HG HL | lf ks HG].
  - rewrite abs_keyed by exact Hkd. apply find_keyed; auto.
  - rewrite abs48. apply find48; auto.
  - rewrite abs256 by exact HG. apply find256; auto.
Qed.

Theorem l_findIndex_correct : forall l key, LWF l -> (key < 256)%N ->
  l_findIndex l key = (memb key (l_abs l),
                       if (l_kind l =? 256)%N then N.to_nat key else rank key (l_abs l)).
Proof.
  intros l key H Hk; destruct H as [kd lf ks m z Hkd HG Hcap | lf ks HG HL | lf ks HG].
  - rewrite abs_keyed by exact Hkd. cbn [l_kind canon_keyed].
    rewrite (proj1 (keyed_small kd Hkd)). apply findIndex_keyed; auto. apply HG.
  - rewrite abs48. apply findIndex48; auto.
  - rewrite abs256 by exact HG. apply findIndex256; auto.
Qed.

(* header.promote: next kind (the same function as Part/Model.v promote_kind) *)
Definition next_kind (kd : N) : N := (if kd =? 4 then 16 else if kd =? 16 then 48 else 256)%N.

(* (a node48 must hold at least one child: findIndex reads children[0]; promotion happens at size = cap) *)
Lemma promote_node : forall l, LWF l -> l_kind l <> 256%N -> 1 <= l_size l ->
  is_node (l_promote l) (next_kind (l_kind l)) (l_leaf l) (l_abs l).
Proof.
  intros l H Hnk H1; destruct H as [kd lf ks m z Hkd HG Hcap | lf ks HG HL | lf ks HG].
  - cbn [l_size l_kind l_leaf canon_keyed] in *. rewrite abs_keyed by exact Hkd. destruct Hkd as [-> | ->]; cbn in Hcap.
    + rewrite promote_4 by lia. apply (node_keyed 16); auto. change (l_cap_of 16) with 16. lia.
    + rewrite promote_16 by (auto; lia). apply node_48; auto. lia.
  - rewrite promote_48, abs48 by exact HG. apply node_256, HG.
  - destruct (Hnk eq_refl).
Qed.

(* the kind after adding one child: promotion exactly when size + 1 > cap (the kind tag is the capacity) *)
Definition add_kind (kd : N) (size : nat) : N := if (kd <? N.of_nat size + 1)%N then next_kind kd else kd.

Theorem l_add_present : forall l k, LWF l -> (k < 256)%N -> memb k (l_abs l) = true -> l_add l k = l.
Proof.
  intros l k H Hk Hm. unfold l_add. rewrite l_findIndex_correct by assumption. rewrite Hm. reflexivity.
Qed.

Lemma absent_split : forall k ks, good ks -> (k < 256)%N -> memb k ks = false ->
  exists a b, ks = a ++ b /\ ins k ks = a ++ k :: b /\ rank k ks = length a /\ good (a ++ k :: b).
Proof.
  intros k ks HG Hk Hm. destruct (split_at k ks (proj1 HG)) as (a & b & E & Ha & Hb).
  rewrite Hm in E. subst ks. exists a, b. split; [reflexivity|]. split; [apply ins_split; assumption|].
  split; [apply rank_split; [exact Ha|apply (split_mid k b false Hb)]|apply good_ins; assumption].
Qed.

(* header.insert into a node with room, at the position findIndex returned (node256 ignores it) *)
Lemma insert_node : forall l a b k idx, LWF l -> l_abs l = a ++ b -> good (a ++ k :: b) -> l_size l < l_cap l ->
  (l_kind l <> 256%N -> idx = length a) ->
  is_node (l_insert l idx k) (l_kind l) (l_leaf l) (a ++ k :: b).
Proof.
  intros l a b k idx H E HG' Hroom Hidx. destruct (good_app_inv a k b HG') as (_ & _ & Hk & _). unfold l_cap in Hroom.
  destruct H as [kd lf ks m z Hkd HG Hcap | lf ks HG HL | lf ks HG]; cbn [l_kind l_size l_leaf canon_keyed canon48 canon256] in *.
  - rewrite abs_keyed in E by exact Hkd. subst ks. rewrite app_length in *.
    rewrite Hidx by (apply N.eqb_neq, keyed_small, Hkd).
    destruct (stale_uncons m z) as (y & _ & Hsum); [lia|].
    rewrite insert_keyed by (auto; lia). apply node_keyed; auto. rewrite app_length. cbn [length]. lia.
  - rewrite abs48 in E. subst ks. rewrite app_length in *. change (l_cap_of 48) with 48 in Hroom.
    rewrite Hidx, insert48 by (auto; try discriminate; lia). apply node_48; auto. rewrite app_length. cbn [length]. lia.
  - rewrite abs256 in E by exact HG. subst ks. rewrite insert256 by exact Hk. apply node_256, HG'.
Qed.

Lemma cap_full : forall kd n, (kd = 4 \/ kd = 16 \/ kd = 48 \/ kd = 256)%N ->
  (kd <? N.of_nat n + 1)%N = (l_cap_of kd <? n + 1).
Proof.
  intros kd n [-> |[-> |[-> | ->]]]; cbn [l_cap_of N.eqb Pos.eqb];
    match goal with |- (?x <? ?y)%N = (?u <? ?v) => destruct (N.ltb_spec x y), (Nat.ltb_spec u v) end; lia.
Qed.

(* every kind but the last has room for its full predecessor and one more *)
Lemma cap_next : forall kd, (kd = 4 \/ kd = 16 \/ kd = 48 \/ kd = 256)%N -> kd <> 256%N ->
  4 <= l_cap_of kd < l_cap_of (next_kind kd).
Proof. intros kd [-> |[-> |[-> | ->]]] H; cbn; (lia || congruence). Qed.

Theorem l_add_correct : forall l k, LWF l -> (k < 256)%N -> memb k (l_abs l) = false ->
  LWF (l_add l k) /\ l_abs (l_add l k) = ins k (l_abs l) /\ l_leaf (l_add l k) = l_leaf l /\
  l_size (l_add l k) = S (l_size l) /\ l_kind (l_add l k) = add_kind (l_kind l) (l_size l).
Proof.
  intros l k H Hk Hmem.
  unfold l_add. rewrite (l_findIndex_correct l k H Hk), Hmem.
  destruct (LWF_abs l H) as (HG & Hsz & Hcap & Hkd). unfold l_cap in Hcap.
  destruct (absent_split k _ HG Hk Hmem) as (a & b & E & -> & -> & HG').
  assert (Hlen : length (a ++ k :: b) = S (l_size l)) by (rewrite Hsz, E, !app_length; cbn [length]; lia).
  remember (if (l_kind l =? 256)%N then N.to_nat k else length a) as idx eqn:Eidx.
  assert (Hidx : l_kind l <> 256%N -> idx = length a).
  { intros Hn. apply N.eqb_neq in Hn. rewrite Hn in Eidx. exact Eidx. }
  enough (Hn : is_node (l_insert (if l_cap l <? l_size l + 1 then l_promote l else l) idx k)
                       (add_kind (l_kind l) (l_size l)) (l_leaf l) (a ++ k :: b)).
  { destruct Hn as (? & ? & ? & Hs & ?). repeat split; auto. rewrite Hs. exact Hlen. }
  unfold add_kind, l_cap. rewrite (cap_full _ _ Hkd).
  destruct (Nat.ltb_spec (l_cap_of (l_kind l)) (l_size l + 1)) as [Hfull|Hroom].
  - (* full, so not a node256 (at most 256 keys): promote, then insert into the larger node *)
    assert (Hnk : l_kind l <> 256%N).
    { intros E256. rewrite E256 in Hfull. change (l_cap_of 256) with 256 in Hfull.
      pose proof (good_length _ HG'). lia. }
    pose proof (cap_next _ Hkd Hnk) as Hc.
    destruct (promote_node l H Hnk) as (HW & Ea & El & Es & Ek); [lia|].
    rewrite <- Ek, <- El. apply insert_node; [exact HW|congruence|exact HG'| |intros _; exact (Hidx Hnk)].
    unfold l_cap. rewrite Ek, Es, <- Hsz. lia.
  - apply insert_node; auto. unfold l_cap. lia.
Qed.

(* the kind after removeChild (non-collapse case): the demotion thresholds 49 / 17 / 5 as coded;
   the same expression as in Part/Model.v remove_child *)
Definition del_kind (kd : N) (size : nat) : N :=
  if ((kd =? 256)%N && (size <=? 49)) || ((kd =? 48)%N && (size <=? 17)) || ((kd =? 16)%N && (size <=? 5))
  then (if (kd =? 256)%N then 48 else if (kd =? 48)%N then 16 else 4)%N
  else kd.

Theorem l_del_absent : forall l k, LWF l -> (k < 256)%N -> memb k (l_abs l) = false -> l_del l k = LNode l.
Proof.
  intros l k H Hk Hm. unfold l_del. rewrite l_findIndex_correct by assumption. rewrite Hm. reflexivity.
Qed.

Lemma present_split : forall k ks, good ks -> memb k ks = true ->
  exists a b, ks = a ++ k :: b /\ rem k ks = a ++ b /\ rank k ks = length a.
Proof.
  intros k ks HG Hm. destruct (split_at k ks (proj1 HG)) as (a & b & E & Ha & Hb).
  rewrite Hm in E. subst ks. exists a, b. split; [reflexivity|]. split; [apply rem_split, Ha|].
  apply rank_split; [exact Ha|apply (split_mid k b true Hb)].
Qed.

(* txn.go removeChild when the node does not collapse: one of the three demotions at 49 / 17 / 5, or
   header.remove on the cloned arrays, at the position findIndex returned *)
Lemma remove_node : forall l a b k idx, LWF l -> LOcc l -> l_abs l = a ++ k :: b ->
  (l_size l =? 2) && negb (l_leaf l) = false ->
  idx = (if (l_kind l =? 256)%N then N.to_nat k else length a) ->
  exists l', l_removeChild l idx = LNode l' /\ is_node l' (del_kind (l_kind l) (l_size l)) (l_leaf l) (a ++ b).
Proof.
  intros l a b k idx H (_ & _ & HO256) E Ecol ->. unfold l_removeChild, del_kind. rewrite Ecol.
  destruct (LWF_abs l H) as (HG & _). rewrite E in HG.
  destruct (good_app_inv a k b HG) as (Ha & Hb & Hk & HG').
  assert (Hlen : length (a ++ k :: b) = length a + S (length b)) by apply app_length.
  destruct H as [kd lf ks m z Hkd _ Hcap | lf ks _ HL | lf ks HGk];
    cbn [l_kind l_size l_leaf canon_keyed canon48 canon256 N.eqb Pos.eqb andb orb] in *.
  - rewrite abs_keyed in E by exact Hkd. subst ks. rewrite app_length in Hcap. cbn [length] in Hcap.
    destruct (keyed_small kd Hkd) as [-> ->]. cbn [andb orb].
    destruct ((kd =? 16)%N && (length (a ++ k :: b) <=? 5)) eqn:Edem.
    + apply andb_true_iff in Edem. destruct Edem as [E16 E5]. apply N.eqb_eq in E16. apply Nat.leb_le in E5. subst kd.
      exists (canon_keyed 4 lf (a ++ b) 0 (4 - length (a ++ b))).
      split; [f_equal; apply demote_16_arrays; lia|]. apply (node_keyed 4); auto.
      rewrite app_length. change (l_cap_of 4) with 4. lia.
    + exists (canon_keyed kd lf (a ++ b) (S m) z). split; [f_equal; apply remove_keyed, Hkd|].
      apply node_keyed; auto. rewrite app_length. lia.
  - rewrite abs48 in E. subst ks.
    destruct (Nat.leb_spec (length (a ++ k :: b)) 17) as [E17|E17].
    + exists (canon_keyed 16 lf (a ++ b) 0 (16 - length (a ++ b))).
      split; [f_equal; apply demote_48_arrays; lia|]. apply (node_keyed 16); auto.
      rewrite app_length. change (l_cap_of 16) with 16. lia.
    + exists (canon48 lf (a ++ b)). split; [f_equal; apply remove48; [exact HG|lia]|].
      apply node_48; auto. rewrite app_length. lia.
  - rewrite abs256 in E by exact HGk. subst ks. specialize (HO256 eq_refl).
    destruct (Nat.leb_spec (length (a ++ k :: b)) 49) as [E49|E49].
    + pose proof (demote_256_arrays lf a b k HG) as HD. cbn [l_children canon256] in HD |- *.
      destruct (demote256_loop 0 (slots256 (a ++ k :: b)) (N.to_nat k) (repeat 0 256) []) as [ix acc].
      exists (canon48 lf (a ++ b)). split; [f_equal; apply HD; lia|]. apply node_48; auto. rewrite app_length. lia.
    + exists (canon256 lf (a ++ b)). split; [f_equal; apply remove256; [exact Hk|]|apply node_256, HG'].
      rewrite memb_app, (memb_lt _ _ Ha), (memb_gt _ _ Hb). reflexivity.
Qed.

Lemma two_around : forall (a b : list N), length a + S (length b) = 2 ->
  (a = [] /\ exists c, b = [c]) \/ (exists c, a = [c] /\ b = []).
Proof.
  intros [|c [|? ?]] [|c' [|? ?]] H; cbn [length] in H; try lia; [left|right]; eauto.
Qed.

Theorem l_del_correct : forall l k, LWF l -> LOcc l -> (k < 256)%N -> memb k (l_abs l) = true ->
  if (l_size l =? 2) && negb (l_leaf l)
  then exists c, l_del l k = LCollapsed (Some c) /\ rem k (l_abs l) = [c]
  else exists l', l_del l k = LNode l' /\ LWF l' /\ l_abs l' = rem k (l_abs l) /\ l_leaf l' = l_leaf l /\
                  l_size l' = l_size l - 1 /\ l_kind l' = del_kind (l_kind l) (l_size l).
Proof.
  intros l k H HO Hk Hmem.
  unfold l_del. rewrite (l_findIndex_correct l k H Hk), Hmem.
  destruct (LWF_abs l H) as (HG & Hsz & _).
  destruct (present_split k _ HG Hmem) as (a & b & E & -> & ->).
  assert (Hlen : l_size l = length a + S (length b)) by (rewrite Hsz, E, app_length; reflexivity).
  destruct ((l_size l =? 2) && negb (l_leaf l)) eqn:Ecol.
  - (* two children, so not a node256: the remaining child sits in slot 1 or 0 *)
    unfold l_removeChild. rewrite Ecol.
    apply andb_true_iff in Ecol. destruct Ecol as [E2 _]. apply Nat.eqb_eq in E2.
    assert (Hnk : l_kind l <> 256%N) by (intros Ek; apply HO in Ek; lia).
    replace (l_kind l =? 256)%N with false by (symmetry; apply N.eqb_neq, Hnk).
    rewrite E2 in Hlen. destruct (two_around a b (eq_sym Hlen)) as [[-> [c ->]]|[c [-> ->]]];
      exists c; cbn [length Nat.eqb app]; rewrite LWF_child_at, E2, E by assumption; split; reflexivity.
  - destruct (remove_node l a b k _ H HO E Ecol eq_refl) as (l' & Er & HW & Ea & El & Hs & Ek).
    exists l'. repeat split; auto. rewrite Hs, Hlen, app_length. lia.
Qed.

(* everything true of a reachable inner node *)
Definition LInv (l : layout) : Prop := LWF l /\ LOcc l.

(* the bounds as one inequality: the least number of children a node of a kind may hold *)
Definition occ_min (kd : N) : nat := if (kd =? 16)%N then 5 else if (kd =? 48)%N then 17 else if (kd =? 256)%N then 49 else 0.
Lemma LOcc_min : forall l, LWF l -> (LOcc l <-> occ_min (l_kind l) <= l_size l).
Proof.
  intros l H. destruct (LWF_abs l H) as (_ & _ & _ & [E|[E|[E|E]]]); unfold LOcc, occ_min; rewrite E; cbn [N.eqb Pos.eqb].
  all: split; [intros (H16 & H48 & H256); auto using Nat.le_0_l | intros Hm; repeat split; intros; (discriminate || exact Hm)].
Qed.

(* a promoted node is full, which is more than the next kind asks for *)
Lemma occ_next : forall kd, (kd = 4 \/ kd = 16 \/ kd = 48 \/ kd = 256)%N -> occ_min (next_kind kd) <= l_cap_of kd + 1.
Proof. intros kd [-> |[-> |[-> | ->]]]; cbn; lia. Qed.

Theorem LInv_new_node4 : forall lf ks, good ks -> length ks <= 4 -> LInv (new_node4 lf ks).
Proof.
  intros lf ks HG HL. destruct (LWF_new_node4 lf ks HG HL) as [HW _]. split; [exact HW|].
  apply LOcc_min; [exact HW|]. apply Nat.le_0_l.
Qed.

Theorem LInv_add : forall l k, LInv l -> (k < 256)%N -> LInv (l_add l k).
Proof.
  intros l k [H HO] Hk. destruct (memb k (l_abs l)) eqn:Em; [rewrite l_add_present by assumption; split; assumption|].
  destruct (l_add_correct l k H Hk Em) as (HW & _ & _ & Hs & Hkd). split; [exact HW|].
  apply LOcc_min; [exact HW|]. apply LOcc_min in HO; [|exact H]. rewrite Hs, Hkd.
  destruct (LWF_abs l H) as (_ & _ & _ & Hkinds). unfold add_kind. rewrite (cap_full _ _ Hkinds).
  destruct (Nat.ltb_spec (l_cap_of (l_kind l)) (l_size l + 1)); [|lia].
  pose proof (occ_next _ Hkinds). lia.
Qed.

Theorem LInv_del : forall l l' k, LInv l -> (k < 256)%N -> l_del l k = LNode l' -> LInv l'.
Proof.
  intros l l' k [H HO] Hk Hd. destruct (memb k (l_abs l)) eqn:Em.
  - pose proof (l_del_correct l k H HO Hk Em) as HC.
    destruct ((l_size l =? 2) && negb (l_leaf l)); [destruct HC as (c & E & _); congruence|].
    destruct HC as (l'' & E & HW & _ & _ & Hs & Hkd). rewrite Hd in E. injection E as <-. split; [exact HW|].
    apply LOcc_min; [exact HW|]. apply LOcc_min in HO; [|exact H]. rewrite Hs, Hkd.
    (* a demoted node has one child less than the threshold, which is what the smaller kind asks for *)
    destruct (LWF_abs l H) as (_ & _ & _ & [E|[E|[E|E]]]); unfold del_kind; rewrite E in *; cbn [N.eqb Pos.eqb andb orb occ_min] in *.
    + lia.
    + destruct (Nat.leb_spec (l_size l) 5); cbn; lia.
    + destruct (Nat.leb_spec (l_size l) 17); cbn; lia.
    + destruct (Nat.leb_spec (l_size l) 49); cbn; lia.
  - rewrite l_del_absent in Hd by assumption. injection Hd as <-. split; assumption.
Qed.
