(* Part/Sem.v — denotation of model trees as association lists (ents), the key/order
   well-formedness invariant (wfk), and locality lemmas for the OrdMap operations. *)
From SV Require Import Base.Bytes Base.OrdMap Part.Model.
From Coq Require Import ZifyN ZifyNat ZifyBool.
Open Scope N_scope.

Scheme node_mind := Induction for node Sort Prop
  with children_mind := Induction for children Sort Prop.
Combined Scheme node_children_ind from node_mind, children_mind.

(* induction along a search path: below an inner node only the children that ch_find returns matter *)
Lemma node_find_ind (P : node -> Prop) :
  (forall p l, P (Leaf p l)) ->
  (forall kd t p w lf ch, (forall b x, ch_find b ch = Some x -> P x) -> P (Inner kd t p w lf ch)) ->
  forall n, P n.
Proof.
  intros HL HI. apply (node_mind P (fun ch => forall b x, ch_find b ch = Some x -> P x)); auto.
  - discriminate.
  - intros b' y Hy r Hr b x. simpl. destruct (b' =? b); [intros [= <-]; exact Hy|apply Hr].
Qed.

Definition ent := (bytes * N)%type.
Definition pre (p : bytes) (kv : ent) : ent := (p ++ fst kv, snd kv).
Definition lfe (lf : option leafrec) : list ent := match lf with Some l => [([], lf_val l)] | None => [] end.

(* entries with keys relative to the position of the node (prefixes only; full keys stored
   in the leaves are tied to these by wfk) *)
Fixpoint ents (n : node) : list ent :=
  match n with
  | Leaf p l => [(p, lf_val l)]
  | Inner _ _ p _ lf ch => map (pre p) (lfe lf ++ ents_ch ch)
  end
with ents_ch (ch : children) : list ent :=
  match ch with CNil => [] | CCons _ x r => ents x ++ ents_ch r end.

Fixpoint ch_gt (b : N) (ch : children) : Prop :=
  match ch with CNil => True | CCons b' _ r => b < b' /\ ch_gt b r end.
Definition hd_is (b : N) (p : bytes) : Prop := match p with c :: _ => c = b | [] => False end.

(* acc = concatenation of the prefixes above the node *)
Fixpoint wfk (acc : bytes) (n : node) : Prop :=
  match n with
  | Leaf p l => lf_key l = acc ++ p
  | Inner _ _ p _ lf ch =>
    match lf with Some l => lf_key l = acc ++ p | None => True end /\ wfk_ch (acc ++ p) ch
  end
with wfk_ch (acc : bytes) (ch : children) : Prop :=
  match ch with
  | CNil => True
  | CCons b x r => hd_is b (node_prefix x) /\ wfk acc x /\ ch_gt b r /\ wfk_ch acc r
  end.

Definition all_lt (L : list ent) (k : bytes) : Prop := Forall (fun kv => lex_lt (fst kv) k) L.
Definition all_gt (L : list ent) (k : bytes) : Prop := Forall (fun kv => lex_lt k (fst kv)) L.
Definition starts (b : N) (L : list ent) : Prop := Forall (fun kv => hd_is b (fst kv)) L.

Lemma bytes_eqb_app p a b : bytes_eqb (p ++ a) (p ++ b) = bytes_eqb a b.
Proof. induction p as [|x p IH]; simpl; auto. now rewrite N.eqb_refl, IH. Qed.
Lemma bytes_ltb_app p a b : bytes_ltb (p ++ a) (p ++ b) = bytes_ltb a b.
Proof. induction p as [|x p IH]; simpl; auto. now rewrite N.ltb_irrefl, N.eqb_refl, IH. Qed.

Lemma ltb_of_lt a b : lex_lt a b -> bytes_eqb a b = false /\ bytes_ltb a b = true.
Proof.
  intros H. destruct (bytes_cmp_cases a b) as [[_ ->]|[[E [L _]]|[_ [_ H2]]]]; auto.
  - now apply lex_lt_irrefl in H.
  - exfalso. eapply lex_lt_asym; eauto.
Qed.
Lemma ltb_of_gt a b : lex_lt b a -> bytes_eqb a b = false /\ bytes_ltb a b = false.
Proof.
  intros H. destruct (bytes_cmp_cases a b) as [[_ ->]|[[_ [_ H2]]|[E [L _]]]]; auto.
  - now apply lex_lt_irrefl in H.
  - exfalso. eapply lex_lt_asym; eauto.
Qed.

Section Loc.
Variable k : bytes.
Lemma om_insert_app_l v (L1 L2 : list ent) : all_lt L1 k -> om_insert k v (L1 ++ L2) = L1 ++ om_insert k v L2.
Proof.
  induction L1 as [|[k' v'] L1 IH]; simpl; intros H; auto. inversion H; subst. simpl in *.
  destruct (ltb_of_gt k k') as [-> ->]; auto. now rewrite IH.
Qed.
Lemma om_insert_app_r v (L1 L2 : list ent) : all_gt L2 k -> om_insert k v (L1 ++ L2) = om_insert k v L1 ++ L2.
Proof.
  intros H. induction L1 as [|[k' v'] L1 IH]; simpl.
  - destruct L2 as [|[k2 v2] L2]; simpl; auto. inversion H; subst; simpl in *.
    now destruct (ltb_of_lt k k2) as [-> ->].
  - destruct (bytes_eqb k k'); auto. destruct (bytes_ltb k k'); auto. simpl. now rewrite IH.
Qed.
Lemma om_delete_app_l (L1 L2 : list ent) : all_lt L1 k -> om_delete k (L1 ++ L2) = L1 ++ om_delete k L2.
Proof.
  induction L1 as [|[k' v'] L1 IH]; simpl; intros H; auto. inversion H; subst. simpl in *.
  destruct (ltb_of_gt k k') as [-> ->]; auto. now rewrite IH.
Qed.
Lemma om_delete_app_r (L1 L2 : list ent) : all_gt L2 k -> om_delete k (L1 ++ L2) = om_delete k L1 ++ L2.
Proof.
  intros H. induction L1 as [|[k' v'] L1 IH]; simpl.
  - destruct L2 as [|[k2 v2] L2]; simpl; auto. inversion H; subst; simpl in *.
    now destruct (ltb_of_lt k k2) as [-> ->].
  - destruct (bytes_eqb k k'); auto. destruct (bytes_ltb k k'); auto. simpl. now rewrite IH.
Qed.
Lemma om_get_app_l (L1 L2 : list ent) : all_lt L1 k -> om_get k (L1 ++ L2) = om_get k L2.
Proof.
  induction L1 as [|[k' v'] L1 IH]; simpl; intros H; auto. inversion H; subst. simpl in *.
  destruct (ltb_of_gt k k') as [-> ->]; auto.
Qed.
Lemma om_get_app_r (L1 L2 : list ent) : all_gt L2 k -> om_get k (L1 ++ L2) = om_get k L1.
Proof.
  intros H. induction L1 as [|[k' v'] L1 IH]; simpl.
  - destruct L2 as [|[k2 v2] L2]; simpl; auto. inversion H; subst; simpl in *.
    now destruct (ltb_of_lt k k2) as [-> ->].
  - destruct (bytes_eqb k k'); auto. destruct (bytes_ltb k k'); auto.
Qed.
End Loc.

Lemma om_insert_pre p k v (L : list ent) : om_insert (p ++ k) v (map (pre p) L) = map (pre p) (om_insert k v L).
Proof.
  induction L as [|[k' v'] L IH]; simpl; auto.
  unfold pre at 1; simpl. rewrite bytes_eqb_app, bytes_ltb_app.
  destruct (bytes_eqb k k'); auto. destruct (bytes_ltb k k'); auto. simpl. now rewrite IH.
Qed.
Lemma om_delete_pre p k (L : list ent) : om_delete (p ++ k) (map (pre p) L) = map (pre p) (om_delete k L).
Proof.
  induction L as [|[k' v'] L IH]; simpl; auto.
  unfold pre at 1; simpl. rewrite bytes_eqb_app, bytes_ltb_app.
  destruct (bytes_eqb k k'); auto. destruct (bytes_ltb k k'); auto. simpl. now rewrite IH.
Qed.
Lemma om_get_pre p k (L : list ent) : om_get (p ++ k) (map (pre p) L) = om_get k L.
Proof.
  induction L as [|[k' v'] L IH]; simpl; auto.
  rewrite bytes_eqb_app, bytes_ltb_app.
  destruct (bytes_eqb k k'); auto. destruct (bytes_ltb k k'); auto.
Qed.

Lemma strip_some p : forall key rest, strip p key = Some rest <-> key = p ++ rest.
Proof.
  induction p as [|x p IH]; intros [|y k] rest; simpl.
  - split; [intros [= <-]|intros <-]; reflexivity.
  - split; [intros [= <-]|intros <-]; reflexivity.
  - split; [discriminate|intros H; discriminate].
  - destruct (N.eqb_spec x y) as [->|Hne].
    + rewrite IH. split; [intros ->; reflexivity|intros [= ->]; reflexivity].
    + split; [discriminate|intros [= E _]; congruence].
Qed.
Lemma strip_app p rest : strip p (p ++ rest) = Some rest.
Proof. now apply strip_some. Qed.

(* key and p split at their common prefix; the remainders differ at the head (or one is empty) *)
Lemma common_split a : forall b, exists a' b', a = common a b ++ a' /\ b = common a b ++ b' /\
  match a', b' with x :: _, y :: _ => x <> y | _, _ => True end.
Proof.
  induction a as [|x a IH]; intros [|y b]; simpl.
  - exists [], []; auto.
  - exists [], (y :: b); auto.
  - exists (x :: a), []; auto.
  - destruct (N.eqb_spec x y) as [->|Hne].
    + destruct (IH b) as [a' [b' [E1 [E2 H]]]]. exists a', b'. simpl. repeat split; auto; congruence.
    + exists (x :: a), (y :: b). simpl. auto.
Qed.
Lemma skipn_app_len {A} (l r : list A) : skipn (length l) (l ++ r) = r.
Proof. induction l; simpl; auto. Qed.

Lemma starts_lt b b' r L : starts b L -> b < b' -> all_lt L (b' :: r).
Proof.
  unfold starts, all_lt. intros H Hb. eapply Forall_impl; [|exact H]. intros [k v]; simpl.
  destruct k as [|c k]; simpl; [tauto|]. intros ->. now apply lex_hd.
Qed.
Lemma starts_gt b b' r L : starts b' L -> b < b' -> all_gt L (b :: r).
Proof.
  unfold starts, all_gt. intros H Hb. eapply Forall_impl; [|exact H]. intros [k v]; simpl.
  destruct k as [|c k]; simpl; [tauto|]. intros ->. now apply lex_hd.
Qed.
Lemma starts_nil_gt b L : starts b L -> all_gt L [].
Proof.
  unfold starts, all_gt. intros H. eapply Forall_impl; [|exact H]. intros [k v]; simpl.
  destruct k as [|c k]; simpl; [tauto|]. intros _. constructor.
Qed.
Lemma starts_pre b tl L : starts b (map (pre (b :: tl)) L).
Proof. unfold starts. apply Forall_map. apply Forall_forall. intros; simpl; auto. Qed.
Lemma ents_starts x b : hd_is b (node_prefix x) -> starts b (ents x).
Proof.
  destruct x as [p l|kd t p w lf ch]; simpl; destruct p as [|c p]; simpl; try tauto; intros ->.
  - repeat constructor.
  - apply starts_pre.
Qed.
Lemma lfe_lt lf b rest : all_lt (lfe lf) (b :: rest).
Proof. destruct lf; simpl; repeat constructor. Qed.
Lemma all_lt_app L1 L2 k : all_lt L1 k -> all_lt L2 k -> all_lt (L1 ++ L2) k.
Proof. unfold all_lt. intros. apply Forall_app; auto. Qed.
Lemma all_gt_app L1 L2 k : all_gt L1 k -> all_gt L2 k -> all_gt (L1 ++ L2) k.
Proof. unfold all_gt. intros. apply Forall_app; auto. Qed.

Lemma ch_gt_trans b b' r : b < b' -> ch_gt b' r -> ch_gt b r.
Proof. induction r as [|b2 x r IH]; simpl; auto. intros H [H1 H2]. split; [lia|auto]. Qed.

(* all entries below children whose bytes exceed b are above any key starting with b *)
Lemma ents_ch_all_gt acc r : forall b tl, wfk_ch acc r -> ch_gt b r -> all_gt (ents_ch r) (b :: tl).
Proof.
  induction r as [|b' x r IH]; simpl; intros b tl Hw Hg; [constructor|].
  destruct Hw as [Hh [_ [_ Hr]]]. destruct Hg as [Hb Hg].
  apply all_gt_app; [|now apply IH]. eapply starts_gt; eauto. now apply ents_starts.
Qed.
Lemma ents_ch_nil_gt acc r : wfk_ch acc r -> all_gt (ents_ch r) [].
Proof.
  induction r as [|b' x r IH]; simpl; intros Hw; [constructor|].
  destruct Hw as [Hh [_ [_ Hr]]]. apply all_gt_app; auto. eapply starts_nil_gt. apply ents_starts; eauto.
Qed.

Lemma ch_gt_find b0 b y r : ch_gt b0 r -> ch_find b r = Some y -> b0 < b.
Proof.
  induction r as [|b' x r IH]; simpl; [discriminate|]. intros [H1 H2].
  destruct (N.eqb_spec b' b) as [->|Hne]; auto.
Qed.
Lemma ch_find_wfk acc b : forall ch x, wfk_ch acc ch -> ch_find b ch = Some x -> wfk acc x /\ hd_is b (node_prefix x).
Proof.
  induction ch as [|b' y r IH]; simpl; intros x Hw Hf; [discriminate|].
  destruct Hw as (Hh & Hy & _ & Hr). destruct (N.eqb_spec b' b) as [->|Hne]; auto.
  injection Hf as ->. auto.
Qed.

(* the entries of a child list split around byte b: smaller keys before, larger after, in between the
   entries of the child under b if there is one; replacing or removing that child, or inserting one into
   the free slot, touches the middle only *)
Lemma ents_ch_at acc b : forall ch, wfk_ch acc ch ->
  exists L1 L2, (forall tl, all_lt L1 (b :: tl) /\ all_gt L2 (b :: tl)) /\
    match ch_find b ch with
    | Some x => ents_ch ch = L1 ++ ents x ++ L2 /\
                (forall x', ents_ch (ch_set b x' ch) = L1 ++ ents x' ++ L2) /\
                ents_ch (ch_remove b ch) = L1 ++ L2
    | None => ents_ch ch = L1 ++ L2 /\ forall x', ents_ch (ch_insert b x' ch) = L1 ++ ents x' ++ L2
    end.
Proof.
  induction ch as [|b' y r IH]; simpl; intros Hw.
  - exists [], []. repeat split; constructor.
  - destruct Hw as (Hh & Hy & Hg & Hr). destruct (N.eqb_spec b' b) as [->|Hne].
    + exists [], (ents_ch r). repeat split; auto. constructor. eapply ents_ch_all_gt; eauto.
    + destruct (N.ltb_spec b b') as [Hlt|Hge].
      * (* the slot for b lies before this child *)
        assert (En : ch_find b r = None).
        { destruct (ch_find b r) eqn:Ef; [|reflexivity]. pose proof (ch_gt_find _ _ _ _ Hg Ef). lia. }
        rewrite En. exists [], (ents y ++ ents_ch r). repeat split; auto. constructor.
        apply all_gt_app; [eapply starts_gt; [apply ents_starts, Hh|exact Hlt]|].
        eapply ents_ch_all_gt; eauto. eapply ch_gt_trans; eauto.
      * destruct (IH Hr) as (L1 & L2 & HL & H). exists (ents y ++ L1), L2. split.
        { intros tl. split; [|apply HL]. apply all_lt_app; [|apply HL].
          eapply starts_lt; [apply ents_starts, Hh|lia]. }
        destruct (ch_find b r) as [x|]; simpl.
        -- destruct H as (E & Es & Er). rewrite E, Er. repeat split; try intros x'; rewrite ?Es, <- ?app_assoc; auto.
        -- destruct H as (E & Ei). rewrite E. split; [now rewrite app_assoc|]. intros x'. simpl. now rewrite Ei, app_assoc.
Qed.

Lemma ents_set_prefix n q1 q2 : ents (set_prefix n (q1 ++ q2)) = map (pre q1) (ents (set_prefix n q2)).
Proof.
  destruct n as [p l|kd t p w lf ch]; simpl; auto.
  rewrite map_map. apply map_ext. intros [k v]. unfold pre; simpl. now rewrite app_assoc.
Qed.
Lemma set_prefix_id n : set_prefix n (node_prefix n) = n.
Proof. destruct n; reflexivity. Qed.
Lemma map_pre_nil L : map (pre []) L = L.
Proof. induction L as [|[k v] L IH]; simpl; auto. now rewrite IH. Qed.
Lemma map_pre_app p q L : map (pre (p ++ q)) L = map (pre p) (map (pre q) L).
Proof. rewrite map_map. apply map_ext. intros [k v]. unfold pre; simpl. now rewrite app_assoc. Qed.
