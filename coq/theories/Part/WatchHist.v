(* Part/WatchHist.v — C12 along whole histories: the channel a query (Get(k), Prefix(q), the root watch) returned on a
   committed tree is closed by Notify whenever a key it covers is inserted, replaced or deleted at ANY position of the
   transaction. *)
From SV Require Import Base.Bytes Base.OrdMap Part.Model Part.Sem Part.Insert Part.Delete Part.Query Part.Refine Part.Cow Part.Watch Part.Stable Part.PStable.
From Coq Require Import ZifyN ZifyNat ZifyBool.
Open Scope N_scope.

Definition rgetw (r : option node) (rw : N) (k : bytes) : N := snd (root_get r rw k).
Lemma rgetw_some n rw k : rgetw (Some n) rw k = getw n k rw.
Proof. reflexivity. Qed.

(* no node of a tree whose ids are below the txn's is private to it *)
Lemma privF_of_tids_lt (F : N -> Prop) c T n : T < c_tid c -> tids_le T n -> privF c F n.
Proof.
  intros HT Hl. apply no_inplace_privF, tids_lt_no_inplace; [lia|]. eapply (proj1 tids_le_mono); [|exact Hl]. lia.
Qed.

(* every operation keeps what is recorded, keeps the root channel, and leaves a dirty txn dirty *)
Lemma wstep_keeps x o :
  ws_mono (t_st x) (t_st (wstep x o)) /\ t_rw (wstep x o) = t_rw x /\ (t_dirty x = true -> t_dirty (wstep x o) = true).
Proof.
  destruct o as [k' v|k' v f|k'|]; cbn [wstep].
  1,2: unfold txn_modify; cbn [fst t_st t_rw t_dirty]; split; [|auto]; destruct (t_root x) as [n|];
    [apply modify_mono|pose proof (fresh_mono (txn_ctx x) (t_st x)) as M; destruct (fresh (txn_ctx x) (t_st x)); exact M].
  - unfold txn_delete. destruct (t_root x) as [n|]; [|auto using ws_mono_refl].
    pose proof (delete_mono (txn_ctx x) n (t_st x) k') as M.
    destruct (del_node (txn_ctx x) (t_st x) n k'); cbn [fst t_st t_rw t_dirty]; auto using ws_mono_refl.
  - cbn. auto using ws_mono_refl.
Qed.
Lemma run_rw ops : forall x, t_rw (fold_left wstep ops x) = t_rw x.
Proof. induction ops as [|o r IH]; intros x; simpl; auto. rewrite IH. apply wstep_keeps. Qed.

Section Hist.
Variable next0 : N.      (* allocator bound: every channel allocated from here on satisfies F *)
Variable F : N -> Prop.  (* "allocated by the txn (and not the handle)" *)
Hypothesis HF : forall b, next0 <= b -> F b.

Definition root_inv (c : ctx) (r : option node) : Prop :=
  match r with None => True | Some n => privF c F n /\ tids_le (c_tid c) n /\ tmono n end.
Definition TInv (x : txn) : Prop :=
  t_tid x <> 0 /\ root_inv (txn_ctx x) (t_root x) /\ next0 <= s_next (t_st x).

(* the side conditions are inductive along chains of transactions: ids (Part/Cow.v) and id monotonicity *)
Lemma modify_TInv x md k' v : TInv x -> TInv (fst (fst (fst (txn_modify x md k' v)))).
Proof.
  intros (Hc0 & Hr & Hn). unfold txn_modify. destruct (t_root x) as [n|] eqn:Er.
  - destruct Hr as (Hp & Hl & Hm).
    pose proof (proj1 (modify_inv (txn_ctx x) next0 F HF md k' v) n (t_st x) k' Hp Hl Hm Hn) as (P' & M' & N').
    pose proof (proj1 (modify_tids (txn_ctx x) md k' v) n (t_st x) k' Hl) as L'.
    unfold TInv, root_inv, txn_ctx in *. cbn [fst t_tid t_root t_st t_ro]. auto.
  - pose proof (fresh_inv (txn_ctx x) next0 F HF (t_st x) Hn) as [_ N1].
    destruct (fresh (txn_ctx x) (t_st x)) as [lw s1]. unfold TInv, root_inv, txn_ctx in *.
    cbn [fst snd t_tid t_root t_st t_ro m_node m_st] in *. repeat split; auto; exact I.
Qed.
Lemma wstep_TInv x o : TInv x -> TInv (wstep x o).
Proof.
  intros HT. destruct o as [k' v|k' v f|k'|]; cbn [wstep]; try now apply modify_TInv.
  - destruct HT as (Hc0 & Hr & Hn). unfold txn_delete. destruct (t_root x) as [n|] eqn:Er.
    2:{ cbn [fst]. unfold TInv. rewrite Er. auto. }
    destruct Hr as (Hp & Hl & Hm).
    pose proof (proj1 (delete_inv (txn_ctx x) next0 F HF) n (t_st x) k' Hp Hl Hm Hn) as Di.
    pose proof (proj1 (delete_tids (txn_ctx x)) n (t_st x) k' Hl) as Dt.
    destruct (del_node (txn_ctx x) (t_st x) n k') as [|old repl s' ip].
    + cbn [fst]. unfold TInv, root_inv. rewrite Er. auto.
    + cbn [fst dinv dres_tids] in *. destruct Di as [N' Di]. unfold TInv, root_inv, txn_ctx in *.
      cbn [t_tid t_root t_st t_ro]. split; auto. split; auto. destruct repl as [n'|]; [tauto|exact I].
  - destruct HT as (Hc0 & Hr & Hn). unfold TInv, bump, root_inv, txn_ctx in *. cbn [t_tid t_root t_st t_ro c_tid] in *.
    split; [lia|]. split; auto. destruct (t_root x) as [n|]; auto. destruct Hr as (Hp & Hl & Hm).
    repeat split; auto.
    + apply (privF_of_tids_lt F (mkCtx (t_tid x + 1) (t_ro x)) (t_tid x)); [simpl; lia|exact Hl].
    + eapply (proj1 tids_le_mono); [|exact Hl]. lia.
Qed.
Lemma run_inv ops : forall x, TInv x -> TInv (fold_left wstep ops x).
Proof. induction ops as [|o r IH]; intros x Hx; cbn [fold_left]; auto using wstep_TInv. Qed.

(* a handle: the channel a (not private: e.g. allocated before the txn began) that query m at k returned *)
Variable m : qmode.
Variable k : bytes.
Variable a : N.
Hypothesis Ha0 : a <> 0.
Hypothesis HnF : ~ F a.

(* the handle is accounted for: recorded, or it is the root channel of a dirty txn, or still what the query returns *)
Definition closedish (x : txn) : Prop := In a (s_ws (t_st x)) \/ (a = t_rw x /\ t_dirty x = true).
Definition J (x : txn) : Prop := closedish x \/ rq m (t_root x) (t_rw x) k = a.

(* a write: the root channel is kept, the txn is dirty afterwards, nothing recorded is forgotten *)
Definition written (x x' : txn) : Prop := t_rw x' = t_rw x /\ t_dirty x' = true /\ ws_mono (t_st x) (t_st x').

Lemma J_write x x' : written x x' ->
  stab F (rq m (t_root x) (t_rw x) k) (t_rw x) (rq m (t_root x') (t_rw x) k) (t_st x') -> J x -> J x'.
Proof.
  intros (Erw & Ed & Mo) St HJ. unfold J, closedish in *. rewrite Erw, Ed.
  destruct HJ as [[H|[H _]]|H]; [left; left; auto|left; right; auto|].
  rewrite H in St. destruct St as [E|[E|[E|E]]]; [left; right; auto|right; auto|left; left; auto|].
  exfalso. now apply HnF.
Qed.
Lemma J_covered x x' : written x x' ->
  rec3 F (rq m (t_root x) (t_rw x) k) (t_rw x) (t_st x') -> J x -> closedish x'.
Proof.
  intros (Erw & Ed & Mo) Rg HJ. unfold J, closedish in *. rewrite Erw, Ed.
  destruct HJ as [[H|[H _]]|H]; [left; auto|right; auto|].
  rewrite H in Rg. destruct Rg as [E|[E|E]]; [right; auto|left; auto|].
  exfalso. now apply HnF.
Qed.

Lemma modify_step x md k' v :
  TInv x -> J x ->
  let x' := fst (fst (fst (txn_modify x md k' v))) in
  J x' /\ (covers m k k' -> closedish x').
Proof.
  intros (Hc0 & Hr & Hn) HJ. unfold txn_modify. cbn zeta.
  destruct (t_root x) as [n|] eqn:Er.
  - destruct Hr as (Hp & Hl & Hm).
    pose proof (modify_mono (txn_ctx x) md k' v n (t_st x) k') as Mo.
    pose proof (modify_trail (txn_ctx x) md k' v Hc0 F n (t_st x) k' Hp m k) as St.
    pose proof (modify_covered (txn_ctx x) F md k' v Hc0 n (t_st x) k' Hp) as Rg.
    set (r := modify_node (txn_ctx x) md k' v (t_st x) n k') in *. cbn [fst].
    split; [apply (J_write x)|intros Hc; apply (J_covered x)]; try (repeat split; assumption); auto;
      rewrite Er; cbn [t_root t_st rq].
    + now apply tstab_stab.
    + now apply (covered_rec3 F m k k').
  - pose proof (fresh_mono (txn_ctx x) (t_st x)) as Mo.
    destruct (fresh (txn_ctx x) (t_st x)) as [lw s1]. cbn [fst snd m_node m_st m_old] in *.
    assert (C : closedish (mkTxn (Some (Leaf k' (mkLeaf k' v lw))) (t_rw x) (t_size x + 1) (t_ro x) (t_tid x) true s1)).
    { apply (J_covered x); [repeat split; assumption| |exact HJ]. rewrite Er. left. reflexivity. }
    split; [left; exact C|intros _; exact C].
Qed.

Lemma delete_step x k' :
  TInv x -> J x ->
  let x' := fst (txn_delete x k') in
  J x' /\ (covers m k k' -> snd (txn_delete x k') <> None -> closedish x').
Proof.
  intros (Hc0 & Hr & Hn) HJ. unfold txn_delete. cbn zeta.
  destruct (t_root x) as [n|] eqn:Er.
  2:{ cbn [fst snd]. split; [exact HJ|]. intros _ H. exfalso. apply H. reflexivity. }
  destruct Hr as (Hp & Hl & Hm).
  pose proof (delete_mono (txn_ctx x) n (t_st x) k') as Mo.
  pose proof (delete_trail (txn_ctx x) F n (t_st x) k' Hp Hl Hm m k) as St.
  pose proof (delete_covered (txn_ctx x) F n (t_st x) k' Hp Hl Hm) as Rg.
  destruct (del_node (txn_ctx x) (t_st x) n k') as [|old repl s' ip].
  - cbn [fst snd]. split; [exact HJ|]. intros _ H. exfalso. apply H. reflexivity.
  - cbn [fst snd dmono dtstab] in *.
    split; [apply (J_write x)|intros Hc _; apply (J_covered x)]; try (repeat split; assumption); auto;
      rewrite Er; cbn [t_root t_st rq].
    + destruct repl as [n'|]; [now apply tstab_stab|].
      destruct (vrec_rec3 F _ (t_rw x) _ St) as [E|E]; [left|right; right]; exact E.
    + now apply (covered_rec3 F m k k').
Qed.

(* which operations touch a key the query covers (a delete only if it reports an old value, i.e. the key was present) *)
Definition touches_q (x : txn) (o : wop) : Prop :=
  match o with
  | WIns k' _ | WMod k' _ _ => covers m k k'
  | WDel k' => covers m k k' /\ snd (txn_delete x k') <> None
  | WBump => False
  end.
Fixpoint touched_q (x : txn) (ops : list wop) : Prop :=
  match ops with [] => False | o :: r => touches_q x o \/ touched_q (wstep x o) r end.

Lemma wstep_J x o : TInv x -> J x -> J (wstep x o) /\ (touches_q x o -> closedish (wstep x o)).
Proof.
  intros HT HJ. destruct o as [k' v|k' v f|k'|]; cbn [wstep touches_q].
  - apply modify_step; auto.
  - apply modify_step; auto.
  - destruct (delete_step x k' HT HJ) as (B & C). split; [exact B|]. intros [E1 E2]. apply C; auto.
  - split; [exact HJ|intros []].
Qed.
Lemma run_J ops : forall x, TInv x -> J x -> J (fold_left wstep ops x).
Proof.
  induction ops as [|o r IH]; intros x HT HJ; cbn [fold_left]; auto.
  apply IH; [now apply wstep_TInv|now apply wstep_J].
Qed.

Lemma closedish_closed x : closedish x -> In a (snd (txn_notify x)).
Proof.
  intros [H|[H D]]; rewrite notify_closes; apply in_or_app; [left; exact H|right].
  rewrite D, <- H. apply N.eqb_neq in Ha0. rewrite Ha0. simpl. auto.
Qed.
Lemma closedish_step x o : closedish x -> closedish (wstep x o).
Proof.
  destruct (wstep_keeps x o) as (M & R & D). intros [H|[H Hd]]; [left; apply M, H|right]. rewrite R, (D Hd). auto.
Qed.
Lemma closedish_run ops : forall x, closedish x -> In a (snd (txn_notify (fold_left wstep ops x))).
Proof.
  induction ops as [|o ops IH]; intros x HC; cbn [fold_left]; [now apply closedish_closed|]. now apply IH, closedish_step.
Qed.

Theorem touched_q_closed ops : forall x, TInv x -> J x -> touched_q x ops ->
  In a (snd (txn_notify (fold_left wstep ops x))).
Proof.
  induction ops as [|o ops IH]; intros x HT HJ Ht; cbn [touched_q] in Ht; [destruct Ht|].
  destruct (wstep_J x o HT HJ) as (HJ' & Hc). cbn [fold_left].
  destruct Ht as [Ht|Ht]; [now apply closedish_run, Hc|]. apply IH; auto using wstep_TInv.
Qed.

(* a handle that the transaction does not close is still what the query returns on the tree it commits *)
Lemma J_commit x : J x -> In a (snd (txn_notify x)) \/ rq m (tr_root (snd (txn_commit x))) (tr_rw (snd (txn_commit x))) k = a.
Proof.
  intros [C|G]; [left; now apply closedish_closed|].
  unfold txn_commit. destruct (t_dirty x) eqn:D; cbn [snd tr_root tr_rw]; [|right; exact G].
  destruct (N.eq_dec a (t_rw x)) as [E|Ne]; [left; apply closedish_closed; right; auto|right].
  unfold rq in *. destruct (t_root x) as [n|]; [|congruence].
  destruct (pickl_cases (trail m n k) (t_rw x) (s_next (t_st x))) as [[E1 _]|E1]; congruence.
Qed.

(* which operations touch k (a delete only if it reports an old value, i.e. the key was present) *)
Definition touches (x : txn) (o : wop) : Prop :=
  match o with
  | WIns k' _ | WMod k' _ _ => k' = k
  | WDel k' => k' = k /\ snd (txn_delete x k') <> None
  | WBump => False
  end.
Fixpoint touched (x : txn) (ops : list wop) : Prop :=
  match ops with [] => False | o :: r => touches x o \/ touched (wstep x o) r end.
End Hist.

Definition root_tmono (r : option node) : Prop := match r with None => True | Some n => tmono n end.

Lemma tree_txn_TInv t next : tree_ids_ok t -> tr_next t <> 0 -> root_tmono (tr_root t) ->
  TInv next (Fr next) (tree_txn t next).
Proof.
  intros Hids Hnz Hm.
  unfold TInv, tree_txn, root_inv, txn_ctx. cbn [t_tid t_root t_st t_ro s_next c_tid].
  split; auto. split; [|lia]. unfold tree_ids_ok, root_tmono in *. destruct (tr_root t) as [n|]; auto.
  destruct Hids as [H0 Hle]. repeat split; auto.
  - apply (privF_of_tids_lt (Fr next) (mkCtx (tr_next t) (tr_ro t)) (tr_next t - 1)); [simpl; lia|exact Hle].
  - eapply (proj1 tids_le_mono); [|exact Hle]. lia.
Qed.
Lemma Fr_alloc next b : next <= b -> Fr next b.
Proof. exact (fun h => h). Qed.

(* a query's channel (allocated before the txn, i.e. below its allocator) on the committed tree t is closed by Notify if a
   key it covers is inserted, replaced, or deleted while present, at any position of any sequence of operations of a
   txn begun from t *)
Theorem watch_closed_history m k t next ops :
  tree_ids_ok t -> tr_next t <> 0 -> root_tmono (tr_root t) ->
  rq m (tr_root t) (tr_rw t) k <> 0 -> rq m (tr_root t) (tr_rw t) k < next ->
  touched_q m k (tree_txn t next) ops ->
  In (rq m (tr_root t) (tr_rw t) k) (snd (txn_notify (fold_left wstep ops (tree_txn t next)))).
Proof.
  intros Hids Hnz Hm Ha0 Hold Ht.
  apply (touched_q_closed next (Fr next) (Fr_alloc next) m k _ Ha0); auto.
  - unfold Fr. lia.
  - now apply tree_txn_TInv.
  - right. reflexivity.
Qed.

(* ... and if the transaction does not close it, it is still what the query returns on the tree it commits *)
Theorem watch_closed_or_kept m k t next ops :
  tree_ids_ok t -> tr_next t <> 0 -> root_tmono (tr_root t) ->
  rq m (tr_root t) (tr_rw t) k <> 0 -> rq m (tr_root t) (tr_rw t) k < next ->
  let xe := fold_left wstep ops (tree_txn t next) in
  In (rq m (tr_root t) (tr_rw t) k) (snd (txn_notify xe)) \/
  rq m (tr_root (snd (txn_commit xe))) (tr_rw (snd (txn_commit xe))) k = rq m (tr_root t) (tr_rw t) k.
Proof.
  intros Hids Hnz Hm Ha0 Hold. assert (HnF : ~ Fr next (rq m (tr_root t) (tr_rw t) k)) by (unfold Fr; lia).
  apply (J_commit m k _ Ha0), (run_J next (Fr next) (Fr_alloc next) m k _ HnF); [now apply tree_txn_TInv|].
  right. reflexivity.
Qed.

(* the side conditions hold again for the committed tree *)
Lemma commit_side next0 F x : TInv next0 F x ->
  tree_ids_ok (snd (txn_commit x)) /\ tr_next (snd (txn_commit x)) <> 0 /\ root_tmono (tr_root (snd (txn_commit x))).
Proof.
  intros (Hc & Hr & _). split; [|split].
  - apply commit_publishes. unfold txn_ids_ok, root_tids_le, root_inv in *. destruct (t_root x); [tauto|exact I].
  - unfold txn_commit. destruct (t_dirty x); cbn [snd tr_next]; lia.
  - unfold txn_commit, root_tmono, root_inv in *. destruct (t_dirty x); cbn [snd tr_root]; destruct (t_root x); tauto.
Qed.


