(* Part/Stable.v — stability of watch channels under writes to other keys, on ANY transaction tree (published
   and private nodes mixed).

   A watch query (Get k, Prefix q, the root watch) returns the last non-nil channel among those it meets on its
   way down the tree ([trail]), or the channel it inherited from above. An Insert/Modify/Delete of a key k'
   changes a trail only at its upper end: the old and the new trail share a suffix, and every channel of the part
   of the old trail above it is recorded by the transaction or belongs to a node private to it ([tstab]). Hence
   the channel a query returns is unchanged, or recorded, or the inherited one, or private ([stab]); and all
   channels on the way to the changed key itself are recorded or private. *)
From SV Require Import Base.Bytes Base.OrdMap Part.Model Part.Sem Part.Insert Part.Delete Part.Query Part.Refine Part.Cow Part.Watch.
From Coq Require Import ZifyN ZifyNat ZifyBool.
Open Scope N_scope.

Definition getw (n : node) (k : bytes) (u : N) : N := snd (search_node n k u).
Definition getw_ch (ch : children) (b : N) (k : bytes) (u : N) : N := snd (search_ch ch b k u).

Lemma getw_leaf p l k u : getw (Leaf p l) k u = if bytes_eqb k p then pick (lf_w l) u else u.
Proof. unfold getw. cbn [search_node]. destruct (bytes_eqb k p); reflexivity. Qed.
Lemma getw_inner kd t p w lf ch k u :
  getw (Inner kd t p w lf ch) k u =
  match strip p k with
  | None => u
  | Some [] => match lf with Some l => pick (lf_w l) u | None => u end
  | Some ((b :: _) as rest) => getw_ch ch b rest (pick w u)
  end.
Proof.
  unfold getw, getw_ch. cbn [search_node]; fold search_ch.
  destruct (strip p k) as [[|b rest]|]; auto. destruct lf; reflexivity.
Qed.
Lemma getw_ch_find ch b k u :
  getw_ch ch b k u = match ch_find b ch with Some x => getw x k u | None => u end.
Proof. unfold getw_ch, getw. rewrite search_ch_find. destruct (ch_find b ch); reflexivity. Qed.

Definition pickl (l : list N) (u : N) : N := fold_left (fun u w => pick w u) l u.

Lemma pickl_app l1 l2 u : pickl (l1 ++ l2) u = pickl l2 (pickl l1 u).
Proof. apply fold_left_app. Qed.
(* it is the inherited channel, or does not depend on it *)
Lemma pickl_cases l : forall u u', (pickl l u = u /\ pickl l u' = u') \/ pickl l u = pickl l u'.
Proof.
  induction l as [|w l IH]; intros u u'; [auto|].
  change (pickl (w :: l) u) with (pickl l (pick w u)). change (pickl (w :: l) u') with (pickl l (pick w u')).
  unfold pick. destruct (w =? 0); [apply IH|auto].
Qed.
Lemma pickl_in l : forall u, pickl l u = u \/ (In (pickl l u) l /\ pickl l u <> 0).
Proof.
  induction l as [|w l IH]; intros u; [auto|]. change (pickl (w :: l) u) with (pickl l (pick w u)).
  destruct (IH (pick w u)) as [E|[I Hn]]; [|right; split; [right|]; assumption].
  rewrite E. destruct (pick_cases w u) as [->|[-> Hn]]; [auto|right; split; [left; reflexivity|exact Hn]].
Qed.
Lemma pickl_nz l u : u <> 0 -> pickl l u <> 0.
Proof. intros Hu. destruct (pickl_in l u) as [->|[_ H]]; assumption. Qed.

(* QGet: search for a key; QPre: prefixSearch; QRoot: the root watch, which looks at no node *)
Inductive qmode := QGet | QPre | QRoot.

(* the keys whose change the query must notice *)
Definition covers (m : qmode) (k k' : bytes) : Prop :=
  match m with QGet => k' = k | QPre => has_prefix k' k = true | QRoot => True end.

(* what the node at which the query ends contributes, and what a node it passes through contributes *)
Definition own_leaf (m : qmode) (p : bytes) (l : leafrec) (k : bytes) : list N :=
  match m with QGet => if bytes_eqb k p then [lf_w l] else [] | _ => [] end.
Definition own_inner (m : qmode) (p : bytes) (w : N) (lf : option leafrec) (k : bytes) : list N :=
  match m with
  | QGet => match strip p k, lf with Some [], Some l => [lf_w l] | _, _ => [] end
  | QPre => if has_prefix p k then [w] else []
  | QRoot => []
  end.
Definition hdr (m : qmode) (w : N) : list N := match m with QRoot => [] | _ => [w] end.

Fixpoint trail (m : qmode) (n : node) (k : bytes) {struct n} : list N :=
  match n with
  | Leaf p l => own_leaf m p l k
  | Inner _ _ p w lf ch =>
    match strip p k with
    | Some ((b :: _) as rest) => hdr m w ++ trail_ch m ch b rest
    | _ => own_inner m p w lf k
    end
  end
with trail_ch (m : qmode) (ch : children) (b : N) (k : bytes) {struct ch} : list N :=
  match ch with CNil => [] | CCons b' x r => if b' =? b then trail m x k else trail_ch m r b k end.

Lemma trail_inner m kd t p w lf ch k :
  trail m (Inner kd t p w lf ch) k =
  match strip p k with
  | Some ((b :: _) as rest) => hdr m w ++ trail_ch m ch b rest
  | _ => own_inner m p w lf k
  end.
Proof. reflexivity. Qed.
Lemma trail_ch_cons m b0 x r b k : trail_ch m (CCons b0 x r) b k = if b0 =? b then trail m x k else trail_ch m r b k.
Proof. reflexivity. Qed.
Lemma trail_ch_find m b k : forall ch, trail_ch m ch b k = match ch_find b ch with Some x => trail m x k | None => [] end.
Proof. induction ch as [|b0 x r IH]; [reflexivity|]. rewrite trail_ch_cons. cbn [ch_find]. destruct (b0 =? b); auto. Qed.

Lemma own_leaf_in m p l k a : In a (own_leaf m p l k) -> a = lf_w l.
Proof. destruct m; cbn; try tauto. destruct (bytes_eqb k p); cbn; intuition. Qed.
Lemma own_inner_in m p w lf k a : In a (own_inner m p w lf k) ->
  a = w \/ (strip p k = Some [] /\ exists l, lf = Some l /\ a = lf_w l).
Proof.
  destruct m; cbn; try tauto.
  - destruct (strip p k) as [[|]|], lf as [l0|]; cbn; try tauto. intros [<-|[]]. right. eauto.
  - destruct (has_prefix p k); cbn; intuition.
Qed.

Lemma has_prefix_longer cp x xs : has_prefix cp (cp ++ x :: xs) = false.
Proof. induction cp as [|c0 cp IH]; simpl; auto. now rewrite N.eqb_refl. Qed.

Lemma getw_trail :
  (forall n k u, getw n k u = pickl (trail QGet n k) u) /\
  (forall ch b k u, getw_ch ch b k u = pickl (trail_ch QGet ch b k) u).
Proof.
  apply node_children_ind.
  - intros p l k u. rewrite getw_leaf. cbn. destruct (bytes_eqb k p); reflexivity.
  - intros kd t p w lf ch IH k u. rewrite getw_inner, trail_inner. unfold own_inner.
    destruct (strip p k) as [[|b rest]|]; cbn; [destruct lf; reflexivity|apply IH|reflexivity].
  - reflexivity.
  - intros b0 x IHx r IHr b k u. rewrite trail_ch_cons, getw_ch_find. cbn [ch_find].
    destruct (b0 =? b); [apply IHx|]. rewrite <- getw_ch_find. apply IHr.
Qed.
Lemma strip_self p : strip p p = Some [].
Proof. rewrite <- (app_nil_r p) at 2. apply strip_app. Qed.

(* moving a node down by a prefix *)
Lemma strip_app_l cp : forall a b, strip (cp ++ a) (cp ++ b) = strip a b.
Proof. induction cp as [|x cp IH]; intros; simpl; auto. now rewrite N.eqb_refl. Qed.
Lemma trail_set_prefix m n cp q kk : trail m (set_prefix n (cp ++ q)) (cp ++ kk) = trail m (set_prefix n q) kk.
Proof.
  destruct n as [p l|kd t p w lf ch]; cbn [set_prefix].
  - unfold trail, own_leaf. now rewrite bytes_eqb_app.
  - rewrite !trail_inner. unfold own_inner. now rewrite strip_app_l, has_prefix_app_l.
Qed.
Lemma trail_merge m p x rest : trail m (merge_child p x) (p ++ rest) = trail m x rest.
Proof.
  unfold merge_child. rewrite trail_set_prefix. rewrite <- (app_nil_l (node_prefix x)), <- (app_nil_l rest) at 1.
  now rewrite set_prefix_id.
Qed.

Lemma ch_find_insert_other b b' x : forall ch, b <> b' -> ch_find b (ch_insert b' x ch) = ch_find b ch.
Proof.
  intros ch Hne. induction ch as [|b0 y r IH]; cbn [ch_insert ch_find].
  - destruct (N.eqb_spec b' b); congruence.
  - destruct (b' <? b0); cbn [ch_find]; [destruct (N.eqb_spec b' b); congruence|]. now rewrite IH.
Qed.
Lemma ch_find_remove_other b b' : forall ch, b <> b' -> ch_find b (ch_remove b' ch) = ch_find b ch.
Proof.
  intros ch Hne. induction ch as [|b0 y r IH]; cbn [ch_remove ch_find]; auto.
  destruct (N.eqb_spec b0 b') as [->|N0]; cbn [ch_find].
  - destruct (N.eqb_spec b' b); congruence.
  - now rewrite IH.
Qed.
Lemma ch_find_set b b' x' : forall ch x, ch_find b' ch = Some x ->
  ch_find b (ch_set b' x' ch) = if b =? b' then Some x' else ch_find b ch.
Proof.
  induction ch as [|b0 y r IH]; cbn [ch_set ch_find]; [discriminate|]. intros x Hf.
  destruct (N.eqb_spec b0 b') as [->|N0]; cbn [ch_find].
  - destruct (N.eqb_spec b' b) as [->|N1]; [now rewrite N.eqb_refl|].
    destruct (N.eqb_spec b b'); congruence.
  - destruct (N.eqb_spec b0 b) as [->|N1].
    + destruct (N.eqb_spec b b'); congruence.
    + eauto.
Qed.
(* of two children, the one that removeChild keeps is the only one found under another byte *)
Lemma ch_other_find b' ch x y b z : ch_len ch = 2 -> ch_find b' ch = Some x -> ch_other b' ch = Some y ->
  b <> b' -> ch_find b ch = Some z -> z = y.
Proof.
  intros E2 Ef Eo Hne Ez. destruct ch as [|c1 y1 [|c2 y2 [|c3 y3 r]]]; cbn [ch_len] in E2; try lia.
  cbn [ch_find ch_other] in *.
  destruct (N.eqb_spec c1 b'), (N.eqb_spec c1 b), (N.eqb_spec c2 b'), (N.eqb_spec c2 b); congruence.
Qed.

Section Mono.
Variable c : ctx.
Variable md : option (N -> N -> N).
Variable fullKey : bytes.
Variable v : N.

Theorem modify_mono n : forall s key, ws_mono s (m_st (modify_node c md fullKey v s n key)).
Proof.
  induction n as [p l|kd t p w lf ch IH] using node_find_ind; intros s key;
    cbn [modify_node]; fold (modify_ch c md fullKey v).
  - destruct (bytes_eqb key p).
    + pose proof (clone_leaf_mono c s l) as M. destruct (clone_leaf c s l). exact M.
    + apply split_mono.
  - pose proof (clone_hdr_mono c s t w) as M1.
    destruct (strip p key) as [[|b rest]|].
    + destruct (clone_hdr c s t w) as [[t' w'] s1]. simpl in M1. destruct lf as [l|].
      * pose proof (clone_leaf_mono c s1 l) as M. destruct (clone_leaf c s1 l). simpl in *. eapply ws_mono_trans; eauto.
      * pose proof (fresh_mono c s1) as M. destruct (fresh c s1). simpl in *. eapply ws_mono_trans; eauto.
    + destruct (clone_hdr c s t w) as [[t' w'] s1] eqn:Ec. simpl in M1.
      rewrite modify_ch_find. destruct (ch_find b ch) as [x|] eqn:Ef.
      * cbn [m_st]. eapply ws_mono_trans; [exact M1|apply (IH b x Ef)].
      * destruct (kd <? ch_len ch + 1).
        -- pose proof (fresh_if_mono w (record w s)) as F. destruct (fresh_if w (record w s)) as [w2 s2].
           pose proof (fresh_mono c s2) as F2. destruct (fresh c s2) as [lw s3]. simpl in *.
           eapply ws_mono_trans; [apply record_mono|eapply ws_mono_trans; eauto].
        -- pose proof (fresh_mono c s1) as F2. destruct (fresh c s1) as [lw s3]. simpl in *. eapply ws_mono_trans; eauto.
    + destruct (clone_hdr c s t w) as [[t' w'] s']. simpl in *. eapply ws_mono_trans; [exact M1|apply split_mono].
Qed.
End Mono.

Section Stab.
Variable c : ctx.
Variable md : option (N -> N -> N).
Variable fullKey : bytes.
Variable v : N.
Hypothesis Hc0 : c_tid c <> 0.
Variable F : N -> Prop.   (* "fresh": channels of nodes private to the txn *)

Fixpoint privF (n : node) : Prop :=
  match n with
  | Leaf _ _ => True
  | Inner _ t _ w _ ch => (t = c_tid c -> w = 0 \/ F w) /\ privF_ch ch
  end
with privF_ch (ch : children) : Prop :=
  match ch with CNil => True | CCons _ x r => privF x /\ privF_ch r end.

Definition stab (a u a' : N) (s' : st) : Prop := a = u \/ a' = a \/ In a (s_ws s') \/ F a.
Definition rec3 (a u : N) (s' : st) : Prop := a = u \/ In a (s_ws s') \/ F a.

(* every non-nil channel of l is recorded, or private *)
Definition vrec (l : list N) (s' : st) : Prop := forall a, In a l -> a <> 0 -> In a (s_ws s') \/ F a.
(* the trails T (before) and T' (after) differ only above a common suffix, and what T has above it is accounted for *)
Definition tstab (T T' : list N) (s' : st) : Prop := exists P P' S, T = P ++ S /\ T' = P' ++ S /\ vrec P s'.

Lemma vrec_nil s' : vrec [] s'.
Proof. intros a []. Qed.
Lemma vrec_app l1 l2 s' : vrec l1 s' -> vrec l2 s' -> vrec (l1 ++ l2) s'.
Proof. intros H1 H2 a Ha. apply in_app_or in Ha. destruct Ha; auto. Qed.
Lemma vrec_hdr m w s' : (w <> 0 -> In w (s_ws s') \/ F w) -> vrec (hdr m w) s'.
Proof. intros H a Ha Hn. destruct m; cbn in Ha; [| |destruct Ha]; destruct Ha as [<-|[]]; auto. Qed.
Lemma vrec_mono l s1 s2 : ws_mono s1 s2 -> vrec l s1 -> vrec l s2.
Proof. intros M H a Ha Hn. destruct (H a Ha Hn); auto. Qed.
Lemma vrec_rec3 l u s' : vrec l s' -> rec3 (pickl l u) u s'.
Proof. intros V. destruct (pickl_in l u) as [E|[I Hn]]; [left; exact E|right; auto]. Qed.

Lemma tstab_refl T s' : tstab T T s'.
Proof. exists [], [], T. auto using vrec_nil. Qed.
Lemma tstab_rec T T' s' : vrec T s' -> tstab T T' s'.
Proof. intros V. exists T, T', []. now rewrite !app_nil_r. Qed.
Lemma tstab_app H H' T T' s' : vrec H s' -> tstab T T' s' -> tstab (H ++ T) (H' ++ T') s'.
Proof.
  intros V (P & P' & S & -> & -> & VP). exists (H ++ P), (H' ++ P'), S. rewrite !app_assoc. auto using vrec_app.
Qed.
Lemma tstab_push P' T T' s' : tstab T T' s' -> tstab T (P' ++ T') s'.
Proof. apply (tstab_app [] P'), vrec_nil. Qed.
Lemma tstab_mono T T' s1 s2 : ws_mono s1 s2 -> tstab T T' s1 -> tstab T T' s2.
Proof. intros M (P & P' & S & E & E' & V). exists P, P', S. eauto using vrec_mono. Qed.
Lemma tstab_stab T T' s' u u' : tstab T T' s' -> stab (pickl T u) u (pickl T' u') s'.
Proof.
  intros (P & P' & S & -> & -> & V). rewrite !pickl_app.
  destruct (pickl_cases S (pickl P u) (pickl P' u')) as [[E _]|E]; [|right; left; now symmetry].
  rewrite E. destruct (vrec_rec3 P u s' V) as [E1|E1]; [left|right; right]; exact E1.
Qed.

(* a node cloned by the txn has its channel recorded; one it may change in place is private *)
Lemma own_recorded s t w s1 : (t = c_tid c -> w = 0 \/ F w) -> ws_mono (snd (clone_hdr c s t w)) s1 ->
  w <> 0 -> In w (s_ws s1) \/ F w.
Proof.
  intros Hp M Hn. destruct (N.eq_dec t (c_tid c)) as [E|E].
  - destruct (Hp E); [congruence|auto].
  - left. apply M. now apply clone_hdr_records.
Qed.

(* a node rebuilt under the same prefix: its own channel accounted for, its leaf kept or that channel accounted for
   too, and the children's trails stable *)
Lemma inner_tstab m kd t p w lf ch kd' t' w' lf' ch' k s' :
  (w <> 0 -> In w (s_ws s') \/ F w) ->
  lf' = lf \/ (forall l, lf = Some l -> lf_w l <> 0 -> In (lf_w l) (s_ws s') \/ F (lf_w l)) ->
  (forall b rest, strip p k = Some (b :: rest) -> tstab (trail_ch m ch b (b :: rest)) (trail_ch m ch' b (b :: rest)) s') ->
  tstab (trail m (Inner kd t p w lf ch) k) (trail m (Inner kd' t' p w' lf' ch') k) s'.
Proof.
  intros NR Hl Hch. rewrite !trail_inner.
  assert (Own : tstab (own_inner m p w lf k) (own_inner m p w' lf' k) s').
  { destruct Hl as [->|Hl].
    - destruct m; cbn; try apply tstab_refl. apply tstab_rec. destruct (has_prefix p k); [apply (vrec_hdr QPre), NR|apply vrec_nil].
    - apply tstab_rec. intros a Ha Hn. apply own_inner_in in Ha. destruct Ha as [->|(_ & l & E & ->)]; eauto. }
  destruct (strip p k) as [[|b rest]|]; try exact Own.
  apply tstab_app; [apply vrec_hdr, NR|apply Hch; reflexivity].
Qed.

(* below the node created by a prefix split, a query that runs through the old node's whole prefix goes on as it did in
   the old node *)
Lemma split_trail s this key m rest :
  (is_leaf this = true /\ key <> node_prefix this) \/ strip (node_prefix this) key = None ->
  exists P', trail m (m_node (split_node c fullKey v s this key)) (node_prefix this ++ rest) =
             P' ++ trail m this (node_prefix this ++ rest).
Proof.
  intros Hc. unfold split_node. cbv zeta.
  destruct (common_split key (node_prefix this)) as (k' & p' & Ek & Ep & Hd).
  set (cp := common key (node_prefix this)) in *. clearbody cp.
  destruct (fresh c s) as [lw s1]. destruct (fresh c s1) as [nw s2].
  assert (Sk : skipn (length cp) key = k') by (rewrite Ek; apply skipn_app_len).
  assert (Sp : skipn (length cp) (node_prefix this) = p') by (rewrite Ep; apply skipn_app_len).
  rewrite Sp, Sk. clear Sp Sk.
  assert (Hpp : node_prefix (set_prefix this p') = p') by (destruct this; reflexivity).
  rewrite Hpp. cbn [m_node].
  destruct p' as [|tb p'].
  - (* a leaf whose prefix is a proper prefix of the key: it becomes the leaf of the new node *)
    destruct Hc as [[Hl Hne]|Hs].
    2:{ rewrite Ep, Ek, app_nil_r, strip_app in Hs. discriminate. }
    destruct this as [p l|]; [|discriminate]. cbn [node_prefix] in *. rewrite app_nil_r in Ep. subst p.
    cbn [set_prefix node_leaf]. rewrite trail_inner, strip_app. cbn [trail].
    destruct rest as [|b rest].
    + rewrite app_nil_r. exists (match m with QPre => [nw] | _ => [] end). unfold own_inner, own_leaf.
      rewrite strip_self, has_prefix_refl, bytes_eqb_refl. destruct m; reflexivity.
    + eexists. rewrite <- app_nil_r at 1. f_equal. unfold own_leaf.
      rewrite <- (app_nil_r cp) at 2. rewrite bytes_eqb_app. destruct m; reflexivity.
  - (* the old node keeps a non-empty prefix, as a child of the new one *)
    exists (hdr m nw). rewrite Ep, <- app_assoc. cbn [app].
    assert (Ethis : set_prefix this (cp ++ tb :: p') = this) by (rewrite <- Ep; apply set_prefix_id).
    assert (Hf : forall lf ch, ch_find tb ch = Some (set_prefix this (tb :: p')) ->
              trail m (Inner 4 (c_tid c) cp nw lf ch) (cp ++ tb :: p' ++ rest) =
              hdr m nw ++ trail m this (cp ++ tb :: p' ++ rest)).
    { intros lf ch Hf. rewrite trail_inner, strip_app, trail_ch_find, Hf. rewrite <- Ethis at 2.
      change (tb :: p' ++ rest) with ((tb :: p') ++ rest). now rewrite trail_set_prefix. }
    destruct k' as [|kb k'].
    + apply Hf. simpl. now rewrite N.eqb_refl.
    + simpl in Hd. destruct (tb <? kb); apply Hf; simpl.
      * now rewrite N.eqb_refl.
      * destruct (N.eqb_spec kb tb); [congruence|]. now rewrite N.eqb_refl.
Qed.

Lemma privF_ch_find b x : forall ch, privF_ch ch -> ch_find b ch = Some x -> privF x.
Proof.
  induction ch as [|b0 y r IH]; cbn [ch_find]; [discriminate|]. intros [Hy Hr]. destruct (b0 =? b); [intros [= <-]; exact Hy|now apply IH].
Qed.

(* one child replaced *)
Lemma trail_ch_set m ch b' x x' s' : ch_find b' ch = Some x ->
  (forall k, tstab (trail m x k) (trail m x' k) s') ->
  forall b k, tstab (trail_ch m ch b k) (trail_ch m (ch_set b' x' ch) b k) s'.
Proof.
  intros Ef H b k. rewrite !trail_ch_find, (ch_find_set b b' x' ch x Ef).
  destruct (N.eqb_spec b b') as [->|Hne]; [rewrite Ef; apply H|apply tstab_refl].
Qed.

Theorem modify_trail n : forall s k', privF n -> forall m k,
  tstab (trail m n k) (trail m (m_node (modify_node c md fullKey v s n k')) k) (m_st (modify_node c md fullKey v s n k')).
Proof.
  induction n as [p l|kd t p w lf ch IH] using node_find_ind; intros s k' Hpf m k;
    cbn [modify_node]; fold (modify_ch c md fullKey v).
  - destruct (bytes_eqb k' p) eqn:E.
    + (* the leaf is cloned: its channel is recorded *)
      pose proof (clone_leaf_records c s l Hc0) as R. destruct (clone_leaf c s l) as [l' s']. cbn [m_node m_st snd] in *.
      apply tstab_rec. intros a Ha Hn. apply own_leaf_in in Ha. subst a. auto.
    + destruct (strip p k) as [rest|] eqn:Es.
      * apply strip_some in Es. subst k.
        destruct (split_trail s (Leaf p l) k' m rest) as [P' Et].
        -- left. split; [reflexivity|]. simpl. now apply bytes_eqb_false.
        -- cbn [node_prefix] in Et. rewrite Et. apply tstab_push, tstab_refl.
      * apply tstab_rec. intros a Ha. exfalso. cbn in Ha. destruct m; cbn in Ha; try tauto.
        destruct (bytes_eqb k p) eqn:Ek; [|destruct Ha]. apply bytes_eqb_spec in Ek. subst k.
        rewrite strip_self in Es. discriminate.
  - destruct Hpf as [Hp Hc]. pose proof (fun s1 => own_recorded s t w s1 Hp) as OR.
    destruct (strip p k') as [[|b' rest']|] eqn:Es'.
    + (* exact match of k': the node's leaf is cloned, or a new one added *)
      destruct (clone_hdr c s t w) as [[t' w'] s1]. cbn [snd] in OR. destruct lf as [l|].
      * pose proof (clone_leaf_mono c s1 l) as M. pose proof (clone_leaf_records c s1 l Hc0) as R.
        destruct (clone_leaf c s1 l) as [l' s2]. cbn [m_node m_st snd] in *.
        apply inner_tstab; [auto| |intros; apply tstab_refl]. right. intros l0 [= <-] Hn. auto.
      * pose proof (fresh_mono c s1) as M. destruct (fresh c s1) as [lw s2]. cbn [m_node m_st snd] in *.
        apply inner_tstab; [auto| |intros; apply tstab_refl]. right. intros l0 [=].
    + destruct (clone_hdr c s t w) as [[t' w'] s1] eqn:Ec. cbn [snd] in OR.
      rewrite modify_ch_find. destruct (ch_find b' ch) as [x|] eqn:Ef.
      * (* descend into x *)
        pose proof (modify_mono c md fullKey v x s1 (b' :: rest')) as Mx. cbn [m_node m_st].
        apply inner_tstab; [auto|left; reflexivity|intros b rest _].
        apply (trail_ch_set m ch b' x _ _ Ef). intros k0. apply (IH b' x Ef). exact (privF_ch_find b' x ch Hc Ef).
      * (* a new leaf under a byte that had no child *)
        assert (Hins : forall y s2 b rest, tstab (trail_ch m ch b rest) (trail_ch m (ch_insert b' y ch) b rest) s2).
        { intros y s2 b rest. rewrite !trail_ch_find. destruct (N.eq_dec b b') as [->|Hne].
          - rewrite Ef. apply tstab_rec, vrec_nil.
          - rewrite ch_find_insert_other by auto. apply tstab_refl. }
        destruct (kd <? ch_len ch + 1).
        -- pose proof (fresh_if_mono w (record w s)) as F1. destruct (fresh_if w (record w s)) as [w2 s2].
           pose proof (fresh_mono c s2) as F2. destruct (fresh c s2) as [lw s3]. cbn [m_node m_st snd] in *.
           apply inner_tstab; [|left; reflexivity|intros; apply Hins].
           intros Hn. left. apply F2, F1. now apply record_in.
        -- pose proof (fresh_mono c s1) as F2. destruct (fresh c s1) as [lw s3]. cbn [m_node m_st snd] in *.
           apply inner_tstab; [auto|left; reflexivity|intros; apply Hins].
    + (* prefix mismatch: the cloned node goes below a new one *)
      destruct (clone_hdr c s t w) as [[t' w'] s1] eqn:Ec. cbn [snd] in OR.
      specialize (OR _ (split_mono c fullKey v s1 (Inner kd t' p w' lf ch) k')).
      destruct (strip p k) as [rest|] eqn:Es.
      * apply strip_some in Es. subst k.
        destruct (split_trail s1 (Inner kd t' p w' lf ch) k' m rest (or_intror Es')) as [P' E].
        cbn [node_prefix] in E. rewrite E. apply tstab_push.
        apply inner_tstab; [exact OR|left; reflexivity|intros; apply tstab_refl].
      * apply tstab_rec. rewrite (trail_inner m kd t p w lf ch), Es. intros a Ha Hn. apply own_inner_in in Ha.
        destruct Ha as [->|[E _]]; [auto|congruence].
Qed.
End Stab.

Fixpoint tmono (n : node) : Prop :=
  match n with
  | Leaf _ _ => True
  | Inner _ t _ _ _ ch => tmono_ch t ch
  end
with tmono_ch (t : N) (ch : children) : Prop :=
  match ch with CNil => True | CCons _ x r => node_tid x <= t /\ tmono x /\ tmono_ch t r end.

Lemma tmono_ch_find t b : forall ch x, tmono_ch t ch -> ch_find b ch = Some x -> node_tid x <= t /\ tmono x.
Proof.
  induction ch as [|b0 y r IH]; simpl; [discriminate|]. intros x (H1 & H2 & H3).
  destruct (b0 =? b); eauto. intros [= <-]. auto.
Qed.

Section DelBase.
Variable c : ctx.

(* in-place propagation only happens below nodes owned by the txn *)
Theorem del_inplace_owned n : forall s key old repl s', tids_le (c_tid c) n -> tmono n ->
  del_node c s n key = DSome old repl s' true -> node_tid n = c_tid c.
Proof.
  induction n as [p l|kd t p w lf ch IH] using node_find_ind; intros s key old repl s'; cbn [del_node node_tid]; fold (del_ch c).
  - intros _ _. destruct (bytes_eqb key p); discriminate.
  - intros [Ht Hc] Hm. destruct (strip p key) as [[|b rest]|]; [| |discriminate].
    + destruct lf as [l|]; [|discriminate]. destruct ch as [|b1 x1 [|b2 x2 r]]; try discriminate.
      destruct (clone_hdr c (record (lf_w l) s) t w) as [[t' w'] s2]. discriminate.
    + rewrite del_ch_find. destruct (ch_find b ch) as [x|] eqn:Ef; [|discriminate].
      destruct (tmono_ch_find t b ch x Hm Ef) as [Hxt Hxm]. pose proof (tids_ch_find (c_tid c) b ch x Hc Ef) as Hxl.
      destruct (del_node c s x (b :: rest)) as [|o [x'|] s1 ip] eqn:Ed; [discriminate| |].
      * destruct ip.
        -- intros _. pose proof (IH b x Ef _ _ _ _ _ Hxl Hxm Ed). lia.
        -- destruct (clone_hdr c s1 t w) as [[t' w'] s2]. intros [= _ _ _ E]. now apply N.eqb_eq in E.
      * destruct (remove_child_cases c s1 kd t p w lf ch b) as [(y & _ & _ & _ & ->)|[(kd' & ->)| ->]]; try discriminate.
        intros [= _ _ _ E]. now apply N.eqb_eq in E.
Qed.
Lemma del_ch_inplace ch s b key old repl s' t : tids_le_ch (c_tid c) ch -> tmono_ch t ch -> t <= c_tid c ->
  del_ch c s ch b key = DSome old repl s' true -> t = c_tid c.
Proof.
  intros Hc Hm Ht. rewrite del_ch_find. destruct (ch_find b ch) as [x|] eqn:Ef; [|discriminate]. intros E.
  destruct (tmono_ch_find t b ch x Hm Ef) as [Hxt Hxm].
  pose proof (del_inplace_owned x _ _ _ _ _ (tids_ch_find (c_tid c) b ch x Hc Ef) Hxm E). lia.
Qed.

Lemma remove_child_mono s kd t p w lf ch b : ws_mono s (snd (fst (remove_child c s kd t p w lf ch b))).
Proof.
  destruct (remove_child_cases c s kd t p w lf ch b) as [(y & _ & _ & _ & ->)|[(kd' & ->)| ->]]; cbn [fst snd].
  - apply record_mono.
  - eapply ws_mono_trans; [apply fresh_if_mono|apply record_mono].
  - apply clone_hdr_mono.
Qed.

Definition dmono (s : st) (r : dres) : Prop := match r with DNone => True | DSome _ _ s' _ => ws_mono s s' end.
Theorem delete_mono n : forall s key, dmono s (del_node c s n key).
Proof.
  induction n as [p l|kd t p w lf ch IH] using node_find_ind; intros s key; cbn [del_node]; fold (del_ch c).
  - destruct (bytes_eqb key p); [|exact I]. cbn [dmono]. eapply ws_mono_trans; apply record_mono.
  - destruct (strip p key) as [[|b rest]|]; [| |exact I].
    + destruct lf as [l|]; [|exact I]. destruct ch as [|b1 x1 [|b2 x2 r]].
      * cbn [dmono]. eapply ws_mono_trans; apply record_mono.
      * cbn [dmono]. eapply ws_mono_trans; apply record_mono.
      * pose proof (clone_hdr_mono c (record (lf_w l) s) t w) as M1.
        destruct (clone_hdr c (record (lf_w l) s) t w) as [[t' w'] s2]. cbn [dmono snd] in *.
        eapply ws_mono_trans; [apply record_mono|exact M1].
    + rewrite del_ch_find. destruct (ch_find b ch) as [x|] eqn:Ef; [|exact I]. specialize (IH b x Ef s (b :: rest)).
      destruct (del_node c s x (b :: rest)) as [|old [x'|] s1 ip]; [exact I| |]; cbn [dmono] in IH.
      * destruct ip; [exact IH|]. pose proof (clone_hdr_mono c s1 t w) as M1.
        destruct (clone_hdr c s1 t w) as [[t' w'] s2]. cbn [dmono snd] in *. eapply ws_mono_trans; eauto.
      * pose proof (remove_child_mono s1 kd t p w lf ch b) as M1.
        destruct (remove_child c s1 kd t p w lf ch b) as [[n' s2] ip']. cbn [dmono fst snd] in *. eapply ws_mono_trans; eauto.
Qed.
End DelBase.

Section StabDel.
Variable c : ctx.
Variable F : N -> Prop.
Notation privF := (privF c F).
Notation privF_ch := (privF_ch c F).
Notation vrec := (vrec F).
Notation tstab := (tstab F).

Definition dtstab (m : qmode) (n : node) (k : bytes) (r : dres) : Prop :=
  match r with
  | DNone => True
  | DSome _ (Some n') s' _ => tstab (trail m n k) (trail m n' k) s'
  | DSome _ None s' _ => vrec (trail m n k) s'
  end.

Theorem delete_trail n : forall s k', privF n -> tids_le (c_tid c) n -> tmono n -> forall m k,
  dtstab m n k (del_node c s n k').
Proof.
  induction n as [p l|kd t p w lf ch IH] using node_find_ind.
  - intros s k' _ _ _ m k. cbn [del_node]. destruct (bytes_eqb k' p); [|exact I]. cbn [dtstab trail].
    intros a Ha Hn. apply own_leaf_in in Ha. subst a. left. apply record_mono. now apply record_in.
  - intros s k' [Hp Hc] [Ht Hlc] Hm m k. cbn [del_node]; fold (del_ch c).
    pose proof (fun s0 s1 => own_recorded c F s0 t w s1 Hp) as OR.
    destruct (strip p k') as [[|b' rest']|] eqn:Es'; [| |exact I].
    + (* k' is the key of this node's leaf, whose channel is recorded first *)
      destruct lf as [l|]; [|exact I].
      assert (Lrec : forall s', ws_mono (record (lf_w l) s) s' -> forall l0, Some l = Some l0 -> lf_w l0 <> 0 ->
                In (lf_w l0) (s_ws s') \/ F (lf_w l0))
        by (intros s' M l0 [= <-] Hn; left; apply M; now apply record_in).
      destruct ch as [|b1 x1 [|b2 x2 r]].
      * (* no children: the node disappears *)
        cbn [dtstab]. rewrite trail_inner. destruct (strip p k) as [[|b rest]|].
        2:{ cbn [trail_ch]. rewrite app_nil_r. apply vrec_hdr. intros Hn. left. now apply record_in. }
        all: intros a Ha Hn; apply own_inner_in in Ha; destruct Ha as [->|(_ & l0 & E & ->)];
          [left; now apply record_in|apply (Lrec _ (record_mono _ _) l0 E Hn)].
      * (* single child: shifted up, its channel retained *)
        cbn [dtstab]. set (s' := record w (record (lf_w l) s)).
        assert (NR : w <> 0 -> In w (s_ws s') \/ F w) by (intros Hn; left; now apply record_in).
        destruct (strip p k) as [[|b rest]|] eqn:Es.
        2:{ apply strip_some in Es. subst k. rewrite trail_merge, trail_inner, strip_app, trail_ch_cons.
            destruct (b1 =? b).
            - apply (tstab_app F (hdr m w) []); [apply vrec_hdr, NR|apply tstab_refl].
            - apply tstab_rec. cbn [trail_ch]. rewrite app_nil_r. apply vrec_hdr, NR. }
        all: apply tstab_rec; rewrite trail_inner, Es; intros a Ha Hn; apply own_inner_in in Ha;
          destruct Ha as [->|(_ & l0 & E & ->)]; [auto|apply (Lrec _ (record_mono _ _) l0 E Hn)].
      * (* several children: the leaf is dropped *)
        pose proof (clone_hdr_mono c (record (lf_w l) s) t w) as M1. specialize (OR (record (lf_w l) s)).
        destruct (clone_hdr c (record (lf_w l) s) t w) as [[t' w'] s2]. cbn [dtstab snd] in *.
        apply inner_tstab; [apply OR, ws_mono_refl|right; apply Lrec, M1|intros; apply tstab_refl].
    + (* descend towards k' *)
      rewrite del_ch_find. destruct (ch_find b' ch) as [x|] eqn:Ef; [|exact I].
      destruct (tmono_ch_find t b' ch x Hm Ef) as [Hxt Hxm].
      pose proof (tids_ch_find (c_tid c) b' ch x Hlc Ef) as Hxl.
      specialize (IH b' x Ef s (b' :: rest') (privF_ch_find c F b' x ch Hc Ef) Hxl Hxm).
      pose proof (delete_mono c x s (b' :: rest')) as Mx.
      pose proof (del_inplace_owned c x s (b' :: rest')) as Ipx.
      destruct (del_node c s x (b' :: rest')) as [|old repl s1 ip] eqn:Ed; [exact I|]. cbn [dmono] in Mx.
      destruct repl as [x'|]; cbn [dtstab] in IH.
      * (* the child is replaced *)
        assert (Hset : forall s2, ws_mono s1 s2 -> forall kd2 t2 w2, (w <> 0 -> In w (s_ws s2) \/ F w) ->
                  tstab (trail m (Inner kd t p w lf ch) k) (trail m (Inner kd2 t2 p w2 lf (ch_set b' x' ch)) k) s2).
        { intros s2 M kd2 t2 w2 NR. apply inner_tstab; [exact NR|left; reflexivity|intros b rest _].
          apply (trail_ch_set F m ch b' x x' s2 Ef). intros k0. eapply tstab_mono; [exact M|apply IH]. }
        destruct ip.
        -- (* ancestors untouched: this node is owned by the txn *)
           assert (Et : t = c_tid c).
           { pose proof (Ipx old (Some x') s1 Hxl Hxm eq_refl) as E. lia. }
           cbn [dtstab]. apply Hset; [apply ws_mono_refl|].
           intros Hn. destruct (Hp Et); [congruence|auto].
        -- pose proof (clone_hdr_mono c s1 t w) as M1. specialize (OR s1).
           destruct (clone_hdr c s1 t w) as [[t' w'] s2]. cbn [dtstab snd] in *.
           apply Hset; [exact M1|apply OR, ws_mono_refl].
      * (* the child disappears (everything on its trails is accounted for): removeChild *)
        assert (Generic : forall kd2 t2 w2 s2 ip2, ws_mono s1 s2 -> (w <> 0 -> In w (s_ws s2) \/ F w) ->
                  dtstab m (Inner kd t p w lf ch) k (DSome old (Some (Inner kd2 t2 p w2 lf (ch_remove b' ch))) s2 ip2)).
        { intros kd2 t2 w2 s2 ip2 M NR. cbn [dtstab]. apply inner_tstab; [exact NR|left; reflexivity|intros b rest _].
          rewrite !trail_ch_find. destruct (N.eq_dec b b') as [->|Hne].
          - rewrite Ef. apply tstab_rec. eapply vrec_mono; [exact M|apply IH].
          - rewrite ch_find_remove_other by auto. apply tstab_refl. }
        destruct (remove_child_cases c s1 kd t p w lf ch b') as [(y & E2 & -> & Eo & ->)|[(kd' & ->)| ->]].
        -- (* merge with the remaining child *)
           cbn [dtstab]. set (s2 := record w s1).
           assert (M : ws_mono s1 s2) by apply record_mono.
           assert (NR : w <> 0 -> In w (s_ws s2) \/ F w) by (intros Hn; left; now apply record_in).
           rewrite trail_inner. destruct (strip p k) as [[|b rest]|] eqn:Es.
           2:{ apply strip_some in Es. subst k. rewrite trail_merge, trail_ch_find.
               destruct (N.eq_dec b b') as [->|Hne].
               - rewrite Ef. apply tstab_rec, vrec_app; [apply vrec_hdr, NR|]. eapply vrec_mono; [exact M|apply IH].
               - destruct (ch_find b ch) as [z|] eqn:Ez.
                 + rewrite (ch_other_find b' ch x y b z E2 Ef Eo Hne Ez).
                   apply (tstab_app F (hdr m w) []); [apply vrec_hdr, NR|apply tstab_refl].
                 + apply tstab_rec. rewrite app_nil_r. apply vrec_hdr, NR. }
           all: apply tstab_rec; intros a Ha Hn; apply own_inner_in in Ha;
             destruct Ha as [->|(_ & l0 & [=] & _)]; auto.
        -- apply Generic; [eapply ws_mono_trans; [apply fresh_if_mono|apply record_mono]|intros Hn; left; now apply record_in].
        -- apply Generic; [apply clone_hdr_mono|apply (OR s1), ws_mono_refl].
Qed.
End StabDel.

(* the changed key itself: every channel on the way to it is recorded or private (any txn tree) *)
Lemma visit_ch_find ch b key : visit_ch ch b key = match ch_find b ch with Some x => visit x key | None => [] end.
Proof.
  induction ch as [|b0 x r IH]; [reflexivity|]. cbn [visit_ch ch_find]; fold visit; fold visit_ch.
  destruct (b0 =? b); auto.
Qed.

Section Covered.
Variable c : ctx.
Variable F : N -> Prop.
Notation privF := (privF c F).
Notation privF_ch := (privF_ch c F).
Notation vrec := (vrec F).
Notation rec3 := (rec3 F).

(* all inner nodes on the way to k, and the leaf found there: [visit] lists channels of inner nodes only, the channel of
   the leaf of an exact hit is seen only through [getw] *)
Definition covered (n : node) (k : bytes) (s' : st) : Prop := vrec (visit n k) s' /\ forall u, rec3 (getw n k u) u s'.

Lemma rec3_pick w u s' : (w <> 0 -> In w (s_ws s') \/ F w) -> rec3 (pick w u) u s'.
Proof. intros NR. unfold Stable.rec3. destruct (pick_cases w u) as [->|[-> Hn]]; [auto|right; auto]. Qed.
Lemma covered_mono n k s1 s2 : ws_mono s1 s2 -> covered n k s1 -> covered n k s2.
Proof.
  intros M [V R]. split; [eapply vrec_mono; eauto|]. intros u. destruct (R u) as [E|[E|E]]; [left|right; left|right; right]; auto.
Qed.

Lemma covered_leaf p l k s' : (k = p -> lf_w l <> 0 -> In (lf_w l) (s_ws s') \/ F (lf_w l)) -> covered (Leaf p l) k s'.
Proof.
  intros Hl. split; [intros a []|]. intros u. rewrite getw_leaf. destruct (bytes_eqb k p) eqn:E; [|left; reflexivity].
  apply rec3_pick, Hl. now apply bytes_eqb_spec.
Qed.
(* the node's own channel, its leaf's if the search ends here, and the child the search goes on in *)
Lemma covered_inner kd t p w lf ch k s' :
  (w <> 0 -> In w (s_ws s') \/ F w) ->
  (forall l, lf = Some l -> strip p k = Some [] -> lf_w l <> 0 -> In (lf_w l) (s_ws s') \/ F (lf_w l)) ->
  (forall b rest x, strip p k = Some (b :: rest) -> ch_find b ch = Some x -> covered x (b :: rest) s') ->
  covered (Inner kd t p w lf ch) k s'.
Proof.
  intros NR Hl Hch. split.
  - cbn [visit]; fold visit_ch. intros a [<-|Ha]; [exact NR|].
    destruct (strip p k) as [[|b rest]|]; try destruct Ha. rewrite visit_ch_find in Ha.
    destruct (ch_find b ch) as [x|] eqn:Ef; [|destruct Ha]. now apply (Hch b rest x eq_refl Ef).
  - intros u. rewrite getw_inner. destruct (strip p k) as [[|b rest]|]; [|..|left; reflexivity].
    + destruct lf as [l|]; [|left; reflexivity]. apply rec3_pick. now apply Hl.
    + rewrite getw_ch_find. destruct (ch_find b ch) as [x|] eqn:Ef; [|now apply rec3_pick].
      destruct (proj2 (Hch b rest x eq_refl Ef) (pick w u)) as [E|E]; [|right; exact E].
      rewrite E. now apply rec3_pick.
Qed.

Section Mod.
Variable md : option (N -> N -> N).
Variable fullKey : bytes.
Variable v : N.
Hypothesis Hc0 : c_tid c <> 0.

Theorem modify_covered n : forall s key, privF n -> covered n key (m_st (modify_node c md fullKey v s n key)).
Proof.
  induction n as [p l|kd t p w lf ch IH] using node_find_ind; intros s key Hpf;
    cbn [modify_node]; fold (modify_ch c md fullKey v).
  - apply covered_leaf. intros -> Hn. rewrite bytes_eqb_refl.
    pose proof (clone_leaf_records c s l Hc0 Hn) as R. destruct (clone_leaf c s l) as [l' s']. auto.
  - destruct Hpf as [Hp Hc]. pose proof (fun s1 => own_recorded c F s t w s1 Hp) as OR.
    destruct (strip p key) as [[|b rest]|] eqn:Es.
    + destruct (clone_hdr c s t w) as [[t' w'] s1]. cbn [snd] in OR. destruct lf as [l|].
      * pose proof (clone_leaf_mono c s1 l) as M. pose proof (clone_leaf_records c s1 l Hc0) as R.
        destruct (clone_leaf c s1 l) as [l' s2]. cbn [m_st snd] in *.
        apply covered_inner; [auto| |congruence]. intros l0 [= <-] _ Hn. auto.
      * pose proof (fresh_mono c s1) as M. destruct (fresh c s1) as [lw s2]. cbn [m_st snd] in *.
        apply covered_inner; [auto|discriminate|congruence].
    + destruct (clone_hdr c s t w) as [[t' w'] s1] eqn:Ec. cbn [snd] in OR.
      rewrite modify_ch_find. destruct (ch_find b ch) as [x|] eqn:Ef.
      * pose proof (modify_mono c md fullKey v x s1 (b :: rest)) as Mx. cbn [m_st].
        apply covered_inner; [auto|congruence|]. intros b0 rest0 x0 E Ef0. rewrite Es in E. injection E as <- <-.
        rewrite Ef in Ef0. injection Ef0 as <-. apply (IH b x Ef). exact (privF_ch_find c F b x ch Hc Ef).
      * destruct (kd <? ch_len ch + 1).
        -- pose proof (fresh_if_mono w (record w s)) as F1. destruct (fresh_if w (record w s)) as [w2 s2].
           pose proof (fresh_mono c s2) as F2. destruct (fresh c s2) as [lw s3]. cbn [m_st snd] in *.
           apply covered_inner; [|congruence|congruence]. intros Hn. left. apply F2, F1. now apply record_in.
        -- pose proof (fresh_mono c s1) as F2. destruct (fresh c s1) as [lw s3]. cbn [m_st snd] in *.
           apply covered_inner; [auto|congruence|congruence].
    + destruct (clone_hdr c s t w) as [[t' w'] s1]. cbn [snd] in OR.
      apply covered_inner; [apply OR, split_mono|congruence|congruence].
Qed.
End Mod.

Lemma remove_child_own s kd t p w lf ch b : (t = c_tid c -> w = 0 \/ F w) -> w <> 0 ->
  In w (s_ws (snd (fst (remove_child c s kd t p w lf ch b)))) \/ F w.
Proof.
  intros Hp Hn.
  destruct (remove_child_cases c s kd t p w lf ch b) as [(y & _ & _ & _ & ->)|[(kd' & ->)| ->]]; cbn [fst snd];
    [left; now apply record_in..|]. exact (own_recorded c F s t w _ Hp (ws_mono_refl _) Hn).
Qed.

(* Delete at an inner node: [inpl] says what is known when the child reports that the ancestors can be left alone *)
Lemma delete_inner_covered kd t p w lf ch s key
  (IH : forall b x, ch_find b ch = Some x -> forall s0 key0,
          match del_node c s0 x key0 with DSome _ _ s' _ => covered x key0 s' | DNone => True end)
  (Hp : t = c_tid c -> w = 0 \/ F w)
  (inpl : forall b rest old x' s1, strip p key = Some (b :: rest) ->
            del_ch c s ch b (b :: rest) = DSome old (Some x') s1 true -> t = c_tid c) :
  match del_node c s (Inner kd t p w lf ch) key with DSome _ _ s' _ => covered (Inner kd t p w lf ch) key s' | DNone => True end.
Proof.
  cbn [del_node]; fold (del_ch c).
  pose proof (fun s0 s1 => own_recorded c F s0 t w s1 Hp) as OR.
  destruct (strip p key) as [[|b rest]|] eqn:Es; [| |exact I].
  - destruct lf as [l|]; [|exact I].
    assert (G : forall s', ws_mono (record (lf_w l) s) s' -> (w <> 0 -> In w (s_ws s') \/ F w) ->
              covered (Inner kd t p w (Some l) ch) key s').
    { intros s' M NR. apply covered_inner; [exact NR| |congruence]. intros l0 [= <-] _ Hn. left. apply M. now apply record_in. }
    destruct ch as [|b1 x1 [|b2 x2 r]]; try (apply G; [apply record_mono|intros Hn; left; now apply record_in]).
    pose proof (clone_hdr_mono c (record (lf_w l) s) t w) as M1. specialize (OR (record (lf_w l) s)).
    destruct (clone_hdr c (record (lf_w l) s) t w) as [[t' w'] s2]. apply G; [exact M1|apply OR, ws_mono_refl].
  - specialize (inpl b rest). rewrite del_ch_find in *. destruct (ch_find b ch) as [x|] eqn:Ef; [|exact I].
    specialize (IH b x Ef s (b :: rest)).
    destruct (del_node c s x (b :: rest)) as [|old repl s1 ip] eqn:Ed; [exact I|].
    assert (G : forall s2, ws_mono s1 s2 -> (w <> 0 -> In w (s_ws s2) \/ F w) -> covered (Inner kd t p w lf ch) key s2).
    { intros s2 M NR. apply covered_inner; [exact NR|congruence|]. intros b0 rest0 x0 E Ef0. rewrite Es in E. injection E as <- <-.
      rewrite Ef in Ef0. injection Ef0 as <-. eapply covered_mono; eauto. }
    destruct repl as [x'|].
    + destruct ip.
      * apply G; [apply ws_mono_refl|]. intros Hn. destruct (Hp (inpl _ _ _ eq_refl eq_refl)); [congruence|auto].
      * pose proof (clone_hdr_mono c s1 t w) as M1. specialize (OR s1).
        destruct (clone_hdr c s1 t w) as [[t' w'] s2]. apply G; [exact M1|apply OR, ws_mono_refl].
    + pose proof (remove_child_mono c s1 kd t p w lf ch b) as M1.
      pose proof (remove_child_own s1 kd t p w lf ch b Hp) as NR.
      destruct (remove_child c s1 kd t p w lf ch b) as [[n' s2] ip']. apply G; auto.
Qed.

Theorem delete_covered n : forall s key, privF n -> tids_le (c_tid c) n -> tmono n ->
  match del_node c s n key with DSome _ _ s' _ => covered n key s' | DNone => True end.
Proof.
  induction n as [p l|kd t p w lf ch IH] using node_find_ind; intros s key Hpf Hl Hm.
  - cbn [del_node]. destruct (bytes_eqb key p); [|exact I]. apply covered_leaf. intros _ Hn. left.
    apply record_mono. now apply record_in.
  - destruct Hpf as [Hp Hc]. destruct Hl as [Ht Hlc]. apply delete_inner_covered; [|exact Hp|].
    + intros b x Ef s0 key0. destruct (tmono_ch_find t b ch x Hm Ef) as [_ Hxm].
      exact (IH b x Ef s0 key0 (privF_ch_find c F b x ch Hc Ef) (tids_ch_find (c_tid c) b ch x Hlc Ef) Hxm).
    + intros b rest old x' s1 _. now apply (del_ch_inplace c ch s b (b :: rest) old (Some x') s1 t).
Qed.
End Covered.

(* trees none of whose nodes is private to the txn (the first write after Tree.Txn): nothing is private *)
Section Published.
Variable c : ctx.
Notation NoF := (fun _ : N => False).

Lemma no_inplace_privF F :
  (forall n, no_inplace c n -> privF c F n) /\ (forall ch, no_inplace_ch c ch -> privF_ch c F ch).
Proof.
  apply node_children_ind.
  - intros; exact I.
  - intros kd t p w lf ch IH [Ht Hc]. split; [intros E; contradiction|exact (IH Hc)].
  - intros; exact I.
  - intros b x IHx r IHr [Hx Hr]. exact (conj (IHx Hx) (IHr Hr)).
Qed.
Lemma no_inplace_ch_find b x : forall ch, no_inplace_ch c ch -> ch_find b ch = Some x -> no_inplace c x.
Proof.
  induction ch as [|b0 y r IH]; cbn [ch_find]; [discriminate|]. intros [Hy Hr]. destruct (b0 =? b); [intros [= <-]; exact Hy|now apply IH].
Qed.

Lemma covered_recorded n k s' : covered NoF n k s' ->
  (forall a, In a (visit n k) -> a <> 0 -> In a (s_ws s')) /\ (forall u, getw n k u = u \/ In (getw n k u) (s_ws s')).
Proof.
  intros [V R]. split; [intros a Ha Hn; destruct (V a Ha Hn); [assumption|contradiction]|].
  intros u. destruct (R u) as [E|[E|[]]]; auto.
Qed.

(* the channel Get(key) returns is recorded by Insert/Modify of key (or is the inherited one), and nothing recorded is
   forgotten *)
Theorem modify_records md fullKey v (Hc0 : c_tid c <> 0) n s key w0 : no_inplace c n ->
  (snd (search_node n key w0) = w0 \/ In (snd (search_node n key w0)) (s_ws (m_st (modify_node c md fullKey v s n key)))) /\
  ws_mono s (m_st (modify_node c md fullKey v s n key)).
Proof.
  intros H. split; [|apply modify_mono].
  apply (covered_recorded n key), (modify_covered c NoF md fullKey v Hc0), (no_inplace_privF NoF), H.
Qed.

(* Delete: the ancestors are never left alone *)
Theorem del_no_inplace n : forall s key old repl s', no_inplace c n -> del_node c s n key <> DSome old repl s' true.
Proof.
  induction n as [p l|kd t p w lf ch IH] using node_find_ind; intros s key old repl s' Hn; cbn [del_node]; fold (del_ch c).
  - destruct (bytes_eqb key p); discriminate.
  - destruct Hn as [Ht Hc]. apply N.eqb_neq in Ht.
    destruct (strip p key) as [[|b rest]|]; [| |discriminate].
    + destruct lf as [l|]; [|discriminate]. destruct ch as [|b1 x1 [|b2 x2 r]]; try discriminate.
      destruct (clone_hdr c (record (lf_w l) s) t w) as [[t' w'] s2]. discriminate.
    + rewrite del_ch_find. destruct (ch_find b ch) as [x|] eqn:Ef; [|discriminate].
      destruct (del_node c s x (b :: rest)) as [|o [x'|] s1 ip] eqn:Ed; [discriminate| |].
      * destruct ip; [intros _; exact (IH b x Ef _ _ _ _ _ (no_inplace_ch_find b x ch Hc Ef) Ed)|].
        destruct (clone_hdr c s1 t w) as [[t' w'] s2]. rewrite Ht. discriminate.
      * destruct (remove_child_cases c s1 kd t p w lf ch b) as [(y & _ & _ & _ & ->)|[(kd' & ->)| ->]]; try discriminate.
        rewrite Ht. discriminate.
Qed.

(* ... and Delete of a present key records what Insert/Modify records *)
Theorem delete_records n : forall s key, no_inplace c n ->
  match del_node c s n key with DSome _ _ s' _ => covered NoF n key s' | DNone => True end.
Proof.
  induction n as [p l|kd t p w lf ch IH] using node_find_ind; intros s key Hn.
  - cbn [del_node]. destruct (bytes_eqb key p); [|exact I]. apply covered_leaf. intros _ Hw. left.
    apply record_mono. now apply record_in.
  - destruct Hn as [Ht Hc]. apply delete_inner_covered.
    + intros b x Ef s0 key0. exact (IH b x Ef s0 key0 (no_inplace_ch_find b x ch Hc Ef)).
    + intros E. contradiction.
    + intros b rest old x' s1 _. rewrite del_ch_find. destruct (ch_find b ch) as [x|] eqn:Ef; [|discriminate].
      intros E. destruct (del_no_inplace x _ _ _ _ _ (no_inplace_ch_find b x ch Hc Ef) E).
Qed.
End Published.

(* ---- the invariant that makes the stability lemmas applicable along a history:
   nodes owned by the txn carry channels allocated by the txn (>= next0), ids bounded and monotone ---- *)

Definition Fr (next0 a : N) : Prop := next0 <= a.

Lemma node_tid_le T n : tids_le T n -> node_tid n <= T.
Proof. destruct n; simpl; [lia|tauto]. Qed.
Lemma tmono_ch_raise t T : forall ch, tmono_ch t ch -> tids_le_ch T ch -> tmono_ch T ch.
Proof.
  induction ch as [|b x r IH]; simpl; auto. intros (H1 & H2 & H3) [L1 L2]. repeat split; auto.
  now apply node_tid_le.
Qed.
Section Inv.
Variable c : ctx.
Variable next0 : N.
(* F: "allocated by the txn"; every channel handed out by the allocator from next0 on satisfies it *)
Variable F : N -> Prop.
Hypothesis HF : forall a, next0 <= a -> F a.
Notation privF := (privF c F).
Notation privF_ch := (privF_ch c F).

Lemma privF_set_prefix n q : privF (set_prefix n q) <-> privF n.
Proof. destruct n; simpl; tauto. Qed.
Lemma tmono_set_prefix n q : tmono (set_prefix n q) <-> tmono n.
Proof. destruct n; simpl; tauto. Qed.
Lemma node_tid_set_prefix n q : node_tid (set_prefix n q) = node_tid n.
Proof. destruct n; reflexivity. Qed.

Lemma fresh_inv s : next0 <= s_next s ->
  (fst (fresh c s) = 0 \/ F (fst (fresh c s))) /\ next0 <= s_next (snd (fresh c s)).
Proof. unfold fresh. destruct (c_ro c); simpl; intros; split; auto; try lia; right; apply HF; lia. Qed.
Lemma fresh_if_inv w s : next0 <= s_next s ->
  (fst (fresh_if w s) = 0 \/ F (fst (fresh_if w s))) /\ next0 <= s_next (snd (fresh_if w s)).
Proof. unfold fresh_if. destruct (w =? 0); simpl; intros; split; auto; try lia; right; apply HF; lia. Qed.
Lemma record_next w s : s_next (record w s) = s_next s.
Proof. unfold record. destruct (w =? 0); reflexivity. Qed.
Lemma clone_hdr_inv s t w : (t = c_tid c -> w = 0 \/ F w) -> next0 <= s_next s ->
  let r := clone_hdr c s t w in
  fst (fst r) = c_tid c /\ (snd (fst r) = 0 \/ F (snd (fst r))) /\ next0 <= s_next (snd r).
Proof.
  intros Hp Hs. unfold clone_hdr. destruct (N.eqb_spec t (c_tid c)) as [E|E]; cbn [fst snd]; [auto|].
  pose proof (fresh_inv (record w s)) as Fi. rewrite record_next in Fi. specialize (Fi Hs).
  destruct (fresh c (record w s)) as [w' s2]. cbn [fst snd] in *. tauto.
Qed.
Lemma clone_leaf_next s l : next0 <= s_next s -> next0 <= s_next (snd (clone_leaf c s l)).
Proof.
  intros Hs. unfold clone_leaf. destruct (0 =? c_tid c); cbn [snd]; auto.
  pose proof (fresh_inv (record (lf_w l) s)) as Fi. rewrite record_next in Fi. specialize (Fi Hs).
  destruct (fresh c (record (lf_w l) s)). cbn [fst snd] in *. tauto.
Qed.

Section ModInv.
Variable md : option (N -> N -> N).
Variable fullKey : bytes.
Variable v : N.

Lemma split_inv s this key : privF this -> tids_le (c_tid c) this -> tmono this -> next0 <= s_next s ->
  let r := split_node c fullKey v s this key in
  privF (m_node r) /\ tmono (m_node r) /\ next0 <= s_next (m_st r).
Proof.
  intros Hp Hl Hm Hs. unfold split_node. cbv zeta.
  pose proof (fresh_inv s Hs) as [_ N1]. destruct (fresh c s) as [lw s1]. cbn [snd] in N1.
  pose proof (fresh_inv s1 N1) as [W2 N2]. destruct (fresh c s1) as [nw s2]. cbn [fst snd] in *.
  cbn [m_node m_st].
  set (this' := set_prefix this _).
  assert (P' : privF this') by now apply privF_set_prefix.
  assert (M' : tmono this') by now apply tmono_set_prefix.
  assert (T' : node_tid this' <= c_tid c) by (unfold this'; rewrite node_tid_set_prefix; now apply node_tid_le).
  destruct (node_prefix this') as [|tb tl]; [|destruct (skipn _ key) as [|kb kl]; [|destruct (tb <? kb)]];
    simpl; repeat split; auto; lia.
Qed.

Theorem modify_inv :
  (forall n s key, privF n -> tids_le (c_tid c) n -> tmono n -> next0 <= s_next s ->
     let r := modify_node c md fullKey v s n key in
     privF (m_node r) /\ tmono (m_node r) /\ next0 <= s_next (m_st r)) /\
  (forall ch s b key t, privF_ch ch -> tids_le_ch (c_tid c) ch -> tmono_ch t ch -> next0 <= s_next s ->
     match modify_ch c md fullKey v s ch b key with
     | Some (ch', r) => privF_ch ch' /\ tmono_ch (c_tid c) ch' /\ next0 <= s_next (m_st r)
     | None => True
     end).
Proof.
  apply node_children_ind.
  - intros p l s key _ _ _ Hs. cbn [modify_node]. destruct (bytes_eqb key p).
    + pose proof (clone_leaf_next s l Hs) as N1. destruct (clone_leaf c s l) as [l' s']. simpl in *; repeat split; simpl; auto.
    + apply split_inv; [exact I|exact I|exact I|exact Hs].
  - intros kd t p w lf ch IH s key [Hp Hc] [Ht Hlc] Hm Hs. cbn [modify_node]; fold (modify_ch c md fullKey v).
    pose proof (clone_hdr_inv s t w Hp Hs) as CI.
    assert (Mr : tmono_ch (c_tid c) ch) by (eapply tmono_ch_raise; eauto).
    destruct (strip p key) as [[|b rest]|].
    + destruct (clone_hdr c s t w) as [[t' w'] s1]. cbn [fst snd] in CI. destruct CI as (-> & W1 & N1).
      destruct lf as [l|].
      * pose proof (clone_leaf_next s1 l N1) as N2. destruct (clone_leaf c s1 l) as [l' s2]. simpl in *; repeat split; simpl; auto.
      * pose proof (fresh_inv s1 N1) as [_ N2]. destruct (fresh c s1) as [lw s2]. simpl in *; repeat split; simpl; auto.
    + destruct (clone_hdr c s t w) as [[t' w'] s1] eqn:Ec. cbn [fst snd] in CI. destruct CI as (-> & W1 & N1).
      specialize (IH s1 b (b :: rest) t Hc Hlc Hm N1).
      destruct (modify_ch c md fullKey v s1 ch b (b :: rest)) as [[ch' r]|].
      * destruct IH as (P1 & M1 & N2). repeat split; simpl; auto.
      * assert (Ins : forall lw, privF_ch (ch_insert b (Leaf (b :: rest) (mkLeaf fullKey v lw)) ch) /\
                                 tmono_ch (c_tid c) (ch_insert b (Leaf (b :: rest) (mkLeaf fullKey v lw)) ch)).
        { intros lw. clear - Hc Mr. induction ch as [|b0 y r IH]; simpl in *.
          - repeat split; auto. lia.
          - destruct Hc as [H1 H2]. destruct Mr as (M1 & M2 & M3). destruct (b <? b0); simpl; repeat split; auto; try lia;
              apply IH; auto. }
        destruct (kd <? ch_len ch + 1).
        -- pose proof (fresh_if_inv w (record w s)) as Fi. rewrite record_next in Fi. specialize (Fi Hs).
           destruct (fresh_if w (record w s)) as [w2 s2]. cbn [fst snd] in Fi. destruct Fi as [W2 N2].
           pose proof (fresh_inv s2 N2) as [_ N3]. destruct (fresh c s2) as [lw s3]. simpl in *.
           destruct (Ins lw). repeat split; simpl; auto.
        -- pose proof (fresh_inv s1 N1) as [_ N3]. destruct (fresh c s1) as [lw s3]. simpl in *.
           destruct (Ins lw). repeat split; simpl; auto.
    + destruct (clone_hdr c s t w) as [[t' w'] s']. cbn [fst snd] in CI. destruct CI as (-> & W1 & N1).
      apply split_inv; auto; [split; auto|split; [lia|auto]].
  - intros; exact I.
  - intros b0 x IHx r IHr s b key t [Px Pr] [Lx Lr] (M1 & M2 & M3) Hs.
    cbn [modify_ch]; fold (modify_node c md fullKey v); fold (modify_ch c md fullKey v).
    destruct (b0 =? b).
    + destruct (IHx s key Px Lx M2 Hs) as (P1 & T1 & N1). simpl. repeat split; auto.
      * apply node_tid_le. apply (proj1 (modify_tids c md fullKey v)). exact Lx.
      * eapply tmono_ch_raise; eauto.
    + specialize (IHr s b key t Pr Lr M3 Hs). destruct (modify_ch c md fullKey v s r b key) as [[r' res]|]; [|exact I].
      destruct IHr as (P1 & T1 & N1). simpl. repeat split; auto. now apply node_tid_le.
Qed.
End ModInv.

Lemma privF_ch_set b x' : forall ch, privF x' -> privF_ch ch -> privF_ch (ch_set b x' ch).
Proof.
  induction ch as [|b0 y r IH]; intros Hx H; [exact I|]. destruct H as [H1 H2]. cbn [ch_set].
  destruct (b0 =? b); split; auto; apply IH; auto.
Qed.
Lemma privF_ch_remove b : forall ch, privF_ch ch -> privF_ch (ch_remove b ch).
Proof.
  induction ch as [|b0 y r IH]; intros H; [exact I|]. destruct H as [H1 H2]. cbn [ch_remove].
  destruct (b0 =? b); [exact H2|split; auto; apply IH; auto].
Qed.
Lemma privF_ch_other b : forall ch y, privF_ch ch -> ch_other b ch = Some y -> privF y.
Proof.
  induction ch as [|b0 z r IH]; cbn [ch_other]; [discriminate|]. intros y H. destruct H as [H1 H2].
  destruct (b0 =? b); eauto. intros [= <-]; auto.
Qed.
Lemma tmono_ch_set T b x' : forall ch, node_tid x' <= T -> tmono x' -> tmono_ch T ch -> tmono_ch T (ch_set b x' ch).
Proof.
  induction ch as [|b0 y r IH]; simpl; auto. intros Hx Hm (H1 & H2 & H3). destruct (b0 =? b); simpl; auto.
Qed.
Lemma tmono_ch_remove T b : forall ch, tmono_ch T ch -> tmono_ch T (ch_remove b ch).
Proof. induction ch as [|b0 y r IH]; simpl; auto. intros (H1 & H2 & H3). destruct (b0 =? b); simpl; auto. Qed.
Lemma tmono_ch_other T b : forall ch y, tmono_ch T ch -> ch_other b ch = Some y -> tmono y.
Proof.
  induction ch as [|b0 z r IH]; simpl; [discriminate|]. intros y (H1 & H2 & H3). destruct (b0 =? b); eauto. intros [= <-]; auto.
Qed.

Definition dinv (r : dres) : Prop :=
  match r with
  | DNone => True
  | DSome _ repl s' _ => next0 <= s_next s' /\ match repl with Some n' => privF n' /\ tmono n' | None => True end
  end.

Lemma remove_child_inv s kd t p w lf ch b :
  (t = c_tid c -> w = 0 \/ F w) -> privF_ch ch -> tmono_ch (c_tid c) ch -> next0 <= s_next s ->
  let r := remove_child c s kd t p w lf ch b in
  next0 <= s_next (snd (fst r)) /\ privF (fst (fst r)) /\ tmono (fst (fst r)).
Proof.
  intros Hp Hc Hm Hs.
  pose proof (clone_hdr_inv s t w Hp Hs) as (Et & W1 & N1).
  pose proof (fresh_if_inv w s Hs) as [W2 N2].
  pose proof (privF_ch_remove b ch Hc) as Pr. pose proof (tmono_ch_remove (c_tid c) b ch Hm) as Mr.
  destruct (remove_child_cases c s kd t p w lf ch b) as [(y & _ & _ & Eo & ->)|[(kd' & ->)| ->]]; cbn [fst snd];
    rewrite ?record_next, ?Et; repeat split; auto.
  - apply privF_set_prefix. exact (privF_ch_other b ch y Hc Eo).
  - apply tmono_set_prefix. exact (tmono_ch_other (c_tid c) b ch y Hm Eo).
Qed.

Theorem delete_inv :
  (forall n s key, privF n -> tids_le (c_tid c) n -> tmono n -> next0 <= s_next s -> dinv (del_node c s n key)) /\
  (forall ch s b key t, privF_ch ch -> tids_le_ch (c_tid c) ch -> tmono_ch t ch -> t <= c_tid c -> next0 <= s_next s ->
     dinv (del_ch c s ch b key)).
Proof.
  apply node_children_ind.
  - intros p l s key _ _ _ Hs. cbn [del_node]. destruct (bytes_eqb key p); [|exact I]. cbn [dinv].
    rewrite !record_next. auto.
  - intros kd t p w lf ch IH s key [Hp Hc] [Ht Hlc] Hm Hs. cbn [del_node]; fold (del_ch c).
    assert (Mr : tmono_ch (c_tid c) ch) by (eapply tmono_ch_raise; eauto).
    destruct (strip p key) as [[|b rest]|]; [| |exact I].
    + destruct lf as [l|]; [|exact I].
      destruct ch as [|b1 x1 [|b2 x2 r]].
      * cbn [dinv]. rewrite !record_next. auto.
      * cbn [dinv]. rewrite !record_next. split; auto. split.
        -- apply privF_set_prefix. simpl in Hc. tauto.
        -- apply tmono_set_prefix. simpl in Hm. tauto.
      * pose proof (clone_hdr_inv (record (lf_w l) s) t w Hp) as CI. rewrite record_next in CI. specialize (CI Hs).
        destruct (clone_hdr c (record (lf_w l) s) t w) as [[t' w'] s2]. cbn [fst snd dinv] in *.
        destruct CI as (-> & W1 & N1). split; [exact N1|]. split; [split; [intros _; exact W1|exact Hc]|exact Mr].
    + specialize (IH s b (b :: rest) t Hc Hlc Hm Ht Hs).
      pose proof (proj2 (delete_tids c) ch s b (b :: rest) Hlc) as Dt.
      pose proof (del_ch_inplace c ch s b (b :: rest)) as Ipx.
      destruct (del_ch c s ch b (b :: rest)) as [|old repl s1 ip] eqn:Ed; [exact I|].
      destruct IH as [N1 IH]. destruct repl as [x'|].
      * destruct IH as [Px Mx]. cbn [dres_tids] in Dt.
        assert (G : forall t2 w2, t2 = c_tid c -> (w2 = 0 \/ F w2) ->
                  privF (Inner kd t2 p w2 lf (ch_set b x' ch)) /\ tmono (Inner kd t2 p w2 lf (ch_set b x' ch))).
        { intros t2 w2 -> W2. split.
          - split; auto. now apply privF_ch_set.
          - cbn [tmono]. apply tmono_ch_set; auto. now apply node_tid_le. }
        destruct ip.
        -- cbn [dinv]. split; auto. assert (Et : t = c_tid c) by (eapply Ipx; eauto).
           apply G; auto.
        -- pose proof (clone_hdr_inv s1 t w Hp N1) as CI.
           destruct (clone_hdr c s1 t w) as [[t' w'] s2]. cbn [fst snd dinv] in *.
           destruct CI as (E & W1 & N2). split; auto.
      * pose proof (remove_child_inv s1 kd t p w lf ch b Hp Hc Mr N1) as R.
        destruct (remove_child c s1 kd t p w lf ch b) as [[n' s2] ip']. cbn [fst snd dinv] in *. tauto.
  - intros; exact I.
  - intros b0 x IHx r IHr s b key t [Px Pr] [Lx Lr] (M1 & M2 & M3) Ht Hs.
    cbn [del_ch]; fold (del_node c); fold (del_ch c). destruct (b0 =? b).
    + apply IHx; auto.
    + eapply IHr; eauto.
Qed.
End Inv.
