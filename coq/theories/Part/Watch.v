(* Part/Watch.v — watch channels: what Notify closes, when a txn is dirty, root watch; that the recorded set only
   grows; the three outcomes of removeChild; the inner-node channels on the way to a key ([visit]); and that the
   channel InsertWatch/ModifyWatch hands out is the one Get returns afterwards. *)
From SV Require Import Base.Bytes Base.OrdMap Part.Model Part.Sem Part.Insert Part.Delete Part.Query Part.Refine Part.Cow.
From Coq Require Import ZifyN ZifyNat ZifyBool.
Open Scope N_scope.

(* Notify closes exactly the recorded channels, plus the root channel iff the txn is dirty *)
Lemma notify_closes x :
  snd (txn_notify x) = s_ws (t_st x) ++ (if t_dirty x && negb (t_rw x =? 0) then [t_rw x] else []).
Proof. reflexivity. Qed.

(* CommitAndNotify closes the same set; Commit alone returns a tree and closes nothing: the only
   function of the model that produces a set of closed channels is txn_notify *)
Lemma commit_notify_closes x : snd (txn_commit_notify x) = snd (txn_notify x).
Proof.
  unfold txn_commit_notify. destruct (txn_notify x) as [x1 cl]. destruct (txn_commit x1). reflexivity.
Qed.


(* deleting an absent key is not a change: the txn is returned unchanged *)
Lemma delete_absent_unchanged x key : txn_ok x -> om_get key (abs_txn x) = None -> txn_delete x key = (x, None).
Proof.
  intros [Hw _] Hg. unfold txn_delete, abs_txn in *. destruct (t_root x) as [n|]; auto. simpl in *.
  pose proof (proj1 (delete_spec (txn_ctx x)) n [] (t_st x) key Hw) as D.
  destruct (del_node (txn_ctx x) (t_st x) n key) as [|old repl s ip]; auto.
  destruct D as [G _]. congruence.
Qed.
Lemma delete_present_dirty x key v : txn_ok x -> om_get key (abs_txn x) = Some v ->
  t_dirty (fst (txn_delete x key)) = true /\ t_rw (fst (txn_delete x key)) = t_rw x.
Proof.
  intros [Hw _] Hg. unfold txn_delete, abs_txn in *. destruct (t_root x) as [n|]; simpl in *; [|discriminate].
  pose proof (proj1 (delete_spec (txn_ctx x)) n [] (t_st x) key Hw) as D.
  destruct (del_node (txn_ctx x) (t_st x) n key) as [|old repl s ip]; simpl in *; [congruence|auto].
Qed.
Lemma modify_dirty x md key v :
  t_dirty (fst (fst (fst (txn_modify x md key v)))) = true /\ t_rw (fst (fst (fst (txn_modify x md key v)))) = t_rw x.
Proof. unfold txn_modify. simpl. auto. Qed.

(* which operations change the map *)
Definition changes (m : omap N) (o : wop) : bool :=
  match o with
  | WIns _ _ | WMod _ _ _ => true
  | WDel k => match om_get k m with Some _ => true | None => false end
  | WBump => false
  end.
Fixpoint any_change (m : omap N) (ops : list wop) : bool :=
  match ops with [] => false | o :: r => changes m o || any_change (mstep m o) r end.

Lemma wstep_dirty x o : txn_ok x ->
  t_dirty (wstep x o) = t_dirty x || changes (abs_txn x) o /\ t_rw (wstep x o) = t_rw x.
Proof.
  intros H. destruct o as [k v|k v f|k|]; cbn [wstep changes].
  - destruct (modify_dirty x None k v) as [-> ->]. now rewrite orb_true_r.
  - destruct (modify_dirty x (Some f) k v) as [-> ->]. now rewrite orb_true_r.
  - destruct (om_get k (abs_txn x)) as [v|] eqn:G.
    + destruct (delete_present_dirty x k v H G) as [-> ->]. now rewrite orb_true_r.
    + rewrite (delete_absent_unchanged x k H G). simpl. now rewrite orb_false_r.
  - simpl. now rewrite orb_false_r.
Qed.

(* the txn is dirty after a history iff some operation inserted, replaced or deleted a key *)
Theorem dirty_iff_changed ops : forall x, txn_ok x ->
  t_dirty (fold_left wstep ops x) = t_dirty x || any_change (abs_txn x) ops /\
  t_rw (fold_left wstep ops x) = t_rw x.
Proof.
  induction ops as [|o ops IH]; intros x H; simpl.
  - now rewrite orb_false_r.
  - destruct (wstep_refines x o H) as [H1 H2]. destruct (wstep_dirty x o H) as [D R].
    destruct (IH _ H1) as [D2 R2]. rewrite D2, R2, D, R, H2. now rewrite orb_assoc.
Qed.

(* root watch: after Tree.Txn; ops; Notify the tree's root channel is closed iff something changed,
   and then it is in the closed set exactly once at the end *)
Theorem root_watch_closed_iff t next ops :
  tree_ok t -> tr_rw t <> 0 ->
  let x := fold_left wstep ops (tree_txn t next) in
  (In (tr_rw t) (snd (txn_notify x)) <-> any_change (abs_tree t) ops = true \/ In (tr_rw t) (s_ws (t_st x))).
Proof.
  intros Ht Hrw x. destruct (tree_txn_ok t next Ht) as [H1 H2].
  destruct (dirty_iff_changed ops _ H1) as [D R]. fold x in D, R. simpl in D, R. rewrite H2 in D.
  rewrite notify_closes, D, R. apply N.eqb_neq in Hrw. rewrite Hrw. simpl.
  destruct (any_change (abs_tree t) ops); simpl; rewrite in_app_iff; simpl; intuition congruence.
Qed.

Definition ws_mono (s s' : st) : Prop := forall a, In a (s_ws s) -> In a (s_ws s').

Lemma ws_mono_refl s : ws_mono s s. Proof. intros a H; exact H. Qed.
Lemma ws_mono_trans s1 s2 s3 : ws_mono s1 s2 -> ws_mono s2 s3 -> ws_mono s1 s3.
Proof. intros H1 H2 a H. auto. Qed.
Lemma record_mono w s : ws_mono s (record w s).
Proof. unfold record, ws_mono. destruct (w =? 0); simpl; auto. Qed.
Lemma record_in w s : w <> 0 -> In w (s_ws (record w s)).
Proof. unfold record. intros H. apply N.eqb_neq in H. rewrite H. simpl. auto. Qed.
Lemma fresh_mono c s : ws_mono s (snd (fresh c s)).
Proof. unfold fresh, ws_mono. destruct (c_ro c); simpl; auto. Qed.
Lemma fresh_if_mono w s : ws_mono s (snd (fresh_if w s)).
Proof. unfold fresh_if, ws_mono. destruct (w =? 0); simpl; auto. Qed.
Lemma clone_hdr_mono c s t w : ws_mono s (snd (clone_hdr c s t w)).
Proof.
  unfold clone_hdr. destruct (t =? c_tid c); simpl; [apply ws_mono_refl|].
  pose proof (fresh_mono c (record w s)) as F. destruct (fresh c (record w s)); simpl in *.
  eapply ws_mono_trans; [apply record_mono|exact F].
Qed.
Lemma clone_leaf_mono c s l : ws_mono s (snd (clone_leaf c s l)).
Proof.
  unfold clone_leaf. destruct (0 =? c_tid c); simpl; [apply ws_mono_refl|].
  pose proof (fresh_mono c (record (lf_w l) s)) as F. destruct (fresh c (record (lf_w l) s)); simpl in *.
  eapply ws_mono_trans; [apply record_mono|exact F].
Qed.
Lemma clone_hdr_records c s t w : t <> c_tid c -> w <> 0 -> In w (s_ws (snd (clone_hdr c s t w))).
Proof. intros H1 H2. rewrite (proj2 (clone_hdr_inplace_only c s t w H1)). now apply record_in. Qed.
Lemma clone_leaf_records c s l : c_tid c <> 0 -> lf_w l <> 0 -> In (lf_w l) (s_ws (snd (clone_leaf c s l))).
Proof. intros H1 H2. rewrite (clone_leaf_inplace_only c s l H1). now apply record_in. Qed.

Definition pick (w w0 : N) : N := if w =? 0 then w0 else w.
Lemma pick_cases w w0 : (pick w w0 = w0) \/ (pick w w0 = w /\ w <> 0).
Proof. unfold pick. destruct (N.eqb_spec w 0); auto. Qed.

Lemma split_mono c fullKey v s this key : ws_mono s (m_st (split_node c fullKey v s this key)).
Proof.
  unfold split_node. cbv zeta. pose proof (fresh_mono c s) as F1. destruct (fresh c s) as [lw s1].
  pose proof (fresh_mono c s1) as F2. destruct (fresh c s1) as [nw s2]. simpl in *.
  eapply ws_mono_trans; eauto.
Qed.

(* txn.go removeChild does one of three things: merge the node with its last remaining child (recording the node's
   channel), demote it (new channel if it had one, the old one recorded), or clone its header *)
Lemma remove_child_cases c s kd t p w lf ch b :
  (exists y, ch_len ch = 2 /\ lf = None /\ ch_other b ch = Some y /\
             remove_child c s kd t p w lf ch b = (merge_child p y, record w s, false)) \/
  (exists kd', remove_child c s kd t p w lf ch b =
               (Inner kd' (c_tid c) p (fst (fresh_if w s)) lf (ch_remove b ch), record w (snd (fresh_if w s)), false)) \/
  remove_child c s kd t p w lf ch b =
  (Inner kd (fst (fst (clone_hdr c s t w))) p (snd (fst (clone_hdr c s t w))) lf (ch_remove b ch),
   snd (clone_hdr c s t w), t =? c_tid c).
Proof.
  unfold remove_child.
  destruct (ch_len ch =? 2) eqn:E2; [apply N.eqb_eq in E2; destruct lf; [|destruct (ch_other b ch) eqn:Eo]|].
  2:{ left. eauto 6. }
  all: right; destruct (_ || _);
    [left; eexists; destruct (fresh_if w s); reflexivity|right; destruct (clone_hdr c s t w) as [[? ?] ?]; reflexivity].
Qed.

(* the channels of the inner nodes visited on the way to the key *)
Fixpoint visit (n : node) (key : bytes) {struct n} : list N :=
  match n with
  | Leaf _ _ => []
  | Inner _ _ p w _ ch =>
    w :: match strip p key with Some ((b :: _) as rest) => visit_ch ch b rest | _ => [] end
  end
with visit_ch (ch : children) (b : N) (key : bytes) {struct ch} : list N :=
  match ch with CNil => [] | CCons b' x r => if b' =? b then visit x key else visit_ch r b key end.

Lemma has_prefix_app_inv q : forall p k, has_prefix (p ++ k) q = true -> has_prefix p q = true \/ exists r, strip p q = Some r.
Proof.
  induction q as [|y q IH]; intros [|x p] k; simpl; auto.
  - intros _. right. eexists; reflexivity.
  - destruct (N.eqb_spec x y) as [->|Hne]; simpl; [|discriminate]. intros H.
    destruct (IH p k H) as [H1|[r H1]]; auto. right. rewrite ?N.eqb_refl. eauto.
Qed.

Lemma modify_ch_none c md fk v s b key : forall ch, modify_ch c md fk v s ch b key = None -> ch_find b ch = None.
Proof.
  induction ch as [|b' x r IH]; [reflexivity|].
  cbn [modify_ch ch_find]; fold (modify_node c md fk v); fold (modify_ch c md fk v).
  destruct (b' =? b); [discriminate|]. destruct (modify_ch c md fk v s r b key) as [[r' res]|]; [discriminate|auto].
Qed.
Lemma search_ch_insert b x key w : forall ch, ch_find b ch = None ->
  search_ch (ch_insert b x ch) b key w = search_node x key w.
Proof.
  induction ch as [|b' y r IH]; intros Hf.
  - cbn [ch_insert search_ch]; fold search_node. now rewrite N.eqb_refl.
  - cbn [ch_find] in Hf. cbn [ch_insert]. destruct (N.eqb_spec b' b) as [->|Hne]; [discriminate|].
    destruct (b <? b').
    + cbn [search_ch]; fold search_node. now rewrite N.eqb_refl.
    + cbn [search_ch]; fold search_node; fold search_ch. apply N.eqb_neq in Hne. rewrite Hne. auto.
Qed.

Section IW.
Variable c : ctx.
Variable md : option (N -> N -> N).
Variable fullKey : bytes.
Variable v : N.

Lemma split_watch s this key w0 :
  (is_leaf this = true /\ key <> node_prefix this) \/ strip (node_prefix this) key = None ->
  let r := split_node c fullKey v s this key in
  m_w r <> 0 -> snd (search_node (m_node r) key w0) = m_w r.
Proof.
  intros Hc. unfold split_node. cbv zeta.
  destruct (common_split key (node_prefix this)) as (k' & p' & Ek & Ep & Hd).
  set (cp := common key (node_prefix this)) in *. clearbody cp.
  destruct (fresh c s) as [lw s1]. destruct (fresh c s1) as [nw s2].
  assert (Sk : skipn (length cp) key = k') by (rewrite Ek; apply skipn_app_len).
  assert (Sp : skipn (length cp) (node_prefix this) = p') by (rewrite Ep; apply skipn_app_len).
  rewrite Sp, Sk. clear Sp Sk.
  assert (Hpp : node_prefix (set_prefix this p') = p') by (destruct this; reflexivity).
  rewrite Hpp. cbn [m_node m_w]. intros Hnz.
  assert (Pk : forall a, pick lw a = lw) by (intros a; unfold pick; apply N.eqb_neq in Hnz; now rewrite Hnz).
  assert (Es : strip cp key = Some k') by (rewrite Ek; apply strip_app).
  destruct p' as [|tb p'].
  - destruct Hc as [[Hl Hne]|Hs].
    2:{ rewrite Ep, Ek, app_nil_r, strip_app in Hs. discriminate. }
    destruct k' as [|kb k']; [rewrite app_nil_r in Ek, Ep; congruence|].
    cbn [search_node search_ch hd]; fold search_ch; fold search_node. rewrite Es.
    cbn [search_ch search_node]. rewrite N.eqb_refl. cbn [search_node]. rewrite bytes_eqb_refl. cbn [snd lf_w].
    apply Pk.
  - destruct k' as [|kb k'].
    + cbn [search_node]; fold search_ch. rewrite Es. cbn [snd lf_w]. apply Pk.
    + simpl in Hd. destruct (N.ltb_spec tb kb) as [Hlt|Hge].
      * cbn [search_node]; fold search_ch. rewrite Es. cbn [search_ch]; fold search_node; fold search_ch.
        assert (Hn : (tb =? kb) = false) by (apply N.eqb_neq; lia). rewrite Hn, N.eqb_refl.
        cbn [search_node]. rewrite bytes_eqb_refl. cbn [snd lf_w]. apply Pk.
      * cbn [search_node]; fold search_ch. rewrite Es. cbn [search_ch]; fold search_node; fold search_ch.
        rewrite N.eqb_refl. cbn [search_node]. rewrite bytes_eqb_refl. cbn [snd lf_w]. apply Pk.
Qed.

Theorem modify_watch_is_get :
  (forall n s key w0, let r := modify_node c md fullKey v s n key in
     m_w r <> 0 -> snd (search_node (m_node r) key w0) = m_w r) /\
  (forall ch s b key w0,
     match modify_ch c md fullKey v s ch b key with
     | Some (ch', r) => m_w r <> 0 -> snd (search_ch ch' b key w0) = m_w r
     | None => True
     end).
Proof.
  apply node_children_ind.
  - intros p l s key w0. cbn [modify_node].
    destruct (bytes_eqb key p) eqn:E.
    + destruct (clone_leaf c s l) as [l' s']. cbn [m_node m_w search_node]. rewrite E. cbn [snd lf_w].
      intros Hnz. unfold pick. apply N.eqb_neq in Hnz. now rewrite Hnz.
    + apply split_watch. left. split; auto. simpl. now apply bytes_eqb_false.
  - intros kd t p w lf ch IH s key w0. cbn [modify_node]; fold (modify_ch c md fullKey v).
    destruct (strip p key) as [[|b rest]|] eqn:Es.
    + destruct (clone_hdr c s t w) as [[t' w'] s1].
      destruct lf as [l|]; [destruct (clone_leaf c s1 l) as [l' s2]|destruct (fresh c s1) as [lw s2]];
        cbn [m_node m_w search_node]; rewrite Es; cbn [snd lf_w]; intros Hnz; apply N.eqb_neq in Hnz; now rewrite Hnz.
    + destruct (clone_hdr c s t w) as [[t' w'] s1] eqn:Ec.
      specialize (IH s1 b (b :: rest) (if w' =? 0 then w0 else w')).
      destruct (modify_ch c md fullKey v s1 ch b (b :: rest)) as [[ch' r]|] eqn:Em.
      * cbn [m_node m_w search_node]; fold search_ch. rewrite Es. exact IH.
      * apply modify_ch_none in Em.
        destruct (kd <? ch_len ch + 1).
        -- destruct (fresh_if w (record w s)) as [w2 s2]. destruct (fresh c s2) as [lw s3].
           cbn [m_node m_w search_node]; fold search_ch. rewrite Es, search_ch_insert by auto.
           cbn [search_node]. rewrite bytes_eqb_refl. cbn [snd lf_w]. intros Hnz. apply N.eqb_neq in Hnz. now rewrite Hnz.
        -- destruct (fresh c s1) as [lw s3].
           cbn [m_node m_w search_node]; fold search_ch. rewrite Es, search_ch_insert by auto.
           cbn [search_node]. rewrite bytes_eqb_refl. cbn [snd lf_w]. intros Hnz. apply N.eqb_neq in Hnz. now rewrite Hnz.
    + destruct (clone_hdr c s t w) as [[t' w'] s']. apply split_watch. right. exact Es.
  - intros; exact I.
  - intros b' x IHx r IHr s b key w0. cbn [modify_ch]; fold (modify_node c md fullKey v); fold (modify_ch c md fullKey v).
    destruct (b' =? b) eqn:Eb.
    + cbn [search_ch]; fold search_node. rewrite Eb. apply IHx.
    + specialize (IHr s b key w0). destruct (modify_ch c md fullKey v s r b key) as [[r' res]|]; [|exact I].
      cbn [search_ch]; fold search_node; fold search_ch. rewrite Eb. exact IHr.
Qed.
End IW.

(* InsertWatch/ModifyWatch (per-node watch mode): the channel handed out is the one Get(k) returns on the txn
   afterwards, hence on the tree it commits to *)
Theorem insert_watch_is_get_watch x md key v :
  t_ro x = false ->
  let '(x', _, _, w) := txn_modify x md key v in
  w <> 0 -> snd (txn_get x' key) = w /\ snd (tree_get (snd (txn_commit x')) key) = w.
Proof.
  intros Hro. unfold txn_modify, txn_get, tree_get, txn_commit, root_get. rewrite Hro.
  destruct (t_root x) as [n|].
  - cbn [t_root t_rw t_dirty]. cbn [tr_root tr_rw snd]. intros Hnz. split; apply (proj1 (modify_watch_is_get _ md key v)); auto.
  - destruct (fresh (txn_ctx x) (t_st x)) as [lw s1]. cbn [m_node m_w t_root t_rw t_dirty tr_root tr_rw snd search_node].
    rewrite bytes_eqb_refl. cbn [snd lf_w]. intros Hnz. apply N.eqb_neq in Hnz. now rewrite Hnz.
Qed.
