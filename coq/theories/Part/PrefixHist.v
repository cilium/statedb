(* Part/PrefixHist.v — the Prefix clause of C12 along whole histories (Part/WatchHist.v watch_closed_history at QPre)
   is stated over these. *)
From SV Require Import Base.Bytes Part.Model Part.Refine.
Open Scope N_scope.

Section HistP.
Variable q : bytes.

(* which operations touch a key with prefix q *)
Definition touches_p (x : txn) (o : wop) : Prop :=
  match o with
  | WIns k' _ | WMod k' _ _ => has_prefix k' q = true
  | WDel k' => has_prefix k' q = true /\ snd (txn_delete x k') <> None
  | WBump => False
  end.
Fixpoint touched_p (x : txn) (ops : list wop) : Prop :=
  match ops with [] => False | o :: r => touches_p x o \/ touched_p (wstep x o) r end.
End HistP.

