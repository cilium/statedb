(* Part/Footprint.v — watch handles and the keys they cover (the part.Tree half of C06).

   A HANDLE is what a reader keeps from a committed tree: the channel of Get(k), of Prefix(q), or the
   root channel. Its COVERAGE is a set of keys: k itself; every key with prefix q; every key.
   The C12 history theorems (Part/WatchHist.v, Part/PrefixHist.v, Part/Fresh.v) are stated over the
   operations of a transaction ("some operation inserted / replaced / deleted-while-present a key ...").
   Here they are restated over the ordered maps the trees denote (Part/Refine.v abs_tree):
     if the map denoted by the tree before and after a transaction differ at a key the handle covers, the
     handle's channel is in the set closed by that transaction's Notify      (changed_key_closes_handle)
   and over chains of committed transactions:
     a handle not closed by a transaction is still the handle the next tree returns (handle_closed_or_kept),
     all side conditions are re-established by every commit (commit_tree_inv), hence if the maps denoted by
     the first and the last tree of a chain differ at a covered key, the Notify of one of the
     transactions of the chain closes the handle's channel           (chain_changed_key_closes_handle). *)
From SV Require Import Base.Bytes Base.OrdMap Part.Model Part.Sem Part.Refine Part.Cow Part.Watch Part.Stable
  Part.PStable Part.WatchHist Part.PrefixHist Part.InsertWatch Part.Fresh.
From Coq Require Import ZifyN ZifyNat ZifyBool.
Open Scope N_scope.

Inductive handle := HGet (k : bytes) | HPrefix (q : bytes) | HRoot.

(* the keys whose insertion, replacement or deletion must close the handle's channel *)
Definition h_covers (h : handle) (K : bytes) : bool :=
  match h with HGet k => bytes_eqb K k | HPrefix q => has_prefix K q | HRoot => true end.

(* the channel returned with the answer: Tree.Get / Tree.Prefix / Tree.RootWatch *)
Definition h_chan (t : tree) (h : handle) : N :=
  match h with
  | HGet k => snd (tree_get t k)
  | HPrefix q => snd (tree_prefix t q)
  | HRoot => tr_rw t
  end.

Lemma mstep_sorted m o : om_sorted m -> om_sorted (mstep m o).
Proof.
  intros S. destruct o; cbn [mstep]; auto using (@om_insert_sorted N), (@om_delete_sorted N).
Qed.

Lemma run_sorted ops : forall m, om_sorted m -> om_sorted (fold_left mstep ops m).
Proof. induction ops as [|o ops IH]; intros m S; cbn [fold_left]; auto. apply IH. now apply mstep_sorted. Qed.

Lemma binding_dec (a b : option N) : {a = b} + {a <> b}.
Proof. decide equality. apply N.eq_dec. Qed.

(* a handle as a query: its mode and key *)
Definition h_mode (h : handle) : qmode := match h with HGet _ => QGet | HPrefix _ => QPre | HRoot => QRoot end.
Definition h_key (h : handle) : bytes := match h with HGet k => k | HPrefix q => q | HRoot => [] end.
Lemma h_chan_rq t h : h_chan t h = rq (h_mode h) (tr_root t) (tr_rw t) (h_key h).
Proof. destruct h; [apply rq_get|apply rq_prefix|symmetry; apply rq_root]. Qed.
Lemma h_covers_spec h K : h_covers h K = true <-> covers (h_mode h) (h_key h) K.
Proof. destruct h; cbn; [apply bytes_eqb_spec|reflexivity|tauto]. Qed.

Lemma covers_dec m k K : {covers m k K} + {~ covers m k K}.
Proof. destruct m; cbn; [apply bytes_eq_dec|destruct (has_prefix K k); [left|right]; congruence|left; exact I]. Qed.

(* an operation either touches a key the query covers (in the sense of Part/WatchHist.v) or leaves the bindings of all
   those keys alone *)
Lemma touches_or_same m k x o : txn_ok x ->
  touches_q m k x o \/ forall K, covers m k K -> om_get K (mstep (abs_txn x) o) = om_get K (abs_txn x).
Proof.
  intros Hok. pose proof (abs_sorted _ (proj1 Hok)) as S. fold (abs_txn x) in S.
  assert (Hne : forall K k', ~ covers m k k' -> covers m k K -> K <> k') by (intros K k' H1 H2 ->; contradiction).
  destruct o as [k' v|k' v f|k'|]; cbn [touches_q mstep]; try (right; reflexivity);
    (destruct (covers_dec m k k') as [C|C]; [|right; intros K HK]).
  1,3: left; exact C.
  1,2: apply om_get_insert_other; eauto.
  2: apply om_get_delete_other; eauto.
  pose proof (txn_delete_refines x k' Hok) as R. destruct (txn_delete x k') as [x' old]. destruct R as (_ & _ & Eo).
  cbn [snd]. destruct old as [v|]; [left; split; [exact C|discriminate]|right; intros K HK].
  destruct (bytes_eq_dec K k') as [->|Hd]; [rewrite om_get_delete_same by assumption; exact Eo|now apply om_get_delete_other].
Qed.

(* the maps differ at a covered key after the operations => some operation touched one *)
Lemma differ_touched m k ops : forall x, txn_ok x ->
  (exists K, covers m k K /\ om_get K (fold_left mstep ops (abs_txn x)) <> om_get K (abs_txn x)) ->
  touched_q m k x ops.
Proof.
  induction ops as [|o ops IH]; intros x Hok [K [HK Hd]]; cbn [fold_left touched_q] in *; [congruence|].
  destruct (wstep_refines x o Hok) as [Hok' Ea].
  destruct (touches_or_same m k x o Hok) as [T|E]; [left; exact T|right].
  apply IH; auto. exists K. split; auto. rewrite Ea, (E K HK). exact Hd.
Qed.

(* the side conditions of the C12 history theorems, as one invariant of committed trees.
   tree_ok: radix-tree well-formedness (C11); tree_ids_ok / root_tmono: the txn-id discipline (C11, C12);
   CKt: channel accounting w.r.t. the channel allocator `next` (C12_new_tree_channels_open) *)
Definition tree_inv (t : tree) (next : N) : Prop :=
  tree_ok t /\ tree_ids_ok t /\ tr_next t <> 0 /\ root_tmono (tr_root t) /\ CKt t next /\ tr_rw t <> 0.

Lemma tree_inv_new ro next : 0 < next -> tree_inv (fst (tree_new ro next)) (next + 1).
Proof.
  intros Hp. unfold tree_inv. split; [apply tree_new_ok|]. split; [apply tree_new_ids|].
  split; [cbn; lia|]. split; [exact I|]. split; [now apply tree_new_CKt|cbn; lia].
Qed.

Lemma tree_inv_mono t next next' : next <= next' -> tree_inv t next -> tree_inv t next'.
Proof.
  intros Hl (A & B & C & D & E & G). split; [exact A|]. split; [exact B|]. split; [exact C|]. split; [exact D|].
  split; [eapply CKt_mono; eauto|exact G].
Qed.

(* with a non-nil root channel no handle is the nil channel *)
Lemma h_chan_nz t h : tr_rw t <> 0 -> h_chan t h <> 0.
Proof. intros Hr. rewrite h_chan_rq. unfold rq. destruct (tr_root t); [now apply pickl_nz|exact Hr]. Qed.

(* every channel handed out is older than the allocator *)
Lemma h_chan_lt t next h : CKt t next -> h_chan t h <> 0 -> h_chan t h < next.
Proof.
  intros [Hb Hu Hw Hr Hp]. cbn [s_next] in *. rewrite h_chan_rq.
  destruct (rq_occurs (h_mode h) (tr_root t) (tr_rw t) (h_key h)) as [->|[Hn Hc]]; intros Hn0.
  - destruct Hr as [E|[L _]]; [congruence|exact L].
  - destruct (N.lt_ge_cases (rq (h_mode h) (tr_root t) (tr_rw t) (h_key h)) next) as [L|G]; auto.
    rewrite (Hb _ Hn G) in Hc. lia.
Qed.

(* for the files that import only this one *)
Definition tree_txn_TInv := WatchHist.tree_txn_TInv.
Lemma run_TInv next0 ops x : TInv next0 (Fr next0) x -> TInv next0 (Fr next0) (fold_left wstep ops x).
Proof. apply run_inv, Fr_alloc. Qed.

(* T: committed tree; h: a handle taken on T; ops: ALL write operations of the next transaction on T (any number,
   any order, interleaved with reads = id bumps). If the map denoted by the tree the transaction commits differs
   from the map denoted by T at a key covered by h, then h's channel is in the set closed by the transaction's
   Notify — i.e. closed no later than the return of the Commit that made the change. *)
Theorem changed_key_closes_handle t next ops h :
  tree_inv t next ->
  let xe := fold_left wstep ops (tree_txn t next) in
  (exists K, h_covers h K = true /\ om_get K (abs_tree (snd (txn_commit xe))) <> om_get K (abs_tree t)) ->
  In (h_chan t h) (snd (txn_notify xe)).
Proof.
  intros (Hok & Hids & Hnz & Hm & Hck & Hrw). cbv zeta. intros [K [Hc Hd]].
  pose proof (h_chan_nz t h Hrw) as Hn0. pose proof (h_chan_lt t next h Hck Hn0) as Hlt.
  destruct (tree_txn_ok t next Hok) as [Tok Ta].
  destruct (history_refines ops _ Tok) as [Xok Xa].
  destruct (txn_commit_ok _ Xok) as (_ & Ca & _). rewrite Ca, Xa in Hd.
  rewrite h_chan_rq in *. apply watch_closed_history; auto. apply differ_touched; [exact Tok|].
  exists K. split; [now apply h_covers_spec|]. now rewrite Ta.
Qed.

(* write_txn.go Commit calls tx.Commit() on every index first and tx.Notify() after the root is stored: the set closed
   is the same as with Notify before Commit (txn_commit_notify) *)
Lemma notify_after_commit x : snd (txn_notify (fst (txn_commit x))) = snd (txn_notify x).
Proof. unfold txn_commit, txn_notify. destruct (t_dirty x); reflexivity. Qed.

Lemma commit_root x : tr_root (snd (txn_commit x)) = t_root x /\
  tr_rw (snd (txn_commit x)) = (if t_dirty x then s_next (t_st x) else t_rw x).
Proof. unfold txn_commit. destruct (t_dirty x); auto. Qed.

Theorem handle_closed_or_kept t next ops h :
  tree_inv t next ->
  let xe := fold_left wstep ops (tree_txn t next) in
  In (h_chan t h) (snd (txn_notify xe)) \/ h_chan (snd (txn_commit xe)) h = h_chan t h.
Proof.
  intros (Hok & Hids & Hnz & Hm & Hck & Hrw). cbv zeta.
  pose proof (h_chan_nz t h Hrw) as Ha0. pose proof (h_chan_lt t next h Hck Ha0) as Hlt.
  rewrite !h_chan_rq in *. now apply watch_closed_or_kept.
Qed.

(* every commit re-establishes the invariant, for the allocator as the transaction left it *)
Theorem commit_tree_inv t next ops : tree_inv t next ->
  let xe := fold_left wstep ops (tree_txn t next) in
  tree_inv (snd (txn_commit xe)) (s_next (t_st (fst (txn_commit xe)))) /\
  abs_tree (snd (txn_commit xe)) = fold_left mstep ops (abs_tree t) /\
  next <= s_next (t_st (fst (txn_commit xe))).
Proof.
  intros (Hok & Hids & Hnz & Hm & Hck & Hrw). cbv zeta.
  destruct (tree_txn_ok t next Hok) as [Tok Ta].
  destruct (history_refines ops _ Tok) as [Xok Xa].
  destruct (txn_commit_ok _ Xok) as (Cok & Ca & _).
  pose proof (ck_pos _ _ _ Hck) as Hpos. cbn [s_next] in Hpos.
  pose proof (run_TInv next ops _ (tree_txn_TInv t next Hids Hnz Hm)) as Te.
  pose proof (new_tree_channels_open t next ops Hck Hnz) as Nt. cbv zeta in Nt. destruct Nt as (_ & _ & _ & Nck).
  set (xe := fold_left wstep ops (tree_txn t next)) in *.
  destruct (commit_side next (Fr next) xe Te) as (A1 & A2 & A3). destruct Te as (_ & _ & Hne).
  split; [|split].
  - repeat (split; [assumption|]).
    destruct (commit_root xe) as [_ ->]. destruct (t_dirty xe); [lia|]. unfold xe. now rewrite run_rw.
  - rewrite Ca, Xa. reflexivity.
  - unfold txn_commit. destruct (t_dirty xe); cbn [fst t_st s_next]; lia.
Qed.

(* a chain: each element = (gap, ops): `gap` channels are allocated elsewhere (other trees share the allocator)
   before the transaction begins on the tree committed by the previous one *)
Fixpoint chain_end (t : tree) (next : N) (txns : list (N * list wop)) : tree * N :=
  match txns with
  | [] => (t, next)
  | (gap, ops) :: rest =>
    let xe := fold_left wstep ops (tree_txn t (next + gap)) in
    chain_end (snd (txn_commit xe)) (s_next (t_st (fst (txn_commit xe)))) rest
  end.
(* the sets closed by the Notify of each transaction of the chain *)
Fixpoint chain_closed (t : tree) (next : N) (txns : list (N * list wop)) : list (list N) :=
  match txns with
  | [] => []
  | (gap, ops) :: rest =>
    let xe := fold_left wstep ops (tree_txn t (next + gap)) in
    snd (txn_notify xe) :: chain_closed (snd (txn_commit xe)) (s_next (t_st (fst (txn_commit xe)))) rest
  end.

Theorem chain_tree_inv txns : forall t next, tree_inv t next ->
  tree_inv (fst (chain_end t next txns)) (snd (chain_end t next txns)).
Proof.
  induction txns as [|[gap ops] rest IH]; intros t next H; cbn [chain_end]; auto.
  apply IH. apply commit_tree_inv. eapply tree_inv_mono; [|exact H]. lia.
Qed.

(* NO MISSED CHANGE over histories of transactions: if the map denoted by the last tree differs from the map
   denoted by the tree the handle was taken on, at a key the handle covers, then the Notify of one of the
   transactions in between closed the handle's channel *)
Theorem chain_changed_key_closes_handle txns : forall t next h,
  tree_inv t next ->
  (exists K, h_covers h K = true /\
             om_get K (abs_tree (fst (chain_end t next txns))) <> om_get K (abs_tree t)) ->
  exists cl, In cl (chain_closed t next txns) /\ In (h_chan t h) cl.
Proof.
  induction txns as [|[gap ops] rest IH]; intros t next h HI [K [Hc Hd]]; cbn [chain_end chain_closed] in *.
  - cbn [fst] in Hd. congruence.
  - assert (HI' : tree_inv t (next + gap)) by (eapply tree_inv_mono; [|exact HI]; lia).
    pose proof (changed_key_closes_handle t (next + gap) ops h HI') as Ch. cbv zeta in Ch.
    pose proof (handle_closed_or_kept t (next + gap) ops h HI') as Ck. cbv zeta in Ck.
    pose proof (commit_tree_inv t (next + gap) ops HI') as Ci. cbv zeta in Ci. destruct Ci as (Ci & _ & _).
    set (xe := fold_left wstep ops (tree_txn t (next + gap))) in *.
    destruct Ck as [Cl|Kept]; [eexists; split; [left; reflexivity|exact Cl]|].
    destruct (binding_dec (om_get K (abs_tree (snd (txn_commit xe)))) (om_get K (abs_tree t))) as [E|Ne].
    + destruct (IH (snd (txn_commit xe)) (s_next (t_st (fst (txn_commit xe)))) h Ci) as [cl [I1 I2]].
      * exists K. split; auto. now rewrite E.
      * exists cl. split; [right; exact I1|]. now rewrite <- Kept.
    + eexists. split; [left; reflexivity|]. apply Ch. exists K. auto.
Qed.

(* non-vacuity: a tree with keys [1], [1;2], [2]; the handle of Prefix([1]) taken on it; two later transactions, the
   second of which deletes [1;2] (after re-inserting an unrelated key): the closed set of the second contains the
   handle's channel, and the first one kept it *)
Example chain_nonvacuous :
  let t0 := fst (tree_new false 1) in
  let t1 := snd (txn_commit (fold_left wstep [WIns [1] 10; WIns [1;2] 11; WIns [2] 12] (tree_txn t0 2))) in
  let next1 := 20 in
  let h := HPrefix [1] in
  let txns := [(0, [WIns [2] 13]); (3, [WIns [3] 1; WBump; WDel [1;2]])] in
  tree_inv t0 2 /\ tree_inv t1 next1 /\ h_chan t1 h <> 0 /\
  h_covers h [1;2] = true /\
  om_get [1;2] (abs_tree (fst (chain_end t1 next1 txns))) <> om_get [1;2] (abs_tree t1) /\
  map (fun cl => existsb (N.eqb (h_chan t1 h)) cl) (chain_closed t1 next1 txns) = [false; true].
Proof.
  cbv zeta.
  assert (I0 : tree_inv (fst (tree_new false 1)) 2) by (apply (tree_inv_new false 1); lia).
  split; [exact I0|]. split.
  - eapply tree_inv_mono; [|exact (proj1 (commit_tree_inv _ 2 [WIns [1] 10; WIns [1;2] 11; WIns [2] 12] I0))].
    vm_compute. discriminate.
  - vm_compute. repeat split; auto; discriminate.
Qed.

Print Assumptions changed_key_closes_handle.
Print Assumptions chain_changed_key_closes_handle.
