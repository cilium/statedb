(* Part/Refine.v — Txn/Tree level refinement to Base/OrdMap; histories inside a transaction and
   the definition of chains of committed transactions (run_txns; the theorems
   about them are in Properties/C11.v). *)
From SV Require Import Base.Bytes Base.OrdMap Part.Model Part.Sem Part.Insert Part.Delete Part.Query.
From Coq Require Import ZifyN ZifyNat ZifyBool.
Open Scope N_scope.

Definition abs_root (r : option node) : omap N := match r with None => [] | Some n => ents n end.
Definition wf_root (r : option node) : Prop := match r with None => True | Some n => wfk [] n end.
Definition abs_txn (x : txn) : omap N := abs_root (t_root x).
Definition abs_tree (t : tree) : omap N := abs_root (tr_root t).
Definition len_ok (sz : N) (m : omap N) : Prop := sz = N.of_nat (length m).
Definition txn_ok (x : txn) : Prop := wf_root (t_root x) /\ len_ok (t_size x) (abs_txn x).
Definition tree_ok (t : tree) : Prop := wf_root (tr_root t) /\ len_ok (tr_size t) (abs_tree t).

Lemma abs_sorted r : wf_root r -> om_sorted (abs_root r).
Proof. destruct r as [n|]; simpl; auto. intros H. eapply (proj1 ents_sorted); eauto. Qed.

Lemma om_insert_length k v (m : omap N) :
  length (om_insert k v m) = match om_get k m with Some _ => length m | None => S (length m) end.
Proof.
  induction m as [|[k' v'] m IH]; simpl; auto.
  destruct (bytes_eqb k k'); simpl; auto. destruct (bytes_ltb k k'); simpl; auto.
  rewrite IH. destruct (om_get k m); auto.
Qed.
Lemma om_delete_length k (m : omap N) :
  length (om_delete k m) = match om_get k m with Some _ => pred (length m) | None => length m end.
Proof.
  induction m as [|[k' v'] m IH]; simpl; auto.
  destruct (bytes_eqb k k'); simpl; auto. destruct (bytes_ltb k k'); simpl; auto.
  rewrite IH. destruct (om_get k m) eqn:E; auto. destruct m; simpl in *; [discriminate|auto].
Qed.

Theorem txn_modify_refines x md key v :
  txn_ok x ->
  let '(x', old, nv, _) := txn_modify x md key v in
  txn_ok x' /\
  abs_txn x' = om_insert key nv (abs_txn x) /\
  old = om_get key (abs_txn x) /\
  nv = match old with Some o => new_val md v o | None => v end.
Proof.
  intros [Hw Hl]. unfold txn_modify, txn_ok, abs_txn in *.
  destruct (t_root x) as [n|] eqn:Er; simpl in Hw, Hl.
  - pose proof (modify_spec (txn_ctx x) md key v n [] (t_st x) key Hw eq_refl) as (W & E & O & V & _).
    set (r := modify_node (txn_ctx x) md key v (t_st x) n key) in *. simpl.
    rewrite E, O. repeat split; auto.
    + unfold len_ok in *. rewrite om_insert_length, Hl. destruct (om_get key (ents n)); lia.
    + now rewrite <- O.
  - destruct (fresh (txn_ctx x) (t_st x)) as [lw s1]. cbn [m_node m_old m_val t_root t_size abs_root wf_root wfk ents].
    unfold len_ok in *. simpl in *. repeat split; auto. lia.
Qed.

Theorem txn_delete_refines x key :
  txn_ok x ->
  let '(x', old) := txn_delete x key in
  txn_ok x' /\ abs_txn x' = om_delete key (abs_txn x) /\ old = om_get key (abs_txn x).
Proof.
  intros [Hw Hl]. unfold txn_delete, txn_ok, abs_txn in *.
  destruct (t_root x) as [n|] eqn:Er; simpl in Hw, Hl.
  - pose proof (del_node_spec (txn_ctx x) n [] (t_st x) key Hw) as D.
    destruct (del_node (txn_ctx x) (t_st x) n key) as [|old repl s ip]; cbn [dspec] in D.
    + rewrite Er. cbn [abs_root wf_root]. repeat split; auto. symmetry. now apply om_delete_absent.
    + destruct D as [G D]. cbn [t_root t_size abs_root]. rewrite G.
      assert (Ln : len_ok (t_size x - 1) (om_delete key (ents n))).
      { unfold len_ok in *. rewrite om_delete_length, G, Hl. lia. }
      destruct repl as [n'|]; cbn [abs_root wf_root].
      * destruct D as (W & E & _). rewrite E. repeat split; auto.
      * rewrite D in *. repeat split; auto.
  - rewrite Er. simpl. repeat split; auto.
Qed.

Lemma tree_txn_ok t next : tree_ok t -> txn_ok (tree_txn t next) /\ abs_txn (tree_txn t next) = abs_tree t.
Proof. intros [H1 H2]. repeat split; auto. Qed.
Lemma txn_commit_ok x : txn_ok x -> tree_ok (snd (txn_commit x)) /\ abs_tree (snd (txn_commit x)) = abs_txn x
  /\ txn_ok (fst (txn_commit x)) /\ abs_txn (fst (txn_commit x)) = abs_txn x.
Proof. intros [H1 H2]. unfold txn_commit. destruct (t_dirty x); repeat split; auto. Qed.
Lemma txn_clone_ok x : txn_ok x -> tree_ok (snd (txn_clone x)) /\ abs_tree (snd (txn_clone x)) = abs_txn x
  /\ txn_ok (fst (txn_clone x)) /\ abs_txn (fst (txn_clone x)) = abs_txn x.
Proof. intros [H1 H2]. repeat split; auto. Qed.
Lemma txn_notify_ok x : txn_ok x -> txn_ok (fst (txn_notify x)) /\ abs_txn (fst (txn_notify x)) = abs_txn x.
Proof. intros [H1 H2]. repeat split; auto. Qed.
Lemma tree_new_ok ro next : tree_ok (fst (tree_new ro next)) /\ abs_tree (fst (tree_new ro next)) = [].
Proof. repeat split; auto. Qed.
Lemma bump_ok x : txn_ok x -> txn_ok (bump x) /\ abs_txn (bump x) = abs_txn x.
Proof. intros [H1 H2]. repeat split; auto. Qed.

(* histories: any sequence of write operations and id bumps (Clone, Iterator, Prefix,
   LowerBound, All only bump txnID) inside a txn *)
Inductive wop :=
| WIns (k : bytes) (v : N)
| WMod (k : bytes) (v : N) (f : N -> N -> N)
| WDel (k : bytes)
| WBump.

Definition wstep (x : txn) (o : wop) : txn :=
  match o with
  | WIns k v => fst (fst (fst (txn_modify x None k v)))
  | WMod k v f => fst (fst (fst (txn_modify x (Some f) k v)))
  | WDel k => fst (txn_delete x k)
  | WBump => bump x
  end.
Definition mstep (m : omap N) (o : wop) : omap N :=
  match o with
  | WIns k v => om_insert k v m
  | WMod k v f => om_insert k (match om_get k m with Some o => f o v | None => v end) m
  | WDel k => om_delete k m
  | WBump => m
  end.

Lemma wstep_refines x o : txn_ok x -> txn_ok (wstep x o) /\ abs_txn (wstep x o) = mstep (abs_txn x) o.
Proof.
  intros H. destruct o as [k v|k v f|k|]; cbn [wstep mstep].
  - pose proof (txn_modify_refines x None k v H) as R. destruct (txn_modify x None k v) as [[[x' old] nv] w].
    destruct R as (A & B & C & D). cbn [fst]. split; auto. rewrite B, D. now destruct old.
  - pose proof (txn_modify_refines x (Some f) k v H) as R. destruct (txn_modify x (Some f) k v) as [[[x' old] nv] w].
    destruct R as (A & B & C & D). cbn [fst]. split; auto. rewrite B, D, C. reflexivity.
  - pose proof (txn_delete_refines x k H) as R. destruct (txn_delete x k) as [x' old].
    destruct R as (A & B & C). cbn [fst]. auto.
  - now apply bump_ok.
Qed.

Theorem history_refines ops : forall x, txn_ok x ->
  txn_ok (fold_left wstep ops x) /\ abs_txn (fold_left wstep ops x) = fold_left mstep ops (abs_txn x).
Proof.
  induction ops as [|o ops IH]; intros x H; simpl; auto.
  destruct (wstep_refines x o H) as [H1 H2]. destruct (IH _ H1) as [H3 H4]. split; auto. now rewrite H4, H2.
Qed.

(* a chain of transactions, each committed on the previous tree *)
Fixpoint run_txns (t : tree) (next : N) (txns : list (list wop)) : list tree :=
  match txns with
  | [] => []
  | ops :: rest =>
    let x := fold_left wstep ops (tree_txn t next) in
    let t' := snd (txn_commit x) in
    t' :: run_txns t' (s_next (t_st (fst (txn_commit x)))) rest
  end.
Fixpoint run_abs (m : omap N) (txns : list (list wop)) : list (omap N) :=
  match txns with
  | [] => []
  | ops :: rest => let m' := fold_left mstep ops m in m' :: run_abs m' rest
  end.
