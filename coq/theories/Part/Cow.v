(* Part/Cow.v — the txn-id (copy-on-write) discipline of part.Txn.
   In the Go code a node is mutated in place exactly when node.txnID = txn.txnID
   (cloneNode returns its argument); in the model this is the identity branch of
   clone_hdr / clone_leaf. The theorems: (1) every node of a txn's tree has id <= txn id;
   (2) every root handed out (Clone, Iterator, Prefix, LowerBound, All, Commit) is handed out
   together with an id bump, so all its nodes have ids < every later txn id of that txn and of
   every txn begun from the committed tree; (3) consequently cloneNode never takes the
   in-place branch on a node of a handed-out root. *)
From SV Require Import Base.Bytes Base.OrdMap Part.Model Part.Sem Part.Insert Part.Delete.
From Coq Require Import ZifyN ZifyNat ZifyBool.
Open Scope N_scope.

Fixpoint tids_le (T : N) (n : node) : Prop :=
  match n with
  | Leaf _ _ => True
  | Inner _ t _ _ _ ch => t <= T /\ tids_le_ch T ch
  end
with tids_le_ch (T : N) (ch : children) : Prop :=
  match ch with CNil => True | CCons _ x r => tids_le T x /\ tids_le_ch T r end.

Lemma tids_le_mono :
  (forall n T T', T <= T' -> tids_le T n -> tids_le T' n) /\
  (forall ch T T', T <= T' -> tids_le_ch T ch -> tids_le_ch T' ch).
Proof.
  apply node_children_ind; simpl; auto.
  - intros kd t p w lf ch IH T T' H [H1 H2]. split; [lia|eauto].
  - intros b x IHx r IHr T T' H [H1 H2]. split; eauto.
Qed.

Lemma tids_set_prefix T n q : tids_le T (set_prefix n q) <-> tids_le T n.
Proof. destruct n; simpl; tauto. Qed.
Lemma tids_ch_insert T b p l : forall ch, tids_le_ch T ch -> tids_le_ch T (ch_insert b (Leaf p l) ch).
Proof. induction ch as [|b' x r IH]; simpl; auto. intros [H1 H2]. destruct (b <? b'); simpl; auto. Qed.
Lemma tids_ch_set T b y : forall ch, tids_le T y -> tids_le_ch T ch -> tids_le_ch T (ch_set b y ch).
Proof. induction ch as [|b' x r IH]; simpl; auto. intros Hy [H1 H2]. destruct (b' =? b); simpl; auto. Qed.
Lemma tids_ch_remove T b : forall ch, tids_le_ch T ch -> tids_le_ch T (ch_remove b ch).
Proof. induction ch as [|b' x r IH]; simpl; auto. intros [H1 H2]. destruct (b' =? b); simpl; auto. Qed.
Lemma tids_ch_other T b : forall ch x, tids_le_ch T ch -> ch_other b ch = Some x -> tids_le T x.
Proof.
  induction ch as [|b' y r IH]; simpl; [discriminate|]. intros x [H1 H2]. destruct (b' =? b); eauto.
  intros [= <-]. auto.
Qed.
Lemma tids_ch_find T b : forall ch x, tids_le_ch T ch -> ch_find b ch = Some x -> tids_le T x.
Proof.
  induction ch as [|b' y r IH]; simpl; [discriminate|]. intros x [H1 H2]. destruct (b' =? b); eauto.
  intros [= <-]. auto.
Qed.

Section Ids.
Variable c : ctx.
Notation T := (c_tid c).

(* cloneNode is the identity (in-place mutation) only on nodes owned by the txn *)
Lemma clone_hdr_inplace_only s t w : t <> T -> fst (fst (clone_hdr c s t w)) = T /\
  s_ws (snd (clone_hdr c s t w)) = s_ws (record w s).
Proof.
  intros H. unfold clone_hdr. apply N.eqb_neq in H. rewrite H. unfold fresh.
  destruct (c_ro c); simpl; auto.
Qed.
Lemma clone_leaf_inplace_only s l : T <> 0 -> s_ws (snd (clone_leaf c s l)) = s_ws (record (lf_w l) s).
Proof.
  intros H. unfold clone_leaf. destruct (N.eqb_spec 0 T) as [E|_]; [congruence|]. unfold fresh.
  destruct (c_ro c); simpl; auto.
Qed.

Section Mod.
Variable md : option (N -> N -> N).
Variable fullKey : bytes.
Variable v : N.

Lemma split_tids s this key : tids_le T this -> tids_le T (m_node (split_node c fullKey v s this key)).
Proof.
  intros H. unfold split_node. cbv zeta. destruct (fresh c s) as [lw s1]. destruct (fresh c s1) as [nw s2].
  cbn [m_node].
  set (this' := set_prefix this _). assert (H' : tids_le T this') by now apply tids_set_prefix.
  destruct (node_prefix this') as [|tb tl]; [|destruct (skipn _ key) as [|kb kl]; [|destruct (tb <? kb)]];
    simpl; repeat split; auto; lia.
Qed.

Lemma modify_node_tids : forall n s key, tids_le T n -> tids_le T (m_node (modify_node c md fullKey v s n key)).
Proof.
  induction n as [p l|kd t p w lf ch IH] using node_find_ind; intros s key Hn; cbn [modify_node]; fold (modify_ch c md fullKey v).
  - destruct (bytes_eqb key p); [destruct (clone_leaf c s l); exact I|now apply split_tids].
  - destruct Hn as [_ Hc]. pose proof (clone_hdr_fst c s t w) as Et.
    destruct (clone_hdr c s t w) as [[t' w'] s1]. simpl in Et. subst t'.
    destruct (strip p key) as [[|b rest]|].
    + destruct lf as [l|]; [destruct (clone_leaf c s1 l)|destruct (fresh c s1)]; simpl; split; auto; lia.
    + rewrite modify_ch_find. destruct (ch_find b ch) as [x|] eqn:Ef.
      * simpl. split; [lia|]. apply tids_ch_set; auto. apply (IH b x Ef). eapply tids_ch_find; eauto.
      * destruct (kd <? ch_len ch + 1);
          [destruct (fresh_if w (record w s)) as [w2 s2]; destruct (fresh c s2) as [lw s3]|destruct (fresh c s1) as [lw s3]];
          simpl; (split; [lia|now apply tids_ch_insert]).
    + apply split_tids. simpl. split; [lia|auto].
Qed.

Theorem modify_tids :
  (forall n s key, tids_le T n -> tids_le T (m_node (modify_node c md fullKey v s n key))) /\
  (forall ch s b key, tids_le_ch T ch ->
     match modify_ch c md fullKey v s ch b key with Some (ch', _) => tids_le_ch T ch' | None => True end).
Proof.
  split; [exact modify_node_tids|]. intros ch s b key Hc. rewrite modify_ch_find.
  destruct (ch_find b ch) as [x|] eqn:Ef; [|exact I].
  apply tids_ch_set; auto. apply modify_node_tids. eapply tids_ch_find; eauto.
Qed.
End Mod.

Lemma remove_child_tids s kd t p w lf ch b :
  tids_le_ch T ch -> tids_le T (fst (fst (remove_child c s kd t p w lf ch b))).
Proof.
  intros Hc. destruct (remove_child_node c s kd t p w lf ch b) as [(x & _ & _ & Eo & ->)|(w' & _ & ->)].
  - apply tids_set_prefix. eapply tids_ch_other; eauto.
  - simpl. split; [lia|now apply tids_ch_remove].
Qed.

Definition dres_tids (r : dres) : Prop :=
  match r with DSome _ (Some n') _ _ => tids_le T n' | _ => True end.

Lemma del_node_tids : forall n s key, tids_le T n -> dres_tids (del_node c s n key).
Proof.
  induction n as [p l|kd t p w lf ch IH] using node_find_ind; intros s key Hn; cbn [del_node]; fold (del_ch c).
  - destruct (bytes_eqb key p); exact I.
  - destruct Hn as [Ht Hc]. destruct (strip p key) as [[|b rest]|]; [| |exact I].
    + destruct lf as [l|]; [|exact I].
      destruct ch as [|b1 x1 [|b2 x2 r]]; [exact I| |].
      * simpl. apply tids_set_prefix. simpl in Hc. tauto.
      * pose proof (clone_hdr_fst c (record (lf_w l) s) t w) as Hcl.
        destruct (clone_hdr c (record (lf_w l) s) t w) as [[t' w'] s2]. simpl in *. subst t'. split; [lia|tauto].
    + rewrite del_ch_find. destruct (ch_find b ch) as [y|] eqn:Ef; [|exact I].
      specialize (IH b y Ef s (b :: rest) (tids_ch_find T b ch y Hc Ef)).
      destruct (del_node c s y (b :: rest)) as [|old [x|] s1 ip]; [exact I| |].
      * simpl in IH. pose proof (tids_ch_set T b x ch IH Hc) as Hs.
        destruct ip; [simpl; auto|]. pose proof (clone_hdr_fst c s1 t w) as Hcl.
        destruct (clone_hdr c s1 t w) as [[t' w'] s2]. simpl in *. subst t'. split; [lia|auto].
      * pose proof (remove_child_tids s1 kd t p w lf ch b Hc) as R.
        destruct (remove_child c s1 kd t p w lf ch b) as [[n' s2] ip']. exact R.
Qed.

Theorem delete_tids :
  (forall n s key, tids_le T n -> dres_tids (del_node c s n key)) /\
  (forall ch s b key, tids_le_ch T ch -> dres_tids (del_ch c s ch b key)).
Proof.
  split; [exact del_node_tids|]. intros ch s b key Hc. rewrite del_ch_find.
  destruct (ch_find b ch) as [y|] eqn:Ef; [|exact I]. apply del_node_tids. eapply tids_ch_find; eauto.
Qed.
End Ids.

Definition root_tids_le (T : N) (r : option node) : Prop := match r with None => True | Some n => tids_le T n end.
(* every node of the txn's tree has id <= the txn's id *)
Definition txn_ids_ok (x : txn) : Prop := root_tids_le (t_tid x) (t_root x).
(* every node of a published tree has id < the id of any txn begun from it *)
Definition tree_ids_ok (t : tree) : Prop :=
  match tr_root t with None => True | Some n => 0 < tr_next t /\ tids_le (tr_next t - 1) n end.

Lemma txn_modify_ids x md key v : txn_ids_ok x ->
  txn_ids_ok (fst (fst (fst (txn_modify x md key v)))) /\ t_tid (fst (fst (fst (txn_modify x md key v)))) = t_tid x.
Proof.
  unfold txn_ids_ok, txn_modify. intros H. destruct (t_root x) as [n|]; simpl in *.
  - split; auto. apply (proj1 (modify_tids (txn_ctx x) md key v)). exact H.
  - destruct (fresh (txn_ctx x) (t_st x)). simpl. auto.
Qed.
Lemma txn_delete_ids x key : txn_ids_ok x ->
  txn_ids_ok (fst (txn_delete x key)) /\ t_tid (fst (txn_delete x key)) = t_tid x.
Proof.
  unfold txn_ids_ok, txn_delete. intros H. destruct (t_root x) as [n|] eqn:Er; simpl in *.
  - pose proof (proj1 (delete_tids (txn_ctx x)) n (t_st x) key H) as D.
    destruct (del_node (txn_ctx x) (t_st x) n key) as [|old [n'|] s ip]; simpl in *; rewrite ?Er; auto.
  - rewrite Er. simpl. auto.
Qed.

(* a root handed out with an id bump: all its ids are below the txn id from then on *)
Definition published (x : txn) (r : option node) : Prop :=
  match r with None => True | Some n => 0 < t_tid x /\ tids_le (t_tid x - 1) n end.

(* after txnID++ every node of the root lies strictly below the txn id *)
Lemma root_tids_bump T r : root_tids_le T r ->
  match r with None => True | Some n => 0 < T + 1 /\ tids_le (T + 1 - 1) n end /\ root_tids_le (T + 1) r.
Proof.
  destruct r as [n|]; simpl; auto. intros H. replace (T + 1 - 1) with T by lia. repeat split; auto; [lia|].
  eapply (proj1 tids_le_mono); [|exact H]. lia.
Qed.

Lemma bump_publishes x : txn_ids_ok x -> published (bump x) (t_root x) /\ txn_ids_ok (bump x).
Proof. exact (root_tids_bump (t_tid x) (t_root x)). Qed.
Lemma commit_publishes x : txn_ids_ok x -> tree_ids_ok (snd (txn_commit x)) /\ txn_ids_ok (fst (txn_commit x)).
Proof. unfold txn_commit. destruct (t_dirty x); exact (root_tids_bump (t_tid x) (t_root x)). Qed.
Lemma clone_publishes x : txn_ids_ok x -> tree_ids_ok (snd (txn_clone x)) /\ txn_ids_ok (fst (txn_clone x)).
Proof. exact (root_tids_bump (t_tid x) (t_root x)). Qed.
Lemma tree_txn_ids t next : tree_ids_ok t -> txn_ids_ok (tree_txn t next) /\ published (tree_txn t next) (tr_root t).
Proof.
  unfold tree_ids_ok, txn_ids_ok, published, tree_txn. simpl. destruct (tr_root t) as [n|]; simpl; auto.
  intros [H1 H2]. split; auto. eapply (proj1 tids_le_mono); [|exact H2]. lia.
Qed.
Lemma tree_new_ids ro next : tree_ids_ok (fst (tree_new ro next)).
Proof. exact I. Qed.

(* published roots stay published along every later step of the txn (ids never decrease) *)
Lemma published_mono x x' r : t_tid x <= t_tid x' -> published x r -> published x' r.
Proof.
  unfold published. destruct r as [n|]; auto. intros H [H1 H2]. split; [lia|].
  eapply (proj1 tids_le_mono); [|exact H2]. lia.
Qed.

(* the in-place branch of cloneNode is never taken on a node of a published root *)
Fixpoint no_inplace (c : ctx) (n : node) : Prop :=
  match n with
  | Leaf _ _ => c_tid c <> 0
  | Inner _ t _ _ _ ch => t <> c_tid c /\ no_inplace_ch c ch
  end
with no_inplace_ch (c : ctx) (ch : children) : Prop :=
  match ch with CNil => True | CCons _ x r => no_inplace c x /\ no_inplace_ch c r end.

Lemma tids_lt_no_inplace c :
  (forall n, 0 < c_tid c -> tids_le (c_tid c - 1) n -> no_inplace c n) /\
  (forall ch, 0 < c_tid c -> tids_le_ch (c_tid c - 1) ch -> no_inplace_ch c ch).
Proof.
  apply node_children_ind; simpl; auto.
  - intros; lia.
  - intros kd t p w lf ch IH H0 [H1 H2]. split; [lia|auto].
  - intros b x IHx r IHr H0 [H1 H2]. auto.
Qed.

