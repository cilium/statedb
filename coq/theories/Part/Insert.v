(* Part/Insert.v — Txn.modify (Insert/Modify) refines om_insert and preserves wfk. *)
From SV Require Import Base.Bytes Base.OrdMap Part.Model Part.Sem.
From Coq Require Import ZifyN ZifyNat ZifyBool.
Open Scope N_scope.

Lemma wfk_set_prefix n acc q1 q2 : wfk acc (set_prefix n (q1 ++ q2)) <-> wfk (acc ++ q1) (set_prefix n q2).
Proof. destruct n as [p l|kd t p w lf ch]; simpl; now rewrite !app_assoc. Qed.

Lemma hd_is_app b p q : hd_is b p -> hd_is b (p ++ q).
Proof. destruct p; simpl; [tauto|auto]. Qed.

Lemma om_get_all_gt k (L : list ent) : all_gt L k -> om_get k L = None.
Proof. exact (om_get_app_r k [] L). Qed.
Lemma om_insert_all_gt k v (L : list ent) : all_gt L k -> om_insert k v L = (k, v) :: L.
Proof. exact (om_insert_app_r k v [] L). Qed.
Lemma om_insert_all_lt k v (L : list ent) : all_lt L k -> om_insert k v L = L ++ [(k, v)].
Proof. intros H. rewrite <- (app_nil_r L) at 1. now rewrite om_insert_app_l. Qed.
Lemma om_get_all_lt k (L : list ent) : all_lt L k -> om_get k L = None.
Proof. intros H. rewrite <- (app_nil_r L). now rewrite om_get_app_l. Qed.

Lemma om_insert_pre_nil p v (L : list ent) : om_insert p v (map (pre p) L) = map (pre p) (om_insert [] v L).
Proof. rewrite <- (app_nil_r p) at 1. apply om_insert_pre. Qed.
Lemma om_get_pre_nil p (L : list ent) : om_get p (map (pre p) L) = om_get [] L.
Proof. rewrite <- (app_nil_r p) at 1. apply om_get_pre. Qed.
Lemma om_delete_pre_nil p (L : list ent) : om_delete p (map (pre p) L) = map (pre p) (om_delete [] L).
Proof. rewrite <- (app_nil_r p) at 1. apply om_delete_pre. Qed.

(* the entries of an inner node seen from a key that ends at the node, or goes on below it: lookup, deletion
   and insertion concern the node's own leaf entry, or the children only *)
Lemma ents_inner_here acc kd t p w lf ch : wfk_ch acc ch ->
  om_get p (ents (Inner kd t p w lf ch)) = option_map lf_val lf /\
  om_delete p (ents (Inner kd t p w lf ch)) = map (pre p) (ents_ch ch) /\
  forall v, om_insert p v (ents (Inner kd t p w lf ch)) = map (pre p) (([], v) :: ents_ch ch).
Proof.
  intros Hw. pose proof (ents_ch_nil_gt _ _ Hw) as G. pose proof (om_delete_app_r [] [] _ G) as D. simpl in D.
  cbn [ents]. rewrite om_get_pre_nil, om_delete_pre_nil. split; [|split].
  - destruct lf; simpl; [reflexivity|now apply om_get_all_gt].
  - destruct lf; simpl; [reflexivity|now rewrite D].
  - intros v. rewrite om_insert_pre_nil. destruct lf; simpl; [reflexivity|now rewrite om_insert_all_gt].
Qed.
Lemma ents_inner_below kd t p w lf ch b rest :
  om_get (p ++ b :: rest) (ents (Inner kd t p w lf ch)) = om_get (b :: rest) (ents_ch ch) /\
  om_delete (p ++ b :: rest) (ents (Inner kd t p w lf ch)) = map (pre p) (lfe lf ++ om_delete (b :: rest) (ents_ch ch)) /\
  forall v, om_insert (p ++ b :: rest) v (ents (Inner kd t p w lf ch)) =
            map (pre p) (lfe lf ++ om_insert (b :: rest) v (ents_ch ch)).
Proof.
  pose proof (lfe_lt lf b rest) as Lf. cbn [ents].
  rewrite om_get_pre, om_delete_pre, om_get_app_l, om_delete_app_l by auto.
  split; [reflexivity|]. split; [reflexivity|]. intros v. now rewrite om_insert_pre, om_insert_app_l.
Qed.

Lemma ch_gt_insert b0 b x ch : b0 < b -> ch_gt b0 ch -> ch_gt b0 (ch_insert b x ch).
Proof.
  induction ch as [|b' y r IH]; simpl; intros Hb H; auto.
  destruct H as [H1 H2]. destruct (b <? b'); simpl; auto.
Qed.

Lemma wfk_ch_insert acc b x' : forall ch,
  wfk_ch acc ch -> ch_find b ch = None -> wfk acc x' -> hd_is b (node_prefix x') -> wfk_ch acc (ch_insert b x' ch).
Proof.
  induction ch as [|b' y r IH]; simpl; auto. intros (Hh & Hy & Hg & Hr) Hf Hx Hb.
  destruct (N.eqb_spec b' b) as [->|Hne]; [discriminate|].
  destruct (N.ltb_spec b b') as [Hlt|Hge]; simpl; repeat split; auto.
  - eapply ch_gt_trans; eauto.
  - apply ch_gt_insert; auto. lia.
Qed.

Lemma ch_gt_set b0 b x ch : ch_gt b0 ch -> ch_gt b0 (ch_set b x ch).
Proof.
  induction ch as [|b' y r IH]; simpl; auto. intros [H1 H2]. destruct (b' =? b); simpl; auto.
Qed.
Lemma wfk_ch_set acc b x' : forall ch,
  wfk_ch acc ch -> wfk acc x' -> hd_is b (node_prefix x') -> wfk_ch acc (ch_set b x' ch).
Proof.
  induction ch as [|b' y r IH]; simpl; auto. intros (Hh & Hy & Hg & Hr) Hx Hb.
  destruct (N.eqb_spec b' b) as [->|Hne]; simpl; repeat split; auto. now apply ch_gt_set.
Qed.

Lemma modify_ch_find c md fk v s b key : forall ch,
  modify_ch c md fk v s ch b key =
  match ch_find b ch with
  | Some x => Some (ch_set b (m_node (modify_node c md fk v s x key)) ch, modify_node c md fk v s x key)
  | None => None
  end.
Proof.
  induction ch as [|b' x r IH]; [reflexivity|].
  cbn [modify_ch ch_find ch_set]; fold (modify_node c md fk v); fold (modify_ch c md fk v).
  destruct (b' =? b); [reflexivity|]. rewrite IH. destruct (ch_find b r); reflexivity.
Qed.

Section Ins.
Variable c : ctx.
Variable md : option (N -> N -> N).
Variable fullKey : bytes.
Variable v : N.

Definition mspec (acc : bytes) (n : node) (key : bytes) (r : mres) : Prop :=
  wfk acc (m_node r) /\
  ents (m_node r) = om_insert key (m_val r) (ents n) /\
  m_old r = om_get key (ents n) /\
  m_val r = match m_old r with Some o => new_val md v o | None => v end /\
  (forall b, hd_is b key -> hd_is b (node_prefix n) -> hd_is b (node_prefix (m_node r))).

Lemma hd_is_common b k p : hd_is b k -> hd_is b p -> hd_is b (common k p).
Proof. destruct k, p; simpl; try tauto. intros -> ->. now rewrite N.eqb_refl. Qed.

Lemma split_spec acc s this key :
  wfk acc this -> fullKey = acc ++ key ->
  (is_leaf this = true /\ key <> node_prefix this) \/ strip (node_prefix this) key = None ->
  mspec acc this key (split_node c fullKey v s this key).
Proof.
  intros Hw Hk Hc. unfold split_node. cbv zeta.
  assert (Hhd : forall b, hd_is b key -> hd_is b (node_prefix this) -> hd_is b (common key (node_prefix this)))
    by (intros; now apply hd_is_common).
  destruct (common_split key (node_prefix this)) as (k' & p' & Ek & Ep & Hd).
  set (cp := common key (node_prefix this)) in *. clearbody cp.
  assert (Ethis : this = set_prefix this (cp ++ p')) by (rewrite <- Ep; symmetry; apply set_prefix_id).
  destruct (fresh c s) as [lw s1]. destruct (fresh c s1) as [nw s2].
  assert (Sk : skipn (length cp) key = k') by (rewrite Ek; apply skipn_app_len).
  assert (Sp : skipn (length cp) (node_prefix this) = p') by (rewrite Ep; apply skipn_app_len).
  rewrite Sp, Sk. clear Sp Sk.
  assert (Hw' : wfk (acc ++ cp) (set_prefix this p')) by (apply wfk_set_prefix; now rewrite <- Ethis).
  assert (Ee : ents this = map (pre cp) (ents (set_prefix this p'))) by (rewrite Ethis at 1; apply ents_set_prefix).
  assert (Hpp : node_prefix (set_prefix this p') = p') by (destruct this; reflexivity).
  rewrite Hpp.
  assert (Hfk : fullKey = (acc ++ cp) ++ k') by (rewrite Hk, Ek; now rewrite app_assoc).
  set (this' := set_prefix this p') in *.
  (* the new node4 with prefix cp: its entries are those of the target plus the new one *)
  assert (Fin : forall lf ch, wfk acc (Inner 4 (c_tid c) cp nw lf ch) ->
            lfe lf ++ ents_ch ch = om_insert k' v (ents this') -> om_get k' (ents this') = None ->
            mspec acc this key (mkM (Inner 4 (c_tid c) cp nw lf ch) s2 None lw v)).
  { intros lf ch W E G. unfold mspec. cbn [m_node m_old m_val ents node_prefix].
    rewrite Ee, Ek, om_insert_pre, om_get_pre, E, G. split; [exact W|]. repeat (split; [reflexivity|]).
    intros b H1 H2. apply Hhd; [now rewrite Ek|auto]. }
  destruct p' as [|tb p'].
  - (* the target's prefix is a proper prefix of the key: the target must be a leaf *)
    destruct Hc as [[Hl Hne]|Hs].
    2:{ rewrite Ep, Ek, app_nil_r, strip_app in Hs. discriminate. }
    destruct this as [p l|]; [|discriminate]. cbn [node_prefix] in Ep, Hne. rewrite app_nil_r in Ep. subst p.
    destruct k' as [|kb k']; [rewrite app_nil_r in Ek; congruence|].
    subst this'. apply Fin; simpl; auto.
  - assert (St : starts tb (ents this')) by (apply ents_starts; now rewrite Hpp).
    destruct k' as [|kb k'].
    + (* the key ends inside the target's prefix: the new node carries the new leaf *)
      apply Fin; simpl; rewrite ?Hpp, ?app_nil_r in *; [repeat split; auto| |].
      * now rewrite om_insert_all_gt by (eapply starts_nil_gt; eauto).
      * apply om_get_all_gt. eapply starts_nil_gt; eauto.
    + simpl in Hd. destruct (N.ltb_spec tb kb) as [Hlt|Hge]; apply Fin; simpl; rewrite ?Hpp, ?app_nil_r;
        try (repeat split; auto; lia).
      * now rewrite om_insert_all_lt by (eapply starts_lt; eauto).
      * apply om_get_all_lt. eapply starts_lt; eauto.
      * rewrite om_insert_all_gt; auto. eapply starts_gt; eauto. lia.
      * apply om_get_all_gt. eapply starts_gt; eauto. lia.
Qed.

Lemma clone_hdr_fst s t w : fst (fst (clone_hdr c s t w)) = c_tid c.
Proof.
  unfold clone_hdr. destruct (N.eqb_spec t (c_tid c)) as [E|_]; [exact E|]. now destruct (fresh c (record w s)).
Qed.
Lemma clone_leaf_val s l : lf_key (fst (clone_leaf c s l)) = lf_key l /\ lf_val (fst (clone_leaf c s l)) = lf_val l.
Proof. unfold clone_leaf. destruct (0 =? c_tid c); simpl; auto. destruct (fresh c _); simpl; auto. Qed.

Lemma strip_nil_rest p key : strip p key = Some [] -> key = p.
Proof. intros H. apply strip_some in H. now rewrite app_nil_r in H. Qed.

Theorem modify_spec : forall n acc s key, wfk acc n -> fullKey = acc ++ key ->
  mspec acc n key (modify_node c md fullKey v s n key).
Proof.
  induction n as [p l|kd t p w lf ch IH] using node_find_ind; intros acc s key Hw Hk;
    cbn [modify_node]; fold (modify_ch c md fullKey v).
  - destruct (bytes_eqb key p) eqn:E.
    + apply bytes_eqb_spec in E. subst key.
      pose proof (clone_leaf_val s l) as [K V]. destruct (clone_leaf c s l) as [l' s']. simpl in K, V.
      unfold mspec; cbn [m_node m_old m_val ents wfk node_prefix]. simpl in Hw.
      rewrite K. simpl. rewrite bytes_eqb_refl. repeat split; auto.
    + apply split_spec; auto. left. split; auto. now apply bytes_eqb_false.
  - destruct (strip p key) as [[|b rest]|] eqn:Es.
    + apply strip_nil_rest in Es. subst key. destruct Hw as [Hl Hc].
      destruct (ents_inner_here _ kd t p w lf ch Hc) as (Gh & _ & Ih).
      destruct (clone_hdr c s t w) as [[t' w'] s1]. unfold mspec. rewrite Gh, Ih.
      destruct lf as [l|].
      * pose proof (clone_leaf_val s1 l) as [K V]. destruct (clone_leaf c s1 l) as [l' s2]. simpl in K, V.
        cbn [m_node m_old m_val ents wfk node_prefix lfe lf_key lf_val option_map]. rewrite K. repeat split; auto.
      * destruct (fresh c s1) as [lw s2].
        cbn [m_node m_old m_val ents wfk node_prefix lfe lf_key lf_val option_map]. repeat split; auto.
    + apply strip_some in Es. subst key. destruct Hw as [Hl Hc].
      assert (Hfk : fullKey = (acc ++ p) ++ b :: rest) by (rewrite Hk; now rewrite app_assoc).
      destruct (ents_inner_below kd t p w lf ch b rest) as (Gb & _ & Ib).
      destruct (ents_ch_at _ b _ Hc) as (L1 & L2 & HL & H). destruct (HL rest) as [A G].
      destruct (clone_hdr c s t w) as [[t' w'] s1] eqn:Ec. unfold mspec. rewrite Gb, Ib.
      rewrite modify_ch_find. destruct (ch_find b ch) as [x|] eqn:Ef.
      * (* the child under b takes the key *)
        destruct (ch_find_wfk _ _ _ _ Hc Ef) as [Wx Hx]. destruct H as (Ec' & Es & _).
        destruct (IH b x Ef (acc ++ p) s1 (b :: rest) Wx Hfk) as (W & E & O & Vv & Hp).
        cbn [m_node m_old m_val ents wfk node_prefix]. rewrite Es, Ec'.
        rewrite om_insert_app_l, om_get_app_l, om_insert_app_r, om_get_app_r by auto.
        rewrite E. repeat split; auto. apply wfk_ch_set; auto. apply Hp; simpl; auto.
      * destruct H as (Ec' & Ei). set (hdr := if kd <? ch_len ch + 1 then _ else _).
        destruct hdr as [[[kd2 t2] w2] s2]. destruct (fresh c s2) as [lw s3].
        cbn [m_node m_old m_val ents wfk node_prefix]. rewrite Ei, Ec'.
        rewrite om_insert_app_l, om_get_app_l, om_insert_all_gt, om_get_all_gt by auto.
        repeat split; auto. apply wfk_ch_insert; simpl; auto.
    + destruct (clone_hdr c s t w) as [[t' w'] s'].
      pose proof (split_spec acc s' (Inner kd t' p w' lf ch) key) as S. simpl in S.
      unfold mspec in *. simpl in *. apply S; auto.
Qed.
End Ins.
