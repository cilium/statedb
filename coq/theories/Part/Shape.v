(* Part/Shape.v — the shape part of the invariant: kind tag vs number of children, and no leafless
   inner node with fewer than two children; preserved by modify and delete. *)
From SV Require Import Base.Bytes Base.OrdMap Part.Model Part.Sem Part.Insert Part.Delete.
From Coq Require Import ZifyN ZifyNat ZifyBool.
Open Scope N_scope.

(* validateTree: node16 has > 4, node48 > 16, node256 > 48 children; capacities bound from above
   (the upper bound of node256 follows from bytes < 256 and is not tracked) *)
Definition kind_ok (kd sz : N) : Prop :=
  (kd = 4 /\ sz <= 4) \/ (kd = 16 /\ 5 <= sz <= 16) \/ (kd = 48 /\ 17 <= sz <= 48) \/ (kd = 256 /\ 49 <= sz).

Fixpoint shape (n : node) : Prop :=
  match n with
  | Leaf _ _ => True
  | Inner kd _ _ _ lf ch => kind_ok kd (ch_len ch) /\ (lf = None -> 2 <= ch_len ch) /\ shape_ch ch
  end
with shape_ch (ch : children) : Prop :=
  match ch with CNil => True | CCons _ x r => shape x /\ shape_ch r end.

Lemma shape_set_prefix n q : shape (set_prefix n q) <-> shape n.
Proof. destruct n; simpl; tauto. Qed.
Lemma ch_len_insert b x : forall ch, ch_len (ch_insert b x ch) = 1 + ch_len ch.
Proof. induction ch as [|b' y r IH]; simpl ch_insert; [reflexivity|]. destruct (b <? b'); cbn [ch_len]; rewrite ?IH; lia. Qed.
Lemma shape_ch_insert b x : forall ch, shape x -> shape_ch ch -> shape_ch (ch_insert b x ch).
Proof. induction ch as [|b' y r IH]; simpl; auto. intros Hx [H1 H2]. destruct (b <? b'); simpl; auto. Qed.
Lemma ch_len_set b x : forall ch, ch_len (ch_set b x ch) = ch_len ch.
Proof. induction ch as [|b' y r IH]; simpl ch_set; [reflexivity|]. destruct (b' =? b); cbn [ch_len]; rewrite ?IH; lia. Qed.
Lemma shape_ch_set b x : forall ch, shape x -> shape_ch ch -> shape_ch (ch_set b x ch).
Proof. induction ch as [|b' y r IH]; simpl; auto. intros Hx [H1 H2]. destruct (b' =? b); simpl; auto. Qed.
Lemma ch_len_remove b : forall ch y, ch_find b ch = Some y -> 1 + ch_len (ch_remove b ch) = ch_len ch.
Proof.
  induction ch as [|b' x r IH]; simpl ch_find; [discriminate|]. intros y Hf. simpl ch_remove.
  destruct (b' =? b); cbn [ch_len]; [lia|]. rewrite <- (IH y Hf). lia.
Qed.
Lemma shape_ch_remove b : forall ch, shape_ch ch -> shape_ch (ch_remove b ch).
Proof. induction ch as [|b' y r IH]; simpl; auto. intros [H1 H2]. destruct (b' =? b); simpl; auto. Qed.
Lemma shape_ch_find b : forall ch x, shape_ch ch -> ch_find b ch = Some x -> shape x.
Proof.
  induction ch as [|b' y r IH]; simpl; [discriminate|]. intros x [H1 H2]. destruct (b' =? b); eauto. intros [= <-]; auto.
Qed.
Lemma shape_ch_other b : forall ch x, shape_ch ch -> ch_other b ch = Some x -> shape x.
Proof.
  induction ch as [|b' y r IH]; simpl; [discriminate|]. intros x [H1 H2]. destruct (b' =? b); eauto. intros [= <-]; auto.
Qed.

(* header.promote applies exactly when the node is full *)
Lemma kind_ok_insert kd sz : kind_ok kd sz -> kind_ok (if kd <? sz + 1 then promote_kind kd else kd) (1 + sz).
Proof.
  unfold kind_ok. intros [[-> H]|[[-> H]|[[-> H]|[-> H]]]];
    [destruct (N.ltb_spec 4 (sz + 1))|destruct (N.ltb_spec 16 (sz + 1))|destruct (N.ltb_spec 48 (sz + 1))
    |destruct (N.ltb_spec 256 (sz + 1))]; cbn [promote_kind N.eqb Pos.eqb]; lia.
Qed.

Section ShapeMod.
Variable c : ctx.
Variable md : option (N -> N -> N).
Variable fullKey : bytes.
Variable v : N.

Lemma split_shape s this key :
  shape this ->
  (is_leaf this = true /\ key <> node_prefix this) \/ strip (node_prefix this) key = None ->
  shape (m_node (split_node c fullKey v s this key)).
Proof.
  intros Hs Hc. unfold split_node. cbv zeta.
  destruct (common_split key (node_prefix this)) as (k' & p' & Ek & Ep & Hd).
  set (cp := common key (node_prefix this)) in *. clearbody cp.
  destruct (fresh c s) as [lw s1]. destruct (fresh c s1) as [nw s2].
  assert (Sp : skipn (length cp) (node_prefix this) = p') by (rewrite Ep; apply skipn_app_len).
  rewrite Sp. clear Sp.
  assert (Hpp : node_prefix (set_prefix this p') = p') by (destruct this; reflexivity).
  rewrite Hpp. cbn [m_node].
  assert (Hs' : shape (set_prefix this p')) by now apply shape_set_prefix.
  assert (Fin : forall lf ch, shape_ch ch -> (ch_len ch = 1 /\ lf <> None) \/ ch_len ch = 2 ->
                shape (Inner 4 (c_tid c) cp nw lf ch)).
  { intros lf ch Hch HL. cbn [shape]. split; [|split; auto].
    - left. split; [reflexivity|]. destruct HL as [[L _]|L]; rewrite L; lia.
    - intros ->. destruct HL as [[_ Hn]|L]; [congruence|rewrite L; lia]. }
  destruct p' as [|tb p'].
  - destruct Hc as [[Hl Hne]|Hs0].
    2:{ rewrite Ep, Ek, app_nil_r, strip_app in Hs0. discriminate. }
    destruct this as [p l|]; [|discriminate]. apply Fin; [simpl; auto|]. left. split; [reflexivity|simpl; discriminate].
  - destruct (skipn (length cp) key) as [|kb kl].
    + apply Fin; [simpl; auto|]. left. split; [reflexivity|discriminate].
    + destruct (tb <? kb); apply Fin; try (simpl; tauto); right; reflexivity.
Qed.

Lemma modify_node_shape : forall n s key, shape n -> shape (m_node (modify_node c md fullKey v s n key)).
Proof.
  induction n as [p l|kd t p w lf ch IH] using node_find_ind; intros s key Hs; cbn [modify_node]; fold (modify_ch c md fullKey v).
  - destruct (bytes_eqb key p) eqn:E.
    + destruct (clone_leaf c s l). exact I.
    + apply split_shape; [exact I|]. left. split; auto. simpl. now apply bytes_eqb_false.
  - destruct Hs as (Hk & Hl & Hc). destruct (strip p key) as [[|b rest]|] eqn:Es.
    + destruct (clone_hdr c s t w) as [[t' w'] s1].
      destruct lf as [l|]; [destruct (clone_leaf c s1 l)|destruct (fresh c s1)]; simpl; repeat split; auto; discriminate.
    + destruct (clone_hdr c s t w) as [[t' w'] s1] eqn:Ec.
      rewrite modify_ch_find. destruct (ch_find b ch) as [x|] eqn:Ef.
      * cbn [m_node shape]. rewrite ch_len_set. repeat split; auto.
        apply shape_ch_set; auto. apply (IH b x Ef). eapply shape_ch_find; eauto.
      * pose proof (kind_ok_insert kd (ch_len ch) Hk) as Hk'.
        assert (Sn : forall lw, shape_ch (ch_insert b (Leaf (b :: rest) (mkLeaf fullKey v lw)) ch))
          by (intros; apply shape_ch_insert; simpl; auto).
        destruct (kd <? ch_len ch + 1);
          [destruct (fresh_if w (record w s)) as [w2 s2]; destruct (fresh c s2) as [lw s3]|destruct (fresh c s1) as [lw s3]];
          cbn [m_node shape]; rewrite ch_len_insert; repeat split; auto; intros H; specialize (Hl H); lia.
    + destruct (clone_hdr c s t w) as [[t' w'] s']. apply split_shape; [simpl; auto|]. right. exact Es.
Qed.

End ShapeMod.

Lemma ch_other_some acc b : forall ch y, wfk_ch acc ch -> ch_len ch = 2 -> ch_find b ch = Some y -> ch_other b ch <> None.
Proof.
  intros ch y Hw Hl Hf. destruct ch as [|b1 x1 [|b2 x2 [|b3 x3 r]]]; cbn [ch_len] in Hl; try lia.
  simpl in *. destruct Hw as (_ & _ & [Hlt _] & _).
  destruct (N.eqb_spec b1 b) as [->|N1]; [|discriminate].
  destruct (N.eqb_spec b2 b) as [->|N2]; [lia|discriminate].
Qed.

(* removeChild's demotion rule keeps the kind tag in step with the number of children *)
Lemma kind_ok_demote kd sz : kind_ok kd (1 + sz) -> kind_ok (demoted kd (1 + sz)) sz.
Proof.
  unfold kind_ok, demoted. intros [[-> H]|[[-> H]|[[-> H]|[-> H]]]]; cbn [N.eqb Pos.eqb andb orb]; rewrite ?orb_false_r.
  - lia.
  - destruct (N.leb_spec (1 + sz) 5); lia.
  - destruct (N.leb_spec (1 + sz) 17); lia.
  - destruct (N.leb_spec (1 + sz) 49); lia.
Qed.

Section ShapeDel.
Variable c : ctx.

Lemma remove_child_shape acc s kd t p w lf ch b y :
  wfk_ch acc ch -> kind_ok kd (ch_len ch) -> (lf = None -> 2 <= ch_len ch) -> shape_ch ch ->
  ch_find b ch = Some y -> shape (fst (fst (remove_child c s kd t p w lf ch b))).
Proof.
  intros Hw Hk Hl Hs Hf.
  destruct (remove_child_node c s kd t p w lf ch b) as [(x & _ & _ & Eo & ->)|(w' & C & ->)].
  - apply shape_set_prefix. exact (shape_ch_other b ch x Hs Eo).
  - pose proof (ch_len_remove b ch y Hf) as Lr. rewrite <- Lr in *. cbn [shape].
    split; [now apply kind_ok_demote|]. split; [|now apply shape_ch_remove].
    intros E. specialize (Hl E). destruct (N.eq_dec (1 + ch_len (ch_remove b ch)) 2) as [E2|]; [|lia].
    rewrite Lr in E2. destruct (ch_other_some acc b ch y Hw E2 Hf). rewrite <- Lr in E2. auto.
Qed.

Definition dres_shape (r : dres) : Prop := match r with DSome _ (Some n') _ _ => shape n' | _ => True end.

Lemma del_node_shape : forall n acc s key, wfk acc n -> shape n -> dres_shape (del_node c s n key).
Proof.
  induction n as [p l|kd t p w lf ch IH] using node_find_ind; intros acc s key Hw Hsh; cbn [del_node]; fold (del_ch c).
  - destruct (bytes_eqb key p); exact I.
  - destruct Hw as [Hl Hc]. destruct Hsh as (Hk & Hn & Hs).
    destruct (strip p key) as [[|b rest]|]; [| |exact I].
    + destruct lf as [l|]; [|exact I].
      destruct ch as [|b1 x1 [|b2 x2 r]]; [exact I| |].
      * cbn [dres_shape]. apply shape_set_prefix. simpl in Hs. tauto.
      * destruct (clone_hdr c (record (lf_w l) s) t w) as [[t' w'] s2]. cbn [dres_shape shape].
        repeat split; auto; try (simpl in Hs; tauto). intros _. cbn [ch_len]. lia.
    + rewrite del_ch_find. destruct (ch_find b ch) as [y|] eqn:Ef; [|exact I].
      destruct (ch_find_wfk _ _ _ _ Hc Ef) as [Wy _].
      specialize (IH b y Ef (acc ++ p) s (b :: rest) Wy (shape_ch_find b ch y Hs Ef)).
      destruct (del_node c s y (b :: rest)) as [|old [x|] s1 ip]; [exact I| |].
      * cbn [dres_shape] in IH.
        assert (G : forall t' w', shape (Inner kd t' p w' lf (ch_set b x ch))).
        { intros. cbn [shape]. rewrite ch_len_set. repeat split; auto. now apply shape_ch_set. }
        destruct ip; [apply G|]. destruct (clone_hdr c s1 t w) as [[t' w'] s2]. apply G.
      * pose proof (remove_child_shape (acc ++ p) s1 kd t p w lf ch b y Hc Hk Hn Hs Ef) as R.
        destruct (remove_child c s1 kd t p w lf ch b) as [[n' s2] ip']. exact R.
Qed.

End ShapeDel.

Definition shape_root (r : option node) : Prop := match r with None => True | Some n => shape n end.

