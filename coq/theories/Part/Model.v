(* Part/Model.v — executable mechanism-level model of part.Tree (adaptive radix tree with
   path compression, per-node txn ids and watch channels). Go counterparts are named next
   to each definition (files part/node.go, part/txn.go, part/iterator.go, part/tree.go).
   No proofs here.

   Abstractions (validated by the correspondence run, named in lib/props.d/C11.json):
   - the four physical child layouts (node4/16/48/256) are one byte-sorted child list plus
     the kind tag (the tag's value is the capacity: 4, 16, 48, 256);
   - channels are positive numbers from a fresh counter, 0 is the nil channel;
   - Txn.watches (a Go map used as a set) is a list, duplicates allowed;
   - in-place mutation of a node private to the txn (node.txnID = txn.txnID) is the
     identity case of [clone_hdr]; the heap is not modelled here (Part/Heap.v does; see Part/Cow.v for the id
     discipline that makes this sound);
   - the iterative loops of modify/delete/search are structural recursions over the path. *)
From SV Require Export Base.Bytes.
Open Scope N_scope.

(* node.go leaf[T] without its header prefix: full key, value, watch channel *)
Record leafrec := mkLeaf { lf_key : bytes; lf_val : N; lf_w : N }.

(* node.go header + leaf / node4 / node16 / node48 / node256.
   Leaf p l       : a leaf[T] used as a child (or root); p = header prefix
   Inner kd t p w lf ch : kind tag kd (= capacity), txnID t, prefix p, watch w, optional
                    leaf pointer lf, children sorted by key byte *)
Inductive node :=
| Leaf (p : bytes) (l : leafrec)
| Inner (kd t : N) (p : bytes) (w : N) (lf : option leafrec) (ch : children)
with children :=
| CNil
| CCons (b : N) (c : node) (r : children).

(* header.prefix / setPrefix / txnID / watch / getLeaf / children / size *)
Definition node_prefix (n : node) : bytes := match n with Leaf p _ => p | Inner _ _ p _ _ _ => p end.
Definition set_prefix (n : node) (q : bytes) : node :=
  match n with Leaf _ l => Leaf q l | Inner kd t _ w lf ch => Inner kd t q w lf ch end.
Definition node_tid (n : node) : N := match n with Leaf _ _ => 0 | Inner _ t _ _ _ _ => t end.
Definition node_watch (n : node) : N := match n with Leaf _ l => lf_w l | Inner _ _ _ w _ _ => w end.
Definition node_leaf (n : node) : option leafrec := match n with Leaf _ l => Some l | Inner _ _ _ _ lf _ => lf end.
Definition node_children (n : node) : children := match n with Leaf _ _ => CNil | Inner _ _ _ _ _ ch => ch end.
Definition is_leaf (n : node) : bool := match n with Leaf _ _ => true | _ => false end.

Fixpoint ch_len (ch : children) : N := match ch with CNil => 0 | CCons _ _ r => 1 + ch_len r end.
Definition node_size (n : node) : N := ch_len (node_children n).

(* header.find / findIndex (exact match part) *)
Fixpoint ch_find (b : N) (ch : children) : option node :=
  match ch with CNil => None | CCons b' c r => if b' =? b then Some c else ch_find b r end.
(* header.insert at the slot computed by findIndex: sorted insertion *)
Fixpoint ch_insert (b : N) (n : node) (ch : children) : children :=
  match ch with
  | CNil => CCons b n CNil
  | CCons b' c r => if b <? b' then CCons b n ch else CCons b' c (ch_insert b n r)
  end.
(* children()[idx] = n *)
Fixpoint ch_set (b : N) (n : node) (ch : children) : children :=
  match ch with CNil => CNil | CCons b' c r => if b' =? b then CCons b' n r else CCons b' c (ch_set b n r) end.
(* header.remove(idx) *)
Fixpoint ch_remove (b : N) (ch : children) : children :=
  match ch with CNil => CNil | CCons b' c r => if b' =? b then r else CCons b' c (ch_remove b r) end.
(* removeChild: the remaining child (index 0 or 1) *)
Fixpoint ch_other (b : N) (ch : children) : option node :=
  match ch with CNil => None | CCons b' c r => if b' =? b then ch_other b r else Some c end.
Definition ch_first (ch : children) : option node := match ch with CNil => None | CCons _ c _ => Some c end.

(* bytes.HasPrefix(key, p) + key[len(p):] *)
Fixpoint strip (p key : bytes) : option bytes :=
  match p, key with
  | [], _ => Some key
  | x :: p', y :: k' => if x =? y then strip p' k' else None
  | _ :: _, [] => None
  end.
(* node.go commonPrefix *)
Fixpoint common (a b : bytes) : bytes :=
  match a, b with x :: a', y :: b' => if x =? y then x :: common a' b' else [] | _, _ => [] end.

(* ---- transaction-local mutable state threaded through one operation ---- *)
(* Txn.watches and the global channel allocator (make(chan struct{})) *)
Record st := mkSt { s_ws : list N; s_next : N }.
(* Txn.txnID and Txn.opts.rootOnlyWatch(), constant during one operation *)
Record ctx := mkCtx { c_tid : N; c_ro : bool }.

(* if n.watch != nil { txn.watches[n.watch] = struct{}{} } *)
Definition record (w : N) (s : st) : st := if w =? 0 then s else mkSt (w :: s_ws s) (s_next s).
(* make(chan struct{}) unless rootOnlyWatch *)
Definition fresh (c : ctx) (s : st) : N * st :=
  if c_ro c then (0, s) else (s_next s, mkSt (s_ws s) (s_next s + 1)).
(* if n.watch != nil { x.watch = make(chan struct{}) } (promote, demote) *)
Definition fresh_if (w : N) (s : st) : N * st :=
  if w =? 0 then (0, s) else (s_next s, mkSt (s_ws s) (s_next s + 1)).

(* Txn.cloneNode on a non-leaf header: identity when already private to the txn *)
Definition clone_hdr (c : ctx) (s : st) (t w : N) : N * N * st :=
  if t =? c_tid c then (t, w, s)
  else let s1 := record w s in let '(w', s2) := fresh c s1 in (c_tid c, w', s2).
(* Txn.cloneNode on a leaf: leaf.txnID() is the constant 0 *)
Definition clone_leaf (c : ctx) (s : st) (l : leafrec) : leafrec * st :=
  if 0 =? c_tid c then (l, s)
  else let s1 := record (lf_w l) s in let '(w', s2) := fresh c s1 in (mkLeaf (lf_key l) (lf_val l) w', s2).
Definition clone_node (c : ctx) (s : st) (n : node) : node * st :=
  match n with
  | Leaf p l => let '(l', s') := clone_leaf c s l in (Leaf p l', s')
  | Inner kd t p w lf ch => let '(t', w', s') := clone_hdr c s t w in (Inner kd t' p w' lf ch, s')
  end.

(* header.promote: next kind *)
Definition promote_kind (kd : N) : N := if kd =? 4 then 16 else if kd =? 16 then 48 else 256.

(* ---- Txn.modify (Insert / Modify / InsertWatch / ModifyWatch) ---- *)
Record mres := mkM { m_node : node; m_st : st; m_old : option N; m_w : N; m_val : N }.

Section Modify.
Variable c : ctx.
Variable md : option (N -> N -> N).   (* the mod callback; None for Insert *)
Variable fullKey : bytes.
Variable v : N.

Definition new_val (old : N) : N := match md with Some f => f old v | None => v end.

(* txn.go modify, tail: "The target node ... has only a partially matching prefix": replace
   target by a new node4 holding target and the new leaf. [this] is the leaf copy (watch
   retained) or the cloned inner node. *)
Definition split_node (s : st) (this : node) (key : bytes) : mres :=
  let cp := common key (node_prefix this) in
  let this' := set_prefix this (skipn (length cp) (node_prefix this)) in
  let key' := skipn (length cp) key in
  let '(lw, s1) := fresh c s in
  let nl := mkLeaf fullKey v lw in
  let '(nw, s2) := fresh c s1 in
  let mk lf ch := Inner 4 (c_tid c) cp nw lf ch in
  let nn :=
    match node_prefix this', key' with
    | [], _ => mk (node_leaf this') (CCons (hd 0 key') (Leaf key' nl) CNil)
    | tb :: _, [] => mk (Some nl) (CCons tb this' CNil)
    | tb :: _, kb :: _ =>
      if tb <? kb then mk None (CCons tb this' (CCons kb (Leaf key' nl) CNil))
      else mk None (CCons kb (Leaf key' nl) (CCons tb this' CNil))
    end in
  mkM nn s2 None lw v.

(* modify: loop body + exact-match / split tail, as a recursion over the path.
   [key] is the part of the key not yet consumed. *)
Fixpoint modify_node (s : st) (n : node) (key : bytes) {struct n} : mres :=
  match n with
  | Leaf p l =>
    if bytes_eqb key p then
      (* exact match on a leaf: this = cloneNode(this); leaf.value = ... *)
      let '(l', s') := clone_leaf c s l in
      let nv := new_val (lf_val l) in
      mkM (Leaf p (mkLeaf (lf_key l') nv (lf_w l'))) s' (Some (lf_val l)) (lf_w l') nv
    else split_node s n key   (* leafCopy := *this.getLeaf(): watch retained *)
  | Inner kd t p w lf ch =>
    match strip p key with
    | None =>
      let '(t', w', s') := clone_hdr c s t w in split_node s' (Inner kd t' p w' lf ch) key
    | Some [] =>
      (* exact match on a non-leaf node *)
      let '(t', w', s1) := clone_hdr c s t w in
      match lf with
      | Some l =>
        let '(l', s2) := clone_leaf c s1 l in
        let nv := new_val (lf_val l) in
        mkM (Inner kd t' p w' (Some (mkLeaf (lf_key l') nv (lf_w l'))) ch) s2 (Some (lf_val l)) (lf_w l') nv
      | None =>
        let '(lw, s2) := fresh c s1 in
        mkM (Inner kd t' p w' (Some (mkLeaf fullKey v lw)) ch) s2 None lw v
      end
    | Some ((b :: _) as rest) =>
      let '(t', w', s1) := clone_hdr c s t w in
      match modify_ch s1 ch b rest with
      | Some (ch', r) => mkM (Inner kd t' p w' lf ch') (m_st r) (m_old r) (m_w r) (m_val r)
      | None =>
        (* free slot: promote if full, else clone; then insert a new leaf *)
        let '(kd2, t2, w2, s2) :=
          if kd <? ch_len ch + 1 then
            let '(w2, s2) := fresh_if w (record w s) in (promote_kind kd, c_tid c, w2, s2)
          else let '(t2, w2, s2) := clone_hdr c s t w in (kd, t2, w2, s2) in
        let '(lw, s3) := fresh c s2 in
        mkM (Inner kd2 t2 p w2 lf (ch_insert b (Leaf rest (mkLeaf fullKey v lw)) ch)) s3 None lw v
      end
    end
  end
with modify_ch (s : st) (ch : children) (b : N) (key : bytes) {struct ch} : option (children * mres) :=
  match ch with
  | CNil => None
  | CCons b' x r =>
    if b' =? b then let res := modify_node s x key in Some (CCons b' (m_node res) r, res)
    else match modify_ch s r b key with
         | Some (r', res) => Some (CCons b' x r', res)
         | None => None
         end
  end.
End Modify.

(* ---- Txn.delete / removeChild ---- *)
(* childClone := child.clone(false); childClone.watch = child.watch;
   childClone.setPrefix(Concat(parent.prefix(), childClone.prefix())) *)
Definition merge_child (pp : bytes) (child : node) : node := set_prefix child (pp ++ node_prefix child).

(* result of delete below a node: not found / found with the old value, the replacement
   of this node (None = drop it from its parent), the state, and whether the ancestors can
   be left alone ("parent.node == oldParent && parent.node.txnID() == txn.txnID") *)
Inductive dres := DNone | DSome (old : N) (repl : option node) (s : st) (inpl : bool).

Section Delete.
Variable c : ctx.

(* txn.go removeChild(parent, index) *)
Definition remove_child (s : st) (kd t : N) (p : bytes) (w : N) (lf : option leafrec) (ch : children) (b : N)
  : node * st * bool :=
  let size := ch_len ch in
  match (size =? 2), lf, ch_other b ch with
  | true, None, Some x => (merge_child p x, record w s, false)
  | _, _, _ =>
    if ((kd =? 256) && (size <=? 49)) || ((kd =? 48) && (size <=? 17)) || ((kd =? 16) && (size <=? 5)) then
      let kd' := if kd =? 256 then 48 else if kd =? 48 then 16 else 4 in
      let '(w', s1) := fresh_if w s in
      (Inner kd' (c_tid c) p w' lf (ch_remove b ch), record w s1, false)
    else
      let '(t', w', s1) := clone_hdr c s t w in
      (Inner kd t' p w' lf (ch_remove b ch), s1, t =? c_tid c)
  end.

Fixpoint del_node (s : st) (n : node) (key : bytes) {struct n} : dres :=
  match n with
  | Leaf p l =>
    if bytes_eqb key p then DSome (lf_val l) None (record (lf_w l) (record (lf_w l) s)) false else DNone
  | Inner kd t p w lf ch =>
    match strip p key with
    | None => DNone
    | Some [] =>
      match lf with
      | None => DNone
      | Some l =>
        let s1 := record (lf_w l) s in
        match ch with
        | CNil => DSome (lf_val l) None (record w s1) false
        | CCons _ x CNil => DSome (lf_val l) (Some (merge_child p x)) (record w s1) false
        | _ => let '(t', w', s2) := clone_hdr c s1 t w in DSome (lf_val l) (Some (Inner kd t' p w' None ch)) s2 false
        end
      end
    | Some ((b :: _) as rest) =>
      match del_ch s ch b rest with
      | DNone => DNone
      | DSome old (Some x) s1 true => DSome old (Some (Inner kd t p w lf (ch_set b x ch))) s1 true
      | DSome old (Some x) s1 false =>
        let '(t', w', s2) := clone_hdr c s1 t w in
        DSome old (Some (Inner kd t' p w' lf (ch_set b x ch))) s2 (t =? c_tid c)
      | DSome old None s1 _ =>
        let '(n', s2, ip) := remove_child s1 kd t p w lf ch b in DSome old (Some n') s2 ip
      end
    end
  end
with del_ch (s : st) (ch : children) (b : N) (key : bytes) {struct ch} : dres :=
  match ch with
  | CNil => DNone
  | CCons b' x r => if b' =? b then del_node s x key else del_ch s r b key
  end.
End Delete.

(* ---- node.go search ---- *)
Fixpoint search_node (n : node) (key : bytes) (w0 : N) {struct n} : option N * N :=
  match n with
  | Leaf p l =>
    if bytes_eqb key p then (Some (lf_val l), if lf_w l =? 0 then w0 else lf_w l) else (None, w0)
  | Inner kd t p w lf ch =>
    match strip p key with
    | None => (None, w0)
    | Some [] =>
      match lf with
      | Some l => (Some (lf_val l), if lf_w l =? 0 then w0 else lf_w l)
      | None => (None, w0)
      end
    | Some ((b :: _) as rest) => search_ch ch b rest (if w =? 0 then w0 else w)
    end
  end
with search_ch (ch : children) (b : N) (key : bytes) (w0 : N) {struct ch} : option N * N :=
  match ch with
  | CNil => (None, w0)
  | CCons b' x r => if b' =? b then search_node x key w0 else search_ch r b key w0
  end.

(* ---- iterator.go ---- *)
(* ordered traversal: leaf of the node first, then the children in key order *)
Fixpoint node_entries (n : node) : list (bytes * N) :=
  match n with
  | Leaf _ l => [(lf_key l, lf_val l)]
  | Inner _ _ _ _ lf ch =>
    (match lf with Some l => [(lf_key l, lf_val l)] | None => [] end) ++ ch_entries ch
  end
with ch_entries (ch : children) : list (bytes * N) :=
  match ch with CNil => [] | CCons _ x r => node_entries x ++ ch_entries r end.

(* Iterator{start, edges}; the edge stack has its top at the head of the list *)
Record iter := mkIter { it_start : option node; it_edges : list children }.
Definition iter_empty : iter := mkIter None [].
Definition new_iterator (n : option node) : iter := mkIter n [].

(* Iterator.All: everything still to be visited, in order *)
Definition iter_all (it : iter) : list (bytes * N) :=
  match it_start it with
  | Some n => node_entries n
  | None => flat_map ch_entries (it_edges it)
  end.

(* the loop of Iterator.Next on the edge stack; explicit fuel *)
Fixpoint next_edges (fuel : nat) (edges : list children) : option ((bytes * N) * list children) :=
  match fuel with
  | O => None
  | S f =>
    match edges with
    | [] => None
    | CNil :: rest => next_edges f rest
    | CCons _ n r :: rest =>
      let e1 := match r with CNil => rest | _ => r :: rest end in
      let e2 := match node_children n with CNil => e1 | chn => chn :: e1 end in
      match node_leaf n with
      | Some l => Some ((lf_key l, lf_val l), e2)
      | None => next_edges f e2
      end
    end
  end.
Fixpoint node_count (n : node) : nat :=
  match n with Leaf _ _ => 1%nat | Inner _ _ _ _ _ ch => S (ch_count ch) end
with ch_count (ch : children) : nat :=
  match ch with CNil => 1%nat | CCons _ x r => (node_count x + ch_count r + 1)%nat end.
Definition edges_fuel (edges : list children) : nat :=
  (fold_right (fun e a => ch_count e + a + 1) 1 edges)%nat.
(* Iterator.Next *)
Definition iter_next (it : iter) : option (bytes * N) * iter :=
  match it_start it with
  | Some n =>
    let e := match node_children n with CNil => [] | chn => [chn] end in
    match node_leaf n with
    | Some l => (Some (lf_key l, lf_val l), mkIter None e)
    | None =>
      match next_edges (edges_fuel e) e with
      | Some (kv, e') => (Some kv, mkIter None e')
      | None => (None, mkIter None [])
      end
    end
  | None =>
    match next_edges (edges_fuel (it_edges it)) (it_edges it) with
    | Some (kv, e') => (Some kv, mkIter None e')
    | None => (None, mkIter None [])
    end
  end.

(* iterator.go prefixSearch: (start node of the iterator, watch channel) *)
Fixpoint prefix_node (n : node) (q : bytes) (w0 : N) {struct n} : option node * N :=
  match n with
  | Leaf p l => if has_prefix p q then (Some n, w0) else (None, w0)
  | Inner kd t p w lf ch =>
    if has_prefix p q then (Some n, if w =? 0 then w0 else w)
    else match strip p q with
         | Some ((b :: _) as rest) => prefix_ch ch b rest (if w =? 0 then w0 else w)
         | _ => (None, w0)
         end
  end
with prefix_ch (ch : children) (b : N) (q : bytes) (w0 : N) {struct ch} : option node * N :=
  match ch with
  | CNil => (None, w0)
  | CCons b' x r => if b' =? b then prefix_node x q w0 else prefix_ch r b q w0
  end.

(* iterator.go traverseToMin *)
Fixpoint tmin (n : node) (edges : list children) {struct n} : list children :=
  match n with
  | Leaf _ _ => CCons 0 n CNil :: edges
  | Inner _ _ _ _ (Some _) _ => CCons 0 n CNil :: edges
  | Inner _ _ _ _ None ch =>
    match ch with
    | CNil => edges
    | CCons _ x r => tmin x (match r with CNil => edges | _ => r :: edges end)
    end
  end.

(* iterator.go lowerbound: the edge stack *)
Fixpoint lb_node (n : node) (key : bytes) (edges : list children) {struct n} : list children :=
  let p := node_prefix n in
  let kk := firstn (length p) key in
  if bytes_ltb p kk then edges
  else if bytes_eqb p kk then
    if (length p =? length key)%nat then CCons 0 n CNil :: edges
    else match n with
         | Leaf _ _ => edges
         | Inner kd _ _ _ _ ch =>
           let key' := skipn (length p) key in
           if kd =? 256 then lb_ch256 ch (hd 0 key') key' edges else lb_ch ch (hd 0 key') key' edges
         end
  else tmin n edges
with lb_ch (ch : children) (b : N) (key : bytes) (edges : list children) {struct ch} : list children :=
  match ch with
  | CNil => edges
  | CCons b' x r =>
    if b' <? b then lb_ch r b key edges
    else lb_node x key (match r with CNil => edges | _ => r :: edges end)
  end
with lb_ch256 (ch : children) (b : N) (key : bytes) (edges : list children) {struct ch} : list children :=
  match ch with
  | CNil => CNil :: edges
  | CCons b' x r =>
    if b' <? b then lb_ch256 r b key edges
    else if b' =? b then lb_node x key (r :: edges)
    else ch :: edges
  end.

(* ---- tree.go Tree / txn.go Txn ---- *)
Record tree := mkTree { tr_root : option node; tr_rw : N; tr_size : N; tr_ro : bool; tr_next : N }.
Record txn := mkTxn { t_root : option node; t_rw : N; t_size : N; t_ro : bool; t_tid : N;
                      t_dirty : bool; t_st : st }.

(* part.New: [next] is the global channel allocator *)
Definition tree_new (ro : bool) (next : N) : tree * N := (mkTree None next 0 ro 1, next + 1).   (* nextTxnID starts at 1 (fix in /repo): leaves report id 0 *)
(* Tree.Txn *)
Definition tree_txn (t : tree) (next : N) : txn :=
  mkTxn (tr_root t) (tr_rw t) (tr_size t) (tr_ro t) (tr_next t) false (mkSt [] next).
Definition txn_ctx (x : txn) : ctx := mkCtx (t_tid x) (t_ro x).
Definition bump (x : txn) : txn :=
  mkTxn (t_root x) (t_rw x) (t_size x) (t_ro x) (t_tid x + 1) (t_dirty x) (t_st x).

(* the mod callback used by the harness for Modify/ModifyWatch *)
Definition mod_fun (old new : N) : N := (old * 7 + new) mod 1000000.

(* Txn.ModifyWatch / InsertWatch (md = None): (txn', old, new value, watch) *)
Definition txn_modify (x : txn) (md : option (N -> N -> N)) (key : bytes) (v : N) : txn * option N * N * N :=
  let c := txn_ctx x in
  let r := match t_root x with
           | None => let '(lw, s1) := fresh c (t_st x) in mkM (Leaf key (mkLeaf key v lw)) s1 None lw v
           | Some n => modify_node c md key v (t_st x) n key
           end in
  let size := match m_old r with None => t_size x + 1 | Some _ => t_size x end in
  (mkTxn (Some (m_node r)) (t_rw x) size (t_ro x) (t_tid x) true (m_st r),
   m_old r, m_val r, if t_ro x then t_rw x else m_w r).
Definition txn_insert (x : txn) (key : bytes) (v : N) := txn_modify x None key v.

(* Txn.Delete *)
Definition txn_delete (x : txn) (key : bytes) : txn * option N :=
  match t_root x with
  | None => (x, None)
  | Some n =>
    match del_node (txn_ctx x) (t_st x) n key with
    | DNone => (x, None)
    | DSome old repl s _ => (mkTxn repl (t_rw x) (t_size x - 1) (t_ro x) (t_tid x) true s, Some old)
    end
  end.

(* search(root, rootWatch, key): Tree.Get / Txn.Get (no txnID bump) *)
Definition root_get (root : option node) (rw : N) (key : bytes) : option N * N :=
  match root with None => (None, rw) | Some n => search_node n key rw end.
Definition txn_get (x : txn) (key : bytes) := root_get (t_root x) (t_rw x) key.
Definition tree_get (t : tree) (key : bytes) := root_get (tr_root t) (tr_rw t) key.

(* prefixSearch(root, rootWatch, prefix) *)
Definition root_prefix (root : option node) (rw : N) (q : bytes) : iter * N :=
  match root with
  | None => (iter_empty, rw)
  | Some n => let '(o, w) := prefix_node n q rw in (new_iterator o, w)
  end.
(* lowerbound(root, key) *)
Definition root_lowerbound (root : option node) (key : bytes) : iter :=
  match root with None => iter_empty | Some n => mkIter None (lb_node n key []) end.

(* Tree.Prefix / LowerBound / Iterator: no ids involved *)
Definition tree_prefix (t : tree) (q : bytes) := root_prefix (tr_root t) (tr_rw t) q.
Definition tree_lowerbound (t : tree) (key : bytes) := root_lowerbound (tr_root t) key.
Definition tree_iterator (t : tree) := new_iterator (tr_root t).
(* Txn.Prefix / LowerBound / Iterator / All: txn.txnID++ first *)
Definition txn_prefix (x : txn) (q : bytes) : txn * (iter * N) := (bump x, root_prefix (t_root x) (t_rw x) q).
Definition txn_lowerbound (x : txn) (key : bytes) : txn * iter := (bump x, root_lowerbound (t_root x) key).
Definition txn_iterator (x : txn) : txn * iter := (bump x, new_iterator (t_root x)).
Definition txn_all (x : txn) : txn * list (bytes * N) := (bump x, iter_all (new_iterator (t_root x))).
(* Txn.Clone: txn.txnID++; the clone's nextTxnID is the bumped id *)
Definition txn_clone (x : txn) : txn * tree :=
  let x' := bump x in (x', mkTree (t_root x) (t_rw x) (t_size x) (t_ro x) (t_tid x')).

(* Txn.Commit (= commit()): new root watch only if dirty; txnID++ *)
Definition txn_commit (x : txn) : txn * tree :=
  let s := t_st x in
  let '(rw', s') := if t_dirty x then (s_next s, mkSt (s_ws s) (s_next s + 1)) else (t_rw x, s) in
  let x' := mkTxn (t_root x) (t_rw x) (t_size x) (t_ro x) (t_tid x + 1) (t_dirty x) s' in
  (x', mkTree (t_root x) rw' (t_size x) (t_ro x) (t_tid x + 1)).
(* Txn.Notify: the channels closed, and the txn afterwards *)
Definition txn_notify (x : txn) : txn * list N :=
  let s := t_st x in
  let closed := s_ws s ++ (if t_dirty x && negb (t_rw x =? 0) then [t_rw x] else []) in
  (mkTxn (t_root x) (if t_dirty x then 0 else t_rw x) (t_size x) (t_ro x) (t_tid x) (t_dirty x) (mkSt [] (s_next s)),
   closed).
(* Txn.CommitAndNotify: Notify then Commit *)
Definition txn_commit_notify (x : txn) : txn * tree * list N :=
  let '(x1, cl) := txn_notify x in let '(x2, t) := txn_commit x1 in (x2, t, cl).
