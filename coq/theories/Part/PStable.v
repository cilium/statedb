(* Part/PStable.v — the queries at the root of a tree. Prefix(q) and the root watch as trails (Get is in Part/Stable.v);
   the channels Prefix(q) meets are channels of inner nodes on the way to any key with prefix q, so a write to a key
   accounts for the channel of every query that covers it; the first write of a transaction closes it. *)
From SV Require Import Base.Bytes Base.OrdMap Part.Model Part.Sem Part.Insert Part.Delete Part.Query Part.Refine Part.Cow Part.Watch Part.Stable.
From Coq Require Import ZifyN ZifyNat ZifyBool.
Open Scope N_scope.

Lemma prefix_trail :
  (forall n q u, snd (prefix_node n q u) = pickl (trail QPre n q) u) /\
  (forall ch b q u, snd (prefix_ch ch b q u) = pickl (trail_ch QPre ch b q) u).
Proof.
  apply node_children_ind.
  - intros p l q u. cbn. destruct (has_prefix p q); reflexivity.
  - intros kd t p w lf ch IH q u. cbn [prefix_node]; fold prefix_ch. rewrite trail_inner. cbn [own_inner].
    destruct (has_prefix p q) eqn:Hq.
    + destruct (strip p q) as [[|b rest]|] eqn:Es; try reflexivity.
      apply strip_some in Es. subst q. now rewrite has_prefix_longer in Hq.
    + destruct (strip p q) as [[|b rest]|]; try reflexivity. apply IH.
  - reflexivity.
  - intros b0 x IHx r IHr b q u. cbn [prefix_ch]; fold prefix_node; fold prefix_ch. rewrite trail_ch_cons.
    destruct (b0 =? b); [apply IHx|apply IHr].
Qed.
Lemma root_trail : (forall n k, trail QRoot n k = []) /\ (forall ch b k, trail_ch QRoot ch b k = []).
Proof.
  apply node_children_ind; try reflexivity.
  - intros kd t p w lf ch IH k. rewrite trail_inner. destruct (strip p k) as [[|b rest]|]; auto. apply IH.
  - intros b0 x IHx r IHr b k. rewrite trail_ch_cons. destruct (b0 =? b); auto.
Qed.


Lemma strip_prefix_key p q key b rest : strip p q = Some (b :: rest) -> has_prefix key q = true ->
  exists more, strip p key = Some (b :: more) /\ has_prefix (b :: more) (b :: rest) = true.
Proof.
  intros Hs Hk. apply strip_some in Hs. subst q. apply has_prefix_spec in Hk. destruct Hk as [r ->].
  rewrite <- app_assoc. rewrite strip_app. simpl. exists (rest ++ r). split; auto.
  rewrite N.eqb_refl. simpl. apply has_prefix_spec. eexists; reflexivity.
Qed.

(* the channels Prefix(q) meets are channels of inner nodes on the way to any key with prefix q *)
Lemma trail_pre_visit :
  (forall n q key, has_prefix key q = true -> incl (trail QPre n q) (visit n key)) /\
  (forall ch b q key, has_prefix key q = true -> incl (trail_ch QPre ch b q) (visit_ch ch b key)).
Proof.
  apply node_children_ind.
  - intros p l q key _ a [].
  - intros kd t p w lf ch IH q key Hk. rewrite trail_inner. cbn [visit own_inner hdr]; fold visit_ch.
    destruct (strip p q) as [[|b rest]|] eqn:Es;
      try (destruct (has_prefix p q); [apply incl_cons; [left; reflexivity|]|]; apply incl_nil_l).
    destruct (strip_prefix_key p q key b rest Es Hk) as (more & -> & Hm).
    apply incl_cons; [left; reflexivity|]. apply incl_tl. now apply IH.
  - intros b q key _ a [].
  - intros b0 x IHx r IHr b q key Hk. rewrite trail_ch_cons. cbn [visit_ch]; fold visit; fold visit_ch.
    destruct (b0 =? b); auto.
Qed.


(* what a query returns from a root *)
Definition rq (m : qmode) (r : option node) (rw : N) (k : bytes) : N :=
  match r with Some n => pickl (trail m n k) rw | None => rw end.
Lemma rq_get r rw k : snd (root_get r rw k) = rq QGet r rw k.
Proof. destruct r as [n|]; [apply (proj1 getw_trail)|reflexivity]. Qed.
Lemma rq_prefix r rw q : snd (root_prefix r rw q) = rq QPre r rw q.
Proof.
  destruct r as [n|]; [|reflexivity]. cbn [root_prefix rq]. rewrite <- (proj1 prefix_trail).
  destruct (prefix_node n q rw). reflexivity.
Qed.
Lemma rq_root r rw k : rq QRoot r rw k = rw.
Proof. destruct r as [n|]; [|reflexivity]. cbn. now rewrite (proj1 root_trail). Qed.

Lemma covered_rec3 F m k k' n u s' : covers m k k' -> covered F n k' s' -> rec3 F (pickl (trail m n k) u) u s'.
Proof.
  intros Hc [V R]. destruct m; cbn in Hc.
  - subst k'. rewrite <- (proj1 getw_trail). apply R.
  - apply vrec_rec3. intros a Ha. apply V. now apply (proj1 trail_pre_visit n k k' Hc).
  - rewrite (proj1 root_trail). left. reflexivity.
Qed.

(* the first write of a txn begun from a committed tree closes the channel of every query that covers its key *)
Lemma tree_txn_no_inplace t next n : tree_ids_ok t -> tr_root t = Some n ->
  c_tid (txn_ctx (tree_txn t next)) <> 0 /\ no_inplace (txn_ctx (tree_txn t next)) n.
Proof.
  unfold tree_ids_ok. intros Hids Er. rewrite Er in Hids. destruct Hids as [H0 Hle].
  split; [simpl; lia|]. apply (proj1 (tids_lt_no_inplace _)); simpl; auto.
Qed.
Lemma root_closed (rw : N) (ws : list N) : rw <> 0 -> In rw (ws ++ (if true && negb (rw =? 0) then [rw] else [])).
Proof. intros H. apply N.eqb_neq in H. rewrite H. apply in_or_app. right. left. reflexivity. Qed.

Lemma first_modify m k t next md key v :
  tree_ids_ok t -> covers m k key -> rq m (tr_root t) (tr_rw t) k <> 0 ->
  In (rq m (tr_root t) (tr_rw t) k) (snd (txn_notify (fst (fst (fst (txn_modify (tree_txn t next) md key v)))))).
Proof.
  intros Hids Hc Hnz. rewrite notify_closes.
  destruct (modify_dirty (tree_txn t next) md key v) as [D R]. rewrite D, R.
  unfold txn_modify, rq in *. cbn [tree_txn t_root t_rw t_st].
  destruct (tr_root t) as [n|] eqn:Er; [|now apply root_closed].
  destruct (tree_txn_no_inplace t next n Hids Er) as [Hc0 Hni]. cbn [fst t_st].
  pose proof (modify_covered _ (fun _ => False) md key v Hc0 n (mkSt [] next) key (proj1 (no_inplace_privF _ _) n Hni)) as C.
  destruct (covered_rec3 _ m k key n (tr_rw t) _ Hc C) as [E|[E|[]]].
  - rewrite E in *. now apply root_closed.
  - apply in_or_app. left. exact E.
Qed.
Lemma first_delete m k t next key :
  tree_ids_ok t -> covers m k key -> rq m (tr_root t) (tr_rw t) k <> 0 ->
  snd (txn_delete (tree_txn t next) key) <> None ->
  In (rq m (tr_root t) (tr_rw t) k) (snd (txn_notify (fst (txn_delete (tree_txn t next) key)))).
Proof.
  intros Hids Hc Hnz Hp. unfold txn_delete, rq in *. cbn [tree_txn t_root t_rw t_st] in *.
  destruct (tr_root t) as [n|] eqn:Er; [|simpl in Hp; congruence].
  destruct (tree_txn_no_inplace t next n Hids Er) as [Hc0 Hni].
  pose proof (delete_records _ n (mkSt [] next) key Hni) as D.
  change (t_st (tree_txn t next)) with (mkSt [] next) in *.
  destruct (del_node (txn_ctx (tree_txn t next)) (mkSt [] next) n key) as [|old repl s ip]; [simpl in Hp; congruence|].
  rewrite notify_closes. cbn [fst t_st t_dirty t_rw tree_txn].
  destruct (covered_rec3 _ m k key n (tr_rw t) _ Hc D) as [E|[E|[]]].
  - rewrite E in *. now apply root_closed.
  - apply in_or_app. left. exact E.
Qed.


