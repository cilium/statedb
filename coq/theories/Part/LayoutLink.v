(* Part/LayoutLink.v — the layout model (Part/Layout.v) and the tree model (Part/Model.v) agree:
   (l_abs, l_kind, l_leaf) of a layout evolves under l_add / l_del exactly like
   (child key list, kind tag, leaf presence) of an [Inner] node under the child-adding branch
   of Model.modify_node and under Model.remove_child. *)
From SV Require Import Part.Model Part.Layout Part.LayoutBase Part.LayoutKeyed Part.Layout48 Part.Layout256 Part.LayoutProofs.
From Coq Require Import ZifyN ZifyNat ZifyBool.
Close Scope N_scope.

(* the key bytes of a Part/Model.v child list *)
Fixpoint ch_keys (ch : children) : list N :=
  match ch with CNil => [] | CCons b _ r => b :: ch_keys r end.

Lemma ch_keys_insert : forall b n ch, ch_keys (ch_insert b n ch) = ins b (ch_keys ch).
Proof. intros b n ch; induction ch as [|b' c r IH]; cbn; [reflexivity|]. destruct (b <? b')%N; cbn; congruence. Qed.
Lemma ch_keys_remove : forall b ch, ch_keys (ch_remove b ch) = rem b (ch_keys ch).
Proof. intros b ch; induction ch as [|b' c r IH]; cbn; [reflexivity|]. destruct (b' =? b)%N; cbn; congruence. Qed.
Lemma ch_len_keys : forall ch, ch_len ch = N.of_nat (length (ch_keys ch)).
Proof. induction ch as [|b c r IH]; cbn [ch_len ch_keys length]; [reflexivity|]. rewrite IH. lia. Qed.
Lemma ch_find_memb : forall b ch, memb b (ch_keys ch) = false -> ch_find b ch = None.
Proof.
  intros b ch; induction ch as [|b' c r IH]; cbn [ch_find ch_keys memb existsb]; [reflexivity|].
  intros H. apply orb_false_iff in H. destruct H as [H1 H2]. rewrite N.eqb_sym, H1. apply IH. exact H2.
Qed.

Definition opt_some {A} (o : option A) : bool := match o with Some _ => true | None => false end.

(* Model.modify_node, branch "free slot: promote if full, else clone; then insert a new leaf" *)
Lemma modify_ch_absent : forall c md fk v s ch b key, memb b (ch_keys ch) = false -> modify_ch c md fk v s ch b key = None.
Proof.
  intros c md fk v s ch b key; induction ch as [|b' x r IH]; intros H; [reflexivity|].
  cbn [ch_keys memb existsb] in H. apply orb_false_iff in H. destruct H as [H1 H2].
  cbn [modify_ch]. rewrite N.eqb_sym, H1. change (existsb (N.eqb b) (ch_keys r)) with (memb b (ch_keys r)) in H2.
  rewrite (IH H2). reflexivity.
Qed.

Theorem link_add : forall c md fk v s kd t p w lf ch b rest key l,
  LWF l -> (b < 256)%N ->
  l_kind l = kd -> l_abs l = ch_keys ch -> l_leaf l = opt_some lf ->
  memb b (l_abs l) = false ->
  strip p key = Some (b :: rest) ->
  exists t2 w2 nl,
    m_node (modify_node c md fk v s (Inner kd t p w lf ch) key)
      = Inner (l_kind (l_add l b)) t2 p w2 lf (ch_insert b nl ch) /\
    ch_keys (ch_insert b nl ch) = l_abs (l_add l b) /\
    l_leaf (l_add l b) = opt_some lf.
Proof.
  intros c md fk v s kd t p w lf ch b rest key l HW Hb Hkd Habs Hlf Hm Hstrip.
  destruct (l_add_correct l b HW Hb Hm) as (_ & Ea & El & _ & Ek).
  cbn [modify_node]. fold (modify_ch c md fk v). rewrite Hstrip.
  destruct (clone_hdr c s t w) as [[t' w'] s1] eqn:Ec.
  rewrite modify_ch_absent by (rewrite <- Habs; exact Hm).
  assert (Ekd : (if (kd <? ch_len ch + 1)%N then promote_kind kd else kd) = l_kind (l_add l b)).
  { rewrite Ek. unfold add_kind. rewrite Hkd, ch_len_keys, <- Habs.
    destruct (LWF_abs l HW) as (_ & Es & _). rewrite Es. reflexivity. }
  assert (Hrest : forall nl, ch_keys (ch_insert b nl ch) = l_abs (l_add l b) /\ l_leaf (l_add l b) = opt_some lf).
  { intros nl. rewrite ch_keys_insert, Ea, Habs, El. auto. }
  destruct (kd <? ch_len ch + 1)%N.
  - destruct (fresh_if w (record w s)) as [w2 s2]. destruct (fresh c s2) as [lw s3]. cbn [m_node].
    eexists _, _, _. split; [rewrite Ekd; reflexivity|apply Hrest].
  - destruct (fresh c s1) as [lw s3]. cbn [m_node].
    eexists _, _, _. split; [rewrite Ekd; reflexivity|apply Hrest].
Qed.

Lemma ch_other_two : forall b ch x, good (ch_keys ch) -> rem b (ch_keys ch) = [x] -> length (ch_keys ch) = 2 ->
  memb b (ch_keys ch) = true ->
  exists xn, ch_other b ch = Some xn /\ ch_find x ch = Some xn.
Proof.
  intros b ch x [HS _] Hr HL Hm.
  destruct ch as [|b1 c1 [|b2 c2 [|? ? ?]]]; cbn [ch_keys length] in HL; try discriminate.
  cbn [ch_keys rem ch_other ch_find memb existsb ssorted] in *.
  destruct HS as [H12 _]. apply Forall_cons_iff in H12. destruct H12 as [H12 _].
  destruct (N.eqb_spec b1 b) as [E1|E1].
  - subst b1. inversion Hr; subst x. clear Hr. exists c2.
    destruct (N.eqb_spec b2 b) as [E2|E2]; [lia|]. destruct (N.eqb_spec b b2) as [E3|E3]; [lia|].
    rewrite N.eqb_refl. split; reflexivity.
  - destruct (N.eqb_spec b2 b) as [E2|E2].
    + inversion Hr; subst x. exists c1. rewrite N.eqb_refl. split; reflexivity.
    + destruct (N.eqb_spec b b1); [congruence|]. destruct (N.eqb_spec b b2); [congruence|]. discriminate.
Qed.

Lemma leb_bridge : forall n m, (N.of_nat n <=? N.of_nat m)%N = (n <=? m).
Proof. intros. destruct (N.leb_spec (N.of_nat n) (N.of_nat m)), (Nat.leb_spec n m); try reflexivity; lia. Qed.

(* Model.remove_child when the node does not collapse: the node stays, with the kind of the layout model *)
Lemma remove_child_keep : forall c s kd t p w lf ch b n,
  ch_len ch = N.of_nat n -> (n =? 2) && negb (opt_some lf) = false ->
  exists t' w' s' ip, remove_child c s kd t p w lf ch b = (Inner (del_kind kd n) t' p w' lf (ch_remove b ch), s', ip).
Proof.
  intros c s kd t p w lf ch b n Elen Ecol.
  assert (Hdef : remove_child c s kd t p w lf ch b =
    (if ((kd =? 256) && (ch_len ch <=? 49) || (kd =? 48) && (ch_len ch <=? 17) || (kd =? 16) && (ch_len ch <=? 5))%N
     then let kd' := (if kd =? 256 then 48 else if kd =? 48 then 16 else 4)%N in
          let '(w', s1) := fresh_if w s in (Inner kd' (c_tid c) p w' lf (ch_remove b ch), record w s1, false)
     else let '(t', w', s1) := clone_hdr c s t w in (Inner kd t' p w' lf (ch_remove b ch), s1, (t =? c_tid c)%N))).
  { unfold remove_child. rewrite Elen.
    destruct (N.eqb_spec (N.of_nat n) 2) as [E2|E2]; [|reflexivity].
    destruct lf as [lfr|]; [reflexivity|]. replace n with 2 in Ecol by lia. discriminate Ecol. }
  rewrite Hdef, Elen.
  change 49%N with (N.of_nat 49). change 17%N with (N.of_nat 17). change 5%N with (N.of_nat 5). rewrite !leb_bridge.
  unfold del_kind.
  destruct ((kd =? 256)%N && (n <=? 49) || (kd =? 48)%N && (n <=? 17) || (kd =? 16)%N && (n <=? 5)).
  - cbn zeta. destruct (fresh_if w s) as [w' s1]. eexists _, _, _, _. reflexivity.
  - destruct (clone_hdr c s t w) as [[t' w'] s1]. eexists _, _, _, _. reflexivity.
Qed.

Theorem link_del : forall c s kd t p w lf ch b l,
  LWF l -> LOcc l -> (b < 256)%N ->
  l_kind l = kd -> l_abs l = ch_keys ch -> l_leaf l = opt_some lf ->
  memb b (l_abs l) = true ->
  match l_del l b with
  | LNode l' =>
    exists t' w' s' ip,
      remove_child c s kd t p w lf ch b = (Inner (l_kind l') t' p w' lf (ch_remove b ch), s', ip) /\
      ch_keys (ch_remove b ch) = l_abs l' /\ l_leaf l' = opt_some lf
  | LCollapsed (Some x) =>
    exists xn, ch_find x ch = Some xn /\ remove_child c s kd t p w lf ch b = (merge_child p xn, record w s, false)
  | LCollapsed None => False
  end.
Proof.
  intros c s kd t p w lf ch b l HW HO Hb Hkd Habs Hlf Hm.
  pose proof (l_del_correct l b HW HO Hb Hm) as HC.
  destruct (LWF_abs l HW) as (HG & Es & _ & _).
  assert (Elen : ch_len ch = N.of_nat (l_size l)) by (rewrite ch_len_keys, <- Habs, Es; reflexivity).
  destruct ((l_size l =? 2) && negb (l_leaf l)) eqn:Ecol.
  - destruct HC as (x & Ed & Er). rewrite Ed.
    apply andb_true_iff in Ecol. destruct Ecol as [E2 Enl]. apply Nat.eqb_eq in E2.
    rewrite Hlf in Enl. destruct lf as [lfr|]; [discriminate|].
    destruct (ch_other_two b ch x) as (xn & Eo & Ef); try (rewrite <- Habs; auto).
    + rewrite <- Es. exact E2.
    + exists xn. split; [exact Ef|]. unfold remove_child. rewrite Elen, E2, Eo. reflexivity.
  - destruct HC as (l' & Ed & _ & Ea & El & _ & Ek). rewrite Ed.
    destruct (remove_child_keep c s kd t p w lf ch b (l_size l) Elen) as (t' & w' & s' & ip & E); [rewrite <- Hlf; exact Ecol|].
    exists t', w', s', ip. rewrite Ek, Hkd, E, ch_keys_remove, Ea, Habs, El. auto.
Qed.
