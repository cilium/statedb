(* Part/LayoutKeyed.v — node4 / node16 (sorted keys array + children array with stale slots):
   canonical form, lookups, insert, remove. *)
From SV Require Import Part.Layout Part.LayoutBase.
From Coq Require Import ZifyN ZifyNat ZifyBool.
Close Scope N_scope.

(* the unused key slots: 255s left behind by remove, then the 0s of the fresh array *)
Definition stale (m z : nat) : list N := repeat 255%N m ++ repeat 0%N z.

(* a well-formed node4 / node16 holding the sorted keys ks *)
Definition canon_keyed (kd : N) (lf : bool) (ks : list N) (m z : nat) : layout :=
  mkL kd (length ks) lf (ks ++ stale m z) [] (map (@Some N) ks ++ repeat None (m + z)).

Lemma stale_length : forall m z, length (stale m z) = m + z.
Proof. intros; unfold stale; rewrite app_length, !repeat_length; reflexivity. Qed.

Definition next_stale (m z : nat) : nat * nat := match m with 0 => (0, z - 1) | S m' => (m', z) end.
Lemma stale_uncons : forall m z, 0 < m + z ->
  exists y, stale m z = y :: stale (fst (next_stale m z)) (snd (next_stale m z)) /\
            fst (next_stale m z) + snd (next_stale m z) = m + z - 1.
Proof.
  intros [|m] z H; cbn.
  - destruct z; [lia|]. exists 0%N. cbn. rewrite Nat.sub_0_r. split; reflexivity.
  - exists 255%N. split; [reflexivity|lia].
Qed.

Lemma abs_keyed : forall kd lf ks m z, (kd = 4 \/ kd = 16)%N -> l_abs (canon_keyed kd lf ks m z) = ks.
Proof.
  intros kd lf ks m z [-> | ->]; unfold l_abs, l_children_go; cbn [l_kind l_size l_children canon_keyed N.eqb Pos.eqb];
    rewrite firstn_map_some; apply cat_some_map_some.
Qed.

Lemma find16_scan_shift : forall n i x c keys ch key,
  find16_scan n (S i) (x :: keys) (c :: ch) key = find16_scan n i keys ch key.
Proof. induction n as [|n IH]; intros; cbn [find16_scan]; [reflexivity|]. rewrite IH. reflexivity. Qed.

(* bytes.IndexByte-like scan over the keys and n stale slots; also node4's switch over the four key slots *)
Lemma find16_scan_spec : forall ks st n nn key, n <= length st -> n <= nn ->
  find16_scan (length ks + n) 0 (ks ++ st) (map (@Some N) ks ++ repeat None nn) key = memb key ks.
Proof.
  induction ks as [|x r IH]; intros st n nn key Hn Hnn; cbn [length app map Nat.add].
  - (* only stale slots are left: whatever their keys, their children are nil *)
    revert st nn Hn Hnn. induction n as [|n IHn]; intros; [reflexivity|].
    destruct st as [|y st]; [cbn in Hn; lia|]. destruct nn as [|nn]; [lia|].
    cbn [find16_scan repeat]. unfold key_at, child_at. cbn [nth is_some].
    destruct (y =? key)%N; [reflexivity|]. rewrite find16_scan_shift. apply IHn; cbn in Hn; lia.
  - cbn [find16_scan]. unfold key_at, child_at. cbn [nth is_some memb existsb].
    rewrite (N.eqb_sym key x). destruct (x =? key)%N; [reflexivity|]. rewrite find16_scan_shift. apply IH; assumption.
Qed.

Lemma find_keyed : forall kd lf ks m z key, (kd = 4 \/ kd = 16)%N -> length ks + m + z = l_cap_of kd ->
  l_find (canon_keyed kd lf ks m z) key = memb key ks.
Proof.
  intros kd lf ks m z key Hkd Hcap.
  destruct Hkd as [-> | ->]; cbn in Hcap.
  - change (l_find (canon_keyed 4 lf ks m z) key)
      with (find16_scan 4 0 (ks ++ stale m z) (map (@Some N) ks ++ repeat None (m + z)) key).
    replace 4 with (length ks + (m + z)) by lia. apply find16_scan_spec; rewrite ?stale_length; lia.
  - change (l_find (canon_keyed 16 lf ks m z) key)
      with (find16_scan (length ks) 0 (ks ++ stale m z) (map (@Some N) ks ++ repeat None (m + z)) key).
    rewrite <- (Nat.add_0_r (length ks)) at 1. apply find16_scan_spec; lia.
Qed.

(* node4's "switch { case keys[0] >= key: i = 0 ... }" as a scan over the key slots *)
Fixpoint scan_ge (key : N) (keys : list N) (i n size : nat) : nat :=
  match n with
  | 0 => size
  | S n' => if (key <=? key_at keys i)%N then i else scan_ge key keys (S i) n' size
  end.

Lemma scan_ge_shift : forall n key x keys i size,
  scan_ge key (x :: keys) (S i) n (S size) = S (scan_ge key keys i n size).
Proof.
  induction n as [|n IH]; intros; cbn [scan_ge]; [reflexivity|]. rewrite IH.
  change (key_at (x :: keys) (S i)) with (key_at keys i). destruct (key <=? key_at keys i)%N; reflexivity.
Qed.

Lemma scan_ge_miss : forall n key keys i size, (forall j, (key_at keys j < key)%N) -> scan_ge key keys i n size = size.
Proof.
  induction n as [|n IH]; intros key keys i size H; cbn [scan_ge]; [reflexivity|].
  destruct (N.leb_spec key (key_at keys i)); [specialize (H i); lia|apply IH, H].
Qed.

Lemma scan_ge_spec : forall a b m z key,
  Forall (fun x => (x < key)%N) a -> Forall (fun x => (key <= x)%N) b -> (key < 256)%N ->
  scan_ge key (a ++ b ++ stale m z) 0 (length a + length b + m + z) (length a + length b) = length a.
Proof.
  induction a as [|x a IH]; intros b m z key Ha Hb Hk; cbn [app length Nat.add].
  - destruct b as [|x b]; cbn [app length Nat.add].
    + (* no key: the stale slots answer with the size, 0, at once (a 255, or key = 0) or not at all (0s) *)
      destruct m as [|m]; [|cbn; destruct (N.leb_spec key 255); [reflexivity|lia]].
      destruct (N.eq_dec key 0) as [->|Hne]; [destruct z; reflexivity|].
      apply scan_ge_miss. intros j. unfold key_at, stale. cbn [repeat app]. rewrite nth_repeat. lia.
    + cbn [scan_ge]. unfold key_at. cbn [nth]. apply Forall_cons_iff in Hb. destruct Hb as [Hbx _].
      destruct (N.leb_spec key x); [reflexivity|lia].
  - cbn [scan_ge]. unfold key_at. cbn [nth]. apply Forall_cons_iff in Ha. destruct Ha as [Hax Ha'].
    destruct (N.leb_spec key x); [lia|]. rewrite scan_ge_shift, IH by assumption. reflexivity.
Qed.

Lemma find16_loop_shift : forall n i x c keys ch key size,
  find16_loop n (S i) (x :: keys) (c :: ch) key (S size) =
  let (f, j) := find16_loop n i keys ch key size in (f, S j).
Proof.
  induction n as [|n IH]; intros; cbn [find16_loop]; [reflexivity|]. rewrite IH.
  change (key_at (x :: keys) (S i)) with (key_at keys i). change (child_at (c :: ch) (S i)) with (child_at ch i).
  destruct (key <=? key_at keys i)%N; [destruct (key_at keys i =? key)%N|]; reflexivity.
Qed.

Lemma find16_loop_spec : forall a b rest crest key,
  Forall (fun x => (x < key)%N) a -> Forall (fun x => (key <= x)%N) b ->
  find16_loop (length a + length b) 0 (a ++ b ++ rest) (map (@Some N) a ++ map (@Some N) b ++ crest) key
              (length a + length b)
  = (match b with x :: _ => (x =? key)%N | [] => false end, length a).
Proof.
  induction a as [|x a IH]; intros b rest crest key Ha Hb; cbn [length app map Nat.add].
  - destruct b as [|x b]; [reflexivity|]. cbn [length find16_loop app map]. unfold key_at, child_at. cbn [nth is_some].
    apply Forall_cons_iff in Hb; destruct Hb as [Hbx _]. destruct (N.leb_spec key x); [|lia].
    destruct (x =? key)%N; reflexivity.
  - cbn [find16_loop]. unfold key_at. cbn [nth]. apply Forall_cons_iff in Ha; destruct Ha as [Hax Ha'].
    destruct (N.leb_spec key x); [lia|]. rewrite find16_loop_shift, IH by assumption. reflexivity.
Qed.

Lemma findIndex_keyed : forall kd lf ks m z key, (kd = 4 \/ kd = 16)%N ->
  length ks + m + z = l_cap_of kd -> ssorted ks -> (key < 256)%N ->
  l_findIndex (canon_keyed kd lf ks m z) key = (memb key ks, rank key ks).
Proof.
  intros kd lf ks m z key Hkd Hcap HS Hk.
  destruct (split_at key ks HS) as (a & b0 & E & Ha & Hb0).
  destruct (split_mid key b0 (memb key ks) Hb0) as [Hb Hm]. cbn zeta in Hb, Hm.
  remember (if memb key ks then key :: b0 else b0) as b eqn:Eb. rewrite <- Hm. subst ks. clear Eb Hm.
  rewrite (rank_split key a b Ha Hb), app_length in *.
  destruct Hkd as [-> | ->]; cbn in Hcap.
  - pose proof (scan_ge_spec a b m z key Ha Hb Hk) as HS4. replace (length a + length b + m + z) with 4 in HS4 by lia.
    unfold l_findIndex. cbn [l_kind canon_keyed N.eqb Pos.eqb l_size l_keys l_children].
    change (if (key <=? _)%N then 0 else _) with (scan_ge key ((a ++ b) ++ stale m z) 0 4 (length (a ++ b))).
    rewrite app_length, <- app_assoc, HS4.
    destruct b as [|x b].
    + cbn [length]. rewrite Nat.add_0_r, Nat.ltb_irrefl. reflexivity.
    + cbn [app]. unfold key_at, child_at. rewrite nth_app_exact.
      rewrite map_app, <- app_assoc, <- (map_length (@Some N) a). cbn [map app]. rewrite nth_app_exact.
      cbn [length]. destruct (Nat.ltb_spec (length (map Some a)) (length (map Some a) + S (length b))); [|lia].
      cbn [andb is_some]. destruct (x =? key)%N; reflexivity.
  - unfold l_findIndex. cbn [l_kind canon_keyed N.eqb Pos.eqb l_size l_keys l_children].
    rewrite <- app_assoc, map_app, <- app_assoc, app_length. apply find16_loop_spec; assumption.
Qed.

Lemma insert_keyed : forall kd lf a b m z k, (kd = 4 \/ kd = 16)%N -> 0 < m + z ->
  l_insert (canon_keyed kd lf (a ++ b) m z) (length a) k =
  canon_keyed kd lf (a ++ k :: b) (fst (next_stale m z)) (snd (next_stale m z)).
Proof.
  intros kd lf a b m z k Hkd Hmz.
  destruct (stale_uncons m z Hmz) as (y & Ey & Hsum).
  unfold l_insert, canon_keyed. cbn [l_kind l_size l_leaf l_keys l_index l_children].
  replace ((kd =? 4)%N || (kd =? 16)%N) with true by (destruct Hkd as [-> | ->]; reflexivity).
  f_equal.
  - rewrite !app_length. cbn [length]. lia.
  - rewrite Ey, <- !app_assoc, app_length. rewrite arr_insert_app. cbn [app]. reflexivity.
  - rewrite Hsum. remember (m + z - 1) as q eqn:Eq. replace (m + z) with (S q) by lia. cbn [repeat].
    rewrite !map_app, <- !app_assoc, app_length. cbn [map app].
    rewrite <- (map_length (@Some N) a), <- (map_length (@Some N) b). rewrite arr_insert_app. reflexivity.
Qed.

Lemma remove_keyed : forall kd lf a b m z k, (kd = 4 \/ kd = 16)%N ->
  l_remove (canon_keyed kd lf (a ++ k :: b) m z) (length a) = canon_keyed kd lf (a ++ b) (S m) z.
Proof.
  intros kd lf a b m z k Hkd.
  unfold l_remove, canon_keyed. cbn [l_kind l_size l_leaf l_keys l_index l_children].
  replace ((kd =? 4)%N || (kd =? 16)%N) with true by (destruct Hkd as [-> | ->]; reflexivity).
  f_equal.
  - rewrite !app_length. cbn [length]. lia.
  - rewrite <- !app_assoc, app_length. cbn [app length]. rewrite arr_remove_app. reflexivity.
  - rewrite !map_app, <- !app_assoc, app_length. cbn [map app length].
    rewrite <- (map_length (@Some N) a), <- (map_length (@Some N) b). rewrite arr_remove_app.
    cbn [Nat.add repeat]. reflexivity.
Qed.

Lemma promote_4 : forall lf ks m z, length ks <= 16 ->
  l_promote (canon_keyed 4 lf ks m z) = canon_keyed 16 lf ks 0 (16 - length ks).
Proof.
  intros lf ks m z HL. unfold l_promote, canon_keyed. cbn [l_kind l_size l_leaf l_keys l_children N.eqb Pos.eqb].
  f_equal.
  - rewrite firstn_app_exact. rewrite copy_into_repeat by lia. reflexivity.
  - rewrite <- (map_length (@Some N) ks) at 1. rewrite firstn_app_exact. rewrite copy_into_repeat by (rewrite map_length; lia).
    rewrite map_length. reflexivity.
Qed.

Lemma demote_16_arrays : forall lf a b m z k, length a + length b <= 4 ->
  mkL 4 (length (a ++ k :: b) - 1) lf
      (copy_into (skip_nth (length a) (firstn (length (a ++ k :: b)) (l_keys (canon_keyed 16 lf (a ++ k :: b) m z)))) (repeat 0%N 4)) []
      (copy_into (skip_nth (length a) (firstn (length (a ++ k :: b)) (l_children (canon_keyed 16 lf (a ++ k :: b) m z)))) (repeat None 4))
  = canon_keyed 4 lf (a ++ b) 0 (4 - length (a ++ b)).
Proof.
  intros lf a b m z k HL. unfold canon_keyed. cbn [l_keys l_children].
  rewrite firstn_app_exact. rewrite <- (map_length (@Some N) (a ++ k :: b)) at 2. rewrite firstn_app_exact.
  rewrite skip_nth_app. rewrite map_app. cbn [map]. rewrite <- (map_length (@Some N) a). rewrite skip_nth_app.
  rewrite !copy_into_repeat by (rewrite ?app_length, ?map_length; lia).
  f_equal.
  - rewrite !app_length. cbn [length]. lia.
  - rewrite <- map_app. rewrite app_length, !map_length, app_length. reflexivity.
Qed.
