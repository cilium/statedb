(* Part/HeapProofs.v — transaction-level theorems about the heap model Part/Heap.v:
   (a) refinement: Insert/Modify/Delete on the heap compute what Part/Model.v computes on the
       denoted tree (same outputs);
   (b) ownership: a cell reachable from the txn's root carries the txn id iff the txn allocated
       and stamped it since its id was last bumped; in-place writes hit only those cells;
       everything else is append;
   (c) persistence: whatever is reachable outside the own-sets of the live transactions denotes
       the same tree after any interleaving of operations of two transactions on the same heap
       (Insert/Modify/Delete, handing out a root with id bump, Commit, abandon + Txn on any
       handed-out tree); the two transactions may carry the same id;
   (d) the witness systems of the refutations (shallow child merge; ownership is not "allocated since
       the bump"). The statements Properties/C11.v makes of (a)-(d) are proved there from this file. *)
From SV Require Import Base.Bytes Part.Model Part.Sem Part.Heap Part.HeapBase Part.HeapMod Part.HeapDel.
From Coq Require Import ZArith List Bool Lia ZifyN ZifyNat ZifyBool.
Import ListNotations.
Open Scope N_scope.

Definition root_trep {P : nat -> Prop} (tid : N) (h : heap) (r : option nat) (t : option node) (F : list nat) : Prop :=
  match r with
  | None => t = None /\ F = []
  | Some a => exists n, t = Some n /\ @trep P tid h a n F
  end.

Lemma root_trep_rep P tid h r t F : @root_trep P tid h r t F -> rep_root h r t.
Proof.
  destruct r as [a|]; cbn [root_trep rep_root]; [|tauto]. intros (n & -> & T). exists n. split; [reflexivity|].
  eapply (proj1 (trep_rep tid h)); eauto.
Qed.
Lemma root_trep_den P tid h r t F : @root_trep P tid h r t F -> den_root h r = t.
Proof. intros T. eapply rep_root_den, root_trep_rep; eauto. Qed.
Arguments root_trep_den {P tid h r t F}.
Lemma root_trep_F_cell P tid h r t F : @root_trep P tid h r t F -> forall x, In x F -> owned_cell tid h x.
Proof.
  destruct r as [a|]; cbn [root_trep]; [|intros (_ & ->) x []]. intros (n & -> & T).
  eapply (proj1 (trep_F_cell tid h)); eauto.
Qed.
Lemma root_trep_map (P Q : nat -> Prop) tid tid' h h' F F' r t :
  (forall a n, @trep P tid h a n F -> @trep Q tid' h' a n F') -> (F = [] -> F' = []) ->
  @root_trep P tid h r t F -> @root_trep Q tid' h' r t F'.
Proof. intros Hm He. destruct r as [a|]; cbn [root_trep]; [intros (n & -> & T); eauto|intros (-> & E); auto]. Qed.

Lemma root_trep_transport (P Q : nat -> Prop) tid h h' r t F : 0 < tid -> @root_trep P tid h r t F ->
  (forall x cl, nth_error h x = Some cl -> P x -> cell_tid cl < tid -> nth_error h' x = Some cl /\ Q x) ->
  (forall x cl, nth_error h x = Some cl -> In x F -> nth_error h' x = Some cl) ->
  @root_trep Q tid h' r t F.
Proof.
  intros T0 T Fz Hf. refine (root_trep_map P Q tid tid h h' F F r t _ (fun E => E) T). intros a n Tn.
  eapply (proj1 (trep_transport P Q tid h h' T0 Fz)); eauto.
Qed.
Lemma root_trep_P_impl (P Q : nat -> Prop) tid h r t F : 0 < tid -> (forall x, P x -> Q x) ->
  @root_trep P tid h r t F -> @root_trep Q tid h r t F.
Proof. intros T0 PQ T. eapply root_trep_transport; eauto. Qed.
Lemma root_trep_bump (P Q : nat -> Prop) tid tid' h r t F : tid < tid' ->
  (forall x cl, nth_error h x = Some cl -> P x -> Q x) -> (forall x, In x F -> Q x) ->
  @root_trep P tid h r t F -> @root_trep Q tid' h r t [].
Proof.
  intros Ht PQ HF. apply root_trep_map; [|auto]. intros a n T. eapply (proj1 (trep_bump P Q tid tid' h Ht PQ)); eauto.
Qed.
Lemma root_trep_reach P tid h r t F : 0 < tid -> @root_trep P tid h r t F -> forall x, reach_root h r x ->
  In x F \/ (P x /\ exists cl, nth_error h x = Some cl /\ cell_tid cl < tid).
Proof.
  intros T0. destruct r as [a|]; cbn [root_trep reach_root]; [|intros _ x []]. intros (n & -> & T).
  eapply (proj1 (trep_reach tid h T0)); eauto.
Qed.

Definition hinv (P : nat -> Prop) (h : heap) (x : htxn) : Prop :=
  0 < x_tid x /\
  exists t F, @root_trep P (x_tid x) h (x_root x) t F /\ (forall a, In a F -> In a (x_own x)) /\
              (forall a, In a (x_own x) -> owned_cell (x_tid x) h a).

(* what an operation of transaction x does to the heap: append, and writes inside [own] *)
Definition frame (h h' : heap) (own : list nat) : Prop :=
  (length h <= length h')%nat /\
  forall a, (a < length h)%nat -> ~ In a own -> nth_error h' a = nth_error h a.

Lemma frame_refl h own : frame h h own.
Proof. split; [lia|auto]. Qed.

Lemma in_fresh_cells h h' a : In a (fresh_cells h h') <-> (length h <= a < length h')%nat.
Proof. unfold fresh_cells. rewrite in_seq. lia. Qed.

Lemma hinv_den P h x : hinv P h x -> exists t F, @root_trep P (x_tid x) h (x_root x) t F /\ den_root h (x_root x) = t.
Proof. intros (_ & t & F & T & _). exists t, F. split; [exact T|]. eapply root_trep_den; eauto. Qed.

Lemma op_finish P h x F h' r' t' F' rw sz ro dirty st :
  0 < x_tid x -> (forall a, In a F -> In a (x_own x)) -> (forall a, In a (x_own x) -> owned_cell (x_tid x) h a) ->
  @root_trep P (x_tid x) h' r' t' F' -> sub F' F h -> ext (x_tid x) h h' F ->
  hinv P h' (mkHTxn r' rw sz ro (x_tid x) dirty st (own_after x h h')) /\ frame h h' (x_own x).
Proof.
  intros T0 SubO OC T' S (L & A & O). split.
  - split; [exact T0|]. exists t', F'. cbn [x_tid x_root x_own]. split; [exact T'|]. split.
    + intros a Ha. unfold own_after. apply in_or_app. destruct (S a Ha) as [H|H]; [left; auto|right].
      destruct (root_trep_F_cell _ _ _ _ _ _ T' a Ha) as (kd & p & w & lf & ch & Hn).
      unfold stamped. apply filter_In. split.
      * apply in_fresh_cells. apply nth_error_lt in Hn. lia.
      * rewrite (hget_some Hn). apply N.eqb_refl.
    + intros a Ha. unfold own_after in Ha. apply in_app_or in Ha as [Ha|Ha]; [auto|].
      unfold stamped in Ha. apply filter_In in Ha as (Hf & Hc). apply in_fresh_cells in Hf.
      destruct (nth_error h' a) as [cl|] eqn:E; [|apply nth_error_None in E; lia].
      rewrite (hget_some E) in Hc. destruct cl as [|kd t p w lf ch]; [discriminate|].
      apply N.eqb_eq in Hc. subst t. red. eauto 8.
  - split; [exact L|]. intros a La Na. destruct (nth_error h a) as [cl|] eqn:E; [|apply nth_error_None in E; lia].
    apply A; [exact E|]. intros Hi. exact (Na (SubO _ Hi)).
Qed.

Theorem htxn_modify_spec P h x md key v : hinv P h x -> @Pext P h ->
  let '(h', x', old, nv, w) := htxn_modify h x md key v in
  hinv P h' x' /\ (habs h' x', old, nv, w) = txn_modify (habs h x) md key v /\
  frame h h' (x_own x) /\ x_tid x' = x_tid x /\ x_own x' = own_after x h h'.
Proof.
  intros (T0 & t & F & T & SubO & OC) PE. unfold htxn_modify, txn_modify.
  set (c := htxn_ctx x).
  assert (Ec : txn_ctx (habs h x) = c) by reflexivity. rewrite Ec.
  cbn [habs t_root t_st t_rw t_size t_ro t_tid]. rewrite (root_trep_den T).
  set (r := match x_root x with Some a => _ | None => _ end). set (m := match t with Some n => _ | None => _ end).
  assert (K : @hmspec P c h F r m).
  { subst r m. destruct (x_root x) as [a|]; cbn [root_trep] in T.
    - destruct T as (n & -> & T). apply (hmod_spec c T0); auto.
      eapply rep_height. eapply (proj1 (trep_rep (x_tid x) h)); eauto.
    - destruct T as (-> & ->). destruct (fresh c (x_st x)) as [lw s1]. unfold alloc.
      repeat (split; [reflexivity|]). cbn [r_heap r_addr m_node]. exists [].
      split; [apply (leaf_alloc c T0); exact PE|]. split; [intros y []|apply ext_alloc]. }
  destruct K as (A1 & A2 & A3 & A4 & F' & T' & S' & E').
  assert (RT : @root_trep P (x_tid x) (r_heap r) (Some (r_addr r)) (Some (m_node m)) F') by (exists (m_node m); auto).
  destruct (op_finish P h x F (r_heap r) (Some (r_addr r)) _ F' (x_rw x)
              (match r_old r with Some _ => x_size x | None => x_size x + 1 end) (x_ro x) true (r_st r) T0 SubO OC RT S' E') as (HI & FR).
  split; [exact HI|]. split; [|auto].
  unfold habs. cbn [x_root x_rw x_size x_ro x_tid x_dirty x_st].
  rewrite (root_trep_den RT), A1, A2, A3, A4. reflexivity.
Qed.

Theorem htxn_delete_spec P h x key : hinv P h x -> @Pext P h ->
  let '(h', x', old) := htxn_delete h x key in
  hinv P h' x' /\ (habs h' x', old) = txn_delete (habs h x) key /\
  frame h h' (x_own x) /\ x_tid x' = x_tid x /\ (x_own x' = own_after x h h' \/ h' = h /\ x' = x).
Proof.
  intros HI PE. pose proof HI as (T0 & t & F & T & SubO & OC).
  unfold htxn_delete, htxn_delete_with, txn_delete.
  set (c := htxn_ctx x). assert (Ec : txn_ctx (habs h x) = c) by reflexivity. rewrite Ec.
  cbn [habs t_root t_st t_rw t_size t_ro t_tid]. rewrite (root_trep_den T).
  assert (Same : hinv P h x /\ (habs h x, @None N) = (habs h x, None) /\ frame h h (x_own x) /\ x_tid x = x_tid x /\
                 (x_own x = own_after x h h \/ h = h /\ x = x)).
  { split; [exact HI|]. split; [reflexivity|]. split; [apply frame_refl|]. split; [reflexivity|right; auto]. }
  destruct (x_root x) as [a|] eqn:Er; cbn [root_trep] in T.
  - destruct T as (n & -> & T).
    assert (Hh : (height n <= length h)%nat) by (eapply rep_height, (proj1 (trep_rep (x_tid x) h)); eauto).
    pose proof (hdel_spec c T0 (length h) (x_st x) h a key n F PE T Hh) as K.
    destruct (del_node c (x_st x) n key) as [|old repl s ip];
      destruct (hdel c (fun _ => hmerge) (length h) (x_st x) h a key) as [|old' repl' s' h' ip']; cbn [hdspec] in K; try contradiction.
    + exact Same.
    + destruct K as (-> & -> & -> & _ & Hr).
      assert (RT : exists F', @root_trep P (x_tid x) h' repl' repl F' /\ sub F' F h /\ ext (x_tid x) h h' F).
      { destruct repl as [n'|]; destruct repl' as [a'|]; try contradiction.
        - destruct Hr as (F' & T' & SE). exists F'. split; [exists n'; auto|exact SE].
        - subst h'. exists []. split; [split; reflexivity|]. split; [intros y []|apply ext_refl]. }
      destruct RT as (F' & RT & S' & E').
      destruct (op_finish P h x F h' repl' _ F' (x_rw x) (x_size x - 1) (x_ro x) true s T0 SubO OC RT S' E') as (HI' & FR).
      split; [exact HI'|]. split; [|auto].
      unfold habs. cbn [x_root x_rw x_size x_ro x_tid x_dirty x_st]. rewrite (root_trep_den RT). reflexivity.
  - destruct T as (-> & ->). exact Same.
Qed.

Theorem owned_iff_id P h x : hinv P h x -> forall a, reach_root h (x_root x) a ->
  (cell_tid (hget h a) = x_tid x <-> In a (x_own x)).
Proof.
  intros (T0 & t & F & T & SubO & OC) a R. split.
  - intros Hi. destruct (root_trep_reach _ _ _ _ _ _ T0 T a R) as [H|(_ & cl & Hn & Hlt)]; [auto|].
    rewrite (hget_some Hn) in Hi. lia.
  - intros Ha. destruct (OC _ Ha) as (kd & p & w & lf & ch & Hn). now rewrite (hget_some Hn).
Qed.

Lemma frame_rep h h' own a t : frame h h' own -> rep h a t -> (forall x, reach h a x -> ~ In x own) ->
  rep h' a t /\ (forall x, reach h' a x -> reach h a x).
Proof.
  intros (L & Fr) R S.
  assert (E : forall x, reach h a x -> nth_error h' x = nth_error h x).
  { intros x Hx. apply Fr; [eapply reach_lt; eauto|auto]. }
  split; [eapply (proj1 (rep_frame h h')); eauto|now apply reach_frame].
Qed.

(* s_pubs: every root handed out so far: committed trees, clones, and the roots held by iterators
   (recorded with the bumped txn id); transactions may begin from any of them *)
Record sys := mkSys { s_heap : heap; s_a : htxn; s_b : htxn; s_pubs : list htree }.

Inductive tstep : heap -> htxn -> list htree -> heap -> htxn -> list htree -> Prop :=
| ts_modify h x ps md k v :
    tstep h x ps (fst (fst (fst (fst (htxn_modify h x md k v))))) (snd (fst (fst (fst (htxn_modify h x md k v))))) ps
| ts_delete h x ps k : tstep h x ps (fst (fst (htxn_delete h x k))) (snd (fst (htxn_delete h x k))) ps
(* Clone / Iterator / Prefix / LowerBound / All: txn.txnID++, the root is handed out *)
| ts_bump h x ps : tstep h x ps h (fst (htxn_clone x)) (snd (htxn_clone x) :: ps)
(* Commit: the tree is handed out, the Txn goes on with the next id (commit()) *)
| ts_commit h x ps : tstep h x ps h (fst (htxn_commit x)) (snd (htxn_commit x) :: ps)
(* the Txn is abandoned (or was committed) and a new one begins on any handed-out tree *)
| ts_begin h x ps t next : In t ps -> tstep h x ps h (htree_txn t next) ps.

Inductive sstep : sys -> sys -> Prop :=
| ss_a h a b ps h' a' ps' : tstep h a ps h' a' ps' -> sstep (mkSys h a b ps) (mkSys h' a' b ps')
| ss_b h a b ps h' b' ps' : tstep h b ps h' b' ps' -> sstep (mkSys h a b ps) (mkSys h' a b' ps').
Inductive ssteps : sys -> sys -> Prop :=
| ssteps_refl s : ssteps s s
| ssteps_cons s1 s2 s3 : sstep s1 s2 -> ssteps s2 s3 -> ssteps s1 s3.

Definition notin (l : list nat) (a : nat) : Prop := ~ In a l.
Definition notin2 (l1 l2 : list nat) (a : nat) : Prop := ~ In a l1 /\ ~ In a l2.
Definition pub_ok (h : heap) (oa ob : list nat) (t : htree) : Prop :=
  0 < hr_next t /\ exists tr, @root_trep (notin2 oa ob) (hr_next t) h (hr_root t) tr [].

Definition SInv (s : sys) : Prop :=
  hinv (notin (x_own (s_b s))) (s_heap s) (s_a s) /\
  hinv (notin (x_own (s_a s))) (s_heap s) (s_b s) /\
  disj (x_own (s_a s)) (x_own (s_b s)) /\
  Forall (pub_ok (s_heap s) (x_own (s_a s)) (x_own (s_b s))) (s_pubs s).

(* a representation survives the steps of a transaction whose own-set it avoids *)
Lemma root_trep_survive (P : nat -> Prop) (own : list nat) tid h h' r t F : 0 < tid ->
  @root_trep P tid h r t F -> frame h h' own -> (forall x, P x -> ~ In x own) -> disj F own ->
  forall Q : nat -> Prop, (forall x, (x < length h)%nat -> P x -> Q x) -> @root_trep Q tid h' r t F.
Proof.
  intros T0 T (L & Fr) PO D Q PQ. eapply root_trep_transport; [exact T0|exact T| |].
  - intros x cl Hn Px _. pose proof (nth_error_lt _ _ _ Hn). rewrite Fr; auto.
  - intros x cl Hn Hi. rewrite Fr; [exact Hn|eapply nth_error_lt; eauto|]. intros Ho. exact (D x Hi Ho).
Qed.

Lemma hinv_own_lt P h x : hinv P h x -> forall y, In y (x_own x) -> (y < length h)%nat.
Proof. intros (_ & _ & _ & _ & _ & OC) y Hy. eapply owned_lt. eauto. Qed.

Lemma hinv_other own own' h h' x : hinv (notin own) h x -> disj (x_own x) own -> frame h h' own ->
  sub own' own h -> hinv (notin own') h' x.
Proof.
  intros (T0 & t & F & T & SubO & OC) D Fr Sub. split; [exact T0|]. exists t, F. split; [|split; [exact SubO|]].
  - eapply (root_trep_survive (notin own) own); eauto.
    + intros y Hy Ho. exact (D y (SubO _ Hy) Ho).
    + intros y Ly Py Hi. destruct (Sub _ Hi); [exact (Py H)|lia].
  - intros a Ha. destruct (OC _ Ha) as (kd & p & w & lf & ch & Hn). red. exists kd, p, w, lf, ch.
    destruct Fr as (_ & Fr). rewrite Fr; [exact Hn|eapply nth_error_lt; eauto|]. intros Hx. exact (D a Ha Hx).
Qed.

Lemma pub_other oa oa' ob h h' t : pub_ok h oa ob t -> frame h h' oa ->
  sub oa' oa h -> pub_ok h' oa' ob t.
Proof.
  intros (N0 & tr & T) Fr Sub. split; [exact N0|]. exists tr.
  eapply (root_trep_survive (notin2 oa ob) oa); eauto.
  - intros y (H & _). exact H.
  - intros y [].
  - intros y Ly (P1 & P2). split; [|exact P2]. intros Hi. destruct (Sub _ Hi); [auto|lia].
Qed.

Lemma pub_swap h oa ob t : pub_ok h oa ob t -> pub_ok h ob oa t.
Proof.
  intros (N0 & tr & T). split; [exact N0|]. exists tr. eapply root_trep_P_impl; [exact N0| |exact T]. intros a (H1 & H2). split; auto.
Qed.
Lemma pub_reset h oa ob t : pub_ok h oa ob t -> pub_ok h [] ob t.
Proof.
  intros (N0 & tr & T). split; [exact N0|]. exists tr. eapply root_trep_P_impl; [exact N0| |exact T].
  intros a (H1 & H2). split; [intros []|exact H2].
Qed.

(* handing out the current root of a (with the bumped id): legal for every later owner set [] of a *)
Lemma publish_ok h a ob rw sz ro : hinv (notin ob) h a -> disj (x_own a) ob ->
  pub_ok h [] ob (mkHTree (x_root a) rw sz ro (x_tid a + 1)).
Proof.
  intros (T0 & t & F & T & SubO & _) D. split; [cbn [hr_next]; lia|]. exists t. cbn [hr_next hr_root].
  eapply root_trep_bump; [| | |exact T]; [lia| |].
  - intros x cl _ Hx. split; [intros []|exact Hx].
  - intros x Hx. split; [intros []|]. intros Hi. exact (D x (SubO _ Hx) Hi).
Qed.

Lemma begin_ok h ob t next : pub_ok h [] ob t -> hinv (notin ob) h (htree_txn t next).
Proof.
  intros (N0 & tr & T). split; [exact N0|]. exists tr, []. cbn [htree_txn x_tid x_root x_own]. split; [|split; intros a []].
  eapply root_trep_P_impl; [exact N0| |exact T]. intros a (_ & H). exact H.
Qed.

Lemma hinv_P_impl (P Q : nat -> Prop) h x : hinv P h x -> (forall a, P a -> Q a) -> hinv Q h x.
Proof.
  intros (T0 & t & F & T & R) PQ. split; [exact T0|]. exists t, F. split; [|exact R].
  eapply root_trep_P_impl; [exact T0|exact PQ|exact T].
Qed.

(* bump: the transaction owns nothing any more *)
Lemma bump_ok h a ob rw sz ro dirty st : hinv (notin ob) h a -> disj (x_own a) ob ->
  hinv (notin ob) h (mkHTxn (x_root a) rw sz ro (x_tid a + 1) dirty st []).
Proof.
  intros (T0 & t & F & T & SubO & _) D. split; [cbn [x_tid]; lia|]. exists t, []. cbn [x_tid x_root x_own].
  split; [|split; intros y []]. eapply root_trep_bump; [| | |exact T]; [lia|auto|].
  intros x Hx Hi. exact (D x (SubO _ Hx) Hi).
Qed.

(* one step of transaction a, seen from a, the other transaction b and the handed-out roots *)
Definition tstep_ok (h : heap) (a b : htxn) (ps : list htree) (h' : heap) (a' : htxn) (ps' : list htree) : Prop :=
  SInv (mkSys h' a' b ps') /\ frame h h' (x_own a) /\ sub (x_own a') (x_own a) h /\
  (forall t, In t ps -> In t ps').

(* Insert / Modify / Delete: writes inside own(a), own(a) grows by fresh cells only *)
Lemma mutating_step_ok h a b ps h1 a1 : SInv (mkSys h a b ps) ->
  hinv (notin (x_own b)) h1 a1 -> frame h h1 (x_own a) ->
  (x_own a1 = own_after a h h1 \/ h1 = h /\ a1 = a) -> tstep_ok h a b ps h1 a1 ps.
Proof.
  intros (HA & HB & D & PS) HA1 Fr Eo. cbn [s_heap s_a s_b s_pubs] in *.
  assert (OB : forall y, In y (x_own b) -> (y < length h)%nat) by (eapply hinv_own_lt; eauto).
  assert (Sub : sub (x_own a1) (x_own a) h).
  { intros y Hy. destruct Eo as [Eo|(_ & ->)]; [|auto]. rewrite Eo in Hy. unfold own_after in Hy.
    apply in_app_or in Hy as [Hy|Hy]; [auto|]. unfold stamped in Hy. apply filter_In in Hy as (Hy & _).
    apply in_fresh_cells in Hy. lia. }
  split; [|auto]. unfold SInv. cbn [s_heap s_a s_b s_pubs]. split; [exact HA1|]. split; [|split].
  - eapply hinv_other; eauto. apply disj_sym. exact D.
  - intros y Hy Hb. destruct (Sub _ Hy) as [H|H]; [exact (D y H Hb)|]. specialize (OB _ Hb). lia.
  - eapply Forall_impl; [|exact PS]. intros t Ht. eapply pub_other; eauto.
Qed.

(* the other steps leave the heap alone and a owning nothing *)
Lemma quiet_step_ok h a b ps a1 ps1 : SInv (mkSys h a b ps) -> x_own a1 = [] ->
  hinv (notin (x_own b)) h a1 -> Forall (pub_ok h [] (x_own b)) ps1 -> (forall t, In t ps -> In t ps1) ->
  tstep_ok h a b ps h a1 ps1.
Proof.
  intros (_ & HB & _) Eo HA1 PS1 In1. unfold tstep_ok, SInv. cbn [s_heap s_a s_b s_pubs] in *. rewrite Eo.
  split; [|split; [apply frame_refl|split; [intros y []|exact In1]]].
  split; [exact HA1|]. split; [|split; [intros y []|exact PS1]]. eapply hinv_P_impl; [exact HB|intros y _ []].
Qed.

Lemma tstep_inv h a b ps h' a' ps' : SInv (mkSys h a b ps) -> tstep h a ps h' a' ps' -> tstep_ok h a b ps h' a' ps'.
Proof.
  intros I St. pose proof I as (HA & HB & D & PS). cbn [s_heap s_a s_b s_pubs] in *.
  assert (PE : @Pext (notin (x_own b)) h). { intros y Ly Hi. pose proof (hinv_own_lt _ _ _ HB _ Hi). lia. }
  assert (Reset : forall rw sz ro, Forall (pub_ok h [] (x_own b)) (mkHTree (x_root a) rw sz ro (x_tid a + 1) :: ps)).
  { intros rw sz ro. constructor; [apply publish_ok; auto|]. eapply Forall_impl; [|exact PS]. intros t. apply pub_reset. }
  inversion St; subst.
  - pose proof (htxn_modify_spec _ _ _ md k v HA PE) as K.
    destruct (htxn_modify h a md k v) as [[[[h1 a1] old] nv] wch]. cbn [fst snd].
    destruct K as (H1 & _ & H3 & _ & H5). apply mutating_step_ok; auto.
  - pose proof (htxn_delete_spec _ _ _ k HA PE) as K.
    destruct (htxn_delete h a k) as [[h1 a1] old]. cbn [fst snd].
    destruct K as (H1 & _ & H3 & _ & H5). apply mutating_step_ok; auto.
  - apply quiet_step_ok; [exact I|reflexivity|apply bump_ok; auto|apply Reset|intros t Ht; now right].
  - unfold htxn_commit. destruct (x_dirty a); cbn [fst snd];
      (apply quiet_step_ok; [exact I|reflexivity|apply bump_ok; auto|apply Reset|intros t Ht; now right]).
  - assert (Reset' : Forall (pub_ok h' [] (x_own b)) ps') by (specialize (Reset 0 0 false); inversion Reset; assumption).
    apply quiet_step_ok; [exact I|reflexivity| |exact Reset'|auto].
    apply begin_ok. rewrite Forall_forall in Reset'. apply Reset'. assumption.
Qed.

(* address a denotes a tree and lies outside what the two live transactions own *)
Definition safe (s : sys) (a : nat) : Prop :=
  forall x, reach (s_heap s) a x -> ~ In x (x_own (s_a s)) /\ ~ In x (x_own (s_b s)).

(* a tree outside own stays as it is, and stays outside what own becomes *)
Lemma frame_safe h h' own own' r t : frame h h' own ->
  sub own' own h -> rep h r t -> (forall x, reach h r x -> ~ In x own) ->
  rep h' r t /\ forall x, reach h' r x -> reach h r x /\ ~ In x own'.
Proof.
  intros Fr Sub R S. destruct (frame_rep _ _ _ _ _ Fr R S) as (R' & Rb). split; [exact R'|].
  intros x Hx. specialize (Rb _ Hx). split; [exact Rb|]. intros Hi.
  destruct (Sub _ Hi) as [H|H]; [exact (S _ Rb H)|]. pose proof (reach_lt _ _ _ _ R Rb). lia.
Qed.

(* one step of transaction a: the invariant, every safe tree and every handed-out root persist *)
Lemma tstep_sys h a b ps h' a' ps' : SInv (mkSys h a b ps) -> tstep h a ps h' a' ps' ->
  SInv (mkSys h' a' b ps') /\
  (forall r t, rep h r t -> safe (mkSys h a b ps) r -> rep h' r t /\ safe (mkSys h' a' b ps') r) /\
  (forall t, In t ps -> In t ps').
Proof.
  intros I St. destruct (tstep_inv _ _ _ _ _ _ _ I St) as (I' & Fr & Sub & Hp).
  split; [exact I'|]. split; [|exact Hp]. unfold safe. cbn [s_heap s_a s_b]. intros r t R S.
  destruct (frame_safe _ _ _ _ _ _ Fr Sub R (fun x Hx => proj1 (S x Hx))) as (R' & Rb).
  split; [exact R'|]. intros x Hx. destruct (Rb _ Hx) as (Hx0 & N'). split; [exact N'|exact (proj2 (S _ Hx0))].
Qed.

(* the two transactions play the same part *)
Definition swap (s : sys) : sys := mkSys (s_heap s) (s_b s) (s_a s) (s_pubs s).
Lemma SInv_swap s : SInv s -> SInv (swap s).
Proof.
  intros (HA & HB & D & PS). split; [exact HB|]. split; [exact HA|]. split; [exact (disj_sym _ _ D)|].
  eapply Forall_impl; [|exact PS]. intros t. apply pub_swap.
Qed.
Lemma safe_swap s r : safe s r -> safe (swap s) r.
Proof. intros S x Hx. destruct (S x Hx). auto. Qed.

Lemma sstep_all s s' : SInv s -> sstep s s' ->
  SInv s' /\ (forall r t, rep (s_heap s) r t -> safe s r -> rep (s_heap s') r t /\ safe s' r) /\
  (forall t, In t (s_pubs s) -> In t (s_pubs s')).
Proof.
  intros I St. destruct St as [h a b ps h' a' ps' St|h a b ps h' b' ps' St].
  - exact (tstep_sys _ _ _ _ _ _ _ I St).
  - destruct (tstep_sys _ _ _ _ _ _ _ (SInv_swap _ I) St) as (I' & Pp & Q).
    split; [exact (SInv_swap _ I')|]. split; [|exact Q]. intros r t R S.
    destruct (Pp r t R (safe_swap _ _ S)) as (R' & S'). split; [exact R'|exact (safe_swap _ _ S')].
Qed.

Theorem sstep_inv s s' : SInv s -> sstep s s' -> SInv s'.
Proof. intros I St. apply (sstep_all _ _ I St). Qed.

(* (c) PERSISTENCE over arbitrary interleavings *)
Theorem ssteps_persist s s' : SInv s -> ssteps s s' ->
  SInv s' /\
  (forall r t, rep (s_heap s) r t -> safe s r -> den (s_heap s') r = den (s_heap s) r /\ rep (s_heap s') r t /\ safe s' r) /\
  (forall t, In t (s_pubs s) -> In t (s_pubs s')).
Proof.
  intros I St. induction St as [s|s1 s2 s3 S1 _ IH].
  - split; [exact I|]. split; [intros r t R S; auto|auto].
  - destruct (sstep_all _ _ I S1) as (I2 & P2 & Q2). destruct (IH I2) as (I3 & P3 & Q3).
    split; [exact I3|]. split; [|auto].
    intros r t R S. destruct (P2 r t R S) as (R2 & S2).
    destruct (P3 r t R2 S2) as (E & R3 & S3). split; [|auto].
    rewrite E. rewrite (rep_den _ _ _ R), (rep_den _ _ _ R2). reflexivity.
Qed.

(* every handed-out root, and every node below it (iterator stacks, prefix/lower-bound start
   nodes), is safe *)
Theorem pubs_safe s t : SInv s -> In t (s_pubs s) ->
  forall r, reach_root (s_heap s) (hr_root t) r -> exists tr, rep (s_heap s) r tr /\ safe s r.
Proof.
  intros (_ & _ & _ & PS) Ht r Hr. rewrite Forall_forall in PS. destruct (PS _ Ht) as (N0 & tr & T).
  destruct (hr_root t) as [a|] eqn:Er; cbn [reach_root] in Hr; [|destruct Hr].
  pose proof T as T'. cbn [root_trep] in T'. destruct T' as (n & -> & Tn).
  pose proof (proj1 (trep_rep (hr_next t) (s_heap s)) _ _ _ Tn) as Rn.
  destruct (proj1 (rep_reach (s_heap s)) _ _ Rn _ Hr) as (tr' & R'). exists tr'. split; [exact R'|].
  intros x Hx. pose proof (reach_trans _ _ _ Hr _ Hx) as Hx'.
  destruct (proj1 (trep_reach (hr_next t) (s_heap s) N0) _ _ _ Tn x Hx') as [[]|(H & _)]. exact H.
Qed.

(* the other live transaction is not disturbed either *)
Lemma other_den own h h' x : hinv (notin own) h x -> disj (x_own x) own -> frame h h' own ->
  den_root h' (x_root x) = den_root h (x_root x).
Proof.
  intros (T0 & t & F & T & SubO & OC) D Fr. rewrite (root_trep_den T).
  eapply root_trep_den.
  refine (root_trep_survive (notin own) own _ h h' _ _ _ T0 T Fr _ _ (fun _ => True) _).
  - intros y Hy. exact Hy.
  - intros y Hy Ho. exact (D y (SubO y Hy) Ho).
  - intros y _ _. exact I.
Qed.

(* the initial system: empty heap, New(), two transactions begun from it *)
Definition tree0 : htree := fst (htree_new false 1).
Definition sys0 : sys := mkSys [] (htree_txn tree0 2) (htree_txn tree0 2) [tree0].
Lemma SInv_sys0 : SInv sys0.
Proof.
  unfold sys0, SInv. cbn [s_heap s_a s_b s_pubs htree_txn tree0 htree_new fst x_own hr_root hr_next].
  split; [|split; [|split; [intros x []|]]].
  - split; [reflexivity|]. exists None, []. cbn. split; [split; reflexivity|split; intros a Ha; destruct Ha].
  - split; [reflexivity|]. exists None, []. cbn. split; [split; reflexivity|split; intros a Ha; destruct Ha].
  - constructor; [|constructor]. split; [reflexivity|]. exists None. cbn. split; reflexivity.
Qed.

Lemma ssteps_trans s1 s2 s3 : ssteps s1 s2 -> ssteps s2 s3 -> ssteps s1 s3.
Proof. induction 1; auto. intros H'. econstructor; eauto. Qed.

Theorem reachable_SInv s : ssteps sys0 s -> SInv s.
Proof. intros St. exact (proj1 (ssteps_persist _ _ SInv_sys0 St)). Qed.

Inductive act := AIns (k : bytes) (v : N) | AMod (k : bytes) (v : N) | ADel (k : bytes) | ABump | ACommit | ABegin (i : nat).

Definition tact (h : heap) (x : htxn) (ps : list htree) (c : act) : heap * htxn * list htree :=
  match c with
  | AIns k v => (fst (fst (fst (fst (htxn_modify h x None k v)))), snd (fst (fst (fst (htxn_modify h x None k v)))), ps)
  | AMod k v => (fst (fst (fst (fst (htxn_modify h x (Some mod_fun) k v)))), snd (fst (fst (fst (htxn_modify h x (Some mod_fun) k v)))), ps)
  | ADel k => (fst (fst (htxn_delete h x k)), snd (fst (htxn_delete h x k)), ps)
  | ABump => (h, fst (htxn_clone x), snd (htxn_clone x) :: ps)
  | ACommit => (h, fst (htxn_commit x), snd (htxn_commit x) :: ps)
  | ABegin i => match nth_error ps i with Some t => (h, htree_txn t 100, ps) | None => (h, fst (htxn_clone x), snd (htxn_clone x) :: ps) end
  end.

Lemma tact_tstep h x ps c : let '(h', x', ps') := tact h x ps c in tstep h x ps h' x' ps'.
Proof.
  destruct c as [k v|k v|k| | |i]; cbn [tact]; try constructor.
  destruct (nth_error ps i) as [t|] eqn:E; [|constructor]. constructor. eapply nth_error_In; eauto.
Qed.

(* who = false: transaction a, true: transaction b *)
Definition sact (s : sys) (wc : bool * act) : sys :=
  let (who, c) := wc in
  if who then let '(h', b', ps') := tact (s_heap s) (s_b s) (s_pubs s) c in mkSys h' (s_a s) b' ps'
  else let '(h', a', ps') := tact (s_heap s) (s_a s) (s_pubs s) c in mkSys h' a' (s_b s) ps'.
Definition srun (ops : list (bool * act)) (s : sys) : sys := fold_left sact ops s.

Lemma sact_sstep s wc : sstep s (sact s wc).
Proof.
  destruct s as [h a b ps], wc as [[|] c]; cbn [sact s_heap s_a s_b s_pubs].
  - pose proof (tact_tstep h b ps c) as T. destruct (tact h b ps c) as [[h' b'] ps']. now constructor.
  - pose proof (tact_tstep h a ps c) as T. destruct (tact h a ps c) as [[h' a'] ps']. now constructor.
Qed.
Lemma srun_ssteps ops : forall s, ssteps s (srun ops s).
Proof.
  induction ops as [|wc ops IH]; intros s; [constructor|]. cbn [srun fold_left].
  econstructor; [apply sact_sstep|apply IH].
Qed.

(* computable reachability (for examples) *)
Fixpoint addrs (f : nat) (h : heap) (a : nat) : list nat :=
  match f with
  | O => []
  | S f' => a :: match nth_error h a with
                 | Some cl => flat_map (addrs f' h) (cell_ptrs cl)
                 | None => []
                 end
  end.
Lemma addrs_reach f : forall h a x, In x (addrs f h a) -> reach h a x.
Proof.
  induction f as [|f IH]; intros h a x Hx; [destruct Hx|]. cbn [addrs] in Hx.
  destruct Hx as [<-|Hx]; [constructor|]. destruct (nth_error h a) as [cl|] eqn:E; [|destruct Hx].
  apply in_flat_map in Hx as (c & Hc & Hx). eapply reach_step; eauto.
Qed.

Definition ka : bytes := [97]. Definition kab : bytes := [97; 98].
Definition kac : bytes := [97; 99]. Definition kb : bytes := [98].

(* keys "a","ab","ac","b"; Commit (the snapshot); the same Txn deletes "ab" then "a". With the
   single-child merge writing the child's prefix in place "because the parent is ours" the
   snapshot changes; with the real code (child.clone(false)) it does not *)
Definition s_snap : sys := srun [(false, AIns ka 1); (false, AIns kab 2); (false, AIns kac 3); (false, AIns kb 4); (false, ACommit)] sys0.

(* "txnID = txn id <-> allocated by this txn since the last bump" is FALSE right-to-left: the clone
   made by the merge keeps the child's (older) id — and leaves report id 0 — although this txn
   allocated them; that is why x_own collects the allocated cells that are STAMPED *)
Definition kabc : bytes := [97; 98; 99]. Definition kabd : bytes := [97; 98; 100]. Definition ke : bytes := [101].
Definition s_m : sys := srun [(false, AIns kabc 1); (false, AIns kabd 2); (false, AIns ke 3); (false, ACommit)] sys0.

Module HeapExample.
Definition k1 : bytes := [1; 2]. Definition k2 : bytes := [1; 2; 3]. Definition k3 : bytes := [1].
Definition k4 : bytes := [1; 3]. Definition k5 : bytes := [2]. Definition k6 : bytes := [].
(* a: inserts, commit (tree 0 of the list after the step); b begins from that tree; both write;
   a hands out an iterator root, deletes (merge), commits; b commits and restarts from a's tree *)
Definition ops : list (bool * act) :=
  [(false, AIns k1 1); (false, AIns k2 2); (false, AIns k3 3); (false, AIns k5 5); (false, ACommit);
   (true, ABegin 0); (false, AIns k4 4); (true, AIns k6 6); (true, ADel k2); (false, ABump);
   (false, ADel k1); (false, ADel k3); (false, AMod k2 22); (false, ACommit); (true, ACommit); (true, ABegin 1);
   (true, AIns k1 11); (false, ADel k5); (false, AIns k4 44)].
Definition s_mid : sys := srun (firstn 6 ops) sys0.
Definition s_end : sys := srun ops sys0.

Example reachable_mid_end : ssteps sys0 s_mid /\ ssteps s_mid s_end /\ SInv s_mid /\ SInv s_end.
Proof.
  assert (A : ssteps sys0 s_mid) by apply srun_ssteps.
  assert (B : ssteps s_mid s_end).
  { unfold s_end, s_mid. rewrite <- (firstn_skipn 6 ops) at 2. unfold srun. rewrite fold_left_app. apply srun_ssteps. }
  split; [exact A|]. split; [exact B|]. split; apply reachable_SInv; [exact A|eapply ssteps_trans; eauto].
Qed.

(* the trees handed out up to s_mid read the same in s_end although cells are shared and both
   transactions wrote in place in between *)
Example trees_persist_computed :
  map (fun t => habs_tree (s_heap s_end) t) (s_pubs s_mid) = map (fun t => habs_tree (s_heap s_mid) t) (s_pubs s_mid) /\
  (length (s_heap s_mid) < length (s_heap s_end))%nat /\ length (s_pubs s_end) = 5%nat.
Proof. vm_compute. repeat split; try reflexivity. lia. Qed.

(* two different handed-out trees of s_end share a cell *)
Example trees_share_cells :
  exists t1 t2 r1 r2 a, In t1 (s_pubs s_end) /\ In t2 (s_pubs s_end) /\ hr_root t1 = Some r1 /\ hr_root t2 = Some r2 /\
    r1 <> r2 /\ reach (s_heap s_end) r1 a /\ reach (s_heap s_end) r2 a.
Proof.
  exists (nth 0 (s_pubs s_end) tree0), (nth 3 (s_pubs s_end) tree0).
  eexists. eexists. exists 6%nat.
  split; [apply nth_In; vm_compute; lia|]. split; [apply nth_In; vm_compute; lia|].
  split; [vm_compute; reflexivity|]. split; [vm_compute; reflexivity|].
  split; [vm_compute; discriminate|].
  split; apply (addrs_reach 20); vm_compute; tauto.
Qed.

(* the two live transactions belong to different lineages and carry the same id number *)
Example lineages_same_id :
  x_tid (s_a s_end) = x_tid (s_b s_end) /\ x_root (s_a s_end) <> x_root (s_b s_end) /\
  x_own (s_a s_end) <> [] /\ x_own (s_b s_end) <> [].
Proof. vm_compute. repeat split; discriminate. Qed.
End HeapExample.
