(* DB/Reach.v — the reachable states `run (init_st ntab actors) sched` of arbitrary well-formed actor lists and
   arbitrary schedules, of which Properties/C02, C05, C06, C10, C19 speak: they satisfy the invariants of
   DB/Invariants.v, Visibility.v and Watch.v. *)
From SV Require Import DB.Model DB.Invariants DB.Visibility DB.Watch.

Definition reach (ntab : nat) (actors : list (N * kind)) (sched : list nat) : st :=
  run (init_st ntab actors) sched.

Lemma reach_app ntab actors s1 s2 : reach ntab actors (s1 ++ s2) = run (reach ntab actors s1) s2.
Proof. unfold reach, run. apply fold_left_app. Qed.

Lemma reach_Inv ntab actors sched : wf_actors ntab actors -> Inv ntab (reach ntab actors sched).
Proof. apply Inv_reachable. Qed.

Lemma reach_Good ntab actors sched : wf_system ntab actors -> Good ntab (reach ntab actors sched).
Proof. apply Good_reachable. Qed.
