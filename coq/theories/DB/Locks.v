(* DB/Locks.v — liveness-side consequences of the lock invariant (DB/Invariants.v):
   no deadlock, independence of transactions on disjoint tables, termination measure. *)
From Coq Require Import Arith PeanoNat.
From SV Require Import DB.Model DB.Proofs DB.Invariants.
Open Scope nat_scope.

Definition tabs_of (a : actor) : list nat :=
  match a_kind a with KWriter tabs _ _ _ _ => tabs | KRegistrar => [] end.

Definition unfinished (s : st) : Prop := exists i a, nth_error (s_actors s) i = Some a /\ a_pc a <> PDone.
Definition all_done (s : st) : Prop := forall i a, nth_error (s_actors s) i = Some a -> a_pc a = PDone.

Lemma locks_sub_tabs ntab a t : actor_ok ntab a -> In t (a_locks a) -> In t (tabs_of a).
Proof.
  intros Hok Ht. destruct (actor_ok_tabs _ _ _ Hok Ht) as (tabs&wr&c&rg&dn&Hk&_&Hin&_).
  unfold tabs_of. rewrite Hk. exact Hin.
Qed.

(* what actor_ok says in terms of the actor's declared table set *)
Lemma actor_wf ntab a : actor_ok ntab a ->
  pc_ok (a_kind a) (a_pc a) = true /\ strictly_inc (a_locks a) /\
  (forall t, In t (a_locks a) -> In t (tabs_of a) /\ t < ntab) /\
  (forall k, a_pc a = PLocking k \/ a_pc a = PLocked k -> k < length (a_locks a)).
Proof.
  intros Hok. split; [apply (ok_pc Hok)|]. split; [eapply actor_ok_inc; eauto|]. split.
  - intros t Ht. split; [eapply locks_sub_tabs; eauto|eapply actor_ok_lt; eauto].
  - intros k Hk. pose proof (ok_idx Hok) as Hi. unfold idx_ok in Hi. destruct Hk as [Hk|Hk]; rewrite Hk in Hi; exact Hi.
Qed.

Lemma not_locking_enabled s i a : s_rlock s = None -> nth_error (s_actors s) i = Some a ->
  a_pc a <> PDone -> (forall k, a_pc a <> PLocking k) -> enabled s i = true.
Proof.
  intros Hr Ha Hd Hl. unfold enabled. rewrite Ha, Hr. destruct (a_pc a); try reflexivity; [elim (Hl i0)|elim Hd]; reflexivity.
Qed.

(* an actor at PLocking k waits for an existing table t; it is enabled iff t is free *)
Lemma locking_target ntab s i a k : Inv ntab s -> nth_error (s_actors s) i = Some a -> a_pc a = PLocking k ->
  exists t o, nth_error (a_locks a) k = Some t /\ nth_error (s_tlock s) t = Some o /\
              enabled s i = match o with None => true | Some _ => false end.
Proof.
  intros HI Ha Hp. pose proof (inv_ok HI _ _ Ha) as Hok.
  pose proof (ok_idx Hok) as Hidx. unfold idx_ok in Hidx. rewrite Hp in Hidx.
  destruct (nth_error (a_locks a) k) as [t|] eqn:Ht; [|apply nth_error_None in Ht; lia].
  assert (Hlt : t < ntab) by (eapply actor_ok_lt; [exact Hok|eapply nth_error_In; eauto]).
  destruct (inv_len HI) as [_ Hge].
  destruct (nth_error (s_tlock s) t) as [o|] eqn:Hl; [|apply nth_error_None in Hl; lia].
  exists t, o. unfold enabled. rewrite Ha, Hp, Ht, Hl. auto.
Qed.

(* the wait-for chain argument: an actor waiting for table t is either enabled, or t's holder is enabled,
   or t's holder waits for a strictly larger table *)
Lemma chain_enabled ntab s : Inv ntab s -> s_rlock s = None ->
  forall n i a k t, nth_error (s_actors s) i = Some a -> a_pc a = PLocking k ->
    nth_error (a_locks a) k = Some t -> length (s_tlock s) - t <= n -> exists i', enabled s i' = true.
Proof.
  intros HI Hr. induction n as [|n IH]; intros i a k t Ha Hpc Hk Hn;
    destruct (locking_target ntab s i a k HI Ha Hpc) as (t'&o&Ht'&Ho&He); rewrite Hk in Ht'; injection Ht' as <-.
  - assert (t < length (s_tlock s)) by (apply nth_error_Some; congruence). lia.
  - destruct o as [j|]; [|exists i; exact He].
    apply (inv_tl HI) in Ho. destruct Ho as [b [Hb Hin]].
    destruct (a_pc b) eqn:Hpb;
      try (exists j; apply (not_locking_enabled s j b Hr Hb); [intros E; unfold held in Hin; rewrite E in Hin; destruct Hin|rewrite Hpb; discriminate]).
    (* b is itself waiting, at PLocking i0, for a table above all it holds *)
    destruct (locking_target ntab s j b i0 HI Hb Hpb) as (u&_&Hu&_&_).
    unfold held in Hin. rewrite Hpb in Hin.
    assert (Htu : t < u) by (eapply strictly_inc_firstn_lt; [eapply actor_ok_inc, inv_ok; eauto|exact Hin|exact Hu]).
    apply (IH j b i0 u Hb Hpb Hu). lia.
Qed.

Theorem no_deadlock_inv ntab s : Inv ntab s -> unfinished s -> exists i, enabled s i = true.
Proof.
  intros HI (i&a&Ha&Hd). destruct (s_rlock s) as [h|] eqn:Hr.
  - apply (inv_rl HI) in Hr. destruct Hr as [b [Hb Hrb]]. exists h. eapply rholds_enabled; eauto.
  - destruct (a_pc a) eqn:Hp;
      try (exists i; apply (not_locking_enabled s i a Hr Ha); rewrite Hp; [assumption|discriminate]).
    destruct (locking_target ntab s i a i0 HI Ha Hp) as (t&_&Ht&_&_).
    apply (chain_enabled ntab s HI Hr (length (s_tlock s)) i a i0 t Ha Hp Ht). lia.
Qed.

Theorem no_deadlock ntab actors sched : wf_actors ntab actors ->
  let s := run (init_st ntab actors) sched in
  (exists i a, nth_error (s_actors s) i = Some a /\ a_pc a <> PDone) -> exists i, enabled s i = true.
Proof. intros Hwf s Hu. apply (no_deadlock_inv ntab); [apply Inv_reachable; exact Hwf|exact Hu]. Qed.

(* a writer waiting for a table is enabled exactly when nobody holds that table *)
Theorem locking_enabled_iff ntab s i a k t : Inv ntab s ->
  nth_error (s_actors s) i = Some a -> a_pc a = PLocking k -> nth_error (a_locks a) k = Some t ->
  (enabled s i = true <-> forall j, ~ holds (s_actors s) j t).
Proof.
  intros HI Ha Hp Hk. destruct (locking_target ntab s i a k HI Ha Hp) as (t'&o&Ht'&Ho&->).
  rewrite Hk in Ht'. injection Ht' as <-. destruct o as [j|].
  - split; [discriminate|]. intros H. exfalso. apply (H j). apply (inv_tl HI). exact Ho.
  - split; [|reflexivity]. intros _ j Hj. apply (inv_tl HI) in Hj. congruence.
Qed.

(* an actor waiting for the root lock is enabled exactly when nobody holds it *)
Lemma rootlock_enabled s i a : nth_error (s_actors s) i = Some a -> a_pc a = PCommitIdx \/ a_pc a = PRegBefore ->
  enabled s i = match s_rlock s with None => true | Some _ => false end.
Proof. intros Ha Hp. unfold enabled. rewrite Ha. destruct Hp as [-> | ->]; reflexivity. Qed.

Theorem rootlock_enabled_iff ntab s i a : Inv ntab s ->
  nth_error (s_actors s) i = Some a -> a_pc a = PCommitIdx \/ a_pc a = PRegBefore ->
  (enabled s i = true <-> forall j, ~ rholder (s_actors s) j).
Proof.
  intros HI Ha Hp. rewrite (rootlock_enabled s i a Ha Hp). destruct (s_rlock s) as [h|] eqn:Hr.
  - split; [discriminate|]. intros H. exfalso. apply (H h). apply (inv_rl HI). exact Hr.
  - split; [|reflexivity]. intros _ j Hj. apply (inv_rl HI) in Hj. congruence.
Qed.

(* every other pc is always enabled *)
Theorem other_pcs_enabled s i a : nth_error (s_actors s) i = Some a ->
  a_pc a <> PDone -> acquiring a = false -> enabled s i = true.
Proof.
  intros Ha Hd Hq. unfold enabled. rewrite Ha. unfold acquiring in Hq.
  destruct (a_pc a); try reflexivity; try discriminate. elim Hd. reflexivity.
Qed.

(* a blocked, unfinished actor is blocked either on a table that it shares with the (different) writer
   holding it, or on the root lock, whose (different) holder is itself enabled *)
Theorem blocked_only_by_sharing ntab s i a : Inv ntab s ->
  nth_error (s_actors s) i = Some a -> a_pc a <> PDone -> enabled s i = false ->
  (exists k t j b, a_pc a = PLocking k /\ nth_error (a_locks a) k = Some t /\ j <> i /\
      nth_error (s_actors s) j = Some b /\ In t (held b) /\ In t (tabs_of a) /\ In t (tabs_of b)) \/
  (exists j b, (a_pc a = PCommitIdx \/ a_pc a = PRegBefore) /\ j <> i /\
      nth_error (s_actors s) j = Some b /\ rholds b = true /\ enabled s j = true).
Proof.
  intros HI Ha Hd He. pose proof (inv_ok HI _ _ Ha) as Hok.
  destruct (acquiring a) eqn:Hq; [|rewrite (other_pcs_enabled s i a Ha Hd Hq) in He; discriminate].
  assert (Hroot : a_pc a = PCommitIdx \/ a_pc a = PRegBefore -> exists j b,
            (a_pc a = PCommitIdx \/ a_pc a = PRegBefore) /\ j <> i /\
            nth_error (s_actors s) j = Some b /\ rholds b = true /\ enabled s j = true).
  { intros Hp. rewrite (rootlock_enabled s i a Ha Hp) in He. destruct (s_rlock s) as [j|] eqn:Hr; [|discriminate].
    apply (inv_rl HI) in Hr. destruct Hr as [b [Hb Hrb]]. exists j, b. repeat split; eauto using rholds_enabled.
    intros ->. rewrite Ha in Hb. injection Hb as <-. apply root_holder_not_acquiring in Hrb. congruence. }
  unfold acquiring in Hq. destruct (a_pc a) eqn:Hp; try discriminate; [left|right; auto..].
  destruct (locking_target ntab s i a i0 HI Ha Hp) as (t&o&Ht&Hl&E). rewrite E in He.
  destruct o as [j|]; [|discriminate]. apply (inv_tl HI) in Hl. destruct Hl as [b [Hb Hin]].
  exists i0, t, j, b. repeat split; auto.
  - intros ->. rewrite Ha in Hb. injection Hb as <-. unfold held in Hin. rewrite Hp in Hin.
    pose proof (strictly_inc_firstn_lt _ _ _ _ (actor_ok_inc _ _ Hok) Hin Ht). lia.
  - eapply locks_sub_tabs; [exact Hok|eapply nth_error_In; eauto].
  - eapply locks_sub_tabs; [eapply inv_ok; eauto|apply held_sub; exact Hin].
Qed.

(* a writer whose table set is disjoint from every other writer's never waits for a table lock *)
Theorem disjoint_never_waits ntab s i a k : Inv ntab s ->
  nth_error (s_actors s) i = Some a -> a_pc a = PLocking k ->
  (forall j b t, j <> i -> nth_error (s_actors s) j = Some b -> In t (tabs_of a) -> ~ In t (tabs_of b)) ->
  enabled s i = true.
Proof.
  intros HI Ha Hp Hdis. destruct (enabled s i) eqn:He; [reflexivity|exfalso].
  assert (Hd : a_pc a <> PDone) by (rewrite Hp; discriminate).
  destruct (blocked_only_by_sharing ntab s i a HI Ha Hd He) as [(k'&t&j&b&_&_&Hji&Hb&_&Hta&Htb)|(j&b&[Hc|Hc]&_)].
  - apply (Hdis j b t Hji Hb Hta Htb).
  - rewrite Hp in Hc. discriminate.
  - rewrite Hp in Hc. discriminate.
Qed.

(* a step of actor j changes the holder of table t only to j itself, and only for a table of j's own
   lock set (and then t was free); it frees only tables that j itself held *)
Theorem step_takes_only_own_tables ntab s j t h : Inv ntab s ->
  nth_error (s_tlock (step s j)) t = Some (Some h) -> nth_error (s_tlock s) t <> Some (Some h) ->
  h = j /\ nth_error (s_tlock s) t = Some None /\
  exists b, nth_error (s_actors s) j = Some b /\ In t (a_locks b) /\ In t (tabs_of b).
Proof.
  intros HI H1 H0. destruct (step_cases ntab s j HI) as [E|(a&a'&s1&Ha&HS&E)]; rewrite E in H1; [contradiction|].
  unfold post in H1. cbn [s_tlock] in H1.
  destruct (Step_held HS) as [[[E1|E1] _]|[(t0&Hin&Hfree&E1&_)|[E1 _]]]; rewrite E1 in H1.
  - contradiction.
  - apply nth_error_snoc in H1. destruct H1 as [H1|[_ H1]]; [contradiction|discriminate].
  - rewrite nth_error_upd in H1. destruct (Nat.eqb_spec t0 t) as [Heq|_]; [subst t0|contradiction].
    rewrite Hfree in H1. injection H1 as <-. split; [reflexivity|]. split; [exact Hfree|].
    exists a. split; [exact Ha|]. split; [exact Hin|]. eapply locks_sub_tabs; [eapply inv_ok; eauto|exact Hin].
  - rewrite nth_error_unlock in H1. destruct (memb t (held a)); [|contradiction].
    destruct (nth_error (s_tlock s) t); discriminate.
Qed.

Theorem step_frees_only_own_tables ntab s j t h : Inv ntab s ->
  nth_error (s_tlock s) t = Some (Some h) -> nth_error (s_tlock (step s j)) t <> Some (Some h) ->
  h = j /\ nth_error (s_tlock (step s j)) t = Some None.
Proof.
  intros HI H0 H1. destruct (step_cases ntab s j HI) as [E|(a&a'&s1&Ha&HS&E)]; rewrite E in *; [contradiction|].
  unfold post in *. cbn [s_tlock] in *.
  destruct (Step_held HS) as [[[E1|E1] _]|[(t0&_&Hfree&E1&_)|[E1 _]]]; rewrite E1 in *.
  - contradiction.
  - elim H1. apply nth_error_app_Some, H0.
  - rewrite nth_error_upd in H1. destruct (Nat.eqb_spec t0 t) as [Heq|_]; [subst t0; congruence|contradiction].
  - rewrite nth_error_unlock, H0 in *. destruct (memb t (held a)) eqn:Hm; [|contradiction].
    split; [|reflexivity]. apply memb_In in Hm.
    assert (Hj : nth_error (s_tlock s) t = Some (Some j)) by (apply (inv_tl HI); exists a; auto).
    congruence.
Qed.

(* ameasure a: the exact number of micro-steps actor a still has to take. after_lock counts the pcs from PWLocked
   on: 10 for a committing writer (PWLocked, PRootLoaded, PCommitIdx .. PInitClosed), 4 for an aborting one (PWLocked,
   PRootLoaded, PAbortBefore, PAbortUnlocked); each lock costs two steps (PLocking k, PLocked k), PStart and PBeforeLock
   one each; a registrar passes through six pcs *)
Definition after_lock (a : actor) : nat :=
  match a_kind a with KWriter _ _ true _ _ => 10 | _ => 4 end.

Definition ameasure (a : actor) : nat :=
  let L := length (a_locks a) in
  match a_pc a with
  | PStart => match a_kind a with
              | KWriter tabs _ _ _ _ => 2 + 2 * length (lock_order tabs) + after_lock a
              | KRegistrar => 6 end
  | PBeforeLock => 1 + 2 * L + after_lock a
  | PLocking k => 2 + 2 * (L - S k) + after_lock a
  | PLocked k => 1 + 2 * (L - S k) + after_lock a
  | PWLocked => after_lock a
  | PRootLoaded => after_lock a - 1
  | PCommitIdx => 8 | PRootLocked => 7 | PCommitLoaded => 6 | PRootStored => 5 | PRootUnlocked => 4 | PNotified => 3
  | PTabsUnlocked => 2 | PInitClosed => 1
  | PAbortBefore => 2 | PAbortUnlocked => 1
  | PRegBefore => 5 | PRegLocked => 4 | PRegLoaded => 3 | PRegStored => 2 | PRegUnlocked => 1
  | PDone => 0
  end.

Definition total (s : st) : nat := list_sum (map ameasure (s_actors s)).

Lemma ameasure_zero a : ameasure a = 0 <-> a_pc a = PDone.
Proof.
  unfold ameasure, after_lock. destruct (a_pc a); split; try discriminate; try reflexivity;
    destruct (a_kind a) as [? ? [|] ? ?|]; cbn; lia.
Qed.

Lemma Step_measure ntab s i a a' s1 : actor_ok ntab a -> Step s i a a' s1 -> S (ameasure a') = ameasure a.
Proof.
  intros [Hw Hp Hl Hi] HS. unfold locks_ok, idx_ok in *. unfold ameasure, after_lock.
  destruct HS; step_simpl; rewrite Hk, Hpc in *; cbn [pc_ok negb] in *; try subst c; try reflexivity;
    try (destruct c; reflexivity).
  - destruct (a_locks a); cbn [length]; destruct c; lia.
  - destruct (Nat.ltb_spec (S k) (length (a_locks a))); destruct c; lia.
Qed.

Lemma list_sum_cons x l : list_sum (x :: l) = x + list_sum l.
Proof. reflexivity. Qed.

Lemma list_sum_upd (f : actor -> nat) : forall i l a a', nth_error l i = Some a ->
  list_sum (map f (upd i (fun _ => a') l)) + f a = list_sum (map f l) + f a'.
Proof.
  induction i as [|i IH]; intros [|x r] a a' H; cbn [nth_error] in H; try discriminate.
  - injection H as ->. cbn [upd map list_sum fold_right]. lia.
  - specialize (IH r a a' H). unfold list_sum in *. cbn [upd map fold_right]. lia.
Qed.

Theorem step_decreases ntab s i : Inv ntab s -> enabled s i = true -> S (total (step s i)) = total s.
Proof.
  intros HI He. destruct (Inv_step_spec _ _ _ HI He) as (a&a'&s1&Ha&HS&E). rewrite E.
  unfold total, post. cbn [s_actors].
  pose proof (list_sum_upd ameasure i (s_actors s) a a' Ha) as Hs.
  pose proof (Step_measure ntab s i a a' s1 (inv_ok HI _ _ Ha) HS). lia.
Qed.

Lemma total_zero_iff s : total s = 0 <-> all_done s.
Proof.
  unfold total, all_done. induction (s_actors s) as [|x r IH]; cbn [map]; rewrite ?list_sum_cons.
  - split; [intros _ [|i] a H; discriminate|reflexivity].
  - split.
    + intros H. assert (Hx : ameasure x = 0) by lia. assert (Hr : list_sum (map ameasure r) = 0) by lia.
      intros [|i] a Hi; cbn [nth_error] in Hi.
      * injection Hi as <-. apply ameasure_zero. exact Hx.
      * apply (proj1 IH Hr i a Hi).
    + intros H. assert (Hx : ameasure x = 0) by (apply ameasure_zero; apply (H 0 x); reflexivity).
      assert (Hr : list_sum (map ameasure r) = 0) by (apply IH; intros i a Hi; apply (H (S i) a Hi)).
      lia.
Qed.

Fixpoint all_enabled (s : st) (sched : list nat) : Prop :=
  match sched with
  | [] => True
  | i :: r => enabled s i = true /\ all_enabled (step s i) r
  end.

Theorem sched_measure ntab : forall sched s, Inv ntab s -> all_enabled s sched ->
  length sched + total (run s sched) = total s.
Proof.
  induction sched as [|i r IH]; intros s HI Hall; cbn [length run fold_left all_enabled] in *; [reflexivity|].
  destruct Hall as [He Hr]. pose proof (step_decreases _ _ _ HI He) as Hd.
  specialize (IH (step s i) (Inv_step _ _ i HI) Hr). unfold run in IH. lia.
Qed.

Lemma total_pos_unfinished s : total s <> 0 -> unfinished s.
Proof.
  unfold total, unfinished. induction (s_actors s) as [|x r IH]; cbn [map]; rewrite ?list_sum_cons; [intros H; elim H; reflexivity|].
  intros H. destruct (ameasure x) eqn:Hx.
  - destruct IH as (i&a&Hi&Hd); [lia|]. exists (S i), a. auto.
  - exists 0, x. split; [reflexivity|]. intros E. apply ameasure_zero in E. congruence.
Qed.

(* from every reachable state the remaining work can be completed: there is a schedule of enabled steps,
   of length exactly `total s`, after which every actor is done *)
Theorem completion_exists ntab : forall n s, Inv ntab s -> total s = n ->
  exists sched, all_enabled s sched /\ length sched = n /\ all_done (run s sched).
Proof.
  induction n as [|n IH]; intros s HI Ht.
  - exists []. cbn. repeat split; auto. apply total_zero_iff. exact Ht.
  - destruct (no_deadlock_inv ntab s HI) as [i He]; [apply total_pos_unfinished; lia|].
    pose proof (step_decreases _ _ _ HI He) as Hd.
    destruct (IH (step s i) (Inv_step _ _ i HI)) as (sched&Hall&Hlen&Hdone); [lia|].
    exists (i :: sched). cbn [all_enabled length run fold_left]. repeat split; auto.
Qed.

Lemma insert_sorted_length x l : length (insert_sorted x l) <= S (length l).
Proof.
  induction l as [|y r IH]; cbn [insert_sorted length]; [lia|].
  destruct (Nat.eqb x y); [cbn [length]; lia|]. destruct (Nat.ltb x y); cbn [length]; lia.
Qed.

Lemma lock_order_length tabs : length (lock_order tabs) <= length tabs.
Proof.
  unfold lock_order.
  assert (H : forall acc, length (fold_left (fun acc x => insert_sorted x acc) tabs acc) <= length tabs + length acc).
  { induction tabs as [|x r IH]; intros acc; cbn [fold_left length]; [lia|].
    specialize (IH (insert_sorted x acc)). pose proof (insert_sorted_length x acc). lia. }
  specialize (H []). cbn [length] in H. lia.
Qed.

(* 2 + 2 |lock_order tabs| + 10 <= 12 + 2 |tabs| steps per writer, 6 per registrar *)
Definition step_bound (actors : list (N * kind)) : nat :=
  list_sum (map (fun ik => match snd ik with
                           | KWriter tabs _ _ _ _ => 12 + 2 * length tabs
                           | KRegistrar => 6 end) actors).

Lemma total_init_bound ntab actors : total (init_st ntab actors) <= step_bound actors.
Proof.
  unfold total, step_bound, init_st. cbn [s_actors]. rewrite map_map.
  induction actors as [|[id k] r IH]; cbn [map]; rewrite ?list_sum_cons; [lia|].
  assert (H : ameasure (mkA id k PStart [] [] [] [] []) <=
              match k with KWriter tabs _ _ _ _ => 12 + 2 * length tabs | KRegistrar => 6 end).
  { unfold ameasure, after_lock. cbn [a_pc a_kind fst snd]. destruct k as [tabs wr c rg dn|]; [|lia].
    pose proof (lock_order_length tabs). destruct c; lia. }
  cbn [fst snd] in *. lia.
Qed.

(* termination: along any schedule of enabled steps from the initial state, the number of steps plus the
   remaining work is constant; so such a schedule has at most step_bound steps, it can always be extended
   while some actor is unfinished, and it has finished everybody exactly when it has total-many steps *)
Theorem terminates ntab actors sched : wf_actors ntab actors ->
  let s0 := init_st ntab actors in
  all_enabled s0 sched ->
  length sched + total (run s0 sched) = total s0 /\
  length sched <= step_bound actors /\
  (all_done (run s0 sched) <-> length sched = total s0) /\
  (~ all_done (run s0 sched) -> exists i, enabled (run s0 sched) i = true).
Proof.
  intros Hwf s0 Hall.
  pose proof (sched_measure ntab sched s0 (Inv_init _ _ Hwf) Hall) as Hm.
  pose proof (total_init_bound ntab actors) as Hb. fold s0 in Hb.
  repeat split.
  - exact Hm.
  - lia.
  - intros Hd. apply total_zero_iff in Hd. lia.
  - intros Hl. apply total_zero_iff. lia.
  - intros Hnd. apply (no_deadlock_inv ntab); [apply Inv_run; apply Inv_init; exact Hwf|].
    apply total_pos_unfinished. intros E. apply Hnd, total_zero_iff, E.
Qed.
