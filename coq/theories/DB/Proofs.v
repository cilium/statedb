(* DB/Proofs.v — first facts about the commit-protocol model: a disabled step is the identity, what every step
   preserves holds along every schedule, the lock order is strictly increasing and has the requested tables. *)
From Coq Require Import Arith PeanoNat.
From SV Require Import DB.Model.
Open Scope N_scope.

Lemma step_disabled s i : enabled s i = false -> step s i = s.
Proof. unfold step. intros ->. reflexivity. Qed.

(* what every step preserves holds along every schedule *)
Lemma run_inv (P : st -> Prop) : (forall s i, P s -> P (step s i)) -> forall sched s, P s -> P (run s sched).
Proof. intros H. unfold run. induction sched as [|i r IH]; intros s Hs; cbn [fold_left]; auto. Qed.

(* lock order: duplicate-free and strictly increasing, whatever order/duplicates WriteTxn was given *)
Fixpoint strictly_inc (l : list nat) : Prop :=
  match l with
  | [] => True
  | x :: r => match r with [] => True | y :: _ => (x < y)%nat end /\ strictly_inc r
  end.

Lemma insert_sorted_inc x l : strictly_inc l -> strictly_inc (insert_sorted x l).
Proof.
  induction l as [|y r IH]; simpl; intros H; [auto|].
  destruct (Nat.eqb_spec x y); [exact H|].
  destruct (Nat.ltb_spec x y); simpl.
  - split; [lia|exact H].
  - destruct H as [Hy Hr]. specialize (IH Hr). split; [|exact IH].
    destruct r as [|z r']; simpl in *.
    + lia.
    + destruct (Nat.eqb_spec x z); [exact Hy|]. destruct (Nat.ltb_spec x z); simpl; lia.
Qed.

Lemma lock_order_inc_gen tabs : forall acc, strictly_inc acc -> strictly_inc (fold_left (fun acc x => insert_sorted x acc) tabs acc).
Proof. induction tabs as [|x r IH]; simpl; intros acc H; auto. apply IH. now apply insert_sorted_inc. Qed.

Theorem lock_order_strictly_increasing tabs : strictly_inc (lock_order tabs).
Proof. apply lock_order_inc_gen. exact I. Qed.

Lemma insert_sorted_In x y l : In y (insert_sorted x l) <-> y = x \/ In y l.
Proof.
  induction l as [|z r IH]; simpl; [intuition|].
  destruct (Nat.eqb_spec x z); [subst; simpl; intuition|].
  destruct (Nat.ltb_spec x z); simpl; [intuition|]. rewrite IH. intuition.
Qed.

Theorem lock_order_same_set tabs t : In t (lock_order tabs) <-> In t tabs.
Proof.
  unfold lock_order.
  assert (H : forall acc, In t (fold_left (fun acc x => insert_sorted x acc) tabs acc) <-> In t tabs \/ In t acc).
  { induction tabs as [|x r IH]; simpl; intros acc; [intuition|]. rewrite IH, insert_sorted_In. intuition. }
  rewrite H. simpl. intuition.
Qed.
