(* DB/NotifyLink.v — C06: the link between the notify micro-step of DB/Model.v and Txn.Notify of Part/Model.v.

   DB/Model.v keeps ONE channel per table version, `tv_watch`: the table-wide watch channel, i.e. the channel
   Table.AllWatch returns (table.go AllWatch -> indexTxn.all() on the PRIMARY index -> partIndex.all -> rootWatch()
   -> tree.RootWatch(); the sched engine's `watch <tab>` keeps exactly this channel). Its commit writes, for every
   table t in the actor's `writes`, a new version with a fresh channel and queues the old version's channel on
   `a_notify` (apply_writes / F1); the notify micro-step (pc PRootUnlocked) closes `a_notify`.

   write_txn.go Commit: for every index of every locked table `idx.commit()` (part.Txn.Commit: a fresh root channel iff
   the part.Txn is dirty), the root store, then `txn.notify()` for every index transaction (part.Txn.Notify: closes the
   recorded node channels and, iff dirty, the old root channel).

   THE ABSTRACTION [table_chan T = tr_rw T] maps the tree T of a table's primary index to the table's DB-level channel;
   [abs_notify T cls] maps the per-index closed sets cls of a committing table transaction to the DB-level closed
   set for that table: the table-wide channel if some set contains it, nothing otherwise (node channels and the root
   channels of the other indexes are not DB-level channels).

   PART SIDE (table_commit_refines_db_write): with R v T := (tv_watch v = table_chan T), the Part-level commit of the
   primary index's transaction (operations ops, `wrote` := the part.Txn is dirty = some operation inserted, replaced or
   deleted-while-present a key: C12_dirty_iff_changed) is, through the abstraction, exactly the DB-level write step
   [db_table_step] with `wrote` as "t is in writes": same closed set, R holds again for the new version and the
   committed tree, the new channel is fresh iff wrote and unchanged otherwise.
   DB SIDE (db_apply_writes_notify, for every reachable state): the apply_writes step of a committing writer queues the
   channel of the CURRENT root version of a locked table t iff t is in `writes`, gives t a fresh channel iff t is in
   `writes`; the queue is carried unchanged to the notify step, which closes exactly it.
   Together (C06_table_channel_is_primary_root_channel in Properties/C06.v): under the correspondence "t in writes <-> the primary index's
   part.Txn is dirty", the DB-level notify step closes tv_watch of the old version iff the Part-level Notify closes
   the old primary root channel. *)
From Coq Require Import Arith PeanoNat.
From SV Require Import DB.Model DB.Proofs DB.Invariants DB.Visibility DB.Channels DB.Watch.
Open Scope nat_scope.

(* what F1 (the first fold of apply_writes) does to ONE table entry, as a function: `wrote` = t is in writes *)
Definition db_table_step (id : N) (wrote : bool) (nw : N) (v : tver) : tver * list N * N :=
  if wrote then (mkV (insert_id id (tv_ids v)) nw (tv_init v), [tv_watch v], (nw + 1)%N) else (v, [], nw).

Lemma F1_is_db_table_step id es nt nw t v : nth_error es t = Some v ->
  let r := db_table_step id true nw v in
  F1 id (es, nt, nw) t = (upd t (fun _ => fst (fst r)) es, snd (fst r) ++ nt, snd r).
Proof. intros H. cbn [F1 db_table_step fst snd app]. rewrite H. reflexivity. Qed.

Lemma F1_notify_mono id : forall ws acc w, In w (snd (fst acc)) -> In w (snd (fst (fold_left (F1 id) ws acc))).
Proof.
  induction ws as [|t0 ws IH]; intros acc w H; cbn [fold_left]; auto. apply IH.
  destruct acc as [[es nt] nw]. cbn [F1]. destruct (nth_error es t0); cbn [fst snd] in *; auto. now right.
Qed.

(* a written table's channel is queued *)
Lemma F1_written id t : forall ws es nt nw v, nth_error es t = Some v -> In t ws ->
  In (tv_watch v) (snd (fst (fold_left (F1 id) ws (es, nt, nw)))).
Proof.
  induction ws as [|t0 ws IH]; intros es nt nw v Hv Hin; [destruct Hin|]. cbn [fold_left].
  destruct (Nat.eq_dec t0 t) as [->|Hne].
  - cbn [F1]. rewrite Hv. apply F1_notify_mono. cbn [fst snd]. now left.
  - destruct Hin as [E|Hin]; [congruence|]. cbn [F1].
    destruct (nth_error es t0) as [v0|] eqn:E0; [|now apply IH].
    apply IH; auto. rewrite nth_error_upd_other; auto.
Qed.

(* ... and gets a channel allocated by this apply_writes *)
Lemma F1_fresh id t lo : forall ws es nt nw,
  (exists e, nth_error es t = Some e /\ ((lo <= tv_watch e)%N /\ (tv_watch e < nw)%N \/ (In t ws /\ (lo <= nw)%N))) ->
  exists e, nth_error (fst (fst (fold_left (F1 id) ws (es, nt, nw)))) t = Some e /\
            (lo <= tv_watch e)%N /\ (tv_watch e < snd (fold_left (F1 id) ws (es, nt, nw)))%N.
Proof.
  induction ws as [|t0 ws IH]; intros es nt nw [e [He H]]; cbn [fold_left].
  - cbn [fst snd]. exists e. destruct H as [H|[[] _]]. tauto.
  - cbn [F1]. destruct (nth_error es t0) as [v0|] eqn:E0.
    + apply IH. destruct (Nat.eq_dec t0 t) as [->|Hne].
      * rewrite nth_error_upd_same, He. cbn [option_map]. eexists. split; [reflexivity|]. left. cbn [tv_watch].
        destruct H as [H|[_ H]]; lia.
      * rewrite nth_error_upd_other by auto. exists e. split; [exact He|].
        destruct H as [H|[[E|H] L]]; [left; lia|congruence|right; split; [exact H|lia]].
    + apply IH. exists e. split; [exact He|]. destruct H as [H|[[E|H] L]]; [left; exact H| |right; auto].
      subst t0. congruence.
Qed.

(* the whole of apply_writes, on the entry of one table t whose channels are distinct from the other entries' *)
Theorem apply_writes_table (D : nat -> Prop) id ws rg dn nw0 es0 es' nt' nw' t v :
  (forall t, In t ws -> D t) -> (forall tn, In tn rg -> D (fst tn)) -> (forall tn, In tn dn -> D (fst tn)) ->
  chinj D es0 -> (forall t v w, D t -> nth_error es0 t = Some v -> In w (chans v) -> (w < nw0)%N) ->
  apply_writes id ws rg dn nw0 es0 = (es', nt', nw') ->
  D t -> nth_error es0 t = Some v ->
  (In (tv_watch v) nt' <-> In t ws) /\
  exists e, nth_error es' t = Some e /\
    (In t ws -> (nw0 <= tv_watch e)%N /\ (tv_watch e < nw')%N) /\
    (~ In t ws -> tv_watch e = tv_watch v).
Proof.
  intros Hws Hrg Hdn Hinj Hb Haw Dt Hv.
  pose proof (apply_writes_G D es0 nw0 id ws rg dn es' nt' nw' Hws Hrg Hdn Hinj Hb Haw) as HG.
  pose proof (apply_writes_rel Haw t) as Hk. rewrite Hv in Hk.
  destruct Hk as (e & He & _ & Hkeep & _).
  destruct (apply_writes_folds Haw) as (es1&nw1&es2&E1&E2&E3).
  split.
  - split.
    + intros Hin. destruct (in_dec Nat.eq_dec t ws) as [Y|Nn]; [exact Y|exfalso].
      destruct (g_nt HG _ Hin) as [_ Hno]. apply (Hno t e Dt He). left. exact (Hkeep Nn).
    + intros Hin. pose proof (F1_written id t ws es0 [] nw0 v Hv Hin) as H. rewrite E1 in H. exact H.
  - exists e. split; [exact He|]. split; [|exact Hkeep].
    intros Hin.
    assert (Hf : exists e1, nth_error es1 t = Some e1 /\ (nw0 <= tv_watch e1)%N /\ (tv_watch e1 < nw1)%N).
    { pose proof (F1_fresh id t nw0 ws es0 [] nw0) as H. rewrite E1 in H. cbn [fst snd] in H. apply H.
      exists v. split; [exact Hv|]. right. split; [exact Hin|lia]. }
    destruct Hf as (e1 & He1 & L1 & L2).
    (* the initializer folds keep that channel *)
    pose proof (F2_keep rg (es1, nw1) t) as K2. rewrite E2 in K2. cbn [fst] in K2. rewrite He1 in K2.
    destruct K2 as (e2 & He2 & _ & W2 & _).
    pose proof (F3_keep dn es2 t) as K3. rewrite E3, He2 in K3. destruct K3 as (e3 & He3 & _ & W3 & _).
    assert (Ee : e = e3) by congruence. subst e. rewrite W3, W2.
    pose proof (F2_nw nw1 rg (es1, nw1) (N.le_refl _)) as Hn. rewrite E2 in Hn. cbn [snd] in Hn. lia.
Qed.

Lemma actor_after s i a' : i < length (s_actors s) ->
  nth_error (upd i (fun _ => a') (s_actors s)) i = Some a'.
Proof.
  intros Hl. rewrite nth_error_upd_same. destruct (nth_error (s_actors s) i) eqn:E; [reflexivity|].
  apply nth_error_None in E. lia.
Qed.

(* the apply_writes step of a committing writer: for every locked table t, with v its version in the CURRENT root
   (nobody else can replace it while t is locked): v's channel is queued for notification iff t is in `writes`; the
   private entry gets a channel allocated by this step iff t is in `writes`, and keeps v's channel otherwise *)
Theorem db_apply_writes_notify ntab s i a tabs wr rg dn :
  Good ntab s -> nth_error (s_actors s) i = Some a ->
  a_kind a = KWriter tabs wr true rg dn -> a_pc a = PRootLoaded ->
  exists a', nth_error (s_actors (step s i)) i = Some a' /\ a_pc a' = PCommitIdx /\
    a_kind a' = a_kind a /\ a_locks a' = a_locks a /\
    s_root (step s i) = s_root s /\ s_closed (step s i) = s_closed s /\
    forall t v, In t (a_locks a) -> nth_error (s_root s) t = Some v ->
      (In (tv_watch v) (a_notify a') <-> In t wr) /\
      exists e, nth_error (a_entries a') t = Some e /\
        (In t wr -> (s_nextw s <= tv_watch e)%N /\ (tv_watch e < s_nextw (step s i))%N) /\
        (~ In t wr -> tv_watch e = tv_watch v).
Proof.
  intros [HI HV HW] Ha Hk Hpc.
  pose proof (inv_ok HI _ _ Ha) as Hok.
  assert (He : enabled s i = true) by (unfold enabled; rewrite Ha, Hpc; reflexivity).
  assert (Hl : i < length (s_actors s)) by (apply nth_error_Some; rewrite Ha; discriminate).
  unfold step. rewrite He, Ha, Hk, Hpc. cbn [negb].
  destruct (apply_writes (a_id a) wr rg dn (s_nextw s) (a_entries a)) as [[es nt] nw] eqn:Haw.
  unfold set_actor. cbn [s_root s_closed s_nextw s_actors].
  eexists. split; [apply actor_after; exact Hl|]. cbn [a_pc a_kind a_locks a_notify a_entries].
  do 5 (split; [reflexivity|]). intros t v Ht Hv.
  assert (Hne : a_pc a <> PStart) by (rewrite Hpc; discriminate).
  destruct (kind_sub_locks ntab a _ _ _ _ _ Hok Hne Hk) as (Hws & Hrg & Hdn).
  destruct (loaded_entries ntab s i a HI HV HW Ha Hpc) as (Heq & Hinj & Hb).
  apply (apply_writes_table (fun t => In t (a_locks a)) (a_id a) wr rg dn (s_nextw s) (a_entries a) es nt nw t v); auto.
  destruct (Heq t Ht) as (v' & Hv' & He'). congruence.
Qed.

(* the queue is carried unchanged through the root lock, root load, root store and root unlock steps ... *)
Lemma a_notify_carried s i a tabs wr c rg dn :
  nth_error (s_actors s) i = Some a -> a_kind a = KWriter tabs wr c rg dn ->
  a_pc a = PCommitIdx \/ a_pc a = PRootLocked \/ a_pc a = PCommitLoaded \/ a_pc a = PRootStored ->
  exists a', nth_error (s_actors (step s i)) i = Some a' /\ a_notify a' = a_notify a /\ a_kind a' = a_kind a /\
             s_closed (step s i) = s_closed s.
Proof.
  intros Ha Hk Hpc.
  assert (Hl : i < length (s_actors s)) by (apply nth_error_Some; rewrite Ha; discriminate).
  destruct (enabled s i) eqn:He.
  2:{ rewrite step_disabled by exact He. exists a. auto. }
  unfold step. rewrite He, Ha, Hk. cbn [negb].
  destruct Hpc as [Hpc|[Hpc|[Hpc|Hpc]]]; rewrite Hpc; try destruct (merge_root _ _ _ _) as [root closing];
    unfold set_actor; cbn [s_actors s_closed]; (eexists; split; [apply actor_after; exact Hl|]); cbn; auto.
Qed.

(* ... is untouched by the steps of the other actors ... *)
Lemma other_step_keeps_actor s i j : i <> j -> nth_error (s_actors (step s j)) i = nth_error (s_actors s) i.
Proof.
  intros Hne. unfold step. destruct (enabled s j); cbn [negb]; [|reflexivity].
  destruct (nth_error (s_actors s) j) as [b|]; [|reflexivity].
  assert (U : forall s1 b', s_actors s1 = s_actors s -> nth_error (s_actors (set_actor s1 j b')) i = nth_error (s_actors s) i).
  { intros s1 b' E. unfold set_actor. cbn [s_actors]. rewrite E. apply nth_error_upd_other. auto. }
  destruct (a_kind b) as [tabs wr c rg dn|]; destruct (a_pc b); try reflexivity; try (apply U; reflexivity).
  - destruct (nth_error (a_locks b) i0); [apply U; reflexivity|reflexivity].
  - destruct c; destruct (apply_writes _ _ _ _ _ _) as [[es nt] nw]; apply U; reflexivity.
  - destruct (merge_root _ _ _ _) as [root closing]. apply U; reflexivity.
Qed.

(* ... and the notify micro-step closes exactly it *)
Lemma notify_step_closes s i a tabs wr c rg dn :
  nth_error (s_actors s) i = Some a -> a_kind a = KWriter tabs wr c rg dn -> a_pc a = PRootUnlocked ->
  s_closed (step s i) = a_notify a ++ s_closed s /\ s_root (step s i) = s_root s.
Proof.
  intros Ha Hk Hpc.
  assert (He : enabled s i = true) by (unfold enabled; rewrite Ha, Hpc; reflexivity).
  unfold step. rewrite He, Ha, Hk, Hpc. cbn [negb]. unfold set_actor. cbn [s_closed s_root]. auto.
Qed.

From SV Require Import Base.Bytes Base.OrdMap Part.Model Part.Refine Part.Watch Part.Fresh Part.Footprint.
Open Scope N_scope.

(* THE ABSTRACTION: the DB-level channel of a table whose primary index is the tree T *)
Definition table_chan (T : tree) : N := tr_rw T.
(* the DB-level image of the per-index closed sets of a committing table transaction *)
Definition abs_notify (T : tree) (cls : list (list N)) : list N :=
  if existsb (N.eqb (table_chan T)) (concat cls) then [table_chan T] else [].
(* the representation relation between a DB-level table version and the primary index's tree *)
Definition Rtab (v : tver) (T : tree) : Prop := tv_watch v = table_chan T.

Lemma existsb_In w l : existsb (N.eqb w) l = true <-> In w l.
Proof.
  rewrite existsb_exists. split.
  - intros [x [H E]]. apply N.eqb_eq in E. now subst.
  - intros H. exists w. split; [exact H|apply N.eqb_refl].
Qed.

(* T: the committed tree of the table's primary index; ops: the operations of the write transaction's part.Txn on it;
   others: the closed sets of the transaction's other index transactions (they close channels of OTHER trees: none of
   them is T's root channel); wrote: the part.Txn is dirty. The Part-level Commit + Notify is, through the abstraction,
   the DB-level write of the table with `wrote` for "t in writes" and the committed tree's root channel as the fresh
   channel. *)
Theorem table_commit_refines_db_write v T next ops others id :
  tree_inv T next -> Rtab v T ->
  (forall cl, In cl others -> ~ In (table_chan T) cl) ->
  let xe := fold_left wstep ops (tree_txn T next) in
  let T' := snd (txn_commit xe) in
  let cls := snd (txn_notify (fst (txn_commit xe))) :: others in
  let wrote := any_change (abs_tree T) ops in
  let r := db_table_step id wrote (table_chan T') v in
  t_dirty xe = wrote /\
  (In (table_chan T) (snd (txn_notify (fst (txn_commit xe)))) <-> wrote = true) /\
  abs_notify T cls = snd (fst r) /\
  Rtab (fst (fst r)) T' /\
  (wrote = true -> next <= table_chan T' /\ table_chan T' <> table_chan T /\
                   ~ In (table_chan T') (snd (txn_notify (fst (txn_commit xe))))) /\
  (wrote = false -> table_chan T' = table_chan T) /\
  tree_inv T' (s_next (t_st (fst (txn_commit xe)))).
Proof.
  intros HI HR Hoth. cbv zeta. rewrite notify_after_commit.
  pose proof HI as (Hok & Hids & Hnz & Hm & Hck & Hrw).
  destruct (tree_txn_ok T next Hok) as [Tok Ta].
  destruct (dirty_iff_changed ops _ Tok) as [Ed Erw]. rewrite Ta in Ed. cbn [tree_txn t_dirty orb] in Ed.
  pose proof (root_watch_closed_iff_exact T next ops Hok Hck Hnz Hrw) as Hiff.
  pose proof (new_tree_channels_open T next ops Hck Hnz) as Hnew. cbv zeta in Hnew. destruct Hnew as (_ & _ & Hopen & _).
  pose proof (commit_tree_inv T next ops HI) as Hci. cbv zeta in Hci. destruct Hci as (HI' & _ & _).
  set (xe := fold_left wstep ops (tree_txn T next)) in *.
  destruct (commit_root xe) as [_ Ew].
  assert (Hlt : tr_rw T < next) by (apply (h_chan_lt T next HRoot Hck Hrw)).
  assert (Hge : next <= s_next (t_st xe)).
  { pose proof (run_TInv next ops _ (tree_txn_TInv T next Hids Hnz Hm)) as (_ & _ & Hn). exact Hn. }
  split; [exact Ed|]. split; [exact Hiff|].
  unfold abs_notify, Rtab, db_table_step in *. unfold table_chan in *. cbn [concat].
  split; [|split; [|split; [|split; [|exact HI']]]].
  - destruct (any_change (abs_tree T) ops) eqn:W; cbn [fst snd].
    + replace (existsb _ _) with true; [now rewrite HR|]. symmetry. apply existsb_In. apply in_or_app. left.
      now apply Hiff.
    + replace (existsb _ _) with false; [reflexivity|]. symmetry. apply not_true_is_false. intros H.
      apply existsb_In in H. apply in_app_or in H. destruct H as [H|H].
      * apply Hiff in H. discriminate.
      * apply in_concat in H. destruct H as [cl [H1 H2]]. exact (Hoth cl H1 H2).
  - destruct (any_change (abs_tree T) ops) eqn:W; cbn [fst snd tv_watch]; [reflexivity|].
    rewrite Ew, Ed, Erw. exact HR.
  - intros W. rewrite W in Ed. rewrite Ew, Ed. split; [lia|]. split; [lia|].
    rewrite Ew, Ed in Hopen. apply Hopen. lia.
  - intros W. rewrite W in Ed. rewrite Ew, Ed, Erw. reflexivity.
Qed.

(* DB: two tables (channels 0 and 1), one writer locking both and writing table 1 only; after 7 steps it is at
   PRootLoaded. Part: the primary index of table 1: the empty tree whose root channel is the table's channel 1; the
   transaction inserts one key. The DB-level queue is [1]; the Part-level Notify closes [1]; table 0 keeps channel 0. *)
Definition nl_acts : list (N * kind) := [(1%N, KWriter [0%nat; 1%nat] [1%nat] true [] [])].
Definition nl_s : DB.Model.st := DB.Model.run (init_st 2 nl_acts) (repeat 0%nat 7).
Definition nl_T : tree := fst (tree_new false 1).

Lemma nl_wf : wf_system 2 nl_acts.
Proof.
  split.
  - intros ik [<-|[]]; cbn; repeat split; try (intros x Hx; cbn in Hx; intuition (subst; cbn; auto)).
  - cbn. repeat constructor; cbn; intuition discriminate.
Qed.

Example notify_link_nonvacuous :
  exists a, Good 2 nl_s /\ nth_error (s_actors nl_s) 0 = Some a /\
    a_kind a = KWriter [0%nat; 1%nat] [1%nat] true [] [] /\ a_pc a = PRootLoaded /\
    In 1%nat (a_locks a) /\ nth_error (s_root nl_s) 1 = Some (mkV [] 1 None) /\
    tree_inv nl_T 2 /\ Rtab (mkV [] 1 None) nl_T /\
    (In 1%nat [1%nat] <-> any_change (abs_tree nl_T) [WIns [1] 10] = true) /\
    (exists a', nth_error (s_actors (DB.Model.step nl_s 0)) 0 = Some a' /\ a_notify a' = [1] /\
                map tv_watch (a_entries a') = [0; 2]) /\
    snd (txn_notify (fst (txn_commit (fold_left wstep [WIns [1] 10] (tree_txn nl_T 2))))) = [1] /\
    table_chan (snd (txn_commit (fold_left wstep [WIns [1] 10] (tree_txn nl_T 2)))) = 3.
Proof.
  eexists. split; [exact (Good_reachable 2 nl_acts (repeat 0%nat 7) nl_wf)|].
  split; [vm_compute; reflexivity|]. split; [reflexivity|]. split; [reflexivity|].
  split; [cbn; auto|]. split; [reflexivity|]. split; [apply (tree_inv_new false 1); lia|]. split; [reflexivity|].
  split; [split; intros _; [reflexivity|now left]|].
  split; [eexists; split; [vm_compute; reflexivity|split; reflexivity]|]. split; reflexivity.
Qed.

Print Assumptions apply_writes_table.
Print Assumptions db_apply_writes_notify.
Print Assumptions a_notify_carried.
Print Assumptions other_step_keeps_actor.
Print Assumptions notify_step_closes.
Print Assumptions table_commit_refines_db_write.
