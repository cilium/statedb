(* DB/NoRootLock.v — what the root lock db.mu is for: a refutation.

   In DB/Model.v the root read-modify-write of Commit (load at pc PRootLocked, store at pc PCommitLoaded) and of
   registerTable (load at PRegLocked, store at PRegLoaded) happens inside ONE shared root lock `s_rlock`; DB/Invariants.v
   proves that therefore the root loaded is still the current root at the store (Inv.inv_cur, loaded_root_is_current),
   and DB/Visibility.v that no committed write is ever lost.

   Here: the variant system in which the root lock excludes nobody (as if db.mu were a field of the DB *handle*, a
   per-handle mutex: every handle finds its own mutex free). `step_norlock` is `step` on the state whose root lock has
   been forgotten; every other part of the protocol (table locks, sorted lock order, private entries, merge_root on the
   loaded root) is unchanged. Two writers on DISJOINT tables then lose a committed write: both load the root, the first
   stores, the second merges into its stale root and stores — the first writer's id is gone from the committed root
   although it has committed. This file holds the variant, the witness systems and schedules, and the runs WITH the
   root lock for contrast; the refutations over them are C05_*_refuted in Properties/C05.v (evaluation of the
   concrete schedules). *)
From Coq Require Import Arith PeanoNat.
From SV Require Import DB.Model DB.Proofs DB.Invariants DB.Visibility.
Open Scope nat_scope.

(* forget who holds the root lock *)
Definition free_rlock (s : st) : st :=
  mkS (s_root s) (s_tlock s) None (s_closed s) (s_nextw s) (s_actors s).

(* one micro-step when the root lock does not exclude the other actors *)
Definition step_norlock (s : st) (i : nat) : st := step (free_rlock s) i.
Definition enabled_norlock (s : st) (i : nat) : bool := enabled (free_rlock s) i.
Definition run_norlock (s : st) (sched : list nat) : st := fold_left step_norlock sched s.

(* the variant differs from the model ONLY in that: whenever the root lock is free the two systems take the same
   step (C05_step_norlock_agrees), and an actor that is not about to take the root lock is enabled in the one iff
   it is in the other *)
Lemma free_rlock_id s : s_rlock s = None -> free_rlock s = s.
Proof. destruct s. cbn. intros ->. reflexivity. Qed.

Theorem enabled_norlock_spec s i a : nth_error (s_actors s) i = Some a ->
  enabled_norlock s i =
  match a_pc a with PCommitIdx | PRegBefore => true | _ => enabled s i end.
Proof.
  intros Ha. unfold enabled_norlock, enabled, free_rlock. cbn [s_actors s_tlock s_rlock]. rewrite Ha.
  destruct (a_pc a); reflexivity.
Qed.

(* two tables; writer 1 (index 0) locks and writes table 0, writer 2 (index 1) locks and writes table 1 *)
Definition lw_acts : list (N * kind) :=
  [(1%N, KWriter [0] [0] true [] []); (2%N, KWriter [1] [1] true [] [])].

(* 8 steps take a one-table writer from PStart to PCommitLoaded (root loaded inside "its" root lock) *)
Definition lw_both_loaded : list nat := repeat 0 8 ++ repeat 1 8.
(* writer 1 stores, then writer 2 stores; then both run to completion (5 more steps each) *)
Definition lw_sched : list nat := lw_both_loaded ++ [0; 1] ++ repeat 0 5 ++ repeat 1 5.

Lemma lw_wf : wf_system 2 lw_acts.
Proof.
  split.
  - intros ik [<-|[<-|[]]]; cbn; repeat split; try (intros x Hx; cbn in Hx; intuition (subst; cbn; auto)).
  - cbn. repeat constructor; cbn; intuition discriminate.
Qed.

Lemma lw_disjoint : forall t, In t [0] -> ~ In t [1].
Proof. intros t [<-|[]] [E|[]]. discriminate. Qed.

(* the same system WITH the root lock: writer 2's root-lock step is disabled while writer 1 holds db.mu (the step is
   the identity), so along the same schedule it falls three steps behind; three more steps finish it and both ids are
   there *)
Example with_root_lock_nothing_lost :
  let s1 := run (init_st 2 lw_acts) lw_both_loaded in
  let s := run (init_st 2 lw_acts) (lw_sched ++ [1; 1; 1]) in
  enabled s1 1 = false /\ s_rlock s1 = Some 0 /\
  map a_pc (s_actors s1) = [PCommitLoaded; PCommitIdx] /\
  map a_pc (s_actors s) = [PDone; PDone] /\ map tv_ids (s_root s) = [[1%N]; [2%N]].
Proof. vm_compute. repeat split; reflexivity. Qed.

(* registration is lost the same way: a registrar and a writer both load, the registrar stores the longer root, the
   writer stores its merge into the stale (shorter) root: the new table has disappeared from the committed root *)
Definition lr_acts : list (N * kind) := [(1%N, KWriter [0] [0] true [] []); (2%N, KRegistrar)].

Example with_root_lock_registration_kept :
  let s := run (init_st 1 lr_acts) (repeat 0 8 ++ repeat 1 3 ++ [1; 0] ++ [0] ++ repeat 1 3) in
  map a_pc (s_actors s) = [PRootUnlocked; PRegStored] /\ length (s_root s) = 2.
Proof. vm_compute. repeat split; reflexivity. Qed.

(* a writer at PCommitLoaded while a registrar has finished meanwhile... cannot happen (the registrar needs db.mu);
   what can: the registrar registered a table AFTER the writer cloned the root (PWLocked step) and BEFORE its
   Commit took db.mu: then a_cur (2 entries) differs from the clone base (1 entry) and equals the current root *)
Example loaded_root_nonvacuous :
  let s := run (init_st 1 lr_acts) (repeat 0 6 ++ repeat 1 5 ++ [0; 0]) in
  exists a, nth_error (s_actors s) 0 = Some a /\ a_pc a = PCommitLoaded /\
    length (a_entries a) = 1 /\ length (a_cur a) = 2 /\ a_cur a = s_root s /\ s_rlock s = Some 0.
Proof. eexists. vm_compute. repeat split; reflexivity. Qed.

Example loaded_root_nonvacuous_reg :
  let s := run (init_st 1 lr_acts) (repeat 1 3) in
  exists a, nth_error (s_actors s) 1 = Some a /\ a_pc a = PRegLoaded /\ a_cur a = s_root s /\ s_rlock s = Some 1.
Proof. eexists. vm_compute. repeat split; reflexivity. Qed.

Print Assumptions enabled_norlock_spec.
