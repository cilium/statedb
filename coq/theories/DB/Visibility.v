(* DB/Visibility.v — atomic visibility, no lost write, abort leaves no trace, registration keeps
   entries, "the cloned entry is the last committed one": a second invariant VInv on top of the lock
   invariant Inv (DB/Invariants.v), again for arbitrary actor lists and schedules. *)
From Coq Require Import Arith PeanoNat.
From SV Require Import DB.Model DB.Proofs DB.Invariants.
Open Scope nat_scope.

(* pw R es es': es and es' have the same length and R relates them pointwise, entry t to entry t *)
Definition pw (R : nat -> tver -> tver -> Prop) (es es' : list tver) : Prop :=
  forall t, match nth_error es t with
            | None => nth_error es' t = None
            | Some v => exists e, nth_error es' t = Some e /\ R t v e
            end.

Lemma pw_refl (R : nat -> tver -> tver -> Prop) es : (forall t v, R t v v) -> pw R es es.
Proof. intros HR t. destruct (nth_error es t) as [v|] eqn:E; [exists v; auto|reflexivity]. Qed.

Lemma pw_trans (R1 R2 R3 : nat -> tver -> tver -> Prop) x y z :
  (forall t a b c, R1 t a b -> R2 t b c -> R3 t a c) -> pw R1 x y -> pw R2 y z -> pw R3 x z.
Proof.
  intros HR H1 H2 t. specialize (H1 t). specialize (H2 t).
  destruct (nth_error x t) as [v|].
  - destruct H1 as [e [He Hve]]. rewrite He in H2. destruct H2 as [e' [He' Hee']]. exists e'. eauto.
  - rewrite H1 in H2. exact H2.
Qed.

(* one entry replaced, or none (t0 out of range) *)
Lemma pw_upd (R : nat -> tver -> tver -> Prop) es t0 v' :
  (forall v0, nth_error es t0 = Some v0 -> R t0 v0 v') -> (forall t v, t <> t0 -> R t v v) ->
  pw R es (upd t0 (fun _ => v') es).
Proof.
  intros HR Hrefl t. rewrite nth_error_upd. destruct (Nat.eqb_spec t0 t) as [->|Hne].
  - destruct (nth_error es t) as [v|]; cbn [option_map]; eauto.
  - destruct (nth_error es t) as [v|]; [exists v; auto|reflexivity].
Qed.

Lemma pw_refl_except (R : nat -> tver -> tver -> Prop) es t0 :
  nth_error es t0 = None -> (forall t v, t <> t0 -> R t v v) -> pw R es es.
Proof.
  intros H0 HR t. destruct (nth_error es t) as [v|] eqn:E; [|reflexivity].
  exists v. split; [reflexivity|]. apply HR. intros ->. congruence.
Qed.

Lemma pw_weaken (R1 R2 : nat -> tver -> tver -> Prop) x y :
  (forall t a b, R1 t a b -> R2 t a b) -> pw R1 x y -> pw R2 x y.
Proof.
  intros HR H t. specialize (H t). destruct (nth_error x t); [|exact H].
  destruct H as [e [He Hr]]. exists e. auto.
Qed.

Lemma pw_length R x y : pw R x y -> length x = length y.
Proof.
  intros H.
  assert (H1 : forall t, t < length x <-> t < length y).
  { intros t. specialize (H t). rewrite <- !nth_error_Some. destruct (nth_error x t).
    - destruct H as [e [-> _]]. split; discriminate.
    - rewrite H. tauto. }
  destruct (Nat.lt_trichotomy (length x) (length y)) as [Hlt|[He|Hgt]]; [|exact He|].
  - apply H1 in Hlt. lia.
  - apply H1 in Hgt. lia.
Qed.

(* a fold whose every step relates the entries before and after it pointwise; the relation may depend on
   the list of elements folded over *)
Lemma pw_fold {X B} (R : list X -> nat -> tver -> tver -> Prop) (f : B -> X -> B) (es : B -> list tver) :
  (forall t v, R [] t v v) ->
  (forall x l t a b c, R [x] t a b -> R l t b c -> R (x :: l) t a c) ->
  (forall acc x, pw (R [x]) (es acc) (es (f acc x))) ->
  forall l acc, pw (R l) (es acc) (es (fold_left f l acc)).
Proof.
  intros Hrefl Htrans Hstep. induction l as [|x l IH]; intros acc; cbn [fold_left].
  - apply pw_refl, Hrefl.
  - eapply pw_trans; [apply Htrans|apply Hstep|apply IH].
Qed.

(* F1, F2, F3 are the three anonymous folds of Model.apply_writes, copied word for word: apply_writes_folds ties them to
   it by conversion and breaks if the texts drift apart *)
Definition F1 (tid : N) (acc : list tver * list N * N) (t : nat) : list tver * list N * N :=
  let '(es, notify, nw) := acc in
  match nth_error es t with
  | Some v => (upd t (fun _ => mkV (insert_id tid (tv_ids v)) nw (tv_init v)) es, tv_watch v :: notify, (nw + 1)%N)
  | None => acc
  end.
Definition F2 (acc : list tver * N) (tn : nat * N) : list tver * N :=
  let '(es, nw) := acc in
  let '(t, name) := tn in
  match nth_error es t with
  | Some v => match tv_init v with
              | None => (upd t (fun _ => mkV (tv_ids v) (tv_watch v) (Some (nw, [name]))) es, (nw + 1)%N)
              | Some (w, p) => (upd t (fun _ => mkV (tv_ids v) (tv_watch v) (Some (w, p ++ [name]))) es, nw)
              end
  | None => acc
  end.
Definition F3 (es : list tver) (tn : nat * N) : list tver :=
  let '(t, name) := tn in
  match nth_error es t with
  | Some v => match tv_init v with
              | Some (w, p) => upd t (fun _ => mkV (tv_ids v) (tv_watch v) (Some (w, filter (fun n => negb (n =? name)%N) p))) es
              | None => es
              end
  | None => es
  end.

Lemma apply_writes_folds {tid ws rg dn nextw es es' nt nw} : apply_writes tid ws rg dn nextw es = (es', nt, nw) ->
  exists es1 nw1 es2, fold_left (F1 tid) ws (es, [], nextw) = (es1, nt, nw1) /\
                      fold_left F2 rg (es1, nw1) = (es2, nw) /\ fold_left F3 dn es2 = es'.
Proof.
  change (apply_writes tid ws rg dn nextw es) with
    (let '(es1, notify, nw) := fold_left (F1 tid) ws (es, [], nextw) in
     let '(es2, nw2) := fold_left F2 rg (es1, nw) in (fold_left F3 dn es2, notify, nw2)).
  destruct (fold_left (F1 tid) ws (es, [], nextw)) as [[es1 nt1] nw1].
  destruct (fold_left F2 rg (es1, nw1)) as [es2 nw2] eqn:E2.
  intros H. injection H as <- <- <-. exists es1, nw1, es2. auto.
Qed.

Lemma insert_id_In x y l : In y (insert_id x l) <-> y = x \/ In y l.
Proof.
  induction l as [|z r IH]; cbn [insert_id In]; [intuition|].
  destruct (N.eqb_spec x z); [subst; cbn [In]; intuition|].
  destruct (N.ltb x z); cbn [In]; [intuition|]. rewrite IH. intuition.
Qed.

(* what the write fold does to the tid sets *)
Definition Rids (tid : N) (ws : list nat) (t : nat) (v e : tver) : Prop :=
  forall x, In x (tv_ids e) <-> (x = tid /\ In t ws) \/ In x (tv_ids v).

(* what apply_writes does to an entry: the ids as above, the watch channel kept unless the table is written, the
   init watch of a pending initialization kept *)
Definition Rapply (tid : N) (ws : list nat) (t : nat) (v e : tver) : Prop :=
  Rids tid ws t v e /\ (~ In t ws -> tv_watch e = tv_watch v) /\
  forall w p, tv_init v = Some (w, p) -> exists p', tv_init e = Some (w, p').

(* the write fold alone already does that (it leaves the initializer states alone) *)
Lemma F1_write tid ws acc : pw (Rapply tid ws) (fst (fst acc)) (fst (fst (fold_left (F1 tid) ws acc))).
Proof.
  apply (pw_fold (Rapply tid) (F1 tid) (fun acc => fst (fst acc))).
  - intros t v. split; [|split; [auto|eauto]]. intros x. cbn [In]. tauto.
  - intros t0 l t a b c (I1&W1&N1) (I2&W2&N2). split; [|split].
    + intros x. rewrite (I2 x), (I1 x). cbn [In]. clear. tauto.
    + cbn [In] in *. intros Hn. rewrite W2, W1; tauto.
    + intros w p H. destruct (N1 w p H) as [p' H']. apply (N2 w p' H').
  - intros [[es nt] nw] t0. cbn [fst F1].
    assert (Hrefl : forall t v, t <> t0 -> Rapply tid [t0] t v v).
    { intros t v Hne. split; [|split; [auto|eauto]]. intros x. cbn [In]. intuition congruence. }
    destruct (nth_error es t0) as [v0|] eqn:E0; cbn [fst]; [|apply (pw_refl_except _ _ t0 E0 Hrefl)].
    apply pw_upd; [|exact Hrefl]. intros v1 E1. assert (v1 = v0) by congruence. subst v1.
    split; [|split; [cbn [In]; tauto|cbn [tv_init]; eauto]]. intros x. cbn [tv_ids In]. rewrite insert_id_In. tauto.
Qed.

(* the initializer folds keep ids and watch of every entry, and the init watch of a pending initialization *)
Definition Rkeep (t : nat) (v e : tver) : Prop :=
  tv_ids e = tv_ids v /\ tv_watch e = tv_watch v /\
  forall w p, tv_init v = Some (w, p) -> exists p', tv_init e = Some (w, p').

Lemma Rkeep_refl t v : Rkeep t v v.
Proof. repeat split. eauto. Qed.
Lemma Rkeep_trans t a b c : Rkeep t a b -> Rkeep t b c -> Rkeep t a c.
Proof.
  intros (I1&W1&N1) (I2&W2&N2). repeat split; try congruence.
  intros w p H. destruct (N1 w p H) as [p' H']. apply (N2 w p' H').
Qed.

Lemma F2_keep rg acc : pw Rkeep (fst acc) (fst (fold_left F2 rg acc)).
Proof.
  apply (pw_fold (fun _ => Rkeep) F2 fst); [apply Rkeep_refl|intros ? ?; apply Rkeep_trans|].
  intros [es nw] [t0 name]. cbn [F2 fst]. destruct (nth_error es t0) as [v0|] eqn:E0; [|apply pw_refl, Rkeep_refl].
  destruct (tv_init v0) as [[w p]|] eqn:Hi; cbn [fst]; (apply pw_upd; [|intros; apply Rkeep_refl]);
    intros v1 E1; assert (v1 = v0) by congruence; subst v1; repeat split; cbn [tv_init];
    intros w1 p1 H1; rewrite Hi in H1; [injection H1 as <- <-; eauto|discriminate].
Qed.

Lemma F3_keep dn es : pw Rkeep es (fold_left F3 dn es).
Proof.
  apply (pw_fold (fun _ => Rkeep) F3 (fun es => es)); [apply Rkeep_refl|intros ? ?; apply Rkeep_trans|].
  clear es. intros es [t0 name]. cbn [F3]. destruct (nth_error es t0) as [v0|] eqn:E0; [|apply pw_refl, Rkeep_refl].
  destruct (tv_init v0) as [[w p]|] eqn:Hi; [|apply pw_refl, Rkeep_refl].
  apply pw_upd; [|intros; apply Rkeep_refl]. intros v1 E1. assert (v1 = v0) by congruence. subst v1.
  repeat split. cbn [tv_init]. intros w1 p1 H1. rewrite Hi in H1. injection H1 as <- <-. eauto.
Qed.

Lemma apply_writes_rel {tid ws rg dn nextw es es' nt nw} :
  apply_writes tid ws rg dn nextw es = (es', nt, nw) -> pw (Rapply tid ws) es es'.
Proof.
  intros H. destruct (apply_writes_folds H) as (es1&nw1&es2&E1&E2&E3).
  pose proof (F1_write tid ws (es, [], nextw)) as H1. rewrite E1 in H1.
  pose proof (F2_keep rg (es1, nw1)) as H2. rewrite E2 in H2.
  pose proof (F3_keep dn es2) as H3. rewrite E3 in H3. cbn [fst] in *.
  eapply pw_trans; [|exact H1|eapply pw_trans; [apply Rkeep_trans|exact H2|exact H3]].
  intros t a b c (I1&W1&N1) (I2&W2&N2). split; [|split].
  - intros x. rewrite I2. apply I1.
  - intros Hn. rewrite W2. apply W1, Hn.
  - intros w p Hw. destruct (N1 w p Hw) as [p' Hw']. apply (N2 w p' Hw').
Qed.

Definition clear_init (e : tver) : tver :=
  match tv_init e with
  | Some (w, []) => mkV (tv_ids e) (tv_watch e) None
  | _ => e
  end.

(* entry t of the merge of the private entries es of a transaction holding `locks` into the root cur *)
Definition merged (locks : list nat) (es cur : list tver) (t : nat) : option tver :=
  match nth_error cur t with
  | None => None
  | Some c => match nth_error es t with
              | Some e => if memb t locks then Some (clear_init e) else Some c
              | None => Some c
              end
  end.

Lemma merge_root_nth : forall cur locks es i p,
  nth_error (fst (merge_root locks es cur i)) p =
  match nth_error cur p with
  | None => None
  | Some c => match nth_error es p with
              | Some e => if memb (i + p) locks then Some (clear_init e) else Some c
              | None => Some c
              end
  end.
Proof.
  induction cur as [|c cr IH]; intros locks es i p; cbn [merge_root].
  - destruct p; reflexivity.
  - specialize (IH locks (tl es) (S i)).
    destruct (merge_root locks (tl es) cr (S i)) as [rest closing]. cbn [fst] in IH.
    destruct p as [|p].
    + rewrite Nat.add_0_r. cbn [nth_error].
      destruct es as [|e es']; [reflexivity|]. cbn [nth_error].
      destruct (memb i locks); [|reflexivity].
      unfold clear_init. destruct (tv_init e) as [[w [|n q]]|]; reflexivity.
    + rewrite Nat.add_succ_r. change (S (i + p)) with (S i + p).
      replace (nth_error (c :: cr) (S p)) with (nth_error cr p) by reflexivity.
      replace (nth_error es (S p)) with (nth_error (tl es) p) by (destruct es; [destruct p|]; reflexivity).
      rewrite <- IH. destruct es as [|e es']; [reflexivity|].
      destruct (memb i locks); [|reflexivity]. destruct (tv_init e) as [[w [|n q]]|]; reflexivity.
Qed.

Lemma merged_out locks es cur t : ~ In t locks -> merged locks es cur t = nth_error cur t.
Proof.
  intros H. apply memb_false in H. unfold merged. rewrite H.
  destruct (nth_error cur t); [|reflexivity]. destruct (nth_error es t); reflexivity.
Qed.

Lemma merged_in {locks es cur t c e} : In t locks -> nth_error cur t = Some c -> nth_error es t = Some e ->
  merged locks es cur t = Some (clear_init e).
Proof. intros H Hc He. apply memb_In in H. unfold merged. rewrite Hc, He, H. reflexivity. Qed.

(* an entry of the merged root comes from a held table's private entry or from the old root *)
Lemma merged_cases {locks es cur t v} : merged locks es cur t = Some v ->
  (In t locks /\ exists e, nth_error es t = Some e /\ v = clear_init e) \/ nth_error cur t = Some v.
Proof.
  unfold merged. destruct (nth_error cur t) as [c|]; [|discriminate].
  destruct (nth_error es t) as [e|]; [|auto]. destruct (memb t locks) eqn:Hm; [|auto].
  intros E. injection E as <-. left. split; [apply memb_In, Hm|eauto].
Qed.

Lemma clear_init_ids e : tv_ids (clear_init e) = tv_ids e.
Proof. unfold clear_init. destruct (tv_init e) as [[w [|n q]]|]; reflexivity. Qed.
Lemma clear_init_watch e : tv_watch (clear_init e) = tv_watch e.
Proof. unfold clear_init. destruct (tv_init e) as [[w [|n q]]|]; reflexivity. Qed.

Definition writes_of (a : actor) : list nat :=
  match a_kind a with KWriter _ ws _ _ _ => ws | KRegistrar => [] end.
Definition commits (a : actor) : bool :=
  match a_kind a with KWriter _ _ c _ _ => c | KRegistrar => false end.

(* the transaction's root store has happened *)
Definition committed (a : actor) : bool :=
  match a_pc a with
  | PRootStored | PRootUnlocked | PNotified | PTabsUnlocked | PInitClosed => true
  | PDone => commits a
  | _ => false
  end.

(* x is the tid of a committed transaction that wrote table t *)
Definition cset (acts : list actor) (t : nat) (x : N) : Prop :=
  exists j b, nth_error acts j = Some b /\ a_id b = x /\ committed b = true /\ In t (writes_of b).

(* relation between the private entries of a writer and the current root, for the tables it holds *)
Definition ents_ok (root : list tver) (a : actor) : Prop :=
  match a_pc a with
  | PRootLoaded => forall t, In t (a_locks a) -> nth_error (a_entries a) t = nth_error root t
  | PCommitIdx | PRootLocked | PCommitLoaded | PAbortBefore =>
    forall t, In t (a_locks a) ->
      exists v e, nth_error root t = Some v /\ nth_error (a_entries a) t = Some e /\
                  Rids (a_id a) (writes_of a) t v e
  | _ => True
  end.

Record VInv (s : st) : Prop := mkVInv {
  v_ids : forall t v, nth_error (s_root s) t = Some v -> forall x, In x (tv_ids v) <-> cset (s_actors s) t x;
  v_ents : forall j b, nth_error (s_actors s) j = Some b -> ents_ok (s_root s) b;
  v_nodup : NoDup (map a_id (s_actors s))
}.
Arguments v_ids {s}. Arguments v_ents {s}. Arguments v_nodup {s}.

(* committed is monotone along steps; it changes exactly at the root store *)
Lemma Step_committed {s i a a' s1} : Step s i a a' s1 -> pc_ok (a_kind a) (a_pc a) = true ->
  (committed a' = committed a /\ (a_pc a <> PCommitLoaded)) \/
  (a_pc a = PCommitLoaded /\ committed a = false /\ committed a' = true).
Proof.
  intros HS Hok. unfold committed, commits.
  destruct HS; step_simpl; rewrite Hpc, ?Hk in *; cbn [pc_ok negb] in Hok; try subst c; auto;
    (left; split; [|discriminate]); try reflexivity.
  - destruct (a_locks a); reflexivity.
  - destruct (Nat.ltb (S k) (length (a_locks a))); reflexivity.
  - destruct c; reflexivity.
  - destruct c; [discriminate|reflexivity].
Qed.

(* the committed ids after actor i moved: one more exactly if it has just committed *)
Lemma cset_upd acts i a a' t x : nth_error acts i = Some a ->
  a_id a' = a_id a -> a_kind a' = a_kind a -> (committed a = true -> committed a' = true) ->
  cset (upd i (fun _ => a') acts) t x <->
  cset acts t x \/ (committed a = false /\ committed a' = true /\ x = a_id a /\ In t (writes_of a)).
Proof.
  intros Ha Hid Hk Hc.
  assert (Hw : writes_of a' = writes_of a) by (unfold writes_of; rewrite Hk; reflexivity).
  unfold cset. split.
  - intros (j&b&Hb&Hx&Hcb&Hwb). rewrite nth_error_upd in Hb. destruct (Nat.eqb_spec i j) as [->|Hne]; [|left; exists j, b; auto].
    rewrite Ha in Hb. injection Hb as <-. rewrite Hid, Hw in *.
    destruct (committed a) eqn:Hca; [left; exists j, a|right]; auto.
  - intros [(j&b&Hb&Hx&Hcb&Hwb)|(_&Hc'&->&Hwa)].
    + destruct (Nat.eq_dec i j) as [->|Hne]; [|exists j, b; rewrite nth_error_upd_other by exact Hne; auto].
      rewrite Ha in Hb. injection Hb as <-. exists j, a'. rewrite nth_error_upd_same, Ha, Hid, Hw. auto.
    + exists i, a'. rewrite nth_error_upd_same, Ha, Hid, Hw. auto.
Qed.

Lemma writes_sub_locks ntab a t : actor_ok ntab a -> a_pc a <> PStart -> In t (writes_of a) -> In t (a_locks a).
Proof.
  intros Hok Hp Ht. pose proof (ok_wf Hok) as Hw. unfold writes_of in Ht.
  destruct (a_kind a) as [tabs ws c rg dn|] eqn:Hk; [|destruct Ht].
  rewrite (actor_ok_locks _ _ _ _ _ _ _ Hok Hk Hp). apply lock_order_same_set, Hw, Ht.
Qed.

Lemma writes_lt ntab a t : actor_ok ntab a -> In t (writes_of a) -> t < ntab.
Proof.
  intros [Hw _ _ _] Ht. unfold writes_of in Ht. destruct (a_kind a) as [tabs ws c rg dn|]; [|destruct Ht].
  destruct Hw as (Hlt&Hsub&_). apply Hlt. apply Hsub. exact Ht.
Qed.

(* every table a well-formed actor locks has an entry in the root *)
Lemma locked_in_root {ntab s a t} : Inv ntab s -> actor_ok ntab a -> In t (a_locks a) ->
  exists v, nth_error (s_root s) t = Some v.
Proof.
  intros HI Hok Ht. pose proof (actor_ok_lt _ _ _ Hok Ht). destruct (inv_len HI).
  destruct (nth_error (s_root s) t) eqn:E; [eauto|]. apply nth_error_None in E. lia.
Qed.

(* pcs at which ents_ok says something are pcs at which all locks are held *)
Lemma ents_ok_frame root root' a :
  (forall t, In t (held a) -> nth_error root' t = nth_error root t) -> ents_ok root a -> ents_ok root' a.
Proof.
  unfold ents_ok, held. intros H. destruct (a_pc a); auto; intros H0 t Ht; rewrite (H t Ht); auto.
Qed.

(* what a step does to the root: nothing, or a registration appends a fresh entry, or the store of a
   committing transaction replaces the entries of the tables it holds *)
Lemma Step_root {ntab s i a a' s1} : Inv ntab s -> nth_error (s_actors s) i = Some a ->
  Step s i a a' s1 ->
  (a_pc a <> PCommitLoaded /\ s_root s1 = s_root s) \/
  (a_kind a = KRegistrar /\ a_pc a = PRegLoaded /\ s_root s1 = s_root s ++ [mkV [] (s_nextw s) None]) \/
  (a_pc a = PCommitLoaded /\ commits a = true /\ length (s_root s1) = length (s_root s) /\
   forall t, nth_error (s_root s1) t = merged (a_locks a) (a_entries a) (s_root s) t).
Proof.
  intros HI Ha HS. pose proof (ok_pc (inv_ok HI _ _ Ha)) as Hok.
  destruct HS; step_simpl; try (left; split; [congruence|reflexivity]); auto.
  right; right. split; [assumption|]. split; [unfold commits; rewrite Hk, Hpc in *; exact Hok|].
  rewrite <- (merge_root_length (s_root s) (a_locks a) (a_entries a) 0), Hm. split; [reflexivity|].
  intros t. pose proof (merge_root_nth (s_root s) (a_locks a) (a_entries a) 0 t) as Hn. rewrite Hm in Hn. exact Hn.
Qed.

(* entries of tables held by OTHER actors are not touched by a step of actor i *)
Lemma Step_root_other ntab {s i a a' s1 j b t} : Inv ntab s -> nth_error (s_actors s) i = Some a ->
  Step s i a a' s1 -> j <> i -> nth_error (s_actors s) j = Some b -> In t (held b) ->
  nth_error (s_root s1) t = nth_error (s_root s) t.
Proof.
  intros HI Ha HS Hji Hb Ht.
  destruct (Step_root HI Ha HS) as [[_ ->]|[(_&_&->)|(Hp&_&_&->)]]; [reflexivity| |].
  - apply nth_error_app1.
    assert (t < ntab) by (eapply actor_ok_lt; [eapply inv_ok; eauto|apply held_sub; exact Ht]).
    destruct (inv_len HI). lia.
  - apply merged_out. intros Hm. apply Hji.
    apply (mutual_exclusion ntab HI Hb Ha Ht). unfold held. rewrite Hp. exact Hm.
Qed.

Lemma Step_ents_self ntab s i a a' s1 : Inv ntab s -> nth_error (s_actors s) i = Some a ->
  Step s i a a' s1 -> ents_ok (s_root s) a -> ents_ok (s_root s1) a'.
Proof.
  intros HI Ha HS He. pose proof (inv_ok HI _ _ Ha) as Hok. unfold ents_ok in *.
  destruct HS; step_simpl; rewrite Hpc in He; try exact I; auto.
  - destruct (a_locks a); exact I.
  - destruct (Nat.ltb (S k) (length (a_locks a))); exact I.
  - (* apply_writes *)
    assert (Hw : forall t, In t (a_locks a) -> exists v e, nth_error (s_root s) t = Some v /\
                   nth_error es t = Some e /\ Rids (a_id a) (writes_of a) t v e).
    { intros t Ht. destruct (locked_in_root HI Hok Ht) as [v Hv].
      pose proof (apply_writes_rel Haw t) as Hpw.
      rewrite (He t Ht), Hv in Hpw. destruct Hpw as [e [Hee [Hr _]]]. exists v, e.
      unfold writes_of. rewrite Hk. auto. }
    destruct c; exact Hw.
Qed.

(* the ids in the root after a step are those of the committed writers after it: the store of a committing
   transaction adds its id to the entries it wrote and to the committed set at once *)
Lemma Step_ids ntab s i a a' s1 : Inv ntab s -> VInv s -> nth_error (s_actors s) i = Some a -> Step s i a a' s1 ->
  forall t v, nth_error (s_root s1) t = Some v ->
  forall x, In x (tv_ids v) <-> cset (upd i (fun _ => a') (s_actors s)) t x.
Proof.
  intros HI HV Ha HS. pose proof (inv_ok HI _ _ Ha) as Hok. destruct (Step_same_id HS) as [Hid Hk].
  intros t v Hv x.
  destruct (Step_committed HS (ok_pc Hok)) as [[Hc Hnp]|(Hp&Hc&Hc')];
    rewrite (cset_upd _ _ a) by (assumption || congruence).
  - transitivity (cset (s_actors s) t x); [|rewrite Hc; intuition congruence].
    destruct (Step_root HI Ha HS) as [[_ Hr]|[(_&_&Hr)|(Hp&_)]]; [| |contradiction];
      rewrite Hr in Hv; [apply (v_ids HV), Hv|].
    apply nth_error_snoc in Hv. destruct Hv as [Hv|[-> ->]]; [apply (v_ids HV), Hv|].
    cbn [tv_ids In]. split; [tauto|]. intros (j&b&Hb&_&_&Hw). exfalso.
    assert (length (s_root s) < ntab) by (eapply writes_lt; [eapply inv_ok; eauto|exact Hw]).
    destruct (inv_len HI). lia.
  - destruct (Step_root HI Ha HS) as [[Hnp _]|[(_&Hp'&_)|(_&_&_&Hn)]]; [contradiction|congruence|].
    rewrite Hn in Hv. pose proof (v_ents HV i a Ha) as He. unfold ents_ok in He. rewrite Hp in He.
    destruct (merged_cases Hv) as [[Hm (e&He0&->)]|Hv0].
    + destruct (He t Hm) as (v0&e'&Hv0&He'&Hr). rewrite clear_init_ids.
      assert (e' = e) by congruence. subst e'. rewrite (Hr x), (v_ids HV t v0 Hv0 x). tauto.
    + rewrite (v_ids HV t v Hv0 x). split; [tauto|]. intros [H|(_&_&->&Hw)]; [exact H|].
      assert (Hm : In t (a_locks a)) by (eapply writes_sub_locks; [exact Hok|rewrite Hp; discriminate|exact Hw]).
      destruct (He t Hm) as (v0&e&Hv0'&He0&Hr). rewrite (merged_in Hm Hv0' He0) in Hv.
      injection Hv as <-. rewrite Hv0 in Hv0'. injection Hv0' as <-.
      rewrite <- (v_ids HV t _ Hv0 (a_id a)), clear_init_ids. apply Hr. auto.
Qed.

Lemma Step_VInv ntab s i a a' s1 : Inv ntab s -> VInv s -> nth_error (s_actors s) i = Some a ->
  Step s i a a' s1 -> VInv (post s i a' s1).
Proof.
  intros HI HV Ha HS. unfold post. constructor; cbn [s_root s_actors].
  - apply (Step_ids ntab s i a a' s1 HI HV Ha HS).
  - (* private entries *)
    intros j b. rewrite nth_error_upd. destruct (Nat.eqb_spec i j) as [->|Hne].
    + rewrite Ha. cbn [option_map]. intros Hb. injection Hb as <-.
      eapply Step_ents_self; eauto. apply (v_ents HV j a Ha).
    + intros Hb. apply (ents_ok_frame (s_root s)); [|apply (v_ents HV j b Hb)].
      intros t Ht. eapply (Step_root_other ntab HI Ha HS); eauto.
  - rewrite (map_upd_same a_id i (s_actors s) a a' Ha (proj1 (Step_same_id HS))). apply (v_nodup HV).
Qed.

Theorem VInv_step ntab s i : Inv ntab s -> VInv s -> VInv (step s i).
Proof.
  intros HI HV. destruct (step_cases ntab s i HI) as [->|(a&a'&s1&Ha&HS&->)]; [exact HV|].
  apply (Step_VInv ntab s i a); assumption.
Qed.

Theorem VInv_init ntab actors : NoDup (map fst actors) -> VInv (init_st ntab actors).
Proof.
  intros Hnd. constructor.
  - intros t v Hv x. apply nth_error_In, in_map_iff in Hv. destruct Hv as [n [<- _]].
    cbn [tv_ids In]. split; [tauto|]. intros (j&b&Hb&_&Hc&_).
    destruct (init_actor Hb) as [ik [_ ->]]. discriminate.
  - intros j b Hb. destruct (init_actor Hb) as [ik [_ ->]]. exact I.
  - cbn [init_st s_actors]. rewrite map_map. exact Hnd.
Qed.

(* well-formed systems: transaction ids are pairwise distinct *)
Definition wf_system (ntab : nat) (actors : list (N * kind)) : Prop :=
  wf_actors ntab actors /\ NoDup (map fst actors).

Lemma NoDup_map_nth {A B} (f : A -> B) (l : list A) i j a b : NoDup (map f l) ->
  nth_error l i = Some a -> nth_error l j = Some b -> f a = f b -> i = j.
Proof.
  intros Hnd Ha Hb E. rewrite NoDup_nth_error in Hnd. apply Hnd.
  - rewrite map_length. apply nth_error_Some. congruence.
  - rewrite (map_nth_error f _ _ Ha), (map_nth_error f _ _ Hb). congruence.
Qed.

Lemma committed_commits a : pc_ok (a_kind a) (a_pc a) = true -> committed a = true -> commits a = true.
Proof.
  unfold committed, commits, pc_ok. destruct (a_kind a) as [tabs ws c rg dn|]; destruct (a_pc a); congruence.
Qed.

(* exact visibility: the id of transaction i is in the committed entry of table t iff i wrote t and has
   executed its root store *)
Theorem visible_iff {s i a t v} : VInv s ->
  nth_error (s_actors s) i = Some a -> nth_error (s_root s) t = Some v ->
  (In (a_id a) (tv_ids v) <-> committed a = true /\ In t (writes_of a)).
Proof.
  intros HV Ha Hv. rewrite (v_ids HV t v Hv). split.
  - intros (j&b&Hb&Hid&Hc&Hw).
    assert (j = i) by (eapply (NoDup_map_nth a_id); [apply (v_nodup HV)|exact Hb|exact Ha|exact Hid]).
    subst j. rewrite Ha in Hb. injection Hb as <-. auto.
  - intros [Hc Hw]. exists i, a. auto.
Qed.

(* atomic visibility: in every reachable state either all or none of the written tables show the id *)
Theorem atomic_visibility ntab s i a : Inv ntab s -> VInv s -> nth_error (s_actors s) i = Some a ->
  (forall t, In t (writes_of a) -> exists v, nth_error (s_root s) t = Some v /\ In (a_id a) (tv_ids v)) \/
  (forall t v, nth_error (s_root s) t = Some v -> ~ In (a_id a) (tv_ids v)).
Proof.
  intros HI HV Ha. destruct (committed a) eqn:Hc.
  - left. intros t Hw.
    assert (Hlt : t < ntab) by (eapply writes_lt; [eapply inv_ok; eauto|exact Hw]).
    destruct (inv_len HI) as [Hl Hn].
    destruct (nth_error (s_root s) t) as [v|] eqn:Hv; [|apply nth_error_None in Hv; lia].
    exists v. split; [reflexivity|]. apply (visible_iff HV Ha Hv). auto.
  - right. intros t v Hv Hin. apply (visible_iff HV Ha Hv) in Hin. destruct Hin. congruence.
Qed.

(* what a micro-step can do to the committed root *)
Theorem root_step_cases ntab s i : Inv ntab s -> VInv s ->
  s_root (step s i) = s_root s \/
  (exists a, nth_error (s_actors s) i = Some a /\ a_kind a = KRegistrar /\ a_pc a = PRegLoaded /\
             s_root (step s i) = s_root s ++ [mkV [] (s_nextw s) None]) \/
  (exists a, nth_error (s_actors s) i = Some a /\ a_pc a = PCommitLoaded /\ commits a = true /\
     length (s_root (step s i)) = length (s_root s) /\
     (forall t, ~ In t (a_locks a) -> nth_error (s_root (step s i)) t = nth_error (s_root s) t) /\
     (forall t v, In t (a_locks a) -> nth_error (s_root s) t = Some v ->
        exists v', nth_error (s_root (step s i)) t = Some v' /\
                   forall x, In x (tv_ids v') <-> (x = a_id a /\ In t (writes_of a)) \/ In x (tv_ids v))).
Proof.
  intros HI HV. destruct (step_cases ntab s i HI) as [->|(a&a'&s1&Ha&HS&->)]; [auto|]. unfold post. cbn [s_root].
  destruct (Step_root HI Ha HS) as [[_ ->]|[(Hk&Hp&->)|(Hp&Hc&Hlen&Hn)]]; [auto| |].
  - right; left. exists a. auto.
  - right; right. exists a. repeat split; auto.
    + intros t Ht. rewrite Hn. apply merged_out, Ht.
    + intros t v Ht Hv. pose proof (v_ents HV i a Ha) as Hents. unfold ents_ok in Hents. rewrite Hp in Hents.
      destruct (Hents t Ht) as (v0&e&Hv0&He0&Hr). rewrite Hv in Hv0. injection Hv0 as <-.
      exists (clear_init e). rewrite Hn, clear_init_ids. split; [apply (merged_in Ht Hv He0)|exact Hr].
Qed.

Lemma ids_step ntab s i t v : Inv ntab s -> VInv s -> nth_error (s_root s) t = Some v ->
  exists v', nth_error (s_root (step s i)) t = Some v' /\ incl (tv_ids v) (tv_ids v').
Proof.
  intros HI HV Hv.
  destruct (root_step_cases ntab s i HI HV) as [->|[(a&_&_&_&->)|(a&Ha&Hp&Hc&Hlen&Hout&Hin)]].
  - exists v. split; [exact Hv|apply incl_refl].
  - exists v. split; [apply nth_error_app_Some, Hv|apply incl_refl].
  - destruct (in_dec Nat.eq_dec t (a_locks a)) as [Ht|Ht].
    + destruct (Hin t v Ht Hv) as [v' [Hv' Hx]]. exists v'. split; [exact Hv'|].
      intros x Hxin. apply Hx. right. exact Hxin.
    + exists v. rewrite (Hout t Ht). split; [exact Hv|apply incl_refl].
Qed.

(* no lost write: an id visible in the root of table t stays visible in every later root *)
Theorem no_lost_write ntab sched : forall s t v x, Inv ntab s -> VInv s ->
  nth_error (s_root s) t = Some v -> In x (tv_ids v) ->
  exists v', nth_error (s_root (run s sched)) t = Some v' /\ In x (tv_ids v').
Proof.
  unfold run. induction sched as [|i r IH]; intros s t v x HI HV Hv Hx; cbn [fold_left]; [eauto|].
  destruct (ids_step ntab s i t v HI HV Hv) as [v1 [Hv1 Hincl]].
  apply (IH (step s i) t v1 x); [apply Inv_step; exact HI|apply (VInv_step ntab); assumption|exact Hv1|].
  apply Hincl. exact Hx.
Qed.

(* the root never shrinks *)
Lemma root_grows ntab s i : Inv ntab s -> length (s_root s) <= length (s_root (step s i)).
Proof.
  intros HI. destruct (step_cases ntab s i HI) as [->|(a&a'&s1&Ha&HS&->)]; [lia|]. unfold post. cbn [s_root].
  destruct (Step_root HI Ha HS) as [[_ ->]|[(_&_&->)|(_&_&->&_)]]; [lia| |lia]. rewrite app_length. cbn [length]. lia.
Qed.

Theorem root_length_mono ntab s i : Inv ntab s -> VInv s -> length (s_root s) <= length (s_root (step s i)).
Proof. intros HI _. apply (root_grows ntab), HI. Qed.

(* Abort leaves no trace: no step of a non-committing actor (aborting writer or registrar) closes a channel,
   no step of an aborting writer changes the committed root, and its id is in no committed entry *)
Theorem abort_no_trace ntab s i a : Inv ntab s -> VInv s -> nth_error (s_actors s) i = Some a -> commits a = false ->
  s_closed (step s i) = s_closed s /\ (a_kind a <> KRegistrar -> s_root (step s i) = s_root s) /\
  (forall t v, nth_error (s_root s) t = Some v -> ~ In (a_id a) (tv_ids v)).
Proof.
  intros HI HV Ha Hc. pose proof (ok_pc (inv_ok HI _ _ Ha)) as Hok. rewrite <- and_assoc. split.
  - destruct (step_cases ntab s i HI) as [->|(a0&a'&s1&Ha0&HS&->)]; [auto|]. unfold post. cbn [s_root s_closed].
    rewrite Ha in Ha0. injection Ha0 as <-. unfold commits in Hc.
    destruct HS; rewrite Hk, Hpc in *; cbn [pc_ok negb] in Hok; try subst c; try discriminate;
      split; try reflexivity; congruence.
  - intros t v Hv Hin. apply (visible_iff HV Ha Hv) in Hin. destruct Hin as [Hcm _].
    apply committed_commits in Hcm; congruence.
Qed.

(* while an actor holds table t, no step of another actor changes the committed entry of t *)
Theorem held_entry_stable ntab s i j b t : Inv ntab s -> j <> i ->
  nth_error (s_actors s) j = Some b -> In t (held b) ->
  nth_error (s_root (step s i)) t = nth_error (s_root s) t.
Proof.
  intros HI Hji Hb Ht. destruct (step_cases ntab s i HI) as [->|(a&a'&s1&Ha&HS&->)]; [reflexivity|].
  eapply (Step_root_other ntab HI Ha HS); eassumption.
Qed.

(* the cloned entry is the latest committed one: between its root load and its root store (or abort), the
   private entry of every table a writer holds is the CURRENT committed entry (before its own writes), resp.
   the current committed id set plus its own id (after them) *)
Theorem clone_is_latest {s i a t} : VInv s -> nth_error (s_actors s) i = Some a ->
  In t (a_locks a) ->
  (a_pc a = PRootLoaded -> nth_error (a_entries a) t = nth_error (s_root s) t) /\
  (a_pc a = PCommitIdx \/ a_pc a = PRootLocked \/ a_pc a = PCommitLoaded \/ a_pc a = PAbortBefore ->
   exists v e, nth_error (s_root s) t = Some v /\ nth_error (a_entries a) t = Some e /\
               forall x, In x (tv_ids e) <-> (x = a_id a /\ In t (writes_of a)) \/ In x (tv_ids v)).
Proof.
  intros HV Ha Ht. pose proof (v_ents HV i a Ha) as He. unfold ents_ok in He. split.
  - intros Hp. rewrite Hp in He. auto.
  - intros [Hp|[Hp|[Hp|Hp]]]; rewrite Hp in He; apply (He t Ht).
Qed.

(* ... hence it contains every write committed to that table so far *)
Theorem sees_all_committed ntab s i a j b t : Inv ntab s -> VInv s ->
  nth_error (s_actors s) i = Some a -> In t (a_locks a) ->
  a_pc a = PRootLoaded \/ a_pc a = PCommitIdx \/ a_pc a = PRootLocked \/ a_pc a = PCommitLoaded \/ a_pc a = PAbortBefore ->
  nth_error (s_actors s) j = Some b -> committed b = true -> In t (writes_of b) ->
  exists e, nth_error (a_entries a) t = Some e /\ In (a_id b) (tv_ids e).
Proof.
  intros HI HV Ha Ht Hp Hb Hc Hw.
  destruct (locked_in_root HI (inv_ok HI _ _ Ha) Ht) as [v Hv].
  assert (Hin : In (a_id b) (tv_ids v)) by (apply (visible_iff HV Hb Hv); auto).
  destruct (clone_is_latest HV Ha Ht) as [H1 H2].
  destruct Hp as [Hp|Hp].
  - exists v. rewrite (H1 Hp). auto.
  - destruct (H2 Hp) as (v0&e&Hv0&He&Hx). rewrite Hv in Hv0. injection Hv0 as <-.
    exists e. split; [exact He|]. apply Hx. right. exact Hin.
Qed.
