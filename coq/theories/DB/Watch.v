(* DB/Watch.v — the watch-channel invariant of the commit protocol: channels handed out by the committed
   root are pairwise distinct and open; the channels a committing transaction is going to close
   (a_notify, a_initclose) are no longer handed out by the root once its root store has happened; the
   private entries of transactions that have not yet stored carry channels that are either fresh or
   inherited from the tables they hold. Stated over an abstraction ("views") of the actor list. *)
From Coq Require Import Arith PeanoNat.
From SV Require Import DB.Model DB.Proofs DB.Invariants DB.Visibility DB.Channels.
Open Scope nat_scope.

(* a committing transaction between apply_writes and its root store *)
Definition pending (a : actor) : bool := match a_pc a with PCommitIdx | PRootLocked | PCommitLoaded => true | _ => false end.

Record pv := mkPV { p_locks : list nat; p_writes : list nat; p_ents : list tver; p_nt : list N }.

Definition pview (a : actor) : option pv :=
  if pending a then Some (mkPV (a_locks a) (writes_of a) (a_entries a) (a_notify a)) else None.

(* channels the transaction still has to close, after its root store *)
Definition retired (a : actor) : list N :=
  match a_pc a with
  | PRootStored | PRootUnlocked => a_notify a ++ a_initclose a
  | PNotified | PTabsUnlocked => a_initclose a
  | _ => []
  end.

Definition view : Type := option pv * list N.
Definition wview (a : actor) : view := (pview a, retired a).

(* pch p w: a private entry of a table p holds carries w; rch root w: the root hands out w; pall p w: w is carried by
   a private entry of p or queued by p for notification *)
Definition pch (p : pv) (w : N) : Prop :=
  exists t e, In t (p_locks p) /\ nth_error (p_ents p) t = Some e /\ In w (chans e).
Definition rch (root : list tver) (w : N) : Prop :=
  exists t v, nth_error root t = Some v /\ In w (chans v).
Definition pall (p : pv) (w : N) : Prop := pch p w \/ In w (p_nt p).

(* a pending view p against the root, the closed channels and all views:
   po_inj  the channels of its private entries are pairwise distinct (on the tables it holds);
   po_own  a channel of p that the root still hands out is handed out for a table p holds (it was inherited from there);
   po_nt   what it queued for notification no private entry carries any more;
   po_open / po_ret  the channels of its private entries are neither closed nor retired by anybody;
   po_rel  the private entry of a held table against the root's: same watch channel unless p writes the table, and a
           pending initialization keeps its init watch *)
Record pend_ok (root : list tver) (closed : list N) (vs : list view) (p : pv) : Prop := mkPO {
  po_inj : chinj (fun t => In t (p_locks p)) (p_ents p);
  po_own : forall w, pall p w -> forall t v, nth_error root t = Some v -> In w (chans v) -> In t (p_locks p);
  po_nt : forall w, In w (p_nt p) -> ~ pch p w;
  po_open : forall w, pch p w -> ~ In w closed;
  po_ret : forall k q ret, nth_error vs k = Some (q, ret) -> forall w, In w ret -> ~ pch p w;
  po_rel : forall t, In t (p_locks p) ->
             exists v e, nth_error root t = Some v /\ nth_error (p_ents p) t = Some e /\
                         (~ In t (p_writes p) -> tv_watch e = tv_watch v) /\ Rinit t v e
}.
Arguments po_inj {root closed vs p}. Arguments po_own {root closed vs p}. Arguments po_nt {root closed vs p}.
Arguments po_open {root closed vs p}. Arguments po_ret {root closed vs p}. Arguments po_rel {root closed vs p}.

(* wi_broot .. wi_bret  every channel in use (root, closed, pending views, retired) is below the counter, so a fresh
                       one collides with nothing;
   wi_inj   the root's channels are pairwise distinct;
   wi_open / wi_ret  the root hands out no closed channel, and none that a transaction that has stored still has to close;
   wi_pend  every pending view is pend_ok;
   wi_pair  two pending views share no channel and no table *)
Record WI (root : list tver) (closed : list N) (nextw : N) (vs : list view) : Prop := mkWI {
  wi_broot : forall w, rch root w -> (w < nextw)%N;
  wi_bclosed : forall w, In w closed -> (w < nextw)%N;
  wi_bpend : forall j p ret, nth_error vs j = Some (Some p, ret) -> forall w, pall p w -> (w < nextw)%N;
  wi_bret : forall j q ret, nth_error vs j = Some (q, ret) -> forall w, In w ret -> (w < nextw)%N;
  wi_inj : chinj (fun _ => True) root;
  wi_open : forall w, In w closed -> ~ rch root w;
  wi_ret : forall j q ret, nth_error vs j = Some (q, ret) -> forall w, In w ret -> ~ rch root w;
  wi_pend : forall j p ret, nth_error vs j = Some (Some p, ret) -> pend_ok root closed vs p;
  wi_pair : forall j k p q r1 r2, j <> k ->
              nth_error vs j = Some (Some p, r1) -> nth_error vs k = Some (Some q, r2) ->
              (forall w, pch p w -> ~ pall q w) /\ (forall t, In t (p_locks p) -> ~ In t (p_locks q))
}.
Arguments wi_broot {root closed nextw vs}. Arguments wi_bclosed {root closed nextw vs}. Arguments wi_bpend {root closed nextw vs}.
Arguments wi_bret {root closed nextw vs}. Arguments wi_inj {root closed nextw vs}. Arguments wi_open {root closed nextw vs}.
Arguments wi_ret {root closed nextw vs}. Arguments wi_pend {root closed nextw vs}. Arguments wi_pair {root closed nextw vs}.

Definition WInv (s : st) : Prop := WI (s_root s) (s_closed s) (s_nextw s) (map wview (s_actors s)).

Lemma upd_none_pending (vs : list view) i r0 j p r : nth_error (upd i (fun _ => (None, r0)) vs) j = Some (Some p, r) ->
  j <> i /\ nth_error vs j = Some (Some p, r).
Proof. intros H. destruct (upd_cases H) as [[_ E]|H']; [discriminate|exact H']. Qed.

Lemma WI_nextw root closed nw nw' vs : WI root closed nw vs -> (nw <= nw')%N -> WI root closed nw' vs.
Proof.
  intros [H1 H2 H3 H4 H5 H6 H7 H8 H9] Hle. constructor; auto.
  - intros w Hw. specialize (H1 w Hw). lia.
  - intros w Hw. specialize (H2 w Hw). lia.
  - intros j p ret Hj w Hw. specialize (H3 j p ret Hj w Hw). lia.
  - intros j q ret Hj w Hw. specialize (H4 j q ret Hj w Hw). lia.
Qed.

Lemma WI_close root closed nw vs i ret cl ret' :
  WI root closed nw vs -> nth_error vs i = Some (None, ret) -> incl cl ret -> incl ret' ret ->
  WI root (cl ++ closed) nw (upd i (fun _ => (None, ret')) vs).
Proof.
  intros [H1 H2 H3 H4 H5 H6 H7 H8 H9] Hi Hcl Hret'.
  (* what is retired after the step was retired before it *)
  assert (Hret : forall j q r, nth_error (upd i (fun _ => (None, ret')) vs) j = Some (q, r) ->
            exists q0 r0, nth_error vs j = Some (q0, r0) /\ incl r r0).
  { intros j q r Hj. destruct (upd_cases Hj) as [[-> E]|[Hne Hj']]; [injection E as -> ->|]; eauto using incl_refl. }
  constructor; auto.
  - intros w Hw. apply in_app_or in Hw. destruct Hw as [Hw|Hw]; [|auto]. apply (H4 i None ret Hi w). auto.
  - intros j p r Hj. apply upd_none_pending in Hj. apply (H3 j p r), Hj.
  - intros j q r Hj w Hw. destruct (Hret j q r Hj) as (q0&r0&Hj0&Hin). apply (H4 j q0 r0 Hj0 w). auto.
  - intros w Hw. apply in_app_or in Hw. destruct Hw as [Hw|Hw]; [|auto]. apply (H7 i None ret Hi w). auto.
  - intros j q r Hj w Hw. destruct (Hret j q r Hj) as (q0&r0&Hj0&Hin). apply (H7 j q0 r0 Hj0 w). auto.
  - intros j p r Hj. apply upd_none_pending in Hj. destruct (H8 j p r (proj2 Hj)) as [P1 P2 P3 P4 P5 P6]. constructor; auto.
    + intros w Hw Hin. apply in_app_or in Hin. destruct Hin as [Hin|Hin]; [|apply (P4 w Hw Hin)].
      apply (P5 i None ret Hi w (Hcl w Hin) Hw).
    + intros k q r0 Hk w Hw. destruct (Hret k q r0 Hk) as (q0&r1&Hk0&Hin). apply (P5 k q0 r1 Hk0 w). auto.
  - intros j k p q r1 r2 Hjk Hj Hk. apply upd_none_pending in Hj, Hk. apply (H9 j k p q r1 r2 Hjk); tauto.
Qed.

Lemma rch_app root v w : rch (root ++ [v]) w <-> rch root w \/ In w (chans v).
Proof.
  unfold rch. split.
  - intros (t&v1&Hv&Hw). apply nth_error_snoc in Hv. destruct Hv as [Hv|[_ ->]]; eauto.
  - intros [(t&v1&Hv&Hw)|Hw].
    + exists t, v1. split; [apply nth_error_app_Some, Hv|exact Hw].
    + exists (length root), v. split; [|exact Hw]. rewrite nth_error_app2 by lia. rewrite Nat.sub_diag. reflexivity.
Qed.

Lemma WI_reg root closed nw vs :
  WI root closed nw vs -> WI (root ++ [mkV [] nw None]) closed (nw + 1)%N vs.
Proof.
  intros HW. pose proof (WI_nextw _ _ _ (nw + 1)%N _ HW ltac:(lia)) as [H1 H2 H3 H4 _ _ _ _ _].
  destruct HW as [B1 B2 B3 B4 [I1 I2] H6 H7 H8 H9].
  assert (Hch : forall w, In w (chans (mkV [] nw None)) -> w = nw).
  { unfold chans, initw. cbn [tv_watch tv_init]. intros w [<-|[]]. reflexivity. }
  constructor; auto.
  - intros w Hw. apply rch_app in Hw. destruct Hw as [Hw|Hw]; [auto|]. apply Hch in Hw. lia.
  - split.
    + intros t1 t2 v1 v2 w _ _ Hv1 Hv2 Hw1 Hw2.
      destruct (nth_error_snoc Hv1) as [E1|[L1 ->]];
        destruct (nth_error_snoc Hv2) as [E2|[L2 ->]].
      * apply (I1 t1 t2 v1 v2 w I I E1 E2 Hw1 Hw2).
      * apply Hch in Hw2. subst w. assert (nw < nw)%N by (apply B1; exists t1, v1; auto). lia.
      * apply Hch in Hw1. subst w. assert (nw < nw)%N by (apply B1; exists t2, v2; auto). lia.
      * lia.
    + intros t v _ Hv. destruct (nth_error_snoc Hv) as [E1|[L1 ->]]; [apply (I2 t v I E1)|].
      unfold chans, initw. cbn [tv_watch tv_init]. repeat constructor. intros [].
  - intros w Hw Hr. apply rch_app in Hr. destruct Hr as [Hr|Hr]; [apply (H6 w Hw Hr)|].
    apply Hch in Hr. subst w. specialize (B2 nw Hw). lia.
  - intros j q ret Hj w Hw Hr. apply rch_app in Hr. destruct Hr as [Hr|Hr]; [apply (H7 j q ret Hj w Hw Hr)|].
    apply Hch in Hr. subst w. specialize (B4 j q ret Hj nw Hw). lia.
  - intros j p ret Hj. destruct (H8 j p ret Hj) as [P1 P2 P3 P4 P5 P6]. constructor; auto.
    + intros w Hw t v Hv Hc. destruct (nth_error_snoc Hv) as [E1|[L1 ->]]; [apply (P2 w Hw t v E1 Hc)|].
      apply Hch in Hc. subst w. specialize (B3 j p ret Hj nw Hw). lia.
    + intros t Ht. destruct (P6 t Ht) as (v&e&Hv&He&Hr). exists v, e. split; [|auto].
      apply nth_error_app_Some, Hv.
Qed.

(* The root store of the pending transaction i: r is the merge of its private entries into the root; it retires the
   channels it queued (p_nt) and the init watches `closing` of the held entries whose initialization is complete. *)
Section Store.
Variables (root : list tver) (closed : list N) (nw : N) (vs : list view) (i : nat) (p : pv) (ret0 : list N)
          (r : list tver) (closing : list N).
Hypotheses (HW : WI root closed nw vs) (Hi : nth_error vs i = Some (Some p, ret0))
  (Hr : forall t, nth_error r t = merged (p_locks p) (p_ents p) root t)
  (Hclosing : forall w, In w closing ->
     exists t e, In t (p_locks p) /\ nth_error (p_ents p) t = Some e /\ tv_init e = Some (w, [])).

(* an entry of the new root is the cleared private entry of a held table, or the old entry of another table *)
Lemma stored_entry t v : nth_error r t = Some v ->
  (In t (p_locks p) /\ exists e, nth_error (p_ents p) t = Some e /\ v = clear_init e) \/
  (~ In t (p_locks p) /\ nth_error root t = Some v).
Proof.
  intros Hv. rewrite Hr in Hv. destruct (in_dec Nat.eq_dec t (p_locks p)) as [Ht|Ht].
  - left. split; [exact Ht|]. destruct (po_rel (wi_pend HW i p ret0 Hi) t Ht) as (v0&e&Hv0&He&_).
    rewrite (merged_in Ht Hv0 He) in Hv. injection Hv as <-. eauto.
  - right. split; [exact Ht|]. rewrite merged_out in Hv by exact Ht. exact Hv.
Qed.

(* so a channel of the new root is one of p's private entries, or of the old entry of a table p does not hold *)
Lemma stored_rch w : rch r w ->
  pch p w \/ exists t v, ~ In t (p_locks p) /\ nth_error root t = Some v /\ In w (chans v).
Proof.
  intros (t&v&Hv&Hw). destruct (stored_entry t v Hv) as [[Ht (e&He&->)]|[Ht Hv']]; [left|right; eauto].
  exists t, e. auto using chans_clear_init.
Qed.

Lemma stored_not_rch w : ~ rch root w -> ~ pch p w -> ~ rch r w.
Proof. intros H1 H2 Hw. destruct (stored_rch w Hw) as [Hp|(t&v&_&Hv&Hc)]; [auto|]. apply H1. exists t, v. auto. Qed.

(* what i retires were channels of its pending view *)
Lemma retired_pall w : In w (p_nt p ++ closing) -> pall p w.
Proof.
  intros Hw. apply in_app_or in Hw. destruct Hw as [Hw|Hw]; [right; exact Hw|left].
  destruct (Hclosing w Hw) as (t&e&Ht&He&Hin). exists t, e. split; [exact Ht|]. split; [exact He|].
  unfold chans, initw. rewrite Hin. right. left. reflexivity.
Qed.

Lemma stored_inj : chinj (fun _ => True) r.
Proof.
  destruct (wi_inj HW) as [I1 I2]. destruct (wi_pend HW i p ret0 Hi) as [[Pinj Pnd] P2 _ _ _ _]. split.
  - intros t1 t2 v1 v2 w _ _ Hv1 Hv2 Hw1 Hw2.
    destruct (stored_entry t1 v1 Hv1) as [[Ht1 (e1&He1&->)]|[Ht1 Hv1']];
      destruct (stored_entry t2 v2 Hv2) as [[Ht2 (e2&He2&->)]|[Ht2 Hv2']].
    + apply (Pinj t1 t2 e1 e2 w Ht1 Ht2 He1 He2); apply chans_clear_init; assumption.
    + elim Ht2. apply (P2 w) with (v := v2); auto. left. exists t1, e1. auto using chans_clear_init.
    + elim Ht1. apply (P2 w) with (v := v1); auto. left. exists t2, e2. auto using chans_clear_init.
    + apply (I1 t1 t2 v1 v2 w I I Hv1' Hv2' Hw1 Hw2).
  - intros t v _ Hv. destruct (stored_entry t v Hv) as [[Ht (e&He&->)]|[Ht Hv']].
    + apply NoDup_chans_clear_init. apply (Pnd t e Ht He).
    + apply (I2 t v I Hv').
Qed.

(* the new root hands out nothing that i retires: the queued channels were replaced when their tables were
   written, and an init watch goes when its entry is cleared *)
Lemma retired_not_stored w : In w (p_nt p ++ closing) -> ~ rch r w.
Proof.
  destruct (wi_pend HW i p ret0 Hi) as [[Pinj Pnd] P2 P3 _ _ _].
  intros Hw (t2&v2&Hv2&Hw2).
  destruct (stored_entry t2 v2 Hv2) as [[Ht2 (e2&He2&->)]|[Ht2 Hv2']];
    [|apply Ht2, (P2 w) with (v := v2); auto using retired_pall].
  apply in_app_or in Hw. destruct Hw as [Hw|Hw]; [apply (P3 w Hw); exists t2, e2; auto using chans_clear_init|].
  destruct (Hclosing w Hw) as (t&e&Ht&He&Hin).
  assert (Hwe : In w (chans e)) by (unfold chans, initw; rewrite Hin; right; left; reflexivity).
  assert (t2 = t) by (apply (Pinj t2 t e2 e w Ht2 Ht He2 He); [apply chans_clear_init; exact Hw2|exact Hwe]).
  subst t2. assert (e2 = e) by congruence. subst e2.
  apply (clear_init_drops e w Hin (Pnd t e Ht He) Hw2).
Qed.

Lemma store_other j q ret : j <> i -> nth_error vs j = Some (Some q, ret) ->
  pend_ok r closed (upd i (fun _ => (None, p_nt p ++ closing)) vs) q.
Proof.
  intros Hne Hj. destruct (wi_pend HW j q ret Hj) as [Q1 Q2 Q3 Q4 Q5 Q6].
  destruct (wi_pair HW j i q p ret ret0 Hne Hj Hi) as [Hji Hdis].
  constructor; auto.
  - intros w Hw t v Hv Hc. destruct (stored_entry t v Hv) as [[Ht (e&He&->)]|[Ht Hv']]; [|apply (Q2 w Hw t v Hv' Hc)].
    exfalso. apply (proj1 (wi_pair HW i j p q ret0 ret (not_eq_sym Hne) Hi Hj) w); [|exact Hw].
    exists t, e. auto using chans_clear_init.
  - intros k q0 r0 Hk w Hw Hp. destruct (upd_cases Hk) as [[-> E]|[Hnk Hk']]; [|apply (Q5 k q0 r0 Hk' w Hw Hp)].
    injection E as -> ->. apply (Hji w Hp), retired_pall, Hw.
  - intros t Ht. destruct (Q6 t Ht) as (v&e&Hv&He&Hrel). exists v, e. split; [|auto].
    rewrite Hr, merged_out; [exact Hv|]. intros Hin. apply (Hdis t Ht Hin).
Qed.

Lemma WI_store : WI r closed nw (upd i (fun _ => (None, p_nt p ++ closing)) vs).
Proof.
  pose proof (wi_pend HW i p ret0 Hi) as Pi. constructor.
  - intros w Hw. destruct (stored_rch w Hw) as [Hp|(t&v&_&Hv&Hc)]; [|apply (wi_broot HW); exists t, v; auto].
    apply (wi_bpend HW i p ret0 Hi w). left. exact Hp.
  - apply (wi_bclosed HW).
  - intros j q ret Hj. apply upd_none_pending in Hj. apply (wi_bpend HW j q ret), Hj.
  - intros j q ret Hj w Hw. destruct (upd_cases Hj) as [[-> E]|[Hne Hj']]; [|apply (wi_bret HW j q ret Hj' w Hw)].
    injection E as -> ->. apply (wi_bpend HW i p ret0 Hi w), retired_pall, Hw.
  - apply stored_inj.
  - intros w Hw. apply stored_not_rch; [apply (wi_open HW w Hw)|]. intros Hp. apply (po_open Pi w Hp Hw).
  - intros j q ret Hj w Hw. destruct (upd_cases Hj) as [[-> E]|[Hne Hj']].
    + injection E as -> ->. apply retired_not_stored, Hw.
    + apply stored_not_rch; [apply (wi_ret HW j q ret Hj' w Hw)|apply (po_ret Pi j q ret Hj' w Hw)].
  - intros j q ret Hj. apply upd_none_pending in Hj. apply (store_other j q ret); tauto.
  - intros j k q1 q2 r1 r2 Hjk Hj Hk. apply upd_none_pending in Hj, Hk. apply (wi_pair HW j k q1 q2 r1 r2 Hjk); tauto.
Qed.
End Store.

(* apply_writes of a committing transaction i, which holds `locks` and has cloned es0 from the root: its view
   becomes pending, with the entries es' and the queue nt' that apply_writes returns. *)
Section Write.
Variables (root : list tver) (closed : list N) (nw : N) (vs : list view) (i : nat) (ret0 : list N)
          (locks : list nat) (tid : N) (ws : list nat) (es0 es' : list tver) (nt' : list N) (nw1 : N).
Hypotheses (HW : WI root closed nw vs) (Hi : nth_error vs i = Some (None, ret0))
  (HG : G (fun t => In t locks) es0 nw es' nt' nw1)
  (Heq : forall t, In t locks -> exists v, nth_error root t = Some v /\ nth_error es0 t = Some v)
  (Hkept : pw (Rapply tid ws) es0 es')
  (Hdisj : forall k q r, k <> i -> nth_error vs k = Some (Some q, r) -> forall t, In t locks -> ~ In t (p_locks q)).

(* the idea of the whole invariant: a channel of the new pending view that is below the old counter was inherited from
   the root entry of a table the writer holds; by mutual exclusion no other pending view has it, and it is neither
   closed nor retired since the root still hands it out *)
Lemma written_src w : pall (mkPV locks ws es' nt') w -> (w < nw)%N ->
  exists t v, In t locks /\ nth_error root t = Some v /\ In w (chans v).
Proof.
  assert (Hroot : forall t v0, In t locks -> nth_error es0 t = Some v0 -> In w (chans v0) ->
            exists t v, In t locks /\ nth_error root t = Some v /\ In w (chans v)).
  { intros t v0 Ht Hv0 Hw0. destruct (Heq t Ht) as (v&Hv&Hv'). exists t, v. split; [exact Ht|]. split; [exact Hv|]. congruence. }
  intros [(t&e&Ht&He&Hw)|Hw] Hlt; cbn [p_locks p_ents p_nt] in *.
  - destruct (g_src HG t e w Ht He Hw) as [Hf|(v0&Hv0&Hw0)]; [lia|eauto].
  - destruct (g_nt HG w Hw) as [[Hf|(t&v0&Ht&Hv0&Hw0)] _]; [lia|eauto].
Qed.

(* hence it is none that is closed, retired, or known to another pending view *)
Lemma written_not_rch w : pall (mkPV locks ws es' nt') w -> (w < nw)%N -> ~ rch root w -> False.
Proof. intros Hp Hlt Hn. destruct (written_src w Hp Hlt) as (t&v&_&Hv&Hw). apply Hn. exists t, v. auto. Qed.

Lemma written_pair k q r w : k <> i -> nth_error vs k = Some (Some q, r) ->
  pall (mkPV locks ws es' nt') w -> ~ pall q w.
Proof.
  intros Hnk Hk Hp Hq. destruct (written_src w Hp (wi_bpend HW k q r Hk w Hq)) as (t0&v0&Ht0&Hv0&Hw0).
  apply (Hdisj k q r Hnk Hk t0 Ht0). apply (po_own (wi_pend HW k q r Hk) w Hq t0 v0 Hv0 Hw0).
Qed.

(* the other views are unchanged, and so is what i has retired *)
Lemma written_views k q r : nth_error (upd i (fun _ => (Some (mkPV locks ws es' nt'), ret0)) vs) k = Some (q, r) ->
  exists q0, nth_error vs k = Some (q0, r).
Proof. intros Hk. destruct (upd_cases Hk) as [[-> E]|[Hnk Hk']]; [injection E as _ ->|]; eauto. Qed.

Lemma written_pend_ok :
  pend_ok root closed (upd i (fun _ => (Some (mkPV locks ws es' nt'), ret0)) vs) (mkPV locks ws es' nt').
Proof.
  destruct (wi_inj HW) as [I1 _]. constructor; cbn [p_locks p_ents p_nt p_writes].
  - apply (g_inj HG).
  - intros w Hw t v Hv Hc. destruct (written_src w Hw) as (t0&v0&Ht0&Hv0&Hw0); [apply (wi_broot HW); exists t, v; auto|].
    assert (t = t0) by (apply (I1 t t0 v v0 w I I Hv Hv0 Hc Hw0)). subst t. exact Ht0.
  - intros w Hw (t&e&Ht&He&Hc). apply (proj2 (g_nt HG w Hw) t e Ht He Hc).
  - intros w Hw Hc. apply (written_not_rch w (or_introl Hw) (wi_bclosed HW w Hc)), (wi_open HW w Hc).
  - intros k q r Hk w Hw Hp. destruct (written_views k q r Hk) as [q0 Hk0].
    apply (written_not_rch w (or_introl Hp) (wi_bret HW k q0 r Hk0 w Hw)), (wi_ret HW k q0 r Hk0 w Hw).
  - intros t Ht. destruct (Heq t Ht) as (v&Hv&Hv'). specialize (Hkept t). rewrite Hv' in Hkept.
    destruct Hkept as (e&He&_&Hr1&Hr2). exists v, e. auto.
Qed.

Lemma WI_write : WI root closed nw1 (upd i (fun _ => (Some (mkPV locks ws es' nt'), ret0)) vs).
Proof.
  pose proof (WI_nextw _ _ _ nw1 _ HW (g_le HG)) as [M1 M2 M3 M4 _ _ _ _ _]. constructor; auto.
  - intros j q ret Hj w Hw. destruct (upd_cases Hj) as [[-> E]|[Hne Hj']]; [|eapply M3; eauto].
    injection E as -> ->. destruct Hw as [(t&e&Ht&He&Hw)|Hw]; cbn [p_locks p_ents p_nt] in *.
    + apply (g_bound HG t e w Ht He Hw).
    + apply (g_ntbound HG w Hw).
  - intros j q ret Hj. destruct (written_views j q ret Hj) as [q0 Hj0]. apply (M4 j q0 ret Hj0).
  - apply (wi_inj HW).
  - apply (wi_open HW).
  - intros j q ret Hj. destruct (written_views j q ret Hj) as [q0 Hj0]. apply (wi_ret HW j q0 ret Hj0).
  - intros j q ret Hj. destruct (upd_cases Hj) as [[-> E]|[Hne Hj']]; [injection E as -> ->; apply written_pend_ok|].
    destruct (wi_pend HW j q ret Hj') as [Q1 Q2 Q3 Q4 Q5 Q6]. constructor; auto.
    intros k q0 r0 Hk. destruct (written_views k q0 r0 Hk) as [q1 Hk0]. apply (Q5 k q1 r0 Hk0).
  - intros j k q1 q2 r1 r2 Hjk Hj Hk.
    destruct (upd_cases Hj) as [[-> E1]|[Hne Hj']]; destruct (upd_cases Hk) as [[-> E2]|[Hnk Hk']].
    + contradiction.
    + injection E1 as -> ->. split; [intros w Hp; apply (written_pair k q2 r2 w Hnk Hk'); left; exact Hp|].
      intros t Ht. apply (Hdisj k q2 r2 Hnk Hk' t Ht).
    + injection E2 as -> ->. split; [intros w Hq Hp; apply (written_pair j q1 r1 w Hne Hj' Hp); left; exact Hq|].
      intros t Ht Hin. apply (Hdisj j q1 r1 Hne Hj' t Hin Ht).
    + apply (wi_pair HW j k q1 q2 r1 r2 Hjk Hj' Hk').
Qed.
End Write.

Lemma view_actor {acts j q r} : nth_error (map wview acts) j = Some (Some q, r) ->
  exists b, nth_error acts j = Some b /\ pending b = true /\
            q = mkPV (a_locks b) (writes_of b) (a_entries b) (a_notify b) /\ r = retired b.
Proof.
  rewrite nth_error_map. destruct (nth_error acts j) as [b|]; cbn [option_map]; [|discriminate].
  unfold wview, pview. destruct (pending b) eqn:Hp; [|discriminate].
  intros E. injection E as <- <-. exists b. auto.
Qed.

Lemma pending_held a : pending a = true -> held a = a_locks a.
Proof. unfold pending, held. destruct (a_pc a); try discriminate; reflexivity. Qed.

(* apply_writes only allocates channels *)
Lemma F1_nw tid nw0 ws acc : (nw0 <= snd acc)%N -> (nw0 <= snd (fold_left (F1 tid) ws acc))%N.
Proof.
  apply (fold_left_inv (F1 tid) (fun acc => (nw0 <= snd acc)%N) (fun _ => True)); [|auto].
  intros [[es nt] nw] t _ H. cbn [F1 snd] in *. destruct (nth_error es t); cbn [snd]; lia.
Qed.

Lemma F2_nw nw0 rg acc : (nw0 <= snd acc)%N -> (nw0 <= snd (fold_left F2 rg acc))%N.
Proof.
  apply (fold_left_inv F2 (fun acc => (nw0 <= snd acc)%N) (fun _ => True)); [|auto].
  intros [es nw] [t name] _ H. cbn [F2 snd] in *. destruct (nth_error es t) as [v|]; [|exact H].
  destruct (tv_init v) as [[w p]|]; cbn [snd]; lia.
Qed.

Lemma apply_writes_nw {tid ws rg dn nextw es es' nt nw} :
  apply_writes tid ws rg dn nextw es = (es', nt, nw) -> (nextw <= nw)%N.
Proof.
  intros H. destruct (apply_writes_folds H) as (es1&nw1&es2&E1&E2&_).
  pose proof (F2_nw nextw rg (es1, nw1)) as H2. rewrite E2 in H2. apply H2.
  pose proof (F1_nw tid nextw ws (es, [], nextw)) as H1. rewrite E1 in H1. apply H1. cbn [snd]. lia.
Qed.

Lemma kind_sub_locks ntab a tabs wr c rg dn : actor_ok ntab a -> a_pc a <> PStart ->
  a_kind a = KWriter tabs wr c rg dn ->
  (forall t, In t wr -> In t (a_locks a)) /\ (forall tn, In tn rg -> In (fst tn) (a_locks a)) /\
  (forall tn, In tn dn -> In (fst tn) (a_locks a)).
Proof.
  intros Hok Hp Hk. rewrite (actor_ok_locks _ _ _ _ _ _ _ Hok Hk Hp).
  pose proof (ok_wf Hok) as Hw. rewrite Hk in Hw. destruct Hw as (_&Hs&Hr&Hd).
  repeat split; intros x Hx; apply lock_order_same_set; auto.
Qed.

(* the private entries of a writer that has loaded the root and not yet written are the root's, on its tables;
   so they inherit distinctness and the bound of the root's channels *)
Lemma loaded_entries ntab s i a : Inv ntab s -> VInv s -> WInv s -> nth_error (s_actors s) i = Some a ->
  a_pc a = PRootLoaded ->
  (forall t, In t (a_locks a) -> exists v, nth_error (s_root s) t = Some v /\ nth_error (a_entries a) t = Some v) /\
  chinj (fun t => In t (a_locks a)) (a_entries a) /\
  (forall t v w, In t (a_locks a) -> nth_error (a_entries a) t = Some v -> In w (chans v) -> (w < s_nextw s)%N).
Proof.
  intros HI HV HW Ha Hpc. pose proof (v_ents HV i a Ha) as Hents. unfold ents_ok in Hents. rewrite Hpc in Hents.
  destruct (wi_inj HW) as [I1 I2]. split; [|split; [split|]].
  - intros t Ht. destruct (locked_in_root HI (inv_ok HI _ _ Ha) Ht) as [v Hv].
    exists v. rewrite (Hents t Ht). auto.
  - intros t1 t2 v1 v2 w D1 D2 E1 E2 W1 W2. rewrite (Hents t1 D1) in E1. rewrite (Hents t2 D2) in E2.
    apply (I1 t1 t2 v1 v2 w I I E1 E2 W1 W2).
  - intros t v D1 E1. rewrite (Hents t D1) in E1. apply (I2 t v I E1).
  - intros t v w D1 E1 W1. rewrite (Hents t D1) in E1. apply (wi_broot HW). exists t, v. auto.
Qed.

(* a writer holding all its locks shares no table with another pending transaction *)
Lemma other_pending_disjoint ntab s i a : Inv ntab s -> nth_error (s_actors s) i = Some a -> held a = a_locks a ->
  forall j q r, j <> i -> nth_error (map wview (s_actors s)) j = Some (Some q, r) ->
  forall t, In t (a_locks a) -> ~ In t (p_locks q).
Proof.
  intros HI Ha Hh j q r Hj Hvj t Ht Htq. destruct (view_actor Hvj) as (b&Hb&Hpb&->&_). cbn [p_locks] in Htq.
  apply Hj. apply (mutual_exclusion ntab (t := t) HI Hb Ha); [rewrite (pending_held b Hpb)|rewrite Hh]; assumption.
Qed.

Theorem WInv_step ntab s i : Inv ntab s -> VInv s -> WInv s -> WInv (step s i).
Proof.
  intros HI HV HW. destruct (step_cases ntab s i HI) as [->|(a&a'&s1&Ha&HS&->)]; [exact HW|].
  pose proof (inv_ok HI _ _ Ha) as Hok. pose proof (loaded_entries ntab s i a HI HV HW Ha) as Hld.
  unfold WInv in *. unfold post. cbn [s_root s_closed s_nextw s_actors]. rewrite map_upd.
  assert (Hview : nth_error (map wview (s_actors s)) i = Some (wview a)) by (apply map_nth_error; exact Ha).
  set (vs := map wview (s_actors s)) in *. unfold wview, pview, pending, retired, writes_of in Hview |- *.
  (* most steps leave the view of actor i and the shared fields alone *)
  destruct HS; step_simpl; rewrite Hpc in Hview; try (rewrite (upd_same Hview); exact HW).
  - destruct (a_locks a); rewrite (upd_same Hview); exact HW.
  - destruct (Nat.ltb (S k) (length (a_locks a))); rewrite (upd_same Hview); exact HW.
  - (* apply_writes: a committing transaction becomes pending, an aborting one only moves the channel counter *)
    destruct c; [|rewrite (upd_same Hview); apply (WI_nextw _ _ _ nw _ HW), (apply_writes_nw Haw)].
    rewrite Hk.
    assert (Hne : a_pc a <> PStart) by (rewrite Hpc; discriminate).
    destruct (kind_sub_locks ntab a _ _ _ _ _ Hok Hne Hk) as (Hws&Hrg&Hdn). destruct (Hld Hpc) as (Heq&Hinj&Hb).
    apply (WI_write _ _ _ _ i [] (a_locks a) (a_id a) wr (a_entries a) es nt nw HW Hview).
    + apply (apply_writes_G _ _ _ _ _ _ _ _ _ _ Hws Hrg Hdn Hinj Hb Haw).
    + exact Heq.
    + apply (apply_writes_rel Haw).
    + apply (other_pending_disjoint ntab s i a HI Ha). unfold held. rewrite Hpc. reflexivity.
  - (* root store *)
    destruct (merge_root_spec _ _ _ _ _ Hm) as [Hroot Hcl].
    apply (WI_store _ _ _ _ i (mkPV (a_locks a) (writes_of a) (a_entries a) (a_notify a)) [] root closing HW Hview Hroot Hcl).
  - (* notify *)
    apply (WI_close _ _ _ _ i (a_notify a ++ a_initclose a) (a_notify a) (a_initclose a) HW Hview);
      [apply incl_appl|apply incl_appr]; apply incl_refl.
  - (* init close *)
    apply (WI_close _ _ _ _ i (a_initclose a) (a_initclose a) [] HW Hview); [apply incl_refl|intros x []].
  - (* registrar store *)
    rewrite (upd_same Hview). apply WI_reg, HW.
Qed.

Lemma nth_error_seq_map {A} (f : nat -> A) : forall n start t v,
  nth_error (map f (seq start n)) t = Some v -> t < n /\ v = f (start + t).
Proof.
  induction n as [|n IH]; intros start t v H; cbn [seq map] in H; [destruct t; discriminate|].
  destruct t as [|t]; cbn [nth_error] in H.
  - injection H as <-. rewrite Nat.add_0_r. split; [lia|reflexivity].
  - destruct (IH (S start) t v H) as [Hlt ->]. split; [lia|]. f_equal. lia.
Qed.

Theorem WInv_init ntab actors : WInv (init_st ntab actors).
Proof.
  unfold WInv.
  assert (Hv : forall j q ret, nth_error (map wview (s_actors (init_st ntab actors))) j = Some (q, ret) -> q = None /\ ret = []).
  { intros j q ret H. rewrite nth_error_map in H.
    destruct (nth_error (s_actors (init_st ntab actors)) j) as [b|] eqn:Hb; [|discriminate].
    destruct (init_actor Hb) as [ik [_ ->]]. injection H as <- <-. auto. }
  assert (Hr : forall t v, nth_error (s_root (init_st ntab actors)) t = Some v -> t < ntab /\ chans v = [N.of_nat t]).
  { intros t v H. apply nth_error_seq_map in H. destruct H as [Hlt ->]. split; [exact Hlt|reflexivity]. }
  constructor; cbn [s_closed s_nextw init_st].
  - intros w (t&v&Hv'&Hw). destruct (Hr t v Hv') as [Hlt Hc]. rewrite Hc in Hw. destruct Hw as [<-|[]]. lia.
  - intros w [].
  - intros j p ret Hj. destruct (Hv j _ _ Hj) as [E _]. discriminate.
  - intros j q ret Hj w Hw. destruct (Hv j _ _ Hj) as [_ ->]. destruct Hw.
  - split.
    + intros t1 t2 v1 v2 w _ _ H1 H2 W1 W2. destruct (Hr t1 v1 H1) as [_ C1]. destruct (Hr t2 v2 H2) as [_ C2].
      rewrite C1 in W1. rewrite C2 in W2. destruct W1 as [<-|[]]. destruct W2 as [E|[]]. lia.
    + intros t v _ H1. destruct (Hr t v H1) as [_ ->]. repeat constructor. intros [].
  - intros w [].
  - intros j q ret Hj w Hw. destruct (Hv j _ _ Hj) as [_ ->]. destruct Hw.
  - intros j p ret Hj. destruct (Hv j _ _ Hj) as [E _]. discriminate.
  - intros j k p q r1 r2 _ Hj. destruct (Hv j _ _ Hj) as [E _]. discriminate.
Qed.

Record Good (ntab : nat) (s : st) : Prop := mkGood { good_inv : Inv ntab s; good_v : VInv s; good_w : WInv s }.

Theorem Good_step ntab s i : Good ntab s -> Good ntab (step s i).
Proof.
  intros [HI HV HW]. constructor; [apply Inv_step; exact HI|apply (VInv_step ntab); assumption|
                                   apply (WInv_step ntab); assumption].
Qed.

Theorem Good_run ntab sched : forall s, Good ntab s -> Good ntab (run s sched).
Proof. apply run_inv. intros s i. apply Good_step. Qed.

Theorem WInv_run ntab sched : forall s, Inv ntab s -> VInv s -> WInv s -> WInv (run s sched).
Proof. intros s HI HV HW. apply (good_w ntab), Good_run. constructor; assumption. Qed.

Theorem Good_init ntab actors : wf_system ntab actors -> Good ntab (init_st ntab actors).
Proof. intros [Hwf Hnd]. constructor; [apply Inv_init; exact Hwf|apply VInv_init; exact Hnd|apply WInv_init]. Qed.

Theorem Good_reachable ntab actors sched : wf_system ntab actors -> Good ntab (run (init_st ntab actors) sched).
Proof. intros H. apply Good_run. apply Good_init. exact H. Qed.

(* published channels are open: no closed channel is the watch channel, or the pending-initialization
   channel, of an entry of the committed root *)
Theorem published_open s t v w : WInv s -> nth_error (s_root s) t = Some v -> In w (s_closed s) ->
  tv_watch v <> w /\ forall p, tv_init v <> Some (w, p).
Proof.
  intros HW Hv Hw. pose proof (wi_open HW w Hw) as Hno. split.
  - intros E. apply Hno. exists t, v. split; [exact Hv|]. left. exact E.
  - intros p E. apply Hno. exists t, v. split; [exact Hv|]. unfold chans, initw. rewrite E. right. left. reflexivity.
Qed.

(* the channels handed out by the committed root are pairwise distinct *)
Theorem published_distinct s t1 t2 v1 v2 w : WInv s ->
  nth_error (s_root s) t1 = Some v1 -> nth_error (s_root s) t2 = Some v2 ->
  In w (chans v1) -> In w (chans v2) -> t1 = t2.
Proof. intros HW H1 H2 W1 W2. apply (proj1 (wi_inj HW) t1 t2 v1 v2 w I I H1 H2 W1 W2). Qed.

(* closing happens after the store: a step closes channels only if its actor has executed its root store
   (it is at PRootUnlocked or PTabsUnlocked, committed), the channels closed are its a_notify resp.
   a_initclose, and none of them is handed out by the committed root any more *)
Theorem close_after_store ntab s i : Inv ntab s -> WInv s ->
  s_closed (step s i) = s_closed s \/
  exists a cl, nth_error (s_actors s) i = Some a /\ committed a = true /\
    s_closed (step s i) = cl ++ s_closed s /\ s_root (step s i) = s_root s /\
    ((a_pc a = PRootUnlocked /\ cl = a_notify a) \/ (a_pc a = PTabsUnlocked /\ cl = a_initclose a)) /\
    forall w, In w cl -> ~ rch (s_root s) w.
Proof.
  intros HI HW. destruct (step_cases ntab s i HI) as [->|(a&a'&s1&Ha&HS&->)]; [auto|]. unfold post. cbn [s_root s_closed].
  assert (Hview : nth_error (map wview (s_actors s)) i = Some (wview a)) by (apply map_nth_error; exact Ha).
  pose proof (wi_ret HW i _ _ Hview) as Hret. unfold wview, retired, snd in Hret.
  destruct HS; step_simpl; auto; right; rewrite Hpc in Hret.
  - exists a, (a_notify a). unfold committed. rewrite Hpc. repeat split; auto using in_or_app.
  - exists a, (a_initclose a). unfold committed. rewrite Hpc. repeat split; auto.
Qed.

(* the private entry of a table that a pending transaction holds is apply_writes of the CURRENT root entry *)
Lemma pending_entry ntab s i a t : Good ntab s -> nth_error (s_actors s) i = Some a -> pending a = true ->
  In t (a_locks a) ->
  exists v e, nth_error (s_root s) t = Some v /\ nth_error (a_entries a) t = Some e /\
              Rapply (a_id a) (writes_of a) t v e.
Proof.
  intros [HI HV HW] Ha Hp Ht.
  assert (Hview : nth_error (map wview (s_actors s)) i =
                  Some (Some (mkPV (a_locks a) (writes_of a) (a_entries a) (a_notify a)), retired a)).
  { rewrite (map_nth_error wview _ _ Ha). unfold wview, pview. rewrite Hp. reflexivity. }
  destruct (po_rel (wi_pend HW i _ _ Hview) t Ht) as (v&e&Hv&He&Hwk&Hinit). exists v, e.
  pose proof (v_ents HV i a Ha) as Hents. unfold ents_ok in Hents. unfold pending in Hp.
  assert (Hr : exists v1 e1, nth_error (s_root s) t = Some v1 /\ nth_error (a_entries a) t = Some e1 /\
                             Rids (a_id a) (writes_of a) t v1 e1) by (destruct (a_pc a); try discriminate; auto).
  destruct Hr as (v1&e1&Hv1&He1&Hr). cbn [p_locks p_ents p_writes] in *.
  assert (v1 = v) by congruence. assert (e1 = e) by congruence. subst v1 e1.
  split; [exact Hv|]. split; [exact He|]. split; [exact Hr|]. split; assumption.
Qed.

(* v' is a later version of the entry v: the id set has grown, strictly if the watch channel changed, and a pending
   initialization is still pending under the same init watch or complete *)
Definition later (v v' : tver) : Prop :=
  incl (tv_ids v) (tv_ids v') /\
  (tv_watch v' = tv_watch v \/ exists x, In x (tv_ids v') /\ ~ In x (tv_ids v)) /\
  (forall w p, tv_init v = Some (w, p) -> tv_init v' = None \/ exists p', tv_init v' = Some (w, p')).

Lemma later_refl v : later v v.
Proof. split; [apply incl_refl|]. split; [left; reflexivity|]. intros w p H. right. eauto. Qed.

(* one step keeps every entry of the root or replaces it by a later version *)
Theorem entry_step ntab s i t v : Good ntab s -> nth_error (s_root s) t = Some v ->
  exists v', nth_error (s_root (step s i)) t = Some v' /\ later v v'.
Proof.
  intros HG Hv. pose proof HG as [HI HV HW].
  destruct (step_cases ntab s i HI) as [->|(a&a'&s1&Ha&HS&->)]; [exists v; auto using later_refl|].
  unfold post. cbn [s_root].
  destruct (Step_root HI Ha HS) as [[_ ->]|[(_&_&->)|(Hp&Hc&Hlen&Hn)]];
    [exists v; auto using later_refl|exists v; auto using later_refl, nth_error_app_Some|].
  rewrite Hn. destruct (in_dec Nat.eq_dec t (a_locks a)) as [Hm|Hm];
    [|rewrite merged_out by exact Hm; exists v; auto using later_refl].
  (* the store of a committing transaction that holds t *)
  assert (Hpe : pending a = true) by (unfold pending; rewrite Hp; reflexivity).
  destruct (pending_entry ntab s i a t HG Ha Hpe Hm) as (v0&e&Hv0&He0&Hr&Hwk&Hinit).
  assert (v0 = v) by congruence. subst v0.
  rewrite (merged_in Hm Hv He0). exists (clear_init e). split; [reflexivity|].
  unfold later. rewrite clear_init_ids, clear_init_watch. split; [intros x Hx; apply Hr; right; exact Hx|]. split.
  - destruct (in_dec Nat.eq_dec t (writes_of a)) as [Hw|Hw]; [|left; apply Hwk; exact Hw].
    right. exists (a_id a). split; [apply Hr; left; auto|].
    intros Hin. apply (visible_iff HV Ha Hv) in Hin. destruct Hin as [Hcm _].
    unfold committed in Hcm. rewrite Hp in Hcm. discriminate.
  - intros w p Hi. destruct (Hinit w p Hi) as [p' Hp']. unfold clear_init. rewrite Hp'.
    destruct p' as [|n q]; [left; reflexivity|right; eauto].
Qed.

(* two-state version along any schedule *)
Theorem entry_run ntab sched : forall s t v, Good ntab s -> nth_error (s_root s) t = Some v ->
  exists v', nth_error (s_root (run s sched)) t = Some v' /\ incl (tv_ids v) (tv_ids v') /\
    (tv_watch v' = tv_watch v \/ exists x, In x (tv_ids v') /\ ~ In x (tv_ids v)).
Proof.
  unfold run. induction sched as [|i r IH]; intros s t v HG Hv; cbn [fold_left].
  - exists v. split; [exact Hv|]. split; [apply incl_refl|left; reflexivity].
  - destruct (entry_step ntab s i t v HG Hv) as (v1&Hv1&Hi1&Hw1&_).
    destruct (IH (step s i) t v1 (Good_step _ _ i HG) Hv1) as (v2&Hv2&Hi2&Hw2).
    exists v2. split; [exact Hv2|]. split; [eapply incl_tran; eauto|].
    destruct Hw2 as [Hw2|(x&Hx&Hnx)].
    + destruct Hw1 as [Hw1|(x&Hx&Hnx)]; [left; congruence|]. right. exists x. auto.
    + right. exists x. split; [exact Hx|]. intros Hin. apply Hnx. apply Hi1. exact Hin.
Qed.

(* wake-up sees a newer version: if the watch channel that an earlier committed root handed out for table t
   is closed, the current committed entry of t contains everything the earlier one did plus the id of at
   least one further committed transaction *)
Theorem wake_sees_newer ntab sched s t v : Good ntab s -> nth_error (s_root s) t = Some v ->
  In (tv_watch v) (s_closed (run s sched)) ->
  exists v', nth_error (s_root (run s sched)) t = Some v' /\ incl (tv_ids v) (tv_ids v') /\
             exists x, In x (tv_ids v') /\ ~ In x (tv_ids v).
Proof.
  intros HG Hv Hc. destruct (entry_run ntab sched s t v HG Hv) as (v'&Hv'&Hincl&Hw).
  exists v'. split; [exact Hv'|]. split; [exact Hincl|].
  destruct Hw as [Hw|Hx]; [|exact Hx]. exfalso.
  destruct (published_open (run s sched) t v' (tv_watch v) (good_w _ _ (Good_run ntab sched s HG)) Hv' Hc) as [Hne _].
  congruence.
Qed.

(* initialization: while table t's committed entry has pending initializers under init-watch w, w is open;
   and if w is closed later, a root in which t is initialized (tv_init = None) was stored in between *)
Theorem init_closed_after_visible ntab : forall sched s t v w p, Good ntab s ->
  nth_error (s_root s) t = Some v -> tv_init v = Some (w, p) -> In w (s_closed (run s sched)) ->
  exists s1 s2 v1, sched = s1 ++ s2 /\ nth_error (s_root (run s s1)) t = Some v1 /\ tv_init v1 = None.
Proof.
  induction sched as [|i r IH]; intros s t v w p HG Hv Hi Hc.
  - exfalso. cbn in Hc. destruct (published_open s t v w (good_w _ _ HG) Hv Hc) as [_ Hn]. apply (Hn p Hi).
  - destruct (entry_step ntab s i t v HG Hv) as (v1&Hv1&_&_&Hinit).
    destruct (Hinit w p Hi) as [Hnone|[p' Hp']].
    + exists [i], r, v1. split; [reflexivity|]. split; [exact Hv1|exact Hnone].
    + destruct (IH (step s i) t v1 w p' (Good_step _ _ i HG) Hv1 Hp' Hc) as (s1&s2&v2&->&Hv2&Hn2).
      exists (i :: s1), s2, v2. split; [reflexivity|]. split; [exact Hv2|exact Hn2].
Qed.
