(* DB/Channels.v — channel bookkeeping of apply_writes and merge_root: which watch / init channels
   the private entries of a transaction carry after its writes, where they come from (freshly allocated,
   or inherited from the entry cloned), that they are pairwise distinct, and that the channels queued
   for notification are no longer carried by any private entry. Used by DB/Watch.v. *)
From Coq Require Import Arith PeanoNat.
From SV Require Import DB.Model DB.Proofs DB.Invariants DB.Visibility.
Open Scope nat_scope.

Definition initw (v : tver) : list N := match tv_init v with Some (w, _) => [w] | None => [] end.
(* the channels a table entry hands out *)
Definition chans (v : tver) : list N := tv_watch v :: initw v.

(* channels of the entries of the tables in D are pairwise distinct *)
Definition chinj (D : nat -> Prop) (es : list tver) : Prop :=
  (forall t1 t2 v1 v2 w, D t1 -> D t2 -> nth_error es t1 = Some v1 -> nth_error es t2 = Some v2 ->
     In w (chans v1) -> In w (chans v2) -> t1 = t2) /\
  (forall t v, D t -> nth_error es t = Some v -> NoDup (chans v)).

(* G D es0 nw0 es nt nw: the entries es, the queue nt and the counter nw reached from es0 and nw0 by the folds of
   apply_writes, on the tables in D:
   g_le, g_bound, g_ntbound  the counter only grows; the entries' and the queued channels are below it;
   g_src  a channel of an entry is fresh (>= nw0) or was one of the same table's entry in es0;
   g_inj  the entries' channels are pairwise distinct;
   g_nt   a queued channel is fresh or came from es0, and no entry carries it any more: this gives po_nt of the new
          pending view, and later that the stored root does not hand out what the transaction retires *)
Record G (D : nat -> Prop) (es0 : list tver) (nw0 : N) (es : list tver) (nt : list N) (nw : N) : Prop := mkG {
  g_le : (nw0 <= nw)%N;
  g_bound : forall t v w, D t -> nth_error es t = Some v -> In w (chans v) -> (w < nw)%N;
  g_ntbound : forall w, In w nt -> (w < nw)%N;
  g_src : forall t v w, D t -> nth_error es t = Some v -> In w (chans v) ->
            (nw0 <= w)%N \/ exists v0, nth_error es0 t = Some v0 /\ In w (chans v0);
  g_inj : chinj D es;
  g_nt : forall w, In w nt ->
            ((nw0 <= w)%N \/ exists t v0, D t /\ nth_error es0 t = Some v0 /\ In w (chans v0)) /\
            (forall t v, D t -> nth_error es t = Some v -> ~ In w (chans v))
}.
Arguments g_le {D es0 nw0 es nt nw}. Arguments g_bound {D es0 nw0 es nt nw}. Arguments g_ntbound {D es0 nw0 es nt nw}.
Arguments g_src {D es0 nw0 es nt nw}. Arguments g_inj {D es0 nw0 es nt nw}. Arguments g_nt {D es0 nw0 es nt nw}.

(* one elementary update of the entry of table t *)
Lemma G_upd (D : nat -> Prop) es0 nw0 es nt nw t v v' dropped nw' :
  G D es0 nw0 es nt nw -> D t -> nth_error es t = Some v ->
  NoDup (chans v') ->
  (forall w, In w (chans v') -> In w (chans v) \/ (w = nw /\ (nw < nw')%N)) ->
  (forall w, In w dropped -> In w (chans v) /\ ~ In w (chans v')) ->
  (nw <= nw')%N ->
  G D es0 nw0 (upd t (fun _ => v') es) (dropped ++ nt) nw'.
Proof.
  intros [Hle Hb Hnb Hsrc [Hinj Hnd] Hnt] Dt Hv Hnd' Hin' Hdrop Hnw.
  pose proof (fun t1 v1 => @upd_cases _ es t v' t1 v1) as Hcase.
  constructor.
  - lia.
  - intros t1 v1 w D1 H1 Hw. destruct (Hcase _ _ H1) as [[-> ->]|[Hne H1']].
    + destruct (Hin' w Hw) as [Hold|[-> Hlt]]; [|exact Hlt]. specialize (Hb t v w Dt Hv Hold). lia.
    + specialize (Hb t1 v1 w D1 H1' Hw). lia.
  - intros w Hw. apply in_app_or in Hw. destruct Hw as [Hw|Hw].
    + destruct (Hdrop w Hw) as [Hold _]. specialize (Hb t v w Dt Hv Hold). lia.
    + specialize (Hnb w Hw). lia.
  - intros t1 v1 w D1 H1 Hw. destruct (Hcase _ _ H1) as [[-> ->]|[Hne H1']].
    + destruct (Hin' w Hw) as [Hold|[-> Hlt]]; [apply (Hsrc t v w Dt Hv Hold)|left; exact Hle].
    + apply (Hsrc t1 v1 w D1 H1' Hw).
  - split.
    + intros t1 t2 v1 v2 w D1 D2 H1 H2 Hw1 Hw2.
      destruct (Hcase _ _ H1) as [[-> ->]|[Hne1 H1']]; destruct (Hcase _ _ H2) as [[-> ->]|[Hne2 H2']]; auto.
      * destruct (Hin' w Hw1) as [Hold|[-> Hlt]].
        -- apply (Hinj t t2 v v2 w Dt D2 Hv H2' Hold Hw2).
        -- specialize (Hb t2 v2 nw D2 H2' Hw2). lia.
      * destruct (Hin' w Hw2) as [Hold|[-> Hlt]].
        -- apply (Hinj t1 t v1 v w D1 Dt H1' Hv Hw1 Hold).
        -- specialize (Hb t1 v1 nw D1 H1' Hw1). lia.
      * apply (Hinj t1 t2 v1 v2 w D1 D2 H1' H2' Hw1 Hw2).
    + intros t1 v1 D1 H1. destruct (Hcase _ _ H1) as [[-> ->]|[Hne H1']]; [exact Hnd'|apply (Hnd t1 v1 D1 H1')].
  - intros w Hw. apply in_app_or in Hw. destruct Hw as [Hw|Hw].
    + destruct (Hdrop w Hw) as [Hold Hnew]. split.
      * destruct (Hsrc t v w Dt Hv Hold) as [Hf|[v0 [H0 Hw0]]]; [left; exact Hf|right; exists t, v0; auto].
      * intros t1 v1 D1 H1 Hw1. destruct (Hcase _ _ H1) as [[-> ->]|[Hne H1']]; [contradiction|].
        apply Hne. apply (Hinj t1 t v1 v w D1 Dt H1' Hv Hw1 Hold).
    + destruct (Hnt w Hw) as [Hs Hno]. split; [exact Hs|].
      intros t1 v1 D1 H1 Hw1. destruct (Hcase _ _ H1) as [[-> ->]|[Hne H1']].
      * destruct (Hin' w Hw1) as [Hold|[-> Hlt]]; [apply (Hno t v Dt Hv Hold)|].
        specialize (Hnb nw Hw). lia.
      * apply (Hno t1 v1 D1 H1' Hw1).
Qed.

Lemma G_nw_mono (D : nat -> Prop) es0 nw0 es nt nw nw' : G D es0 nw0 es nt nw -> (nw <= nw')%N -> G D es0 nw0 es nt nw'.
Proof.
  intros [Hle Hb Hnb Hsrc Hinj Hnt] H. constructor; auto.
  - lia.
  - intros t v w Dt Hv Hw. specialize (Hb t v w Dt Hv Hw). lia.
  - intros w Hw. specialize (Hnb w Hw). lia.
Qed.

Lemma initw_bound v w (nw : N) : (forall x, In x (chans v) -> (x < nw)%N) -> In w (initw v) -> (w < nw)%N.
Proof. intros H Hw. apply H. right. exact Hw. Qed.

Lemma NoDup_initw v : NoDup (initw v).
Proof. unfold initw. destruct (tv_init v) as [[w p]|]; repeat constructor. intros []. Qed.

(* the channel bookkeeping of an accumulator of the apply_writes folds *)
Definition G1 D es0 nw0 (acc : list tver * list N * N) : Prop := G D es0 nw0 (fst (fst acc)) (snd (fst acc)) (snd acc).

Lemma fold_left_inv {A B} (f : A -> B -> A) (P : A -> Prop) (Q : B -> Prop) :
  (forall a x, Q x -> P a -> P (f a x)) -> forall l a, (forall x, In x l -> Q x) -> P a -> P (fold_left f l a).
Proof.
  intros Hstep. induction l as [|x l IH]; intros a HQ Ha; cbn [fold_left]; [exact Ha|].
  apply IH; [intros y Hy; apply HQ; right; exact Hy|]. apply Hstep; [apply HQ; left; reflexivity|exact Ha].
Qed.

(* a write gives the entry a fresh watch channel and queues the old one *)
Lemma G_F1 (D : nat -> Prop) es0 nw0 tid ws acc : (forall t, In t ws -> D t) ->
  G1 D es0 nw0 acc -> G1 D es0 nw0 (fold_left (F1 tid) ws acc).
Proof.
  apply (fold_left_inv (F1 tid) (G1 D es0 nw0) D). clear acc. intros [[es nt] nw] t Dt HG.
  unfold G1 in *. cbn [F1 fst snd] in *. destruct (nth_error es t) as [v|] eqn:Hv; [|exact HG]. cbn [fst snd].
  pose proof (g_bound HG t v) as Hb.
  pose proof (proj2 (g_inj HG) t v Dt Hv) as Hnd. unfold chans in Hnd.
  apply (G_upd D es0 nw0 es nt nw t v _ [tv_watch v]); auto.
  - unfold chans, initw. cbn [tv_watch tv_init]. fold (initw v). constructor; [|apply NoDup_initw].
    intros Hin. assert (nw < nw)%N by (apply (Hb nw Dt Hv); right; exact Hin). lia.
  - unfold chans at 1, initw at 1. cbn [tv_watch tv_init]. fold (initw v). intros w [<-|Hw].
    + right. split; [reflexivity|lia].
    + left. right. exact Hw.
  - intros w [<-|[]]. split; [left; reflexivity|].
    unfold chans, initw. cbn [tv_watch tv_init]. fold (initw v). intros [E|Hin].
    + assert (tv_watch v < nw)%N by (apply (Hb _ Dt Hv); left; reflexivity). lia.
    + apply NoDup_cons_iff in Hnd. tauto.
  - lia.
Qed.

(* registering an initializer allocates the init watch channel if there is none yet *)
Lemma G_F2 (D : nat -> Prop) es0 nw0 nt rg acc : (forall tn, In tn rg -> D (fst tn)) ->
  G D es0 nw0 (fst acc) nt (snd acc) -> G D es0 nw0 (fst (fold_left F2 rg acc)) nt (snd (fold_left F2 rg acc)).
Proof.
  apply (fold_left_inv F2 (fun acc => G D es0 nw0 (fst acc) nt (snd acc)) (fun tn => D (fst tn))).
  clear acc. intros [es nw] [t name] Dt HG. cbn [F2 fst snd] in *.
  destruct (nth_error es t) as [v|] eqn:Hv; [|exact HG].
  pose proof (g_bound HG t v) as Hb.
  pose proof (proj2 (g_inj HG) t v Dt Hv) as Hnd.
  destruct (tv_init v) as [[w p]|] eqn:Hi; unfold chans, initw in Hnd, Hb; rewrite Hi in Hnd, Hb; cbn [fst snd];
    (apply (G_upd D es0 nw0 es nt nw t v _ [] _ HG Dt Hv); [| |intros w0 []|lia]);
    unfold chans, initw; cbn [tv_watch tv_init]; rewrite ?Hi.
  - exact Hnd.
  - auto.
  - constructor; [|repeat constructor; intros []].
    intros [E|[]]. assert (tv_watch v < nw)%N by (apply (Hb _ Dt Hv); left; reflexivity). lia.
  - intros w0 [<-|[<-|[]]]; [left; left; reflexivity|right; split; [reflexivity|lia]].
Qed.

(* marking an initializer done keeps the channels of the entry *)
Lemma G_F3 (D : nat -> Prop) es0 nw0 nt nw dn es : (forall tn, In tn dn -> D (fst tn)) ->
  G D es0 nw0 es nt nw -> G D es0 nw0 (fold_left F3 dn es) nt nw.
Proof.
  apply (fold_left_inv F3 (fun es => G D es0 nw0 es nt nw) (fun tn => D (fst tn))).
  clear es. intros es [t name] Dt HG. cbn [F3 fst] in *.
  destruct (nth_error es t) as [v|] eqn:Hv; [|exact HG].
  pose proof (proj2 (g_inj HG) t v Dt Hv) as Hnd.
  destruct (tv_init v) as [[w p]|] eqn:Hi; [|exact HG].
  unfold chans, initw in Hnd. rewrite Hi in Hnd.
  apply (G_upd D es0 nw0 es nt nw t v _ [] _ HG Dt Hv); [| |intros w0 []|lia];
    unfold chans, initw; cbn [tv_watch tv_init]; rewrite ?Hi; [exact Hnd|auto].
Qed.

(* channel bookkeeping of the whole of apply_writes *)
Theorem apply_writes_G (D : nat -> Prop) es0 nw0 tid ws rg dn es' nt' nw' :
  (forall t, In t ws -> D t) -> (forall tn, In tn rg -> D (fst tn)) -> (forall tn, In tn dn -> D (fst tn)) ->
  chinj D es0 -> (forall t v w, D t -> nth_error es0 t = Some v -> In w (chans v) -> (w < nw0)%N) ->
  apply_writes tid ws rg dn nw0 es0 = (es', nt', nw') -> G D es0 nw0 es' nt' nw'.
Proof.
  intros Hws Hrg Hdn Hinj Hb H. destruct (apply_writes_folds H) as (es1&nw1&es2&E1&E2&<-).
  assert (G0 : G1 D es0 nw0 (es0, [], nw0)).
  { constructor; cbn [fst snd]; auto.
    - lia.
    - intros w [].
    - intros t v w Dt Hv Hw. right. exists v. auto.
    - intros w []. }
  apply (G_F1 D es0 nw0 tid ws _ Hws) in G0. rewrite E1 in G0.
  apply (G_F2 D es0 nw0 nt' rg (es1, nw1) Hrg) in G0. rewrite E2 in G0.
  apply (G_F3 D es0 nw0 nt' nw' dn es2 Hdn G0).
Qed.

(* the init watch of a pending initialization survives *)
Definition Rinit (t : nat) (v e : tver) : Prop :=
  forall w p, tv_init v = Some (w, p) -> exists p', tv_init e = Some (w, p').

Lemma merge_root_closing : forall cur locks es i w,
  In w (snd (merge_root locks es cur i)) ->
  exists p e, nth_error es p = Some e /\ memb (i + p) locks = true /\ tv_init e = Some (w, []) /\ p < length cur.
Proof.
  induction cur as [|c cr IH]; intros locks es i w; cbn [merge_root]; [intros []|].
  specialize (IH locks (tl es) (S i) w).
  destruct (merge_root locks (tl es) cr (S i)) as [rest closing]. cbn [snd] in IH.
  assert (Hrest : In w closing -> exists p e, nth_error es p = Some e /\ memb (i + p) locks = true /\
                                             tv_init e = Some (w, []) /\ p < length (c :: cr)).
  { intros Hin. destruct (IH Hin) as (p&e&Hp&Hm&Hi&Hl). exists (S p), e.
    rewrite Nat.add_succ_r. cbn [length]. repeat split; auto; [|lia].
    destruct es as [|e0 es']; [destruct p; discriminate|exact Hp]. }
  destruct es as [|e es']; [exact Hrest|].
  destruct (memb i locks) eqn:Hm; [|exact Hrest].
  destruct (tv_init e) as [[w0 [|n q]]|] eqn:Hi; cbn [snd]; try exact Hrest.
  intros [<-|Hin]; [|exact (Hrest Hin)].
  exists 0, e. rewrite Nat.add_0_r. cbn [nth_error length]. repeat split; auto. lia.
Qed.

(* what the root store computes: the merged root, and the init watches of the held entries with nothing pending *)
Lemma merge_root_spec locks es cur root closing : merge_root locks es cur 0 = (root, closing) ->
  (forall t, nth_error root t = merged locks es cur t) /\
  (forall w, In w closing -> exists t e, In t locks /\ nth_error es t = Some e /\ tv_init e = Some (w, [])).
Proof.
  intros Hm. split.
  - intros t. pose proof (merge_root_nth cur locks es 0 t) as Hn. rewrite Hm in Hn. exact Hn.
  - intros w Hw. pose proof (merge_root_closing cur locks es 0 w) as Hc. rewrite Hm in Hc.
    destruct (Hc Hw) as (p&e&Hp&Hmb&Hi&_). exists p, e. apply memb_In in Hmb. auto.
Qed.

Lemma chans_clear_init e w : In w (chans (clear_init e)) -> In w (chans e).
Proof.
  unfold clear_init. destruct (tv_init e) as [[w0 [|n q]]|] eqn:Hi; auto.
  unfold chans, initw. cbn [tv_watch tv_init]. intros [<-|[]]. left. reflexivity.
Qed.

Lemma NoDup_chans_clear_init e : NoDup (chans e) -> NoDup (chans (clear_init e)).
Proof.
  unfold clear_init. destruct (tv_init e) as [[w0 [|n q]]|] eqn:Hi; auto.
  intros _. unfold chans, initw. cbn [tv_watch tv_init]. repeat constructor. intros [].
Qed.

(* clearing an initialization with nothing pending drops its watch channel *)
Lemma clear_init_drops e w : tv_init e = Some (w, []) -> NoDup (chans e) -> ~ In w (chans (clear_init e)).
Proof.
  unfold clear_init, chans, initw. intros -> Hnd. cbn [tv_watch tv_init]. intros [E|[]].
  apply NoDup_cons_iff in Hnd. apply (proj1 Hnd). left. symmetry. exact E.
Qed.
