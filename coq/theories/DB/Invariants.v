(* DB/Invariants.v — the global lock invariant of the commit-protocol model (DB/Model.v), proved for
   init_st and preserved by every micro-step, hence true of `run (init_st ntab actors) sched` for every
   actor list and every schedule:
     * a relational presentation of `step` (Step / step_spec) and what a step does to the table locks
       and the root lock (Step_held, Step_rholds),
     * per-actor well-formedness (kind/pc consistency, lock list, lock index in range),
     * s_tlock[t] = Some i  <->  actor i holds t (t in `held a_i`),
     * s_rlock   = Some i  <->  actor i is at a root-lock-holding pc,
     * mutual exclusion. *)
From Coq Require Import Arith PeanoNat.
From SV Require Import DB.Model DB.Proofs.
Open Scope nat_scope.

Lemma nth_error_upd {A} (f : A -> A) : forall n (l : list A) m,
  nth_error (upd n f l) m = if Nat.eqb n m then option_map f (nth_error l m) else nth_error l m.
Proof.
  induction n as [|n IH]; intros [|x r] [|m]; cbn [upd nth_error Nat.eqb option_map]; auto.
  destruct (Nat.eqb n m); reflexivity.
Qed.

Lemma nth_error_upd_same {A} (f : A -> A) n (l : list A) :
  nth_error (upd n f l) n = option_map f (nth_error l n).
Proof. rewrite nth_error_upd, Nat.eqb_refl. reflexivity. Qed.

Lemma nth_error_upd_other {A} (f : A -> A) n m (l : list A) : n <> m ->
  nth_error (upd n f l) m = nth_error l m.
Proof. intros H. rewrite nth_error_upd. destruct (Nat.eqb_spec n m); [contradiction|reflexivity]. Qed.

Lemma length_upd {A} (f : A -> A) : forall n (l : list A), length (upd n f l) = length l.
Proof. induction n as [|n IH]; intros [|x r]; cbn [upd length]; auto. Qed.

Lemma upd_cases {A} {vs : list A} {i x j y} : nth_error (upd i (fun _ => x) vs) j = Some y ->
  (j = i /\ y = x) \/ (j <> i /\ nth_error vs j = Some y).
Proof.
  rewrite nth_error_upd. destruct (Nat.eqb_spec i j) as [->|Hne].
  - destruct (nth_error vs j); cbn [option_map]; [|discriminate]. intros E. injection E as <-. auto.
  - intros E. right. split; [congruence|exact E].
Qed.

Lemma map_upd {A B} (f : A -> B) x : forall i (l : list A),
  map f (upd i (fun _ => x) l) = upd i (fun _ => f x) (map f l).
Proof. induction i as [|i IH]; intros [|y r]; cbn [upd map]; try reflexivity. f_equal. apply IH. Qed.

Lemma upd_same {A} {x : A} : forall {i} {l : list A}, nth_error l i = Some x -> upd i (fun _ => x) l = l.
Proof.
  induction i as [|i IH]; intros [|y r] H; cbn [nth_error] in H; try discriminate; cbn [upd].
  - injection H as ->. reflexivity.
  - f_equal. apply IH, H.
Qed.

Lemma map_upd_same {A B} (f : A -> B) i (l : list A) a a' : nth_error l i = Some a -> f a' = f a ->
  map f (upd i (fun _ => a') l) = map f l.
Proof. intros H E. rewrite map_upd, E. apply upd_same, map_nth_error, H. Qed.

(* reading a list that got one more element *)
Lemma nth_error_snoc {A} {l : list A} {x t y} : nth_error (l ++ [x]) t = Some y ->
  nth_error l t = Some y \/ (t = length l /\ y = x).
Proof.
  intros H. destruct (Nat.lt_ge_cases t (length l)) as [Hlt|Hge].
  - rewrite nth_error_app1 in H by exact Hlt. auto.
  - rewrite nth_error_app2 in H by exact Hge. right.
    destruct (t - length l) as [|m] eqn:E; cbn [nth_error] in H; [|destruct m; discriminate].
    injection H as <-. split; [lia|reflexivity].
Qed.

Lemma nth_error_app_Some {A} (l l' : list A) t y : nth_error l t = Some y -> nth_error (l ++ l') t = Some y.
Proof. intros H. rewrite nth_error_app1; [exact H|]. apply nth_error_Some. congruence. Qed.

(* the unlock fold that Model.step writes out at PNotified and PAbortBefore (tied to it by conversion in step_spec) *)
Definition unlock_all (locks : list nat) (tl : list (option nat)) : list (option nat) :=
  fold_left (fun l t => upd t (fun _ => None) l) locks tl.

Lemma nth_error_unlock : forall (ts : list nat) (l : list (option nat)) t,
  nth_error (unlock_all ts l) t = if memb t ts then option_map (fun _ => None) (nth_error l t) else nth_error l t.
Proof.
  unfold unlock_all. induction ts as [|x r IH]; intros l t; cbn [fold_left memb existsb]; [reflexivity|].
  fold (memb t r). rewrite IH, nth_error_upd. rewrite (Nat.eqb_sym t x).
  destruct (Nat.eqb x t); cbn [orb]; [|reflexivity].
  destruct (memb t r); [|reflexivity]. destruct (nth_error l t); reflexivity.
Qed.

Lemma length_unlock : forall (ts : list nat) (l : list (option nat)), length (unlock_all ts l) = length l.
Proof.
  unfold unlock_all. induction ts as [|x r IH]; intros l; cbn [fold_left]; [reflexivity|]. rewrite IH. apply length_upd.
Qed.

Lemma memb_In t l : memb t l = true <-> In t l.
Proof.
  unfold memb. rewrite existsb_exists. split.
  - intros [x [Hx He]]. apply Nat.eqb_eq in He. now subst.
  - intros H. exists t. split; [exact H|apply Nat.eqb_refl].
Qed.

Lemma memb_false t l : memb t l = false <-> ~ In t l.
Proof. rewrite <- memb_In. destruct (memb t l); split; congruence. Qed.

Lemma firstn_S_nth {A} : forall k (l : list A) x, nth_error l k = Some x -> firstn (S k) l = firstn k l ++ [x].
Proof.
  induction k as [|k IH]; intros [|y r] x H; cbn [nth_error] in H; try discriminate.
  - injection H as ->. reflexivity.
  - cbn [firstn app]. f_equal. apply (IH r x H).
Qed.

Lemma In_firstn {A} : forall k (l : list A) x, In x (firstn k l) -> In x l.
Proof.
  induction k as [|k IH]; intros [|y r] x H; cbn [firstn] in H; try contradiction.
  destruct H as [->|H]; [left; reflexivity|right; apply (IH r x H)].
Qed.

Lemma strictly_inc_head_lt x r y : strictly_inc (x :: r) -> In y r -> x < y.
Proof.
  revert x. induction r as [|z r IH]; intros x H Hy; [destruct Hy|].
  destruct H as [Hxz Hr]. destruct Hy as [->|Hy]; [exact Hxz|].
  specialize (IH z Hr Hy). lia.
Qed.

(* in a strictly increasing list everything before position k is below the element at position k *)
Lemma strictly_inc_firstn_lt : forall k l t u, strictly_inc l ->
  In t (firstn k l) -> nth_error l k = Some u -> t < u.
Proof.
  induction k as [|k IH]; intros [|x r] t u Hs Ht Hu; cbn [firstn nth_error] in *; try contradiction; try discriminate.
  destruct Ht as [->|Ht].
  - apply (strictly_inc_head_lt _ r); [exact Hs|]. eapply nth_error_In; eauto.
  - apply (IH r); auto. apply Hs.
Qed.

Definition held (a : actor) : list nat :=
  match a_pc a with
  | PLocking k => firstn k (a_locks a)
  | PLocked k => firstn (S k) (a_locks a)
  | PWLocked | PRootLoaded | PCommitIdx | PRootLocked | PCommitLoaded | PRootStored | PRootUnlocked | PNotified
  | PAbortBefore => a_locks a
  | _ => []
  end.

Definition rholds (a : actor) : bool :=
  match a_pc a with
  | PRootLocked | PCommitLoaded | PRootStored | PRegLocked | PRegLoaded | PRegStored => true
  | _ => false
  end.

(* the pcs between the root load inside the root lock and the root store *)
Definition loaded (a : actor) : bool :=
  match a_pc a with PCommitLoaded | PRegLoaded => true | _ => false end.

(* the pcs at which an actor tries to acquire a lock *)
Definition acquiring (a : actor) : bool :=
  match a_pc a with PLocking _ | PCommitIdx | PRegBefore => true | _ => false end.

Definition wf_kind (ntab : nat) (k : kind) : Prop :=
  match k with
  | KRegistrar => True
  | KWriter tabs writes _ reg dn =>
    (forall t, In t tabs -> t < ntab) /\ incl writes tabs /\
    (forall tn, In tn reg -> In (fst tn) tabs) /\ (forall tn, In tn dn -> In (fst tn) tabs)
  end.

Definition pc_ok (k : kind) (p : pc) : bool :=
  match k with
  | KWriter _ _ c _ _ =>
    match p with
    | PStart | PBeforeLock | PLocking _ | PLocked _ | PWLocked | PRootLoaded | PDone => true
    | PCommitIdx | PRootLocked | PCommitLoaded | PRootStored | PRootUnlocked | PNotified | PTabsUnlocked | PInitClosed => c
    | PAbortBefore | PAbortUnlocked => negb c
    | _ => false
    end
  | KRegistrar =>
    match p with PStart | PRegBefore | PRegLocked | PRegLoaded | PRegStored | PRegUnlocked | PDone => true | _ => false end
  end.

Definition locks_ok (a : actor) : Prop :=
  match a_kind a with
  | KWriter tabs _ _ _ _ => a_locks a = match a_pc a with PStart => [] | _ => lock_order tabs end
  | KRegistrar => a_locks a = []
  end.

Definition idx_ok (a : actor) : Prop :=
  match a_pc a with PLocking k | PLocked k => k < length (a_locks a) | _ => True end.

Record actor_ok (ntab : nat) (a : actor) : Prop := mkOk {
  ok_wf : wf_kind ntab (a_kind a);
  ok_pc : pc_ok (a_kind a) (a_pc a) = true;
  ok_locks : locks_ok a;
  ok_idx : idx_ok a
}.
Arguments ok_wf {ntab a}. Arguments ok_pc {ntab a}. Arguments ok_locks {ntab a}. Arguments ok_idx {ntab a}.

(* past PStart the lock list of a writer is the sorted, duplicate-free version of its table list *)
Lemma actor_ok_locks ntab a tabs wr c rg dn : actor_ok ntab a -> a_kind a = KWriter tabs wr c rg dn ->
  a_pc a <> PStart -> a_locks a = lock_order tabs.
Proof.
  intros [_ _ Hl _] Hk Hp. unfold locks_ok in Hl. rewrite Hk in Hl. rewrite Hl.
  destruct (a_pc a); try reflexivity. elim Hp. reflexivity.
Qed.

Lemma actor_ok_tabs ntab a t : actor_ok ntab a -> In t (a_locks a) ->
  exists tabs wr c rg dn, a_kind a = KWriter tabs wr c rg dn /\ a_locks a = lock_order tabs /\ In t tabs /\ t < ntab.
Proof.
  intros Hok Ht. pose proof (ok_wf Hok) as Hw. pose proof (ok_locks Hok) as Hl. unfold locks_ok in Hl.
  destruct (a_kind a) as [tabs wr c rg dn|] eqn:Hk; [|rewrite Hl in Ht; destruct Ht].
  assert (E : a_locks a = lock_order tabs).
  { apply (actor_ok_locks ntab a tabs wr c rg dn Hok Hk). intros Hp. rewrite Hl, Hp in Ht. destruct Ht. }
  exists tabs, wr, c, rg, dn. rewrite E in Ht. apply (proj1 (lock_order_same_set tabs t)) in Ht.
  repeat split; auto. apply Hw, Ht.
Qed.

Lemma actor_ok_inc ntab a : actor_ok ntab a -> strictly_inc (a_locks a).
Proof.
  intros Hok. destruct (a_locks a) as [|t r] eqn:E; [exact I|]. rewrite <- E.
  destruct (actor_ok_tabs ntab a t Hok) as (tabs&_&_&_&_&_&->&_); [rewrite E; left; reflexivity|].
  apply lock_order_strictly_increasing.
Qed.

Lemma actor_ok_lt ntab a t : actor_ok ntab a -> In t (a_locks a) -> t < ntab.
Proof. intros H Ht. destruct (actor_ok_tabs _ _ _ H Ht) as (?&?&?&?&?&_&_&_&Hlt). exact Hlt. Qed.

Lemma held_sub a t : In t (held a) -> In t (a_locks a).
Proof.
  unfold held. destruct (a_pc a); try tauto; intros H; try contradiction; eapply In_firstn; eauto.
Qed.

(* Step s i a a' s1: actor i (currently a) becomes a', and the shared fields become those of s1 *)
Inductive Step (s : st) (i : nat) (a : actor) : actor -> st -> Prop :=
| S_wstart tabs wr c rg dn (Hk : a_kind a = KWriter tabs wr c rg dn) (Hpc : a_pc a = PStart) :
    Step s i a (mkA (a_id a) (a_kind a) PBeforeLock (lock_order tabs) [] [] [] []) s
| S_wbefore tabs wr c rg dn (Hk : a_kind a = KWriter tabs wr c rg dn) (Hpc : a_pc a = PBeforeLock) :
    Step s i a (set_pc a (match a_locks a with [] => PWLocked | _ => PLocking 0 end)) s
| S_wlocking tabs wr c rg dn k t (Hk : a_kind a = KWriter tabs wr c rg dn) (Hpc : a_pc a = PLocking k)
    (Hnth : nth_error (a_locks a) k = Some t) (Hfree : nth_error (s_tlock s) t = Some None) :
    Step s i a (set_pc a (PLocked k))
         (mkS (s_root s) (upd t (fun _ => Some i) (s_tlock s)) (s_rlock s) (s_closed s) (s_nextw s) (s_actors s))
| S_wlocked tabs wr c rg dn k (Hk : a_kind a = KWriter tabs wr c rg dn) (Hpc : a_pc a = PLocked k) :
    Step s i a (set_pc a (if Nat.ltb (S k) (length (a_locks a)) then PLocking (S k) else PWLocked)) s
| S_wload tabs wr c rg dn (Hk : a_kind a = KWriter tabs wr c rg dn) (Hpc : a_pc a = PWLocked) :
    Step s i a (mkA (a_id a) (a_kind a) PRootLoaded (a_locks a) (s_root s) [] [] (a_cur a)) s
(* apply_writes; an aborting transaction forgets the channels to notify *)
| S_wwrite tabs wr c rg dn es nt nw (Hk : a_kind a = KWriter tabs wr c rg dn) (Hpc : a_pc a = PRootLoaded)
    (Haw : apply_writes (a_id a) wr rg dn (s_nextw s) (a_entries a) = (es, nt, nw)) :
    Step s i a (mkA (a_id a) (a_kind a) (if c then PCommitIdx else PAbortBefore) (a_locks a) es
                    (if c then nt else []) [] (a_cur a))
         (mkS (s_root s) (s_tlock s) (s_rlock s) (s_closed s) nw (s_actors s))
| S_wrlock tabs wr c rg dn (Hk : a_kind a = KWriter tabs wr c rg dn) (Hpc : a_pc a = PCommitIdx)
    (Hrl : s_rlock s = None) :
    Step s i a (set_pc a PRootLocked)
         (mkS (s_root s) (s_tlock s) (Some i) (s_closed s) (s_nextw s) (s_actors s))
| S_wcload tabs wr c rg dn (Hk : a_kind a = KWriter tabs wr c rg dn) (Hpc : a_pc a = PRootLocked) :
    Step s i a (set_cur a PCommitLoaded (s_root s)) s
(* the root store merges into the root LOADED at the previous step (a_cur); the Step case is stated for the
   states in which that is still the current root (all reachable ones: Inv.inv_cur below) *)
| S_wstore tabs wr c rg dn root closing (Hk : a_kind a = KWriter tabs wr c rg dn) (Hpc : a_pc a = PCommitLoaded)
    (Hm : merge_root (a_locks a) (a_entries a) (s_root s) 0 = (root, closing)) (Hcur : a_cur a = s_root s) :
    Step s i a (mkA (a_id a) (a_kind a) PRootStored (a_locks a) root (a_notify a) closing (a_cur a))
         (mkS root (s_tlock s) (s_rlock s) (s_closed s) (s_nextw s) (s_actors s))
| S_wrunlock tabs wr c rg dn (Hk : a_kind a = KWriter tabs wr c rg dn) (Hpc : a_pc a = PRootStored) :
    Step s i a (set_pc a PRootUnlocked)
         (mkS (s_root s) (s_tlock s) None (s_closed s) (s_nextw s) (s_actors s))
| S_wnotify tabs wr c rg dn (Hk : a_kind a = KWriter tabs wr c rg dn) (Hpc : a_pc a = PRootUnlocked) :
    Step s i a (set_pc a PNotified)
         (mkS (s_root s) (s_tlock s) (s_rlock s) (a_notify a ++ s_closed s) (s_nextw s) (s_actors s))
| S_wtunlock tabs wr c rg dn (Hk : a_kind a = KWriter tabs wr c rg dn) (Hpc : a_pc a = PNotified) :
    Step s i a (set_pc a PTabsUnlocked)
         (mkS (s_root s) (unlock_all (a_locks a) (s_tlock s)) (s_rlock s) (s_closed s) (s_nextw s) (s_actors s))
| S_winitclose tabs wr c rg dn (Hk : a_kind a = KWriter tabs wr c rg dn) (Hpc : a_pc a = PTabsUnlocked) :
    Step s i a (set_pc a PInitClosed)
         (mkS (s_root s) (s_tlock s) (s_rlock s) (a_initclose a ++ s_closed s) (s_nextw s) (s_actors s))
| S_wdone tabs wr c rg dn (Hk : a_kind a = KWriter tabs wr c rg dn) (Hpc : a_pc a = PInitClosed) :
    Step s i a (set_pc a PDone) s
| S_wabort tabs wr c rg dn (Hk : a_kind a = KWriter tabs wr c rg dn) (Hpc : a_pc a = PAbortBefore) :
    Step s i a (set_pc a PAbortUnlocked)
         (mkS (s_root s) (unlock_all (a_locks a) (s_tlock s)) (s_rlock s) (s_closed s) (s_nextw s) (s_actors s))
| S_wabortdone tabs wr c rg dn (Hk : a_kind a = KWriter tabs wr c rg dn) (Hpc : a_pc a = PAbortUnlocked) :
    Step s i a (set_pc a PDone) s
| S_rstart (Hk : a_kind a = KRegistrar) (Hpc : a_pc a = PStart) :
    Step s i a (set_pc a PRegBefore) s
| S_rrlock (Hk : a_kind a = KRegistrar) (Hpc : a_pc a = PRegBefore) (Hrl : s_rlock s = None) :
    Step s i a (set_pc a PRegLocked)
         (mkS (s_root s) (s_tlock s) (Some i) (s_closed s) (s_nextw s) (s_actors s))
| S_rcload (Hk : a_kind a = KRegistrar) (Hpc : a_pc a = PRegLocked) :
    Step s i a (set_cur a PRegLoaded (s_root s)) s
| S_rstore (Hk : a_kind a = KRegistrar) (Hpc : a_pc a = PRegLoaded) (Hcur : a_cur a = s_root s) :
    Step s i a (set_pc a PRegStored)
         (mkS (s_root s ++ [mkV [] (s_nextw s) None]) (s_tlock s ++ [None]) (s_rlock s) (s_closed s)
              (s_nextw s + 1)%N (s_actors s))
| S_rrunlock (Hk : a_kind a = KRegistrar) (Hpc : a_pc a = PRegStored) :
    Step s i a (set_pc a PRegUnlocked)
         (mkS (s_root s) (s_tlock s) None (s_closed s) (s_nextw s) (s_actors s))
| S_rdone (Hk : a_kind a = KRegistrar) (Hpc : a_pc a = PRegUnlocked) :
    Step s i a (set_pc a PDone) s.

(* the state after the step: the shared fields of s1, actor i replaced *)
Definition post (s : st) (i : nat) (a' : actor) (s1 : st) : st :=
  mkS (s_root s1) (s_tlock s1) (s_rlock s1) (s_closed s1) (s_nextw s1) (upd i (fun _ => a') (s_actors s)).

(* compute the fields of the actor and state records that the Step cases build *)
Ltac step_simpl :=
  cbn [a_kind a_pc a_locks a_id a_entries a_notify a_initclose a_cur set_pc set_cur
       s_root s_tlock s_rlock s_closed s_nextw s_actors] in *.

Lemma step_spec s i a : nth_error (s_actors s) i = Some a -> enabled s i = true ->
  pc_ok (a_kind a) (a_pc a) = true -> (loaded a = true -> a_cur a = s_root s) ->
  exists a' s1, Step s i a a' s1 /\ step s i = post s i a' s1.
Proof.
  intros Ha He Hok Hcur. unfold step. rewrite He, Ha. cbn [negb].
  unfold enabled in He. rewrite Ha in He. clear Ha.
  destruct a as [id kd p locks ents nts ics cur]. unfold loaded in Hcur. step_simpl.
  (* every pc allowed by pc_ok is the premise of exactly one Step case; the goals come in the order of `pc`, writer
     first: 3 = PLocking, 6 = PRootLoaded, 7 and 18 take the root lock, 9 and 20 store the root *)
  destruct kd as [tabs wr c rg dn|]; destruct p; cbn [pc_ok] in Hok; try discriminate; unfold post, set_actor.
  3: destruct (nth_error locks i0) as [t|] eqn:Hn; [|discriminate];
     destruct (nth_error (s_tlock s) t) as [[h|]|] eqn:Ht; try discriminate.
  6: destruct (apply_writes id wr rg dn (s_nextw s) ents) as [[es nt] nw] eqn:Haw.
  7: destruct (s_rlock s) eqn:Hr; [discriminate|].
  9: specialize (Hcur eq_refl); subst cur; destruct (merge_root locks ents (s_root s) 0) as [root closing] eqn:Hm.
  18: destruct (s_rlock s) eqn:Hr; [discriminate|].
  20: specialize (Hcur eq_refl); subst cur.
  all: do 2 eexists; split; [econstructor; first [reflexivity|eassumption]|step_simpl; try reflexivity].
  destruct c; reflexivity.
Qed.

Lemma Step_same_id {s i a a' s1} : Step s i a a' s1 -> a_id a' = a_id a /\ a_kind a' = a_kind a.
Proof. intros HS. destruct HS; split; reflexivity. Qed.

(* table locks: nothing (a registration adds a free one), or one free table taken, or all held tables freed *)
Lemma Step_held {s i a a' s1} : Step s i a a' s1 ->
  ((s_tlock s1 = s_tlock s \/ s_tlock s1 = s_tlock s ++ [None]) /\ held a' = held a) \/
  (exists t, In t (a_locks a) /\ nth_error (s_tlock s) t = Some None /\
             s_tlock s1 = upd t (fun _ => Some i) (s_tlock s) /\ held a' = held a ++ [t]) \/
  (s_tlock s1 = unlock_all (held a) (s_tlock s) /\ held a' = []).
Proof.
  intros HS. unfold held. destruct HS; step_simpl; rewrite Hpc; auto.
  - left. split; [auto|]. destruct (a_locks a); reflexivity.
  - right; left. exists t. split; [eapply nth_error_In; eauto|]. auto using firstn_S_nth.
  - left. split; [auto|]. destruct (Nat.ltb_spec (S k) (length (a_locks a))); [reflexivity|].
    symmetry. apply firstn_all2. lia.
  - left. destruct c; auto.
Qed.

(* root lock: untouched, or taken while free, or released by its holder *)
Lemma Step_rholds {s i a a' s1} : Step s i a a' s1 ->
  (s_rlock s1 = s_rlock s /\ rholds a' = rholds a) \/
  (s_rlock s = None /\ s_rlock s1 = Some i /\ rholds a' = true) \/
  (rholds a = true /\ s_rlock s1 = None /\ rholds a' = false).
Proof.
  intros HS. unfold rholds. destruct HS; step_simpl; rewrite Hpc; auto.
  - left. destruct (a_locks a); auto.
  - left. destruct (Nat.ltb (S k) (length (a_locks a))); auto.
  - left. destruct c; auto.
Qed.


Definition holds (acts : list actor) (j t : nat) : Prop :=
  exists b, nth_error acts j = Some b /\ In t (held b).
Definition rholder (acts : list actor) (j : nat) : Prop :=
  exists b, nth_error acts j = Some b /\ rholds b = true.

Record Inv (ntab : nat) (s : st) : Prop := mkInv {
  inv_len : length (s_tlock s) = length (s_root s) /\ ntab <= length (s_tlock s);
  inv_ok : forall j b, nth_error (s_actors s) j = Some b -> actor_ok ntab b;
  inv_tl : forall t j, nth_error (s_tlock s) t = Some (Some j) <-> holds (s_actors s) j t;
  inv_rl : forall j, s_rlock s = Some j <-> rholder (s_actors s) j;
  (* the root loaded inside the root lock is still the current root at the store *)
  inv_cur : forall j b, nth_error (s_actors s) j = Some b -> loaded b = true -> a_cur b = s_root s
}.
Arguments inv_len {ntab s}. Arguments inv_ok {ntab s}. Arguments inv_tl {ntab s}. Arguments inv_rl {ntab s}.
Arguments inv_cur {ntab s}.

(* `holds` and `rholder` say that actor j satisfies some P; after actor i is replaced: *)
Lemma actor_upd (P : actor -> Prop) acts i a a' j : nth_error acts i = Some a ->
  (exists b, nth_error (upd i (fun _ => a') acts) j = Some b /\ P b) <->
  (if Nat.eqb j i then P a' else exists b, nth_error acts j = Some b /\ P b).
Proof.
  intros Ha. rewrite nth_error_upd, (Nat.eqb_sym i j).
  destruct (Nat.eqb_spec j i) as [->|Hne]; [|reflexivity].
  rewrite Ha. cbn [option_map]. split.
  - intros [b [Hb Hin]]. injection Hb as <-. exact Hin.
  - intros Hin. exists a'. auto.
Qed.

Lemma actor_self (P : actor -> Prop) acts i a : nth_error acts i = Some a ->
  (exists b, nth_error acts i = Some b /\ P b) <-> P a.
Proof.
  intros Ha. split.
  - intros [b [Hb Hin]]. rewrite Ha in Hb. injection Hb as <-. exact Hin.
  - intros Hin. exists a. auto.
Qed.

Lemma Step_actor_ok ntab s i a a' s1 : Step s i a a' s1 -> actor_ok ntab a -> actor_ok ntab a'.
Proof.
  intros HS [Hw Hp Hl Hi]. unfold locks_ok, idx_ok in *.
  destruct HS; rewrite Hk, Hpc in *; constructor; unfold locks_ok, idx_ok; step_simpl;
    try rewrite Hk; cbn [pc_ok negb] in *; auto.
  all: try (destruct (a_locks a) eqn:E; cbn [length]; first [exact I|assumption|lia|(rewrite Hl; reflexivity)]).
  all: try (destruct (Nat.ltb_spec (S k) (length (a_locks a))); first [exact I|assumption]).
  all: destruct c; first [reflexivity|exact I|exact Hl].
Qed.

Lemma Step_tl ntab s i a a' s1 :
  Inv ntab s -> nth_error (s_actors s) i = Some a -> Step s i a a' s1 ->
  forall t j, nth_error (s_tlock s1) t = Some (Some j) <-> holds (upd i (fun _ => a') (s_actors s)) j t.
Proof.
  intros HI Ha HS t j. unfold holds. rewrite (actor_upd (fun b => In t (held b)) _ _ a) by exact Ha. fold (holds (s_actors s) j t).
  pose proof (inv_tl HI t) as Htl.
  assert (Hself : nth_error (s_tlock s) t = Some (Some i) <-> In t (held a)).
  { rewrite Htl. apply (actor_self (fun b => In t (held b))), Ha. }
  destruct (Step_held HS) as [[Hfr ->]|[(t0&_&Hfree&->&->)|[-> ->]]].
  - (* the old lock table, possibly with one more free lock *)
    assert (E : nth_error (s_tlock s1) t = Some (Some j) <-> nth_error (s_tlock s) t = Some (Some j)).
    { destruct Hfr as [->| ->]; [reflexivity|]. split; [|apply nth_error_app_Some].
      intros H. apply nth_error_snoc in H. destruct H as [H|[_ H]]; [exact H|discriminate]. }
    rewrite E. destruct (Nat.eqb_spec j i) as [->|_]; [exact Hself|apply Htl].
  - (* t0 was free and is now held by i *)
    rewrite nth_error_upd. destruct (Nat.eqb_spec j i) as [->|Hji].
    + rewrite in_app_iff, <- Hself. cbn [In]. destruct (Nat.eqb_spec t0 t) as [->|Hne]; [|intuition congruence].
      rewrite Hfree. cbn [option_map]. tauto.
    + rewrite <- Htl. destruct (Nat.eqb_spec t0 t) as [->|Hne]; [|reflexivity].
      rewrite Hfree. cbn [option_map]. split; intros E; injection E as E; congruence.
  - (* everything i held is free again *)
    rewrite nth_error_unlock. destruct (memb t (held a)) eqn:Hm.
    + apply memb_In, Hself in Hm. rewrite Hm. cbn [option_map In].
      destruct (Nat.eqb_spec j i) as [->|Hji]; [split; [discriminate|tauto]|].
      rewrite <- Htl, Hm. split; intros E; [discriminate|injection E as E; congruence].
    + apply memb_false in Hm. destruct (Nat.eqb_spec j i) as [->|_]; [|apply Htl].
      rewrite Hself. cbn [In]. tauto.
Qed.

Lemma Step_rl ntab s i a a' s1 :
  Inv ntab s -> nth_error (s_actors s) i = Some a -> Step s i a a' s1 ->
  forall j, s_rlock s1 = Some j <-> rholder (upd i (fun _ => a') (s_actors s)) j.
Proof.
  intros HI Ha HS j. unfold rholder. rewrite (actor_upd (fun b => rholds b = true) _ _ a) by exact Ha. fold (rholder (s_actors s) j).
  pose proof (inv_rl HI) as Hrl.
  assert (Hself : s_rlock s = Some i <-> rholds a = true).
  { rewrite Hrl. apply (actor_self (fun b => rholds b = true)), Ha. }
  destruct (Step_rholds HS) as [[-> ->]|[(Hn& -> & ->)|(Hh& -> & ->)]];
    (destruct (Nat.eqb_spec j i) as [->|Hne]; [|rewrite <- Hrl]).
  - exact Hself.
  - reflexivity.
  - tauto.
  - rewrite Hn. split; intros E; [injection E as E|]; congruence.
  - split; discriminate.
  - apply Hself in Hh. rewrite Hh. split; intros E; [discriminate|injection E as E; congruence].
Qed.

Lemma merge_root_length : forall cur locks es i, length (fst (merge_root locks es cur i)) = length cur.
Proof.
  induction cur as [|c cr IH]; intros locks es i; cbn [merge_root]; [reflexivity|].
  specialize (IH locks (tl es) (S i)).
  destruct (merge_root locks (tl es) cr (S i)) as [rest closing]. cbn [fst] in IH.
  destruct es as [|e es']; [cbn [fst length]; congruence|].
  destruct (memb i locks); [|cbn [fst length]; congruence].
  destruct (tv_init e) as [[w [|n p]]|]; cbn [fst length]; congruence.
Qed.

Lemma Step_len ntab s i a a' s1 :
  Inv ntab s -> Step s i a a' s1 -> length (s_tlock s1) = length (s_root s1) /\ ntab <= length (s_tlock s1).
Proof.
  intros HI HS. destruct (inv_len HI) as [Hl Hn].
  destruct HS; step_simpl; auto.
  - rewrite length_upd. auto.
  - rewrite <- (merge_root_length (s_root s) (a_locks a) (a_entries a) 0), Hm in Hl. auto.
  - rewrite length_unlock. auto.
  - rewrite length_unlock. auto.
  - rewrite !app_length. cbn [length]. lia.
Qed.

Lemma loaded_rholds a : loaded a = true -> rholds a = true.
Proof. unfold loaded, rholds. destruct (a_pc a); congruence. Qed.

(* the root loaded inside the root lock stays the current root: the only steps that change the root are the
   stores of the root-lock holder itself *)
Lemma Step_cur ntab s i a a' s1 :
  Inv ntab s -> nth_error (s_actors s) i = Some a -> Step s i a a' s1 ->
  forall j b, nth_error (upd i (fun _ => a') (s_actors s)) j = Some b -> loaded b = true -> a_cur b = s_root s1.
Proof.
  intros HI Ha HS j b. rewrite nth_error_upd. destruct (Nat.eqb_spec i j) as [->|Hne].
  - rewrite Ha. cbn [option_map]. intros Hb. injection Hb as <-. unfold loaded.
    destruct HS; step_simpl; try discriminate; try reflexivity.
    + destruct (a_locks a); discriminate.
    + destruct (Nat.ltb (S k) (length (a_locks a))); discriminate.
    + destruct c; discriminate.
  - intros Hb Hld. rewrite (inv_cur HI _ _ Hb Hld).
    assert (Hexcl : rholds a = false).
    { destruct (rholds a) eqn:Hra; [|reflexivity]. elim Hne.
      assert (H1 : s_rlock s = Some i) by (apply (inv_rl HI); exists a; auto).
      assert (H2 : s_rlock s = Some j) by (apply (inv_rl HI); exists b; auto using loaded_rholds).
      congruence. }
    unfold rholds in Hexcl. destruct HS; try reflexivity; rewrite Hpc in Hexcl; discriminate.
Qed.

(* every enabled micro-step of a state satisfying Inv is one of the Step cases *)
Lemma Inv_step_spec ntab s i : Inv ntab s -> enabled s i = true ->
  exists a a' s1, nth_error (s_actors s) i = Some a /\ Step s i a a' s1 /\ step s i = post s i a' s1.
Proof.
  intros HI He. assert (Ha : exists a, nth_error (s_actors s) i = Some a).
  { unfold enabled in He. destruct (nth_error (s_actors s) i) as [a|]; [eauto|discriminate]. }
  destruct Ha as [a Ha].
  destruct (step_spec s i a Ha He (ok_pc (inv_ok HI _ _ Ha)) (inv_cur HI _ _ Ha)) as (a'&s1&HS&E).
  exists a, a', s1. auto.
Qed.

Lemma step_cases ntab s i : Inv ntab s ->
  step s i = s \/
  exists a a' s1, nth_error (s_actors s) i = Some a /\ Step s i a a' s1 /\ step s i = post s i a' s1.
Proof.
  intros HI. destruct (enabled s i) eqn:He; [right; apply (Inv_step_spec ntab), He; exact HI|left; apply step_disabled, He].
Qed.

Theorem Inv_step ntab s i : Inv ntab s -> Inv ntab (step s i).
Proof.
  intros HI. destruct (step_cases ntab s i HI) as [->|(a&a'&s1&Ha&HS&->)]; [exact HI|].
  constructor; unfold post; cbn [s_root s_tlock s_rlock s_closed s_nextw s_actors].
  - eapply Step_len; eauto.
  - intros j b. rewrite nth_error_upd. destruct (Nat.eqb_spec i j) as [->|Hne]; [|apply (inv_ok HI)].
    rewrite Ha. cbn [option_map]. intros Hb. injection Hb as <-.
    eapply Step_actor_ok; [exact HS|]. eapply inv_ok; eauto.
  - eapply Step_tl; eauto.
  - eapply Step_rl; eauto.
  - eapply Step_cur; eauto.
Qed.

(* well-formed actor lists: every table index a writer mentions exists from the start *)
Definition wf_actors (ntab : nat) (actors : list (N * kind)) : Prop :=
  forall ik, In ik actors -> wf_kind ntab (snd ik).

(* every actor of the initial state is at PStart with empty private fields *)
Lemma init_actor {ntab actors j b} : nth_error (s_actors (init_st ntab actors)) j = Some b ->
  exists ik, In ik actors /\ b = mkA (fst ik) (snd ik) PStart [] [] [] [] [].
Proof. intros Hb. apply nth_error_In, in_map_iff in Hb. destruct Hb as [ik [<- Hin]]. eauto. Qed.

Theorem Inv_init ntab actors : wf_actors ntab actors -> Inv ntab (init_st ntab actors).
Proof.
  intros Hwf. constructor.
  - cbn [init_st s_root s_tlock]. rewrite repeat_length, map_length, seq_length. auto.
  - intros j b Hb. destruct (init_actor Hb) as [[id k] [Hin ->]].
    constructor; [apply (Hwf _ Hin)|destruct k; reflexivity|destruct k; reflexivity|exact I].
  - intros t j. split.
    + intros H. apply nth_error_In, repeat_spec in H. discriminate.
    + intros [b [Hb Hin]]. destruct (init_actor Hb) as [ik [_ ->]]. destruct Hin.
  - intros j. split; [discriminate|].
    intros [b [Hb Hr]]. destruct (init_actor Hb) as [ik [_ ->]]. discriminate.
  - intros j b Hb. destruct (init_actor Hb) as [ik [_ ->]]. discriminate.
Qed.

Theorem Inv_run ntab sched : forall s, Inv ntab s -> Inv ntab (run s sched).
Proof. apply run_inv. intros s i. apply Inv_step. Qed.

Theorem Inv_reachable ntab actors sched : wf_actors ntab actors -> Inv ntab (run (init_st ntab actors) sched).
Proof. intros H. apply Inv_run. apply Inv_init. exact H. Qed.

(* mutual exclusion: a table is held by at most one actor *)
Theorem mutual_exclusion ntab {s i j a b t} : Inv ntab s ->
  nth_error (s_actors s) i = Some a -> nth_error (s_actors s) j = Some b ->
  In t (held a) -> In t (held b) -> i = j.
Proof.
  intros HI Ha Hb Hta Htb.
  assert (H1 : nth_error (s_tlock s) t = Some (Some i)) by (apply (inv_tl HI); exists a; auto).
  assert (H2 : nth_error (s_tlock s) t = Some (Some j)) by (apply (inv_tl HI); exists b; auto).
  congruence.
Qed.

Theorem root_lock_exclusive ntab s i j a b : Inv ntab s ->
  nth_error (s_actors s) i = Some a -> nth_error (s_actors s) j = Some b ->
  rholds a = true -> rholds b = true -> i = j.
Proof.
  intros HI Ha Hb Hta Htb.
  assert (H1 : s_rlock s = Some i) by (apply (inv_rl HI); exists a; auto).
  assert (H2 : s_rlock s = Some j) by (apply (inv_rl HI); exists b; auto).
  congruence.
Qed.

(* an actor holding the root lock is not at a lock-acquiring pc (db.mu is a leaf lock) *)
Theorem root_holder_not_acquiring a : rholds a = true -> acquiring a = false.
Proof. unfold rholds, acquiring. destruct (a_pc a); congruence. Qed.

(* the root-lock holder's next step is always enabled *)
Lemma rholds_enabled s i a : nth_error (s_actors s) i = Some a -> rholds a = true -> enabled s i = true.
Proof. intros Ha Hr. unfold enabled. rewrite Ha. unfold rholds in Hr. destruct (a_pc a); congruence. Qed.

(* while an actor is between its root load inside the root lock and its root store, the root it loaded is the
   current root, and it holds the root lock *)
Theorem loaded_root_is_current ntab {s i a} : Inv ntab s ->
  nth_error (s_actors s) i = Some a -> a_pc a = PCommitLoaded \/ a_pc a = PRegLoaded ->
  a_cur a = s_root s /\ s_rlock s = Some i.
Proof.
  intros HI Ha Hp.
  assert (Hld : loaded a = true) by (unfold loaded; destruct Hp as [-> | ->]; reflexivity).
  split; [apply (inv_cur HI _ _ Ha Hld)|].
  apply (inv_rl HI). exists a. split; [exact Ha|apply loaded_rholds; exact Hld].
Qed.
