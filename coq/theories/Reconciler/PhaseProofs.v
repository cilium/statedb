(* Reconciler/PhaseProofs.v — the change-stream phase of a round (incremental.go single) keeps the cover
   invariant for arbitrary operation outcomes and arbitrary user writes from inside the operations. *)
From Coq Require Import List NArith Bool Lia ZifyN ZifyBool.
From SV Require Import Reconciler.Retries Reconciler.Model Reconciler.RetriesProofs Reconciler.CommitProofs
  Reconciler.RoundProofs Reconciler.CoverProofs Reconciler.StepProofs Reconciler.TableWf Reconciler.StreamProofs.
Import ListNotations.
Open Scope N_scope.

(* ghost: a Delete (single or batch) of key pk for its deletion at revision rev has succeeded *)
Definition is_del_op (op : N) : bool := (op =? 1) || (op =? 3).
Definition Dlog (e : env) (pk rev : N) : Prop :=
  exists c, In c (e_calls e) /\ is_del_op (cl_op c) = true /\ cl_pk c = pk /\ cl_rev c = rev /\ cl_ok c = true.

Lemma covered_D_mono : forall (D D' : N -> N -> Prop) t c res q pk,
  (forall p r, D p r -> D' p r) -> covered D t c res q pk -> covered D' t c res q pk.
Proof. intros D D' t c res q pk H. apply covered_weaken; auto using N.le_refl. Qed.

Lemma covered_res_mono : forall D t c res res' q pk,
  (forall r, In r res -> In r res') -> covered D t c res q pk -> covered D t c res' q pk.
Proof. intros D t c res res' q pk H. apply covered_weaken; auto using N.le_refl. Qed.

(* moving the cursor forward: fine for every key whose slot is not in the skipped interval, or is taken
   care of by a result / a delete retry / D *)
Lemma cov_advance : forall D T cur c' res q pk, cur <= c' ->
  covered D T cur res q pk ->
  (forall sl, slot_of T pk = Some sl -> cur < slot_rev sl -> slot_rev sl <= c' ->
     match sl with
     | Live o r => is_pending o = true -> res_covers res pk o r
     | Dead o r => item_covers q pk true r \/ D pk r
     end) ->
  covered D T c' res q pk.
Proof.
  intros D T cur c' res q pk Hle Hc H. unfold covered in *.
  destruct (slot_of T pk) as [[o r|o r]|]; [| |exact I].
  - destruct (o_kind o) eqn:Ek; try exact Hc.
    + destruct Hc as [A|A]; [|right; exact A]. destruct (N.lt_ge_cases c' r) as [L|L]; [left; exact L|].
      right. apply (H (Live o r) eq_refl A L). unfold is_pending. rewrite Ek. reflexivity.
    + destruct Hc as [A|A]; [|right; exact A]. destruct (N.lt_ge_cases c' r) as [L|L]; [left; exact L|].
      right. apply (H (Live o r) eq_refl A L). unfold is_pending. rewrite Ek. reflexivity.
  - destruct Hc as [A|A]; [|right; exact A]. destruct (N.lt_ge_cases c' r) as [L|L]; [left; exact L|].
    right. apply (H (Dead o r) eq_refl A L).
Qed.

Lemma clear_idem : forall q k, r_clear (r_clear q k) k = r_clear q k.
Proof.
  intros q k. unfold r_clear at 1. rewrite clear_items, find_item_remove_same. reflexivity.
Qed.
Lemma no_item_after_clear : forall q k, find_item k (q_items (r_clear q k)) = None.
Proof. intros. rewrite clear_items. apply find_item_remove_same. Qed.

(* retries.Clear(k) when the stream delivers a change of k *)
Lemma cov_clear : forall D T c res q k pk,
  covered D T c res q pk ->
  (pk = k -> forall sl, slot_of T k = Some sl ->
     match sl with Live o _ => o_kind o <> Error | Dead _ r => c < r \/ D k r end) ->
  covered D T c res (r_clear q k) pk.
Proof.
  intros D T c res q k pk Hc H. destruct (N.eq_dec pk k) as [->|E]; [|revert Hc; apply covered_q_other, find_clear_other, E].
  specialize (H eq_refl). unfold covered in *. destruct (slot_of T k) as [[o r|o r]|]; [| |exact I].
  - specialize (H _ eq_refl). cbn in H. destruct (o_kind o); try exact Hc. congruence.
  - destruct (H _ eq_refl) as [A|A]; [left; exact A|right; right; exact A].
Qed.

(* a failed Delete of (k, rev) is queued: the pending-delete ghost can be dropped *)
Lemma cov_add_del : forall (D : N -> N -> Prop) T c res q o rev orig now pk,
  (forall it, find_item (o_pk o) (q_items q) = Some it -> ri_inq it = false) ->
  covered (fun p r => D p r \/ (p = o_pk o /\ r = rev)) T c res q pk ->
  covered D T c res (r_add q o rev orig true now) pk.
Proof.
  intros D T c res q o rev orig now pk Hno Hc. destruct (N.eq_dec pk (o_pk o)) as [->|E].
  - unfold covered in *. destruct (slot_of T (o_pk o)) as [[o' r|o' r]|]; [| |exact I].
    + destruct (o_kind o'); try exact Hc.
      destruct Hc as [[i [A [_ [B _]]]]|A]; [rewrite (Hno i A) in B; discriminate|right; exact A].
    + destruct Hc as [A|[[i [A [_ [_ B]]]]|[A|[_ A]]]]; [left; exact A|rewrite (Hno i A) in B; discriminate|right; right; exact A|].
      subst r. right. left.
      destruct (add_item_spec q o rev orig true now) as [it [I1 [_ [I3 [_ [I5 [I6 _]]]]]]].
      exists it. repeat split; assumption.
  - apply (covered_q_other _ _ _ _ q); [apply add_other, E|]. revert Hc. apply covered_weaken; auto using N.le_refl.
    intros rv [A|[A _]]; [exact A|contradiction].
Qed.

Lemma Dlog_mono : forall e e' l, e_calls e' = e_calls e ++ l -> forall p r, Dlog e p r -> Dlog e' p r.
Proof.
  intros e e' l H p r [c [A B]]. exists c. split; [rewrite H; apply in_or_app; left; exact A|exact B].
Qed.

Definition res_pks (res : list opres) : list N := map (fun r => o_pk (r_obj r)) res.

(* loop invariant of the change-stream phase: snapshot snap, current env e, queue q, results res,
   cursor cur, remaining stream chs *)
Record phase_inv (D : N -> N -> Prop) (snap : table) (e : env) (q : retries) (res : list opres) (cur : N) (chs : list change) : Prop := {
  pi_twf : twf (e_tab e);
  pi_twfs : twf snap;
  pi_snap : snap_rel snap (e_tab e);
  pi_stream : stream_ok snap cur chs;
  pi_cur : cur <= t_rev snap;
  pi_uniq : uniq q;
  pi_past : forall it, In it (q_items q) -> ri_orig it <= t_rev (e_tab e) /\ ri_rev it <= t_rev (e_tab e);
  pi_nd : NoDup (res_pks res);
  pi_disj : forall ch, In ch chs -> ~ In (ch_pk ch) (res_pks res);
  pi_rpast : forall r, In r res -> r_orig r <= t_rev snap /\ r_rev r <= t_rev snap;
  pi_cov : forall pk, covered D (e_tab e) cur res q pk
}.

Definition curs (c0 lastrev : N) : N := if lastrev =? 0 then c0 else lastrev.

(* the head of the stream is the only slot of the current table with a revision in (cur, c_rev head] *)
Lemma interval_head : forall snap t cur ch rest pk sl, twf snap -> snap_rel snap t -> stream_ok snap cur (ch :: rest) ->
  slot_of t pk = Some sl -> cur < slot_rev sl -> slot_rev sl <= c_rev ch -> pk = ch_pk ch /\ slot_change sl = ch.
Proof.
  intros snap t cur ch rest pk sl W [R1 [R2 R3]] S Hs Hlt Hle.
  pose proof S as [_ [_ [S3 _]]]. destruct (S3 ch (or_introl eq_refl)) as [sl0 [A B]].
  pose proof W as [_ [W2 _]]. destruct (W2 _ _ A) as [_ [_ P3]].
  assert (R : c_rev ch = slot_rev sl0) by (rewrite <- B, slot_change_rev; reflexivity).
  assert (Hsn : slot_of snap pk = Some sl) by (apply R2; [exact Hs|lia]).
  apply (stream_head_unique snap cur ch rest pk sl W S Hsn Hlt Hle).
Qed.

Section Step.
Variables (D : N -> N -> Prop) (snap : table) (e : env) (q : retries) (res : list opres) (cur : N) (ch : change) (rest : list change).
Hypothesis INV : phase_inv D snap e q res cur (ch :: rest).

Let k := ch_pk ch.

Lemma step_head_slot : exists sl0, slot_of snap k = Some sl0 /\ slot_change sl0 = ch /\
  0 < c_rev ch /\ c_rev ch <= t_rev snap /\ cur < c_rev ch /\ o_pk (c_obj ch) = k.
Proof.
  destruct INV. destruct pi_stream0 as [A [B [C [Dx E]]]].
  destruct (C ch (or_introl eq_refl)) as [sl0 [S0 S1]]. exists sl0. split; [exact S0|split; [exact S1|]].
  destruct pi_twfs0 as [_ [W2 _]]. destruct (W2 _ _ S0) as [P1 [P2 P3]].
  assert (R : c_rev ch = slot_rev sl0) by (rewrite <- S1, slot_change_rev; reflexivity).
  specialize (E ch (or_introl eq_refl)).
  split; [lia|]. split; [lia|]. split; [exact E|reflexivity].
Qed.

(* a current slot with revision in (cur, c_rev ch] is the head's snapshot slot *)
Lemma step_interval : forall pk sl, slot_of (e_tab e) pk = Some sl -> cur < slot_rev sl -> slot_rev sl <= c_rev ch ->
  pk = k /\ slot_change sl = ch.
Proof.
  intros pk sl. destruct INV. apply (interval_head snap (e_tab e) cur ch rest pk sl); assumption.
Qed.

(* a current slot of key k that is not the head's snapshot slot was written after the snapshot *)
Lemma step_self_newer : forall sl sl0, slot_of (e_tab e) k = Some sl -> slot_of snap k = Some sl0 -> sl <> sl0 ->
  t_rev snap < slot_rev sl.
Proof.
  intros sl sl0 Hs H0 Hne. destruct INV. destruct pi_snap0 as [R1 [R2 R3]].
  destruct (N.lt_ge_cases (t_rev snap) (slot_rev sl)) as [L|L]; [exact L|].
  exfalso. apply Hne. specialize (R2 k sl Hs L). congruence.
Qed.

Lemma step_rest_inv : forall D' e' q' res',
  twf (e_tab e') -> snap_rel snap (e_tab e') -> uniq q' ->
  (forall it, In it (q_items q') -> ri_orig it <= t_rev (e_tab e') /\ ri_rev it <= t_rev (e_tab e')) ->
  NoDup (res_pks res') -> (forall p, In p (res_pks res') -> In p (res_pks res) \/ p = k) ->
  (forall r, In r res' -> r_orig r <= t_rev snap /\ r_rev r <= t_rev snap) ->
  (forall pk, covered D' (e_tab e') (c_rev ch) res' q' pk) ->
  phase_inv D' snap e' q' res' (c_rev ch) rest.
Proof.
  intros D' e' q' res' A B C D0 E F G H. destruct step_head_slot as [sl0 [S0 [S1 [P0 [P1 [P2 P3]]]]]].
  pose proof INV as [I1 I2 I3 I4 I5 I6 I7 I8 I9 I10 I11].
  constructor; try assumption.
  - apply (stream_tail snap cur ch rest I2 I4).
  - intros d Hd Hin. destruct (F _ Hin) as [X|X].
    + apply (I9 d (or_intror Hd) X).
    + destruct I4 as [N1 _]. cbn [map] in N1. inversion N1 as [|x xs Hx Hr]; subst. apply Hx. fold k. rewrite <- X. apply in_map. exact Hd.
Qed.
End Step.

Lemma nodup_snoc : forall (l : list N) x, NoDup l -> ~ In x l -> NoDup (l ++ [x]).
Proof.
  induction l as [|a r IH]; intros x Hn Hx; cbn [app].
  - constructor; [intros []|constructor].
  - inversion Hn as [|y ys Hy Hr]; subst. constructor.
    + intro Hin. apply in_app_or in Hin. destruct Hin as [Hin|[Hin|[]]]; [contradiction|]. apply Hx. left. symmetry. exact Hin.
    + apply IH; [exact Hr|intro Hin; apply Hx; right; exact Hin].
Qed.

Lemma clear_in : forall q k it, In it (q_items (r_clear q k)) -> In it (q_items q) /\ ri_pk it <> k.
Proof. intros q k it H. rewrite clear_items in H. apply in_remove_item in H. exact H. Qed.
Lemma in_clear_items : forall q k it, In it (q_items (r_clear q k)) -> In it (q_items q).
Proof. intros q k it H. apply (clear_in q k it H). Qed.

Lemma step_skip : forall D snap e q res cur ch rest,
  phase_inv D snap e q res cur (ch :: rest) -> c_del ch = false -> is_pending (c_obj ch) = false ->
  phase_inv D snap e q res (c_rev ch) rest.
Proof.
  intros D snap e q res cur ch rest INV Hd Hp.
  destruct (step_head_slot _ _ _ _ _ _ _ _ INV) as [sl0 [S0 [S1 [P0 [P1 [P2 P3]]]]]].
  pose proof INV as [I1 I2 I3 I4 I5 I6 I7 I8 I9 I10 I11].
  apply (step_rest_inv D snap e q res cur ch rest INV D); try assumption.
  - intros p Hp'. left. exact Hp'.
  - intro pk. apply (cov_advance _ _ cur); [lia|apply I11|].
    intros sl Hs Hlt Hle. destruct (step_interval _ _ _ _ _ _ _ _ INV pk sl Hs Hlt Hle) as [K SC].
    destruct sl as [o r|o r]; rewrite <- SC in *; cbn in *; [congruence|discriminate].
Qed.

Lemma phase_inv_D_mono : forall (D D' : N -> N -> Prop) snap e q res cur chs,
  (forall p r, D p r -> D' p r) -> phase_inv D snap e q res cur chs -> phase_inv D' snap e q res cur chs.
Proof.
  intros D D' snap e q res cur chs H [I1 I2 I3 I4 I5 I6 I7 I8 I9 I10 I11].
  constructor; try assumption. intro pk. apply (covered_D_mono D); [exact H|apply I11].
Qed.

(* what every scripted call adds to the ghost: the log grows, and a successful Delete is in it *)
Lemma do_call_Dlog : forall e snap fresh op o rev e1 ok, do_call e snap fresh op o rev = (e1, ok) ->
  (forall p r, Dlog e p r -> Dlog e1 p r) /\ (is_del_op op = true -> ok = true -> Dlog e1 (o_pk o) rev).
Proof.
  intros e snap fresh op o rev e1 ok H. destruct (do_call_log _ _ _ _ _ _ _ _ H) as [cl [LC [L1 [L2 [L3 L4]]]]].
  split; [exact (Dlog_mono e e1 [cl] LC)|]. intros Hd Hok. exists cl.
  split; [rewrite LC; apply in_or_app; right; left; reflexivity|]. rewrite L1, L2, L3, L4. auto.
Qed.

(* the stream delivers a Pending/Refreshing object: retries.Clear, and its result (whatever the outcome b) is recorded *)
Lemma collect_upd : forall D snap e q res cur ch rest b,
  phase_inv D snap e q res cur (ch :: rest) -> c_del ch = false -> is_pending (c_obj ch) = true ->
  phase_inv D snap e (r_clear q (ch_pk ch))
            (res ++ [mkRes (c_obj ch) (c_rev ch) (c_rev ch) (o_sid (c_obj ch)) b]) (c_rev ch) rest.
Proof.
  intros D snap e q res cur ch rest b INV Hd Hp.
  destruct (step_head_slot _ _ _ _ _ _ _ _ INV) as [sl0 [S0 [S1 [P0 [P1 [P2 P3]]]]]].
  pose proof INV as [I1 I2 I3 I4 I5 I6 I7 I8 I9 I10 I11].
  set (k := ch_pk ch) in *.
  set (r := mkRes (c_obj ch) (c_rev ch) (c_rev ch) (o_sid (c_obj ch)) b) in *.
  assert (Hsl0 : sl0 = Live (c_obj ch) (c_rev ch)).
  { destruct sl0 as [o0 r0|o0 r0]; rewrite <- S1 in *; cbn in *; [reflexivity|discriminate]. }
  apply (step_rest_inv D snap e q res cur ch rest INV D); try assumption.
  - apply uniq_clear. exact I6.
  - intros it Hin. apply in_clear_items in Hin. apply I7. exact Hin.
  - unfold res_pks. rewrite map_app. cbn [map]. apply nodup_snoc; [exact I8|]. apply (I9 ch). left. reflexivity.
  - intros p Hp'. unfold res_pks in Hp'. rewrite map_app in Hp'. apply in_app_or in Hp'.
    destruct Hp' as [X|[X|[]]]; [left; exact X|right; symmetry; exact X].
  - intros x Hx. apply in_app_or in Hx. destruct Hx as [Hx|[Hx|[]]]; [apply I10; exact Hx|subst x; cbn; split; exact P1].
  - intro pk. apply cov_clear.
    + apply (cov_advance _ _ cur); [lia| |].
      * apply (covered_res_mono _ _ _ res); [intros x Hx; apply in_or_app; left; exact Hx|apply I11].
      * intros sl Hs Hlt Hle. destruct (step_interval _ _ _ _ _ _ _ _ INV pk sl Hs Hlt Hle) as [K SC].
        destruct sl as [o r0|o r0].
        -- intros _. exists r. split; [apply in_or_app; right; left; reflexivity|]. split; [cbn; rewrite K; reflexivity|].
           left. cbn. rewrite <- SC. reflexivity.
        -- rewrite <- SC in Hd. discriminate.
    + intros Ek sl Hs. destruct sl as [o r0|o r0].
      * intro He. destruct I3 as [_ [_ R3]]. destruct (R3 k o r0 Hs He) as [o' [r' [X Y]]].
        rewrite S0, Hsl0 in X. injection X as X1 X2. subst o'. unfold is_pending in Hp. rewrite Y in Hp. discriminate.
      * left. assert (Hne : Dead o r0 <> sl0) by (rewrite Hsl0; discriminate).
        pose proof (step_self_newer _ _ _ _ _ _ _ _ INV (Dead o r0) sl0 Hs S0 Hne) as L. cbn in L. lia.
Qed.

(* the stream delivers a deletion: retries.Clear, and the ghost takes the deletion until its Delete is called *)
Lemma collect_del : forall (D : N -> N -> Prop) snap e q res cur ch rest,
  phase_inv D snap e q res cur (ch :: rest) -> c_del ch = true ->
  phase_inv (fun p r => D p r \/ (p = ch_pk ch /\ r = c_rev ch)) snap e (r_clear q (ch_pk ch)) res (c_rev ch) rest.
Proof.
  intros D snap e q res cur ch rest INV Hd.
  destruct (step_head_slot _ _ _ _ _ _ _ _ INV) as [sl0 [S0 [S1 [P0 [P1 [P2 P3]]]]]].
  pose proof INV as [I1 I2 I3 I4 I5 I6 I7 I8 I9 I10 I11].
  set (k := ch_pk ch) in *.
  assert (Hsl0 : sl0 = Dead (c_obj ch) (c_rev ch)).
  { destruct sl0 as [o0 r0|o0 r0]; rewrite <- S1 in *; cbn in *; [discriminate|reflexivity]. }
  apply (step_rest_inv D snap e q res cur ch rest INV); try assumption.
  - apply uniq_clear. exact I6.
  - intros it Hin. apply in_clear_items in Hin. apply I7. exact Hin.
  - intros p Hp'. left. exact Hp'.
  - intro pk. apply cov_clear.
    + apply (cov_advance _ _ cur); [lia| |].
      * apply (covered_D_mono D); [intros p r0 X; left; exact X|apply I11].
      * intros sl Hs Hlt Hle. destruct (step_interval _ _ _ _ _ _ _ _ INV pk sl Hs Hlt Hle) as [K SC].
        destruct sl as [o r0|o r0].
        -- rewrite <- SC in Hd. discriminate.
        -- right. right. split; [exact K|]. rewrite <- SC. reflexivity.
    + intros Ek sl Hs. destruct sl as [o r0|o r0].
      * intro He. destruct I3 as [_ [_ R3]]. destruct (R3 k o r0 Hs He) as [o' [r' [X Y]]].
        rewrite S0, Hsl0 in X. discriminate.
      * destruct (N.lt_ge_cases (t_rev snap) r0) as [L|L]; [left; lia|].
        right. right. split; [reflexivity|].
        destruct I3 as [_ [R2 _]]. specialize (R2 k (Dead o r0) Hs L). rewrite S0, Hsl0 in R2. injection R2 as X1 X2. symmetry. exact X2.
Qed.

Lemma le2_mono : forall a b x y, x <= a /\ y <= a -> a <= b -> x <= b /\ y <= b.
Proof. lia. Qed.

(* a scripted call (with whatever its hooks write) keeps the invariant *)
Lemma call_inv : forall D snap e q res cur chs fresh op o rev e' ok,
  phase_inv D snap e q res cur chs -> do_call e snap fresh op o rev = (e', ok) ->
  phase_inv D snap e' q res cur chs.
Proof.
  intros D snap e q res cur chs fresh op o rev e' ok [I1 I2 I3 I4 I5 I6 I7 I8 I9 I10 I11] Ec.
  pose proof (do_call_wstep _ _ _ _ _ _ _ _ (twf_keyed _ I1) Ec) as WS.
  assert (W1 : wstate D (e_tab e') cur res q).
  { replace e' with (fst (do_call e snap fresh op o rev)) by (rewrite Ec; reflexivity). apply do_call_wstate.
    split; [apply twf_keyed; exact I1|]. split; [destruct I3 as [R1 _]; lia|exact I11]. }
  constructor; try assumption.
  - apply (wstep_twf _ _ WS I1).
  - apply (wstep_snap_rel _ _ _ WS I1 I3).
  - intros it Hin. apply (le2_mono _ _ _ _ (I7 it Hin) (wstep_rev _ _ WS)).
  - apply W1.
Qed.

(* a Delete of (o, rev) whose deletion the ghost carries: after the call the ghost keeps it only if the call
   succeeded (then it is in the log); a failed one is queued *)
Lemma delete_outcome : forall (D : N -> N -> Prop) snap e q res cur chs fresh op o rev orig e1 ok,
  phase_inv (fun p r => D p r \/ (p = o_pk o /\ r = rev)) snap e q res cur chs ->
  do_call e snap fresh op o rev = (e1, ok) ->
  (forall it, find_item (o_pk o) (q_items q) = Some it -> ri_inq it = false) ->
  orig <= t_rev snap -> rev <= t_rev snap ->
  phase_inv (fun p r => D p r \/ (ok = true /\ p = o_pk o /\ r = rev)) snap e1
            (if ok then q else r_add q o rev orig true (e_now e1)) res cur chs.
Proof.
  intros D snap e q res cur chs fresh op o rev orig e1 ok PH Ec Hno Ho Hr.
  pose proof (call_inv _ _ _ _ _ _ _ _ _ _ _ _ _ PH Ec) as PH1. destruct ok.
  - revert PH1. apply phase_inv_D_mono. tauto.
  - destruct PH1 as [I1 I2 I3 I4 I5 I6 I7 I8 I9 I10 I11]. constructor; try assumption.
    + apply uniq_add. exact I6.
    + intros it Hin. rewrite add_items in Hin. apply in_put_item in Hin. destruct Hin as [->|Hin]; [|apply I7; exact Hin].
      cbn. destruct I3 as [R1 _]. split; lia.
    + intro pk. apply (covered_D_mono D); [tauto|]. apply cov_add_del; [exact Hno|apply I11].
Qed.

Lemma step_update : forall snap e q res cur ch rest e' q' res',
  phase_inv (Dlog e) snap e q res cur (ch :: rest) -> c_del ch = false -> is_pending (c_obj ch) = true ->
  process_single e snap true (r_clear q (ch_pk ch)) res (c_obj ch) (c_rev ch) (c_rev ch) false = (e', q', res') ->
  phase_inv (Dlog e') snap e' q' res' (c_rev ch) rest.
Proof.
  intros snap e q res cur ch rest e' q' res' INV Hd Hp H. unfold process_single in H.
  destruct (do_call e snap true 0 (c_obj ch) (c_rev ch)) as [e1 ok] eqn:Ec. injection H as <- <- <-.
  pose proof (call_inv _ _ _ _ _ _ _ _ _ _ _ _ _ (collect_upd _ _ _ _ _ _ _ _ ok INV Hd Hp) Ec) as PH.
  apply (phase_inv_D_mono (Dlog e)); [apply (do_call_Dlog _ _ _ _ _ _ _ _ Ec)|].
  destruct ok; [|exact PH]. unfold ch_pk. rewrite clear_idem. exact PH.
Qed.

Lemma step_delete : forall snap e q res cur ch rest e' q' res',
  phase_inv (Dlog e) snap e q res cur (ch :: rest) -> c_del ch = true ->
  process_single e snap true (r_clear q (ch_pk ch)) res (c_obj ch) (c_rev ch) (c_rev ch) true = (e', q', res') ->
  phase_inv (Dlog e') snap e' q' res' (c_rev ch) rest.
Proof.
  intros snap e q res cur ch rest e' q' res' INV Hd H. unfold process_single in H.
  destruct (step_head_slot _ _ _ _ _ _ _ _ INV) as [sl0 [_ [_ [_ [P1 _]]]]].
  destruct (do_call e snap true 1 (c_obj ch) (c_rev ch)) as [e1 ok] eqn:Ec.
  destruct (do_call_Dlog _ _ _ _ _ _ _ _ Ec) as [DM DL].
  assert (PH : phase_inv (fun p r => Dlog e p r \/ (ok = true /\ p = ch_pk ch /\ r = c_rev ch)) snap e1
                 (if ok then r_clear q (ch_pk ch) else r_add (r_clear q (ch_pk ch)) (c_obj ch) (c_rev ch) (c_rev ch) true (e_now e1))
                 res (c_rev ch) rest).
  { apply (delete_outcome _ _ _ _ _ _ _ _ _ _ _ _ _ _ (collect_del _ _ _ _ _ _ _ _ INV Hd) Ec); try exact P1.
    intros it Hit. rewrite no_item_after_clear in Hit. discriminate. }
  apply (phase_inv_D_mono _ (Dlog e1)) in PH; [|intros p r [X|[X1 [-> ->]]]; [exact (DM p r X)|exact (DL eq_refl X1)]].
  destruct ok; injection H as <- <- <-; [unfold ch_pk; rewrite clear_idem|]; exact PH.
Qed.

(* incremental.go single over the whole stream (any round size, any outcomes, any writes from inside) *)
Theorem single_inv : forall chs rs snap c0 e q res nrec lastrev e' q' res' nrec' lastrev',
  phase_inv (Dlog e) snap e q res (curs c0 lastrev) chs ->
  single rs snap chs e q res nrec lastrev = (e', q', res', nrec', lastrev') ->
  exists chs', phase_inv (Dlog e') snap e' q' res' (curs c0 lastrev') chs'.
Proof.
  induction chs as [|ch rest IH]; intros rs snap c0 e q res nrec lastrev e' q' res' nrec' lastrev' INV H; cbn [single] in H.
  - injection H as H1 H2 H3 H4 H5. subst. exists []. exact INV.
  - destruct (step_head_slot _ _ _ _ _ _ _ _ INV) as [sl0 [S0 [S1 [P0 [P1 [P2 P3]]]]]].
    assert (CU : curs c0 (c_rev ch) = c_rev ch).
    { unfold curs. destruct (c_rev ch =? 0) eqn:E; [apply N.eqb_eq in E; lia|reflexivity]. }
    destruct (negb (c_del ch) && negb (is_pending (c_obj ch))) eqn:Esk.
    + apply andb_prop in Esk. destruct Esk as [E1 E2]. apply negb_true_iff in E1. apply negb_true_iff in E2.
      apply (IH rs snap c0 e q res nrec (c_rev ch) e' q' res' nrec' lastrev'); [rewrite CU; apply (step_skip _ _ _ _ _ _ _ _ INV E1 E2)|exact H].
    + destruct (process_single e snap true (r_clear q (o_pk (c_obj ch))) res (c_obj ch) (c_rev ch) (c_rev ch) (c_del ch))
        as [[e1 q1] res1] eqn:Ep.
      assert (INV1 : phase_inv (Dlog e1) snap e1 q1 res1 (c_rev ch) rest).
      { destruct (c_del ch) eqn:Ed.
        - apply (step_delete _ _ _ _ _ _ _ _ _ _ INV Ed Ep).
        - cbn [negb andb] in Esk. apply negb_false_iff in Esk. apply (step_update _ _ _ _ _ _ _ _ _ _ INV Ed Esk Ep). }
      destruct (rs <=? nrec + 1).
      * injection H as H1 H2 H3 H4 H5. subst. exists rest. rewrite CU. exact INV1.
      * apply (IH rs snap c0 e1 q1 res1 (nrec + 1) (c_rev ch) e' q' res' nrec' lastrev'); [rewrite CU; exact INV1|exact H].
Qed.
