(* Reconciler/Refresh.v — the write of the refresher (reconciler/reconciler.go refreshLoop).

   In Model.v a refresh is the atomic user write `w_ref` (kind 5 of do_write): a live Done object gets status
   Refreshing with a fresh id.  The real refresher is a concurrent loop: it iterates a READ snapshot in
   revision order and, for a Done object (obj, rev) older than the refresh interval, opens a write
   transaction, re-reads the object and only `if ok && rev == newRev` inserts the clone of the RE-READ object
   with StatusRefreshing().  Between the snapshot and the write transaction arbitrary writes (user writes,
   status commits of the reconciler) may have been committed.

   Here: one refresher action as coded (`refresh_write`), on the CURRENT table, for a pair (o, rev) the
   refresher saw in an earlier snapshot `snap`:
   (a) key untouched since the snapshot  => the write is exactly the model's `ref` write;
   (b) key written or deleted meanwhile   => nothing is written;
   (c) in all cases only a status changes (same statuses-erased table, deleted/absent keys untouched, other
       keys untouched);
   (d) Refreshing is written only over the very object seen in the snapshot, still Done — never over a
       Pending/Refreshing/Error object, hence never over an object with a queued update retry;
   and the variant without the revision check (`refresh_write_nocheck`) refuted by a concrete run of the model; the variant
   that checks against a stale revision (`refresh_write_stale`) is refuted in Properties/C15.v.

   Which objects the refresher picks and when (UpdatedAt, RefreshInterval, the rate limiter, lastRevision) is the
   subject of Sweep.v; here (o, rev) is ANY Done object of ANY earlier snapshot. *)
From Coq Require Import List NArith Bool Lia ZifyN ZifyBool.
From SV Require Import Reconciler.Retries Reconciler.Model Reconciler.RetriesProofs Reconciler.CommitProofs
  Reconciler.RoundProofs Reconciler.CoverProofs Reconciler.StepProofs Reconciler.TableWf Reconciler.StreamProofs
  Reconciler.PhaseProofs Reconciler.BatchProofs Reconciler.RoundInv Reconciler.Runs Reconciler.Progress
  Reconciler.Converge Reconciler.StatusOnly Reconciler.ItemsInv.
Import ListNotations.
Open Scope N_scope.

(* reconciler.go refreshLoop, the body of `if status.Kind == StatusKindDone`:
     wtxn := r.DB.WriteTxn(table)
     obj, newRev, ok := table.Get(wtxn, indexer.QueryFromObject(obj))
     if ok && rev == newRev { table.Insert(wtxn, SetObjectStatus(CloneObject(obj), StatusRefreshing())) }
     wtxn.Commit()
   t is the table the write transaction sees; (o, rev) come from the earlier read snapshot *)
Definition refresh_write (t : table) (o : obj) (rev : N) : table :=
  match t_live t (o_pk o) with
  | Some (cur, r) =>
    if r =? rev then let (t1, id) := t_fresh_id t in t_insert t1 (with_status cur Refreshing id) else t
  | None => t
  end.

(* what the refresher saw: a live Done object with its revision in a snapshot *)
Definition refresher_saw (snap : table) (o : obj) (rev : N) : Prop :=
  t_live snap (o_pk o) = Some (o, rev) /\ o_kind o = Done.

(* seeded variant A: the revision check is made on a READ transaction `chk` taken before the write
   transaction, and the OLD object (of the snapshot) is then inserted unconditionally *)
Definition refresh_write_stale (chk t : table) (o : obj) (rev : N) : table :=
  match t_live chk (o_pk o) with
  | Some (_, r) =>
    if r =? rev then let (t1, id) := t_fresh_id t in t_insert t1 (with_status o Refreshing id) else t
  | None => t
  end.

(* seeded variant B: `if ok` — the revision comparison is dropped *)
Definition refresh_write_nocheck (t : table) (o : obj) : table :=
  match t_live t (o_pk o) with
  | Some (cur, _) => let (t1, id) := t_fresh_id t in t_insert t1 (with_status cur Refreshing id)
  | None => t
  end.

Lemma refresh_write_eq : forall t o rev, refresh_write t o rev =
  match t_live t (o_pk o) with
  | Some (cur, r) => if r =? rev then t_insert (fst (t_fresh_id t)) (with_status cur Refreshing (t_nextid t)) else t
  | None => t
  end.
Proof. reflexivity. Qed.

(* any sequence of committed write transactions on the table: id draws, inserts of ANY object (user writes,
   foreign status writes, the reconciler's own status commits, other refreshes), deletes *)
Inductive tstep : table -> table -> Prop :=
| tt_refl : forall t, tstep t t
| tt_id : forall t, tstep t (fst (t_fresh_id t))
| tt_ins : forall t o, tstep t (t_insert t o)
| tt_del : forall t k, tstep t (t_delete t k)
| tt_init : forall t, tstep t (mkTable (t_slots t) (t_rev t) (t_nextid t) false)   (* initializer completion *)
| tt_trans : forall t1 t2 t3, tstep t1 t2 -> tstep t2 t3 -> tstep t1 t3.

Lemma tstep_twf : forall t t', tstep t t' -> twf t -> twf t'.
Proof.
  intros t t' H. induction H; intro W.
  - exact W.
  - apply (twf_ext t); [reflexivity|reflexivity|exact W].
  - rewrite t_insert_tset. apply twf_tset; [exact W|reflexivity|reflexivity].
  - destruct (t_delete_cases t k) as [[o [r [A B]]]|[_ B]]; rewrite B; [|exact W].
    apply twf_tset; [exact W| |reflexivity]. destruct W as [_ [W2 _]]. destruct (W2 k _ A) as [X _]. exact X.
  - apply (twf_ext t); [reflexivity|reflexivity|exact W].
  - auto.
Qed.

Lemma tstep_rev : forall t t', tstep t t' -> t_rev t <= t_rev t'.
Proof.
  intros t t' H. induction H; try (cbn; lia).
  pose proof (t_rev_delete t k). lia.
Qed.

(* a write that first draws a fresh status id *)
Lemma tt_id_ins : forall t o, tstep t (t_insert (fst (t_fresh_id t)) o).
Proof. intros t o. apply (tt_trans _ (fst (t_fresh_id t))); [apply tt_id|apply tt_ins]. Qed.

Lemma wstep_tstep : forall t t', wstep t t' -> tstep t t'.
Proof.
  intros t t' H. induction H.
  - apply tt_refl.
  - apply tt_id.
  - apply tt_ins.
  - apply tt_del.
  - apply (tt_trans _ t2); assumption.
Qed.

Lemma ustep_tstep : forall t t', ustep t t' -> tstep t t'.
Proof.
  intros t t' H. induction H.
  - apply tt_refl.
  - apply tt_id_ins.
  - apply tt_ins.
  - apply tt_del.
  - apply (tt_trans _ t2); assumption.
Qed.

Lemma do_write_table_step : forall e kind k, tstep (e_tab e) (e_tab (do_write e kind k)).
Proof. intros. apply ustep_tstep. apply do_write_ustep. Qed.

(* one iteration of commitStatus, a whole commitStatus *)
Lemma commit_one_tstep : forall fixed efb now t q r t' q',
  commit_one fixed efb now (t, q) r = (t', q') -> tstep t t'.
Proof.
  intros fixed efb now t q r t' q' H.
  destruct (commit_one_outcomes _ _ _ _ _ _ _ _ H) as [[A _]|[[cur [_ [A _]]]|[cur [rv [_ [_ [_ [A _]]]]]]]]; subst t'.
  - apply tt_id.
  - apply tt_id_ins.
  - apply tt_id_ins.
Qed.

Lemma commit_status_tstep : forall fixed efb now res t q t' q',
  commit_status_gen fixed efb now t q res = (t', q') -> tstep t t'.
Proof.
  intros fixed efb now res. unfold commit_status_gen. induction res as [|r rest IH]; intros t q t' q' H.
  - cbn in H. injection H as H1 H2. subst. apply tt_refl.
  - cbn [fold_left] in H. destruct (commit_one fixed efb now (t, q) r) as [t1 q1] eqn:E1.
    apply (tt_trans _ t1); [apply (commit_one_tstep _ _ _ _ _ _ _ _ E1)|apply (IH _ _ _ _ H)].
Qed.

(* the refresher's own write is such a step *)
Lemma refresh_write_tstep : forall t o rev, tstep t (refresh_write t o rev).
Proof.
  intros t o rev. rewrite refresh_write_eq. destruct (t_live t (o_pk o)) as [[cur r]|]; [|apply tt_refl].
  destruct (r =? rev); [apply tt_id_ins|apply tt_refl].
Qed.

(* under table well-formedness: whatever was committed in between, a key's slot is either exactly as it was
   or carries a revision above the snapshot's table revision (a write gives the key a strictly larger
   revision; a delete turns the live slot into a graveyard entry at a strictly larger revision) *)
Lemma tstep_slot : forall t t', tstep t t' -> twf t -> forall k,
  slot_of t' k = slot_of t k \/ exists sl, slot_of t' k = Some sl /\ t_rev t < slot_rev sl.
Proof.
  intros t t' H. induction H; intros W k0.
  - left. reflexivity.
  - left. apply slot_fresh.
  - destruct (N.eq_dec k0 (o_pk o)) as [E|E].
    + right. subst k0. exists (Live o (t_rev t + 1)). split; [apply slot_insert_same|cbn [slot_rev]; lia].
    + left. apply slot_insert_other. exact E.
  - destruct (t_delete_cases t k) as [[o [r [A B]]]|[_ B]]; rewrite B; [|left; reflexivity].
    destruct (N.eq_dec k0 k) as [E|E].
    + right. subst k0. exists (Dead o (t_rev t + 1)). split; [apply slot_tset_same|cbn [slot_rev]; lia].
    + left. apply slot_tset_other. exact E.
  - left. reflexivity.
  - pose proof (tstep_twf _ _ H W) as W2. pose proof (tstep_rev _ _ H) as M.
    destruct (IHtstep2 W2 k0) as [A|[sl [A B]]].
    + rewrite A. apply (IHtstep1 W k0).
    + right. exists sl. split; [exact A|lia].
Qed.

Lemma live_of_slot_eq : forall t t' k, slot_of t' k = slot_of t k -> t_live t' k = t_live t k.
Proof. intros t t' k H. unfold t_live. unfold slot_of in H. rewrite H. reflexivity. Qed.

(* the two situations the write transaction can find, for a pair (o, rev) read from an earlier snapshot *)
Lemma refresh_cases : forall snap t o rev, twf snap -> tstep snap t ->
  t_live snap (o_pk o) = Some (o, rev) ->
  (slot_of t (o_pk o) = slot_of snap (o_pk o) /\ t_live t (o_pk o) = Some (o, rev)) \/
  (slot_of t (o_pk o) <> slot_of snap (o_pk o) /\
   forall cur r, t_live t (o_pk o) = Some (cur, r) -> rev < r).
Proof.
  intros snap t o rev W S HL.
  assert (Hs : slot_of snap (o_pk o) = Some (Live o rev)) by (apply t_live_slot; exact HL).
  assert (Hr : rev <= t_rev snap).
  { destruct W as [_ [W2 _]]. destruct (W2 _ _ Hs) as [_ [_ X]]. exact X. }
  destruct (tstep_slot _ _ S W (o_pk o)) as [A|[sl [A B]]].
  - left. split; [exact A|]. rewrite (live_of_slot_eq _ _ _ A). exact HL.
  - right. split.
    + rewrite A, Hs. intro X. injection X as X. subst sl. cbn [slot_rev] in B. lia.
    + intros cur r Hc. apply t_live_slot in Hc. rewrite A in Hc. injection Hc as Hc. subst sl. cbn [slot_rev] in B. lia.
Qed.

(* (a) untouched key: exactly the model's ref *)
Theorem refresh_write_unchanged_is_ref : forall snap e o rev,
  refresher_saw snap o rev ->
  slot_of (e_tab e) (o_pk o) = slot_of snap (o_pk o) ->
  refresh_write (e_tab e) o rev = e_tab (do_write e 5 (o_pk o)).
Proof.
  intros snap e o rev [HL HK] A.
  change (do_write e 5 (o_pk o)) with (w_ref e (o_pk o)).
  pose proof (live_of_slot_eq _ _ _ A) as L. rewrite HL in L.
  rewrite refresh_write_eq. unfold w_ref. rewrite L, N.eqb_refl, HK. unfold t_fresh_id. reflexivity.
Qed.

(* (b) written meanwhile: nothing *)
Theorem refresh_write_changed_is_nothing : forall snap t o rev, twf snap -> tstep snap t ->
  t_live snap (o_pk o) = Some (o, rev) ->
  slot_of t (o_pk o) <> slot_of snap (o_pk o) ->
  refresh_write t o rev = t.
Proof.
  intros snap t o rev W S HL Hne.
  destruct (refresh_cases _ _ _ _ W S HL) as [[A _]|[_ B]]; [contradiction|].
  rewrite refresh_write_eq. destruct (t_live t (o_pk o)) as [[cur r]|] eqn:E; [|reflexivity].
  pose proof (B cur r eq_refl) as X. destruct (r =? rev) eqn:Er; [|reflexivity]. apply N.eqb_eq in Er. lia.
Qed.

(* the two elementary instances: a write to the key, a delete of the key *)
Corollary refresh_after_insert_is_nothing : forall snap o rev x, twf snap ->
  t_live snap (o_pk o) = Some (o, rev) -> o_pk x = o_pk o ->
  refresh_write (t_insert snap x) o rev = t_insert snap x.
Proof.
  intros snap o rev x W HL Hk. apply (refresh_write_changed_is_nothing snap); [exact W|apply tt_ins|exact HL|].
  rewrite <- Hk, slot_insert_same, Hk. apply t_live_slot in HL. rewrite HL. intro X. injection X as _ X.
  destruct W as [_ [W2 _]]. destruct (W2 _ _ HL) as [_ [_ Y]]. cbn [slot_rev] in Y. lia.
Qed.
Corollary refresh_after_delete_is_nothing : forall snap o rev, twf snap ->
  t_live snap (o_pk o) = Some (o, rev) ->
  refresh_write (t_delete snap (o_pk o)) o rev = t_delete snap (o_pk o) /\
  t_live (t_delete snap (o_pk o)) (o_pk o) = None.
Proof.
  intros snap o rev W HL. pose proof HL as Hs. apply t_live_slot in Hs.
  pose proof (slot_delete_same _ _ _ _ Hs) as D.
  assert (N0 : t_live (t_delete snap (o_pk o)) (o_pk o) = None).
  { unfold t_live. unfold slot_of in D. rewrite D. reflexivity. }
  split; [|exact N0]. rewrite refresh_write_eq, N0. reflexivity.
Qed.

(* (a) + (b): the refresher's write is the model's atomic `ref` write on the current table, or nothing *)
Theorem refresher_write_is_ref_or_nothing : forall snap e o rev, twf snap -> tstep snap (e_tab e) ->
  refresher_saw snap o rev ->
  (slot_of (e_tab e) (o_pk o) = slot_of snap (o_pk o) /\
   refresh_write (e_tab e) o rev = e_tab (do_write e 5 (o_pk o))) \/
  (slot_of (e_tab e) (o_pk o) <> slot_of snap (o_pk o) /\
   refresh_write (e_tab e) o rev = e_tab e).
Proof.
  intros snap e o rev W S Saw. pose proof Saw as [HL HK].
  destruct (refresh_cases _ _ _ _ W S HL) as [[A _]|[A _]].
  - left. split; [exact A|]. apply (refresh_write_unchanged_is_ref snap); assumption.
  - right. split; [exact A|]. apply (refresh_write_changed_is_nothing snap); assumption.
Qed.

(* unconditionally in (o, rev) — whatever the refresher believes it saw —: same statuses-erased table (payload
   version and foreign data of every live object, None for deleted ones, same keys in the same order),
   deleted/absent keys exactly as they were, every other key exactly as it was, table still well-formed *)
Theorem refresh_write_status_only : forall t o rev, keyed t ->
  status_only t (refresh_write t o rev) /\
  (forall k, k <> o_pk o -> slot_of (refresh_write t o rev) k = slot_of t k).
Proof.
  intros t o rev K. rewrite refresh_write_eq.
  assert (Same : status_only t t /\ (forall k, k <> o_pk o -> slot_of t k = slot_of t k))
    by (split; [split; [reflexivity|intros; reflexivity]|intros; reflexivity]).
  destruct (t_live t (o_pk o)) as [[cur r]|] eqn:E; [|exact Same].
  destruct (r =? rev); [|exact Same]. clear Same.
  assert (Kc : o_pk cur = o_pk o) by (apply (K _ cur r); apply t_live_slot; exact E).
  assert (O : forall k, k <> o_pk o ->
    slot_of (t_insert (fst (t_fresh_id t)) (with_status cur Refreshing (t_nextid t))) k = slot_of t k).
  { intros k Hk. rewrite slot_insert_other by (cbn [with_status o_pk]; rewrite Kc; exact Hk). apply slot_fresh. }
  split; [split|exact O].
  - rewrite (erase_insert _ _ cur r); [apply erase_fresh| |reflexivity|reflexivity].
    cbn [with_status o_pk]. rewrite live_fresh, Kc. exact E.
  - intros k NL. apply O. intro X. subst k. unfold not_live in NL. apply t_live_slot in E. rewrite E in NL. exact NL.
Qed.

Corollary refresh_write_erase : forall t o rev, keyed t -> erase (refresh_write t o rev) = erase t.
Proof. intros t o rev K. destruct (refresh_write_status_only t o rev K) as [[A _] _]. exact A. Qed.

Corollary refresh_write_payload : forall t o rev, keyed t -> forall k, payload (refresh_write t o rev) k = payload t k.
Proof. intros t o rev K. apply erase_payload. apply refresh_write_erase. exact K. Qed.

Lemma refresh_write_twf : forall t o rev, twf t -> twf (refresh_write t o rev).
Proof. intros t o rev W. apply (tstep_twf t); [apply refresh_write_tstep|exact W]. Qed.

(* if the refresher writes at all, the table still held the very object of the snapshot at the snapshot's
   revision (a Done object), and the result is that object with status Refreshing, a fresh id and the next
   revision *)
Theorem refresh_write_only_over_seen : forall snap t o rev, twf snap -> tstep snap t ->
  refresher_saw snap o rev ->
  refresh_write t o rev <> t ->
  t_live t (o_pk o) = Some (o, rev) /\ o_kind o = Done /\
  t_live (refresh_write t o rev) (o_pk o) = Some (with_status o Refreshing (t_nextid t), t_rev t + 1).
Proof.
  intros snap t o rev W S [HL HK] Hne.
  destruct (refresh_cases _ _ _ _ W S HL) as [[_ A]|[A _]].
  - split; [exact A|]. split; [exact HK|].
    rewrite refresh_write_eq, A, N.eqb_refl.
    exact (live_insert_same (fst (t_fresh_id t)) (with_status o Refreshing (t_nextid t))).
  - exfalso. apply Hne. apply (refresh_write_changed_is_nothing snap); assumption.
Qed.

(* never over an object that is not Done: Pending, Refreshing or Error objects are left alone *)
Theorem refresh_write_not_over_other_status : forall snap t o rev cur r, twf snap -> tstep snap t ->
  refresher_saw snap o rev ->
  t_live t (o_pk o) = Some (cur, r) -> o_kind cur <> Done ->
  refresh_write t o rev = t.
Proof.
  intros snap t o rev cur r W S [HL HK] Hc Hk.
  destruct (refresh_cases _ _ _ _ W S HL) as [[_ A]|[A _]].
  - rewrite A in Hc. injection Hc as Hc _. subst cur. contradiction.
  - apply (refresh_write_changed_is_nothing snap); assumption.
Qed.

Corollary refresh_write_not_over_error : forall snap t o rev, twf snap -> tstep snap t ->
  refresher_saw snap o rev -> err_live t (o_pk o) -> refresh_write t o rev = t.
Proof.
  intros snap t o rev W S Saw [cur [r [A B]]]. apply t_live_slot in A.
  apply (refresh_write_not_over_other_status snap t o rev cur r); try assumption. rewrite B. discriminate.
Qed.

(* hence, in every reachable state of the reconciler: an object with an UPDATE retry item (queued, or popped
   and awaiting its re-queue) is not touched by the refresher — such an object carries our Error status, or
   is Pending/Refreshing/deleted ahead of the change cursor; the retry keeps its backoff *)
Theorem refresher_leaves_queued_retries_alone : forall cf e s snap o rev it, reach cf (e, s) ->
  twf snap -> tstep snap (e_tab e) -> refresher_saw snap o rev ->
  In it (q_items (k_ret s)) -> ri_del it = false -> ri_pk it = o_pk o ->
  refresh_write (e_tab e) o rev = e_tab e.
Proof.
  intros cf e s snap o rev it R W S Saw Hin Hd Hk.
  pose proof (reach_items_inv cf (e, s) R it Hin) as X. cbn [fst snd] in X. unfold item_ok in X. rewrite Hk in X.
  destruct X as [[sl [A [_ B]]]|[[_ A]|[[_ [_ [_ A]]]|[_ [_ [r [[] _]]]]]]].
  - destruct sl as [cur r|cur r].
    + apply t_live_slot in A. apply (refresh_write_not_over_other_status snap _ o rev cur r); try assumption.
      cbn [slot_act] in B. unfold is_pending in B. intro X. rewrite X in B. discriminate.
    + rewrite refresh_write_eq. unfold t_live. unfold slot_of in A. rewrite A. reflexivity.
  - congruence.
  - apply (refresh_write_not_over_error snap); assumption.
Qed.

(* st' is a later state of the run than st: environment steps (user writes of every kind, time, faults,
   hooks, ...) and reconciler rounds *)
Inductive later (cf : cfg) (st : env * rstate) : env * rstate -> Prop :=
| lt_refl : later cf st st
| lt_env : forall st' st'', later cf st st' -> estep st' st'' -> later cf st st''
| lt_round : forall e s, later cf st (e, s) -> later cf st (round cf e s).

Lemma later_reach : forall cf st st', reach cf st -> later cf st st' -> reach cf st'.
Proof.
  intros cf st st' R L. induction L.
  - exact R.
  - apply (reach_env cf st'); assumption.
  - apply reach_round. exact IHL.
Qed.

Lemma reach_twf : forall cf st, reach cf st -> twf (e_tab (fst st)).
Proof. intros cf st R. destruct (nothing_forgotten cf st R) as [[[W _] _] _]. exact W. Qed.

Lemma estep_tstep : forall st st', estep st st' -> tstep (e_tab (fst st)) (e_tab (fst st')).
Proof.
  intros st st' H. destruct H; cbn [fst]; try apply tt_refl.
  - apply do_write_table_step.
  - apply tt_init.
Qed.

Lemma user_writes_tstep : forall K t t', user_writes_in K t t' -> tstep t t'.
Proof. intros K t t' H. apply ustep_tstep. apply (user_writes_ustep K). exact H. Qed.

(* a whole round: user writes from hooks, a commitStatus, user writes from hooks, a commitStatus *)
Lemma round_tstep : forall cf st, reach cf st ->
  tstep (e_tab (fst st)) (e_tab (fst (round cf (fst st) (snd st)))).
Proof.
  intros cf st R. destruct (round cf (fst st) (snd st)) as [e' s'] eqn:HR.
  destruct (round_commits_change_only_statuses cf st R e' s' HR) as [U1 [_ [U3 _]]].
  destruct (round_trace_spec cf (fst st) (snd st)) as [_ [C1 [C2 [T2 _]]]].
  rewrite HR in T2. cbn [fst] in T2. cbn [fst]. rewrite T2.
  apply (tt_trans _ (e_tab (tr_e1 (round_trace cf (fst st) (snd st))))); [apply (user_writes_tstep _ _ _ U1)|].
  apply (tt_trans _ (tr_t1 (round_trace cf (fst st) (snd st)))); [apply (commit_status_tstep _ _ _ _ _ _ _ _ C1)|].
  apply (tt_trans _ (e_tab (tr_e3 (round_trace cf (fst st) (snd st))))); [apply (user_writes_tstep _ _ _ U3)|].
  apply (commit_status_tstep _ _ _ _ _ _ _ _ C2).
Qed.

Lemma later_tstep : forall cf st st', reach cf st -> later cf st st' -> tstep (e_tab (fst st)) (e_tab (fst st')).
Proof.
  intros cf st st' R L. induction L.
  - apply tt_refl.
  - apply (tt_trans _ (e_tab (fst st'))); [exact IHL|apply estep_tstep; assumption].
  - apply (tt_trans _ (e_tab e)); [exact IHL|].
    apply (round_tstep cf (e, s)). apply (later_reach cf st); assumption.
Qed.

(* The refresher reads (o, rev) — a Done object — from the table of ANY reachable state st and commits its
   write transaction in ANY later state st' of the run (single or batch mode, any faults, any user writes
   and rounds in between).  Then its write is the model's `ref` write applied at st' — an environment step of
   the model, so the resulting state is again a reachable state — or nothing at all; and it is the `ref` write
   only if the key still holds the object seen. *)
Theorem refresher_in_runs : forall cf st st' o rev, reach cf st -> later cf st st' ->
  refresher_saw (e_tab (fst st)) o rev ->
  (t_live (e_tab (fst st')) (o_pk o) = Some (o, rev) /\
   refresh_write (e_tab (fst st')) o rev = e_tab (do_write (fst st') 5 (o_pk o)) /\
   reach cf (do_write (fst st') 5 (o_pk o), snd st')) \/
  (slot_of (e_tab (fst st')) (o_pk o) <> slot_of (e_tab (fst st)) (o_pk o) /\
   refresh_write (e_tab (fst st')) o rev = e_tab (fst st')).
Proof.
  intros cf st st' o rev R L Saw.
  pose proof (reach_twf cf st R) as W. pose proof (later_tstep cf st st' R L) as S.
  destruct (refresher_write_is_ref_or_nothing _ (fst st') o rev W S Saw) as [[A B]|[A B]].
  - left. split; [rewrite (live_of_slot_eq _ _ _ A); apply Saw|]. split; [exact B|].
    apply (reach_env cf st'); [apply (later_reach cf st); assumption|].
    destruct st' as [e' s']. cbn [fst snd]. apply es_write.
  - right. split; assumption.
Qed.

(* a run of the model: put key 1, the reconciler settles: payload version 1, Done at revision 2.  The
   refresher's snapshot. *)
Definition rf_cf : cfg := mkCfg false 10 10 40 0 false.
Definition rf_st0 : env * rstate := settle 50 rf_cf (do_write (env0 rf_cf) 0 1) (rstate0 rf_cf).
Definition rf_snap : table := e_tab (fst rf_st0).
Definition rf_o : obj := mkObj 1 1 Done 2 0.
Definition rf_rev : N := 2.
(* meanwhile: the user updates the object (payload version 2) / deletes it *)
Definition rf_upd : table := e_tab (do_write (fst rf_st0) 0 1).
Definition rf_del : table := e_tab (do_write (fst rf_st0) 1 1).
(* meanwhile: the user updates the object and its Update fails twice (time 0, time 20): status Error,
   retry item with numRetries 2 queued for time 60 *)
Definition rf_st1 : env * rstate :=
  let e := add_fault (add_fault (add_fault (do_write (fst rf_st0) 0 1) 1 1) 1 2) 1 3 in
  let '(e, s) := settle 50 rf_cf e (snd rf_st0) in advance 10 50 rf_cf e s 20.
Definition rf_err : table := e_tab (fst rf_st1).
(* what the reconciler does next, up to time 39, when the table is t *)
Definition rf_next (t : table) : env * rstate :=
  let '(e, s) := settle 50 rf_cf (set_tab (clear_calls (fst rf_st1)) t) (snd rf_st1) in advance 10 50 rf_cf e s 39.
Definition calls_of (e : env) : list (N * N * N * bool) := map (fun c => (cl_t c, cl_op c, cl_pk c, cl_ok c)) (e_calls e).
Definition items_of (s : rstate) : list (N * N * N) := map (fun i => (ri_pk i, ri_at i, ri_n i)) (q_items (k_ret s)).

Lemma rf_reach0 : reach rf_cf rf_st0.
Proof. unfold rf_st0. apply reach_settle. apply (reach_env rf_cf (env0 rf_cf, rstate0 rf_cf)); [apply reach_init|apply es_write]. Qed.

Lemma later_settle : forall fuel cf st e s, later cf st (e, s) -> later cf st (settle fuel cf e s).
Proof.
  unfold settle. induction fuel as [|f IH]; intros cf st e s L; cbn [settle_gen]; [exact L|].
  destruct (trigger_ready cf e s); [|exact L].
  change (round_gen true true cf e s) with (round cf e s).
  destruct (round cf e s) as [e' s'] eqn:E. apply IH. rewrite <- E. apply lt_round. exact L.
Qed.

Lemma later_advance : forall fuel sfuel cf st e s until, later cf st (e, s) -> later cf st (advance fuel sfuel cf e s until).
Proof.
  unfold advance. induction fuel as [|f IH]; intros sfuel cf st e s until L; cbn [advance_gen].
  - apply (lt_env cf st (e, s)); [exact L|apply es_time].
  - destruct (next_event cf e s until) as [t|].
    + change (settle_gen true true sfuel cf (set_now e (N.max t (e_now e))) s)
        with (settle sfuel cf (set_now e (N.max t (e_now e))) s).
      destruct (settle sfuel cf (set_now e (N.max t (e_now e))) s) as [e' s'] eqn:E.
      apply IH. rewrite <- E. apply later_settle. apply (lt_env cf st (e, s)); [exact L|apply es_time].
    + apply (lt_env cf st (e, s)); [exact L|apply es_time].
Qed.

Lemma rf_later1 : later rf_cf rf_st0 rf_st1.
Proof.
  unfold rf_st1.
  set (e0 := add_fault (add_fault (add_fault (do_write (fst rf_st0) 0 1) 1 1) 1 2) 1 3).
  assert (L0 : later rf_cf rf_st0 (e0, snd rf_st0)).
  { unfold e0. destruct rf_st0 as [e s] eqn:E0. cbn [fst snd].
    apply (lt_env rf_cf _ (add_fault (add_fault (do_write e 0 1) 1 1) 1 2, s)); [|apply es_fault].
    apply (lt_env rf_cf _ (add_fault (do_write e 0 1) 1 1, s)); [|apply es_fault].
    apply (lt_env rf_cf _ (do_write e 0 1, s)); [|apply es_fault].
    apply (lt_env rf_cf _ (e, s)); [apply lt_refl|apply es_write]. }
  pose proof (later_settle 50 rf_cf rf_st0 e0 (snd rf_st0) L0) as L1.
  destruct (settle 50 rf_cf e0 (snd rf_st0)) as [e1 s1]. apply later_advance. exact L1.
Qed.

Lemma rf_reach1 : reach rf_cf rf_st1.
Proof. exact (later_reach _ _ _ rf_reach0 rf_later1). Qed.

Example rf_saw : refresher_saw rf_snap rf_o rf_rev /\ twf rf_snap /\ tstep rf_snap rf_upd /\ tstep rf_snap rf_del.
Proof.
  split; [split; vm_compute; reflexivity|]. split; [apply (reach_twf rf_cf rf_st0 rf_reach0)|].
  split; apply do_write_table_step.
Qed.

(* variant B overwrites the Error status although a retry item is queued for time 60 (numRetries 2): Update
   is called again immediately (time 20, not 60) and, failing, is re-queued with numRetries 1 for time 40 —
   the backoff is reset.  With the code as it is nothing is written and (up to time 39, the horizon of
   rf_next) nothing is called: the item stays queued for time 60 with numRetries 2. *)
Theorem refresh_no_revision_check_refuted :
  refresher_saw rf_snap rf_o rf_rev /\
  t_live rf_err 1 = Some (mkObj 1 2 Error 5 0, 5) /\
  e_now (fst rf_st1) = 20 /\ items_of (snd rf_st1) = [(1, 60, 2)] /\
  t_live (refresh_write_nocheck rf_err rf_o) 1 = Some (mkObj 1 2 Refreshing 6 0, 6) /\
  refresh_write rf_err rf_o rf_rev = rf_err /\
  calls_of (fst (rf_next rf_err)) = [] /\ items_of (snd (rf_next rf_err)) = [(1, 60, 2)] /\
  calls_of (fst (rf_next (refresh_write_nocheck rf_err rf_o))) = [(20, 0, 1, false)] /\
  items_of (snd (rf_next (refresh_write_nocheck rf_err rf_o))) = [(1, 40, 1)].
Proof. split; [split; vm_compute; reflexivity|]. repeat split; vm_compute; reflexivity. Qed.

(* (a): after an unrelated write (put key 2) the slot of key 1 is as in the snapshot and the refresher's write
   is the ref write: key 1 becomes Refreshing (kind code 1) with its payload version 1.
   (b): after the user's update of key 1 the slot differs. *)
Example rf_unchanged_and_changed :
  (let e := do_write (fst rf_st0) 0 2 in
   tstep rf_snap (e_tab e) /\ slot_of (e_tab e) 1 = slot_of rf_snap 1 /\
   live_objs (refresh_write (e_tab e) rf_o rf_rev) = [(1, 1, 1); (2, 2, 0)] /\
   refresh_write (e_tab e) rf_o rf_rev <> e_tab e) /\
  slot_of rf_upd 1 <> slot_of rf_snap 1 /\ slot_of rf_del 1 <> slot_of rf_snap 1.
Proof.
  split; [split; [apply do_write_table_step|split; [vm_compute; reflexivity|split; [vm_compute; reflexivity|]]]|].
  - intro X. apply (f_equal t_rev) in X. vm_compute in X. discriminate.
  - split; vm_compute; discriminate.
Qed.

(* (d): the state with the queued retry (numRetries 2, time 60) is a reachable state later than the
   snapshot's state, its key carries our Error status; the refresher's pair (rf_o, 2) is from the snapshot *)
Example rf_retry_state :
  reach rf_cf rf_st0 /\ later rf_cf rf_st0 rf_st1 /\ reach rf_cf rf_st1 /\ tstep rf_snap rf_err /\ err_live rf_err 1 /\
  (exists it, In it (q_items (k_ret (snd rf_st1))) /\ ri_del it = false /\ ri_pk it = o_pk rf_o /\ ri_inq it = true).
Proof.
  split; [exact rf_reach0|]. split; [exact rf_later1|]. split; [exact rf_reach1|].
  split; [apply (later_tstep rf_cf rf_st0 rf_st1 rf_reach0 rf_later1)|]. split.
  - exists (mkObj 1 2 Error 5 0), 5. split; vm_compute; reflexivity.
  - eexists. split; [vm_compute; left; reflexivity|]. split; [reflexivity|]. split; reflexivity.
Qed.

(* refresher_in_runs, second alternative: snapshot at rf_st0, write transaction at rf_st1 *)
Example rf_in_runs_nothing :
  refresh_write (e_tab (fst rf_st1)) rf_o rf_rev = e_tab (fst rf_st1) /\
  slot_of (e_tab (fst rf_st1)) 1 <> slot_of (e_tab (fst rf_st0)) 1.
Proof. split; [vm_compute; reflexivity|vm_compute; discriminate]. Qed.
