(* Reconciler/BatchProofs.v — the change-stream phase in batch mode (incremental.go batch: collect the
   delete and update batches, DeleteBatch, UpdateBatch, results) keeps the cover invariant. *)
From Coq Require Import List NArith Bool Lia ZifyN ZifyBool.
From SV Require Import Reconciler.Retries Reconciler.Model Reconciler.RetriesProofs Reconciler.CommitProofs
  Reconciler.RoundProofs Reconciler.CoverProofs Reconciler.StepProofs Reconciler.TableWf Reconciler.StreamProofs
  Reconciler.PhaseProofs.
Import ListNotations.
Open Scope N_scope.

Definition Dplus (D : N -> N -> Prop) (dl : list change) (p r : N) : Prop :=
  D p r \/ exists d, In d dl /\ p = ch_pk d /\ r = c_rev d.
(* while the batches are collected the outcome of an update is not known yet: its result is recorded with r_ok = false
   and the flag is put in after the calls (covered_okflags: `covered` never looks at r_ok) *)
Definition pend (upds : list change) : list opres :=
  map (fun c => mkRes (c_obj c) (c_rev c) (c_rev c) (o_sid (c_obj c)) false) upds.

Record binv (D : N -> N -> Prop) (snap : table) (e : env) (q : retries) (dels upds : list change) (cur : N) (chs : list change) : Prop := {
  bi_ph : phase_inv (Dplus D dels) snap e q (pend upds) cur chs;
  bi_abs : forall c, In c (dels ++ upds) -> find_item (ch_pk c) (q_items q) = None;
  bi_nd : NoDup (map ch_pk dels);
  bi_du : forall d, In d dels -> ~ In (ch_pk d) (res_pks (pend upds));
  bi_dc : forall d ch, In d dels -> In ch chs -> ch_pk d <> ch_pk ch;
  bi_dpast : forall d, In d dels -> c_rev d <= t_rev snap
}.

Lemma res_pks_pend : forall upds, res_pks (pend upds) = map ch_pk upds.
Proof. intro upds. unfold res_pks, pend. rewrite map_map. reflexivity. Qed.

Lemma find_clear_none : forall q k p, find_item p (q_items q) = None -> find_item p (q_items (r_clear q k)) = None.
Proof.
  intros q k p H. rewrite clear_items. destruct (N.eq_dec p k) as [E|E]; [subst p; apply find_item_remove_same|].
  rewrite find_item_remove_other by exact E. exact H.
Qed.

Theorem batch_collect_inv : forall chs rs D snap e c0 q dels upds nrec lastrev q' dels' upds' nrec' lastrev',
  binv D snap e q dels upds (curs c0 lastrev) chs ->
  batch_collect rs chs q dels upds nrec lastrev = (q', dels', upds', nrec', lastrev') ->
  exists chs', binv D snap e q' dels' upds' (curs c0 lastrev') chs'.
Proof.
  induction chs as [|ch rest IH]; intros rs D snap e c0 q dels upds nrec lastrev q' dels' upds' nrec' lastrev' B H; cbn [batch_collect] in H.
  - injection H as H1 H2 H3 H4 H5. subst. exists []. exact B.
  - pose proof B as [B1 B2 B3 B4 B5 B6].
    destruct (step_head_slot _ _ _ _ _ _ _ _ B1) as [sl0 [S0 [S1 [P0 [P1 [P2 P3]]]]]].
    assert (CU : curs c0 (c_rev ch) = c_rev ch).
    { unfold curs. destruct (c_rev ch =? 0) eqn:E; [apply N.eqb_eq in E; lia|reflexivity]. }
    assert (NDs : ~ In (ch_pk ch) (map ch_pk rest)).
    { destruct B1 as [_ _ _ [N1 _] _ _ _ _ _ _ _]. cbn [map] in N1. inversion N1; assumption. }
    destruct (negb (c_del ch) && negb (is_pending (c_obj ch))) eqn:Esk.
    + apply andb_prop in Esk. destruct Esk as [E1 E2]. apply negb_true_iff in E1. apply negb_true_iff in E2.
      apply (IH rs D snap e c0 q dels upds nrec (c_rev ch) q' dels' upds' nrec' lastrev'); [|exact H].
      rewrite CU. constructor; try assumption.
      * apply (step_skip _ _ _ _ _ _ _ _ B1 E1 E2).
      * intros d x Hd Hx. apply B5; [exact Hd|right; exact Hx].
    + assert (BN : binv D snap e (r_clear q (o_pk (c_obj ch))) (if c_del ch then dels ++ [ch] else dels)
                        (if c_del ch then upds else upds ++ [ch]) (c_rev ch) rest).
      { destruct (c_del ch) eqn:Ed.
        - constructor.
          + apply (phase_inv_D_mono (fun p r => Dplus D dels p r \/ (p = ch_pk ch /\ r = c_rev ch))).
            * intros p r [[X|[d [X1 X2]]]|[X1 X2]].
              -- left. exact X.
              -- right. exists d. split; [apply in_or_app; left; exact X1|exact X2].
              -- right. exists ch. split; [apply in_or_app; right; left; reflexivity|split; assumption].
            * apply (collect_del _ _ _ _ _ _ _ _ B1 Ed).
          + intros c Hc. rewrite <- app_assoc in Hc. apply in_app_or in Hc. destruct Hc as [Hc|Hc].
            * apply find_clear_none. apply B2. apply in_or_app. left. exact Hc.
            * cbn [app] in Hc. destruct Hc as [Hc|Hc]; [subst c; apply no_item_after_clear|].
              apply find_clear_none. apply B2. apply in_or_app. right. exact Hc.
          + rewrite map_app. cbn [map]. apply nodup_snoc; [exact B3|].
            intro Hin. apply in_map_iff in Hin. destruct Hin as [d [X1 X2]]. apply (B5 d ch X2 (or_introl eq_refl)). exact X1.
          + intros d Hd. apply in_app_or in Hd. destruct Hd as [Hd|[Hd|[]]]; [apply B4; exact Hd|].
            subst d. destruct B1 as [_ _ _ _ _ _ _ _ I9 _ _]. apply (I9 ch). left. reflexivity.
          + intros d x Hd Hx. apply in_app_or in Hd. destruct Hd as [Hd|[Hd|[]]].
            * apply B5; [exact Hd|right; exact Hx].
            * subst d. intro X. apply NDs. rewrite X. apply in_map. exact Hx.
          + intros d Hd. apply in_app_or in Hd. destruct Hd as [Hd|[Hd|[]]]; [apply B6; exact Hd|subst d; exact P1].
        - cbn [negb andb] in Esk. apply negb_false_iff in Esk. constructor.
          + unfold pend. rewrite map_app. cbn [map]. apply (collect_upd _ _ _ _ _ _ _ _ false B1 Ed Esk).
          + intros c Hc. rewrite app_assoc in Hc. apply in_app_or in Hc. destruct Hc as [Hc|[Hc|[]]].
            * apply find_clear_none. apply B2. exact Hc.
            * subst c. apply no_item_after_clear.
          + exact B3.
          + intros d Hd. rewrite res_pks_pend, map_app. cbn [map]. intro Hin. apply in_app_or in Hin.
            destruct Hin as [Hin|[Hin|[]]]; [apply (B4 d Hd); rewrite res_pks_pend; exact Hin|].
            apply (B5 d ch Hd (or_introl eq_refl)). symmetry. exact Hin.
          + intros d x Hd Hx. apply B5; [exact Hd|right; exact Hx].
          + exact B6. }
      destruct (rs <=? nrec + 1).
      * injection H as H1 H2 H3 H4 H5. subst q' dels' upds' nrec' lastrev'. exists rest. rewrite CU. exact BN.
      * apply (IH rs D snap e c0 (r_clear q (o_pk (c_obj ch))) (if c_del ch then dels ++ [ch] else dels)
                  (if c_del ch then upds else upds ++ [ch]) (nrec + 1) (c_rev ch) q' dels' upds' nrec' lastrev'); [rewrite CU; exact BN|exact H].
Qed.

Theorem batch_deletes_inv : forall dl snap upds e q res cur chs e' q',
  phase_inv (Dplus (Dlog e) dl) snap e q res cur chs ->
  (forall c, In c (dl ++ upds) -> find_item (ch_pk c) (q_items q) = None) ->
  NoDup (map ch_pk dl) -> (forall d, In d dl -> ~ In (ch_pk d) (map ch_pk upds)) ->
  (forall d, In d dl -> c_rev d <= t_rev snap) ->
  batch_deletes snap dl e q = (e', q') ->
  phase_inv (Dlog e') snap e' q' res cur chs /\
  (forall u, In u upds -> find_item (ch_pk u) (q_items q') = None) /\
  exists l, e_calls e' = e_calls e ++ l.
Proof.
  induction dl as [|d rest IH]; intros snap upds e q res cur chs e' q' PH AB ND DU DP H; cbn [batch_deletes] in H.
  - injection H as <- <-. split; [|split; [intros u Hu; apply AB; exact Hu|exists []; symmetry; apply app_nil_r]].
    revert PH. apply phase_inv_D_mono. intros p r [X|[x [[] _]]]. exact X.
  - destruct (do_call e snap true 3 (c_obj d) (c_rev d)) as [e1 ok] eqn:Ec.
    destruct (do_call_Dlog _ _ _ _ _ _ _ _ Ec) as [DM DL]. destruct (do_call_log _ _ _ _ _ _ _ _ Ec) as [cl [LC _]].
    cbn [map] in ND. inversion ND as [|x xs Hx Hr]; subst x xs.
    set (q1 := if ok then q else r_add q (c_obj d) (c_rev d) (c_rev d) true (e_now e1)) in *.
    assert (PH2 : phase_inv (Dplus (Dlog e1) rest) snap e1 q1 res cur chs).
    { apply (phase_inv_D_mono (fun p r => Dplus (Dlog e) rest p r \/ (ok = true /\ p = o_pk (c_obj d) /\ r = c_rev d))).
      - intros p r [[X|X]|[X1 [-> ->]]]; [left; exact (DM p r X)|right; exact X|left; exact (DL eq_refl X1)].
      - apply (delete_outcome (Dplus (Dlog e) rest) snap e q res cur chs true 3 (c_obj d) (c_rev d) (c_rev d) e1 ok);
          try exact (DP d (or_introl eq_refl)); [|exact Ec|].
        + revert PH. apply phase_inv_D_mono.
          intros p r [X|[x [[<-|X1] X2]]]; [left; left; exact X|right; exact X2|left; right; exists x; auto].
        + intros it Hit. change (o_pk (c_obj d)) with (ch_pk d) in Hit. rewrite (AB d (or_introl eq_refl)) in Hit. discriminate. }
    assert (AB2 : forall c, In c (rest ++ upds) -> find_item (ch_pk c) (q_items q1) = None).
    { intros c Hc. assert (Ne : ch_pk c <> o_pk (c_obj d)).
      { intro X. change (o_pk (c_obj d)) with (ch_pk d) in X. apply in_app_or in Hc. destruct Hc as [Hc|Hc].
        - apply Hx. rewrite <- X. apply in_map. exact Hc.
        - apply (DU d (or_introl eq_refl)). rewrite <- X. apply in_map. exact Hc. }
      unfold q1. destruct ok; [|rewrite add_other by exact Ne]; apply AB; right; exact Hc. }
    destruct (IH snap upds e1 q1 res cur chs e' q' PH2 AB2 Hr) as [R1 [R2 [l2 R3]]].
    + intros x Hx'. apply DU. right. exact Hx'.
    + intros x Hx'. apply DP. right. exact Hx'.
    + exact H.
    + split; [exact R1|split; [exact R2|]]. exists ([cl] ++ l2). rewrite R3, LC, app_assoc. reflexivity.
Qed.

Theorem batch_update_calls_inv : forall upds D snap e q res cur chs acc e' l,
  phase_inv D snap e q res cur chs -> batch_update_calls snap upds e acc = (e', l) ->
  phase_inv D snap e' q res cur chs /\ map fst l = map fst acc ++ upds /\ exists lg, e_calls e' = e_calls e ++ lg.
Proof.
  induction upds as [|c rest IH]; intros D snap e q res cur chs acc e' l PH H; cbn [batch_update_calls] in H.
  - injection H as <- <-. split; [exact PH|split; [rewrite app_nil_r; reflexivity|exists []; rewrite app_nil_r; reflexivity]].
  - destruct (do_call e snap true 2 (c_obj c) (c_rev c)) as [e1 ok] eqn:Ec.
    destruct (do_call_log _ _ _ _ _ _ _ _ Ec) as [cl [LC _]].
    destruct (IH D snap e1 q res cur chs (acc ++ [(c, ok)]) e' l (call_inv _ _ _ _ _ _ _ _ _ _ _ _ _ PH Ec) H) as [R1 [R2 [lg R3]]].
    split; [exact R1|split].
    + rewrite R2, map_app. cbn [map fst]. rewrite <- app_assoc. reflexivity.
    + exists ([cl] ++ lg). rewrite R3, LC, app_assoc. reflexivity.
Qed.

Definition mk_res (x : change * bool) : opres :=
  mkRes (c_obj (fst x)) (c_rev (fst x)) (c_rev (fst x)) (o_sid (c_obj (fst x))) (snd x).

Lemma batch_results_spec : forall l q res0, (forall x, In x l -> find_item (ch_pk (fst x)) (q_items q) = None) ->
  batch_results l q res0 = (q, res0 ++ map mk_res l).
Proof.
  induction l as [|[c ok] rest IH]; intros q res0 AB; cbn [batch_results].
  - rewrite app_nil_r. reflexivity.
  - assert (Q : (if ok then r_clear q (o_pk (c_obj c)) else q) = q).
    { destruct ok; [|reflexivity]. pose proof (AB (c, true) (or_introl eq_refl)) as X. unfold r_clear. unfold ch_pk in X. cbn [fst] in X. rewrite X. reflexivity. }
    rewrite Q. rewrite IH; [|intros x Hx; apply AB; right; exact Hx]. rewrite <- app_assoc. reflexivity.
Qed.

Lemma covered_okflags : forall D t c l q pk,
  covered D t c (pend (map fst l)) q pk -> covered D t c (map mk_res l) q pk.
Proof.
  intros D t c l q pk H.
  assert (T : forall r, In r (pend (map fst l)) -> exists r', In r' (map mk_res l) /\
            r_obj r' = r_obj r /\ r_rev r' = r_rev r /\ r_orig r' = r_orig r /\ r_id r' = r_id r).
  { intros r Hr. unfold pend in Hr. rewrite map_map in Hr. apply in_map_iff in Hr. destruct Hr as [x [X1 X2]].
    exists (mk_res x). split; [apply in_map; exact X2|]. subst r. cbn. repeat split. }
  unfold covered in *. destruct (slot_of t pk) as [[o r|o r]|]; try exact H. destruct (o_kind o); try exact H.
  - destruct H as [A|[x [X1 [X2 X3]]]]; [left; exact A|right]. destruct (T x X1) as [x' [Y1 [Y2 [Y3 [Y4 Y5]]]]].
    exists x'. split; [exact Y1|]. rewrite Y2, Y3, Y5. split; assumption.
  - destruct H as [A|[x [X1 [X2 X3]]]]; [left; exact A|right]. destruct (T x X1) as [x' [Y1 [Y2 [Y3 [Y4 Y5]]]]].
    exists x'. split; [exact Y1|]. rewrite Y2, Y3, Y5. split; assumption.
  - destruct H as [A|[x [X1 [X2 X3]]]]; [left; exact A|right]. destruct (T x X1) as [x' [Y1 [Y2 [Y3 [Y4 Y5]]]]].
    exists x'. split; [exact Y1|]. rewrite Y2, Y3, Y4. split; assumption.
Qed.

Lemma phase_inv_okflags : forall D snap e q l cur chs,
  phase_inv D snap e q (pend (map fst l)) cur chs -> phase_inv D snap e q (map mk_res l) cur chs.
Proof.
  intros D snap e q l cur chs [I1 I2 I3 I4 I5 I6 I7 I8 I9 I10 I11].
  assert (PK : res_pks (map mk_res l) = res_pks (pend (map fst l))).
  { unfold res_pks, pend. rewrite !map_map. reflexivity. }
  constructor; try assumption.
  - rewrite PK. exact I8.
  - intros ch Hc. rewrite PK. apply I9. exact Hc.
  - intros r Hr. apply in_map_iff in Hr. destruct Hr as [x [X1 X2]]. subst r. cbn.
    apply (I10 (mkRes (c_obj (fst x)) (c_rev (fst x)) (c_rev (fst x)) (o_sid (c_obj (fst x))) false)).
    unfold pend. rewrite map_map. apply in_map_iff. exists x. split; [reflexivity|exact X2].
  - intro pk. apply covered_okflags. apply I11.
Qed.

(* incremental.go batch as a whole *)
Theorem batch_inv : forall rs snap c0 e q chs q1 dels upds nrec lastrev e2 q2 e3 l q4 res,
  phase_inv (Dlog e) snap e q [] (curs c0 0) chs ->
  batch_collect rs chs q [] [] 0 0 = (q1, dels, upds, nrec, lastrev) ->
  batch_deletes snap dels e q1 = (e2, q2) ->
  batch_update_calls snap upds e2 [] = (e3, l) ->
  batch_results l q2 [] = (q4, res) ->
  exists chs', phase_inv (Dlog e3) snap e3 q4 res (curs c0 lastrev) chs'.
Proof.
  intros rs snap c0 e q chs q1 dels upds nrec lastrev e2 q2 e3 l q4 res PH HC HD HU HR.
  assert (B0 : binv (Dlog e) snap e q [] [] (curs c0 0) chs).
  { constructor.
    - apply (phase_inv_D_mono (Dlog e)); [intros p r X; left; exact X|exact PH].
    - intros c [].
    - constructor.
    - intros d [].
    - intros d ch [].
    - intros d []. }
  destruct (batch_collect_inv _ _ _ _ _ _ _ _ _ _ _ _ _ _ _ _ B0 HC) as [chs' [B1 B2 B3 B4 B5 B6]].
  destruct (batch_deletes_inv dels snap upds e q1 (pend upds) (curs c0 lastrev) chs' e2 q2 B1 B2 B3) as [P2 [A2 [lg2 L2]]].
  - intros d Hd. rewrite <- res_pks_pend. apply B4. exact Hd.
  - exact B6.
  - exact HD.
  - destruct (batch_update_calls_inv upds (Dlog e2) snap e2 q2 (pend upds) (curs c0 lastrev) chs' [] e3 l P2 HU) as [P3 [M3 [lg3 L3]]].
    cbn [map app] in M3.
    rewrite batch_results_spec in HR.
    + injection HR as H1 H2. subst q4 res. cbn [app]. exists chs'.
      apply phase_inv_okflags. rewrite M3.
      apply (phase_inv_D_mono (Dlog e2)); [apply (Dlog_mono e2 e3 lg3 L3)|exact P3].
    + intros x Hx. apply A2. rewrite <- M3. apply in_map. exact Hx.
Qed.
