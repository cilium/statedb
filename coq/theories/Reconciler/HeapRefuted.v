(* Reconciler/HeapRefuted.v — bookkeeping bugs the heap-level model distinguishes: each variant below differs from
   Heap.v in one place and violates, in a state reachable by the real operations, a statement proved for
   the faithful model (HeapInv.v / HeapRefine.v). Witnesses by computation: the Swap variant below, the others in
   Properties/C16.v. *)
From Coq Require Import List NArith ZArith Bool.
From SV Require Import Reconciler.Retries Reconciler.Heap.
Import ListNotations.
Open Scope N_scope.

Definition ob (k : N) : obj := mkObj k 0 Pending 0 0.
Definition pks (hs : hstate) : list N := map hi_pk (hs_store hs).

(* retries.Clear with "item.revIndex" where the code has "item.index" for the retryAt queue. guarded = the
   key comparison of the guard is kept (as coded); unguarded = only the range checks. *)
Definition hq_clear_wrongidx (guarded : bool) (hs : hstate) (pk : N) : hstate :=
  match st_get pk (hs_store hs) with
  | None => hs
  | Some it =>
    let index := hi_revIndex it in   (* BUG: hi_index it *)
    let g := if guarded then clear_guard index (hs_q hs) pk
             else (0 <=? index)%Z && (index <? Z.of_nat (length (hs_q hs)))%Z in
    let hs1 :=
      if g then
        let '(st, q) := h_remove QT (hs_store hs, hs_q hs) (Z.to_nat index) in
        let hs' := mkHS st q (hs_r hs) (hs_timer hs) (hs_min hs) (hs_max hs) in
        if (index =? 0)%Z then hq_reset_timer hs' else hs'
      else hs in
    let ri := hi_revIndex (st_getd pk (hs_store hs1)) in
    let hs2 :=
      if clear_guard ri (hs_r hs1) pk then
        let '(st, r) := h_remove QR (hs_store hs1, hs_r hs1) (Z.to_nat ri) in
        mkHS st (hs_q hs1) r (hs_timer hs1) (hs_min hs1) (hs_max hs1)
      else hs1 in
    mkHS (st_del pk (hs_store hs2)) (hs_q hs2) (hs_r hs2) (hs_timer hs2) (hs_min hs2) (hs_max hs2)
  end.

(* three items; key 3 has the smallest origRev, so it is at revIndex 0 but at index 2. Clearing key 3: with the key
   comparison the guard fails, the item stays in queue.items although it left the map (the next Top/Pop hands out an
   object that was cleared); without it another key's item leaves queue: key 1 (the head) is never retried *)
Definition st3 : hstate :=
  hq_add (hq_add (hq_add (hq_new 10 40) (ob 1) 5 5 false 0) (ob 2) 6 6 false 0) (ob 3) 1 1 false 10.

(* retryPrioQueue.Swap that forgets the second setIndex *)
Definition h_swap_bug (w : qsel) (h : hq) (i j : nat) : hq :=
  let '(st, arr) := h in
  let arr' := list_set i (nth j arr 0) (list_set j (nth i arr 0) arr) in
  let st1 := st_upd (nth i arr' 0) (set_idx w (Z.of_nat i)) st in
  (st1, arr').   (* BUG: hq.setIndex(hq.items[j], j) missing *)

Fixpoint h_up_bug (w : qsel) (fuel : nat) (h : hq) (j : nat) : hq :=
  match fuel with
  | O => h
  | S f =>
    let i := Nat.div (j - 1) 2 in
    if Nat.eqb i j || negb (h_less w h j i) then h
    else h_up_bug w f (h_swap_bug w h i j) i
  end.

Definition h_push_bug (w : qsel) (h : hq) (pk : N) : hq :=
  let h1 := h_push_last w h pk in
  h_up_bug w (S (length (snd h1))) h1 (length (snd h1) - 1).

(* queue = [1] (retryAt 40); pushing key 2 with retryAt 30 swaps it to the root; key 1 keeps index 0 *)
Definition sw_store : list hitem :=
  [mkH (ob 1) 1 1 false 0 (-1) 40 2; mkH (ob 2) 1 1 false (-1) (-1) 30 1].

Theorem swap_forgets_setindex_refuted :
  let '(st, q) := h_push_bug QT (sw_store, [1]) 2 in
  q = [2; 1] /\ hi_index (st_getd 1 st) = 0%Z /\ hi_index (st_getd 2 st) = 0%Z /\
  (* the faithful Push: *)
  (let '(st', q') := h_push QT (sw_store, [1]) 2 in q' = [2; 1] /\ hi_index (st_getd 1 st') = 1%Z).
Proof. vm_compute. repeat split. Qed.

(* retries.Add that does not Fix revQueue when the item is already there *)
Definition hq_add_norevfix (hs : hstate) (o : obj) (rev orig : N) (del : bool) (now : N) : hstate :=
  let pk := o_pk o in
  let st0 := match st_get pk (hs_store hs) with
             | Some _ => hs_store hs
             | None => hs_store hs ++ [mkH o 0 0 false (-1)%Z (-1)%Z 0 0]
             end in
  let st1 := st_upd pk (fun it =>
               let n := hi_n it + 1 in
               mkH o rev orig del (hi_index it) (hi_revIndex it) (now + duration (hs_min hs) (hs_max hs) n) n) st0 in
  let ri := hi_revIndex (st_getd pk st1) in
  let '(st2, r2) := if (0 <=? ri)%Z then (st1, hs_r hs) (* BUG: rq.revQueue.Fix(item.revIndex) missing *)
                    else h_push QR (st1, hs_r hs) pk in
  let qi := hi_index (st_getd pk st2) in
  let '(st3, q3) := if (0 <=? qi)%Z then h_fix QT (st2, hs_q hs) (Z.to_nat qi) else h_push QT (st2, hs_q hs) pk in
  let hs' := mkHS st3 q3 r2 (hs_timer hs) (hs_min hs) (hs_max hs) in
  if (hi_index (st_getd pk st3) =? 0)%Z then hq_reset_timer hs' else hs'.

(* keys 1 and 2 fail at revisions 5 and 6; key 1 fails again for a newer change (origRev 9): the oldest
   failing change is now 6, but the stale root answers 9 - WaitUntilReconciled(6..8) would return early *)
Definition st2 : hstate := hq_add (hq_add (hq_new 10 40) (ob 1) 5 5 false 0) (ob 2) 6 6 false 0.

(* Retries.v re-arms the timer on Add only for a strictly earlier retryAt; the heap re-arms whenever the item
   ends up at position 0. Key 1 is the head (retryAt 20); key 2 is queued for 40; key 1 fails again and is
   queued for 40 as well: it stays at position 0, the real timer is re-armed for 40, the list model keeps 20.
   Between 20 and 40 the list model reports a fired wait channel, the implementation (and Heap.v) do not. *)
Definition tie_hs : hstate := hq_add (hq_add (hq_add (hq_new 10 40) (ob 1) 1 1 false 0) (ob 2) 2 2 false 0) (ob 2) 2 2 false 0.
Definition tie_q : retries := r_add (r_add (r_add (r_new 10 40) (ob 1) 1 1 false 0) (ob 2) 2 2 false 0) (ob 2) 2 2 false 0.

