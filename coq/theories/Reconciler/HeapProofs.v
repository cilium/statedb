(* Reconciler/HeapProofs.v — the two container/heap priority queues of reconciler/retries.go (model: Heap.v):
   one heap at a time. Index bookkeeping (idx_ok) and heap order (hp) are restored by up/down and kept by
   Push / Pop / Remove / Fix; every operation on one heap only writes that heap's index field (frame). *)

From Coq Require Import List NArith ZArith Bool Lia ZifyN ZifyNat ZifyBool Wf_nat.
From SV Require Import Reconciler.Retries Reconciler.Heap.
Import ListNotations.

Definition par (j : nat) : nat := Nat.div (j - 1) 2.

(* lia decides the parent/child arithmetic once the division by 2 is turned into equations; the hook is on for these lemmas only *)
Ltac Zify.zify_post_hook ::= Z.div_mod_to_equations.
Lemma par_lt : forall j, (0 < j)%nat -> (par j < j)%nat.
Proof. intros j H. unfold par. lia. Qed.
Lemma par_child : forall j x, (0 < j)%nat -> par j = x <-> (j = 2 * x + 1 \/ j = 2 * x + 2)%nat.
Proof. intros j x H. unfold par. lia. Qed.
Lemma par_0 : par 0 = 0%nat.
Proof. reflexivity. Qed.
Ltac Zify.zify_post_hook ::= idtac.

Open Scope N_scope.

Definition hp (f : nat -> N) (n : nat) : Prop := forall j, (0 < j < n)%nat -> f (par j) <= f j.
(* all edges not touching x are in order, and the parent of x is not above x's children *)
Definition hole (f : nat -> N) (n x : nat) : Prop :=
  (forall j, (0 < j < n)%nat -> j <> x -> par j <> x -> f (par j) <= f j) /\
  (forall j, (0 < j < n)%nat -> par j = x -> (0 < x)%nat -> f (par x) <= f j).
Definition down_ok (f : nat -> N) (n x : nat) : Prop := forall j, (0 < j < n)%nat -> par j = x -> f x <= f j.
Definition swapf (f : nat -> N) (i j : nat) : nat -> N :=
  fun k => if Nat.eqb k i then f j else if Nat.eqb k j then f i else f k.

Lemma up_done : forall f n x, hole f n x -> down_ok f n x -> (x = 0%nat \/ f (par x) <= f x) -> hp f n.
Proof.
  intros f n x [H1 H2] Hd Hx j Hj.
  destruct (Nat.eq_dec j x) as [E|E].
  - subst j. destruct Hx as [Hx|Hx]; [lia|exact Hx].
  - destruct (Nat.eq_dec (par j) x) as [E2|E2].
    + rewrite E2. apply Hd; assumption.
    + apply H1; assumption.
Qed.

Lemma up_step : forall f n x, hole f n x -> down_ok f n x -> (0 < x)%nat -> f x < f (par x) ->
  hole (swapf f (par x) x) n (par x) /\ down_ok (swapf f (par x) x) n (par x).
Proof.
  intros f n x [H1 H2] Hd Hx Hlt.
  pose proof (par_lt x Hx) as Hpx.
  split; [split|].
  - intros j Hj Hne Hpne. unfold swapf.
    destruct (Nat.eqb_spec j (par x)) as [E|E]; [contradiction|].
    destruct (Nat.eqb_spec (par j) (par x)) as [E1|E1]; [contradiction|].
    destruct (Nat.eqb_spec j x) as [E2|E2]; [subst j; contradiction|].
    destruct (Nat.eqb_spec (par j) x) as [E3|E3].
    + apply H2; assumption.
    + apply H1; assumption.
  - intros j Hj Hpj Hppos. unfold swapf.
    assert (Hpp : (par (par x) < par x)%nat) by (apply par_lt; exact Hppos).
    destruct (Nat.eqb_spec (par (par x)) (par x)) as [E|E]; [lia|].
    destruct (Nat.eqb_spec (par (par x)) x) as [E0|E0]; [lia|].
    destruct (Nat.eqb_spec j (par x)) as [E1|E1]; [pose proof (par_lt j); lia|].
    assert (Hpe : f (par (par x)) <= f (par x)).
    { apply H1; [pose proof (par_lt j); lia|lia|lia]. }
    destruct (Nat.eqb_spec j x) as [E2|E2]; [exact Hpe|].
    assert (H : f (par j) <= f j) by (apply H1; [lia|exact E2|lia]).
    rewrite Hpj in H. lia.
  - intros j Hj Hpj. unfold swapf.
    rewrite Nat.eqb_refl.
    destruct (Nat.eqb_spec j (par x)) as [E1|E1]; [pose proof (par_lt j); lia|].
    destruct (Nat.eqb_spec j x) as [E2|E2]; [lia|].
    assert (H : f (par j) <= f j) by (apply H1; [lia|exact E2|lia]).
    rewrite Hpj in H. lia.
Qed.

Lemma down_step : forall f n x j, hole f n x -> (0 < j < n)%nat -> par j = x ->
  (forall j', (0 < j' < n)%nat -> par j' = x -> f j <= f j') -> f j < f x ->
  hole (swapf f x j) n j /\ (swapf f x j) (par j) <= (swapf f x j) j.
Proof.
  intros f n x j [H1 H2] Hj Hpj Hmin Hlt.
  assert (Hxj : (x < j)%nat) by (rewrite <- Hpj; apply par_lt; lia).
  split; [split|].
  - intros k Hk Hne Hpne. unfold swapf.
    destruct (Nat.eqb_spec k j) as [E|E]; [contradiction|].
    destruct (Nat.eqb_spec (par k) j) as [E0|E0]; [contradiction|].
    destruct (Nat.eqb_spec k x) as [E1|E1].
    + subst k. destruct (Nat.eqb_spec (par x) x) as [E2|E2]; [pose proof (par_lt x); lia|].
      apply H2; [exact Hj|exact Hpj|lia].
    + destruct (Nat.eqb_spec (par k) x) as [E2|E2].
      * apply Hmin; assumption.
      * apply H1; assumption.
  - intros k Hk Hpk _. unfold swapf. rewrite Hpj. rewrite Nat.eqb_refl.
    destruct (Nat.eqb_spec k x) as [E|E]; [pose proof (par_lt k); lia|].
    destruct (Nat.eqb_spec k j) as [E1|E1]; [pose proof (par_lt k); lia|].
    assert (H : f (par k) <= f k) by (apply H1; [exact Hk|lia|lia]).
    rewrite Hpk in H. exact H.
  - unfold swapf. rewrite Hpj, Nat.eqb_refl.
    destruct (Nat.eqb_spec j x) as [E|E]; [lia|]. rewrite Nat.eqb_refl. lia.
Qed.

Lemma hp_root_min : forall f n, hp f n -> forall j, (j < n)%nat -> f 0%nat <= f j.
Proof.
  intros f n H j. induction j as [j IH] using (well_founded_induction lt_wf). intro Hj.
  destruct j as [|j]; [lia|].
  assert (Hp : (par (S j) < S j)%nat) by (apply par_lt; lia).
  specialize (IH (par (S j)) Hp ltac:(lia)). specialize (H (S j) ltac:(lia)). lia.
Qed.

Lemma hp_hole : forall f g n x, hp f n -> (forall k, (k < n)%nat -> k <> x -> g k = f k) -> hole g n x.
Proof.
  intros f g n x H Hg. split.
  - intros j Hj Hne Hpne. pose proof (par_lt j ltac:(lia)) as Hp.
    rewrite (Hg j ltac:(lia) Hne), (Hg (par j) ltac:(lia) Hpne). apply H. exact Hj.
  - intros j Hj Hpj Hx.
    assert (Hxj : (x < j)%nat) by (rewrite <- Hpj; apply par_lt; lia).
    rewrite (Hg j) by lia. rewrite (Hg (par x)) by (pose proof (par_lt x Hx); lia).
    pose proof (H j Hj) as A. rewrite Hpj in A. pose proof (H x ltac:(lia)) as B. lia.
Qed.

Lemma hp_ext : forall f g n, hp f n -> (forall k, (k < n)%nat -> g k = f k) -> hp g n.
Proof.
  intros f g n H Hg j Hj. rewrite (Hg j) by lia. rewrite (Hg (par j)) by (pose proof (par_lt j); lia). apply H. exact Hj.
Qed.
Lemma hole_ext : forall f g n x, hole f n x -> (forall k, (k < n)%nat -> g k = f k) -> hole g n x.
Proof.
  intros f g n x [H1 H2] Hg. split.
  - intros j Hj A B. rewrite (Hg j) by lia. rewrite (Hg (par j)) by (pose proof (par_lt j); lia). apply H1; assumption.
  - intros j Hj A B. rewrite (Hg j) by lia. rewrite (Hg (par x)) by (pose proof (par_lt x B); pose proof (par_lt j); lia). apply H2; assumption.
Qed.
Lemma down_ok_ext : forall f g n x, down_ok f n x -> (x < n)%nat -> (forall k, (k < n)%nat -> g k = f k) -> down_ok g n x.
Proof.
  intros f g n x H Hx Hg j Hj A. rewrite (Hg j) by lia. rewrite (Hg x) by lia. apply H; assumption.
Qed.
Lemma hp_shrink : forall f n m, hp f n -> (m <= n)%nat -> hp f m.
Proof. intros f n m H Hm j Hj. apply H. lia. Qed.

(* the key a heap orders by *)
Definition kf (w : qsel) (it : hitem) : N := match w with QT => hi_at it | QR => hi_orig it end.
(* an item without its index in heap w *)
Definition erase (w : qsel) (it : hitem) : hitem := set_idx w 0%Z it.

Lemma item_less_kf : forall w a b, item_less w a b = (kf w a <? kf w b).
Proof. intros [|] a b; reflexivity. Qed.
Lemma pk_set_idx : forall w v it, hi_pk (set_idx w v it) = hi_pk it.
Proof. intros [|] v it; reflexivity. Qed.
Lemma kf_set_idx : forall w' w v it, kf w' (set_idx w v it) = kf w' it.
Proof. intros [|] [|] v it; reflexivity. Qed.
Lemma get_set_idx_same : forall w v it, get_idx w (set_idx w v it) = v.
Proof. intros [|] v it; reflexivity. Qed.
Lemma get_set_idx_other : forall w w' v it, w <> w' -> get_idx w' (set_idx w v it) = get_idx w' it.
Proof. intros [|] [|] v it H; try reflexivity; congruence. Qed.
Lemma set_set_idx : forall w a b it, set_idx w a (set_idx w b it) = set_idx w a it.
Proof. intros [|] a b it; reflexivity. Qed.
Lemma erase_set_idx : forall w v it, erase w (set_idx w v it) = erase w it.
Proof. intros. unfold erase. apply set_set_idx. Qed.
Lemma set_idx_get : forall w it, set_idx w (get_idx w it) it = it.
Proof. intros [|] [o r g d i ri a n]; reflexivity. Qed.
Lemma erase_eq : forall w a b, erase w a = erase w b -> b = set_idx w (get_idx w b) a.
Proof.
  intros w a b H. rewrite <- (set_idx_get w b) at 1. rewrite <- (set_set_idx w _ 0%Z b), <- (set_set_idx w _ 0%Z a).
  unfold erase in H. rewrite H. reflexivity.
Qed.
Lemma erase_kf : forall w w' a b, erase w a = erase w b -> kf w' a = kf w' b.
Proof. intros w w' a b H. rewrite (erase_eq w a b H). rewrite kf_set_idx. reflexivity. Qed.
Lemma erase_get_other : forall w w' a b, w <> w' -> erase w a = erase w b -> get_idx w' a = get_idx w' b.
Proof. intros w w' a b Hn H. rewrite (erase_eq w a b H). rewrite get_set_idx_other by exact Hn. reflexivity. Qed.

Lemma st_get_pk : forall pk st it, st_get pk st = Some it -> hi_pk it = pk.
Proof.
  intros pk st it. induction st as [|a r IH]; cbn [st_get]; intro H; [discriminate|].
  destruct (hi_pk a =? pk) eqn:E; [injection H as H; subst a; apply N.eqb_eq; exact E|apply IH; exact H].
Qed.
Lemma st_get_in : forall pk st it, st_get pk st = Some it -> In it st.
Proof.
  intros pk st it. induction st as [|a r IH]; cbn [st_get]; intro H; [discriminate|].
  destruct (hi_pk a =? pk); [injection H as H; left; exact H|right; apply IH; exact H].
Qed.
Lemma st_get_none : forall pk st, st_get pk st = None <-> ~ In pk (map hi_pk st).
Proof.
  intros pk st. induction st as [|a r IH]; cbn [st_get map]; [split; [intros _ []|reflexivity]|].
  destruct (hi_pk a =? pk) eqn:E.
  - apply N.eqb_eq in E. split; [discriminate|]. intro H. exfalso. apply H. left. exact E.
  - apply N.eqb_neq in E. rewrite IH. split; intro H; [intros [A|A]; [contradiction|apply H; exact A]|].
    intro A. apply H. right. exact A.
Qed.

(* a write through the item pointer that leaves the key of the item alone *)
Lemma st_get_upd : forall f pk' pk st, (forall it, hi_pk it = pk' -> hi_pk (f it) = pk') ->
  st_get pk (st_upd pk' f st) = if pk' =? pk then option_map f (st_get pk st) else st_get pk st.
Proof.
  intros f pk' pk st Hf. induction st as [|a r IH]; cbn [st_upd map st_get].
  - destruct (pk' =? pk); reflexivity.
  - fold (st_upd pk' f r). destruct (N.eqb_spec (hi_pk a) pk') as [E1|E1].
    + rewrite (Hf a E1). rewrite <- E1 at 1. destruct (N.eqb_spec (hi_pk a) pk) as [E2|E2]; [|exact IH].
      rewrite <- E1, E2, N.eqb_refl. reflexivity.
    + destruct (N.eqb_spec (hi_pk a) pk) as [E2|E2]; [|exact IH].
      rewrite <- E2. apply N.eqb_neq in E1. rewrite N.eqb_sym, E1. reflexivity.
Qed.

Lemma st_upd_pks_at : forall f pk st, (forall it, hi_pk it = pk -> hi_pk (f it) = pk) -> map hi_pk (st_upd pk f st) = map hi_pk st.
Proof.
  intros f pk st Hf. unfold st_upd. rewrite map_map. apply map_ext. intro a. destruct (N.eqb_spec (hi_pk a) pk) as [E|E]; [|reflexivity].
  rewrite (Hf a E). symmetry. exact E.
Qed.
Lemma st_upd_pks : forall f pk st, (forall it, hi_pk (f it) = hi_pk it) -> map hi_pk (st_upd pk f st) = map hi_pk st.
Proof. intros f pk st Hf. apply st_upd_pks_at. intros it <-. apply Hf. Qed.

Lemma st_upd_erase : forall w v pk st, map (erase w) (st_upd pk (set_idx w v) st) = map (erase w) st.
Proof.
  intros w v pk st. unfold st_upd. rewrite map_map. apply map_ext. intro a.
  destruct (hi_pk a =? pk); [apply erase_set_idx|reflexivity].
Qed.

(* two stores with the same items up to a key-preserving projection f (erase w: up to the indices of heap w) *)
Lemma map_get : forall (f : hitem -> hitem), (forall it, hi_pk (f it) = hi_pk it) ->
  forall st st' pk, map f st' = map f st -> option_map f (st_get pk st') = option_map f (st_get pk st).
Proof.
  intros f Hf st. induction st as [|a r IH]; intros st' pk H; destruct st' as [|a' r']; cbn [map] in H; try discriminate; [reflexivity|].
  injection H as Ha Hr. cbn [st_get]. assert (E : hi_pk a' = hi_pk a) by (rewrite <- (Hf a'), <- (Hf a), Ha; reflexivity).
  rewrite E. destruct (hi_pk a =? pk); [cbn; rewrite Ha; reflexivity|apply IH; exact Hr].
Qed.
Lemma map_pks : forall (f : hitem -> hitem), (forall it, hi_pk (f it) = hi_pk it) ->
  forall st st', map f st' = map f st -> map hi_pk st' = map hi_pk st.
Proof.
  intros f Hf st st' H.
  assert (E : forall l, map hi_pk l = map hi_pk (map f l)) by (intro l; rewrite map_map; apply map_ext; intro a; rewrite Hf; reflexivity).
  rewrite (E st'), (E st), H. reflexivity.
Qed.
Lemma pk_erase : forall w it, hi_pk (erase w it) = hi_pk it.
Proof. intros. apply pk_set_idx. Qed.

Lemma frame_get : forall w st st', map (erase w) st' = map (erase w) st -> forall pk,
  option_map (erase w) (st_get pk st') = option_map (erase w) (st_get pk st).
Proof. intros w st st' H pk. apply (map_get _ (pk_erase w)). exact H. Qed.
Lemma frame_get_some : forall w st st' pk it, map (erase w) st' = map (erase w) st -> st_get pk st = Some it ->
  exists it', st_get pk st' = Some it' /\ erase w it' = erase w it.
Proof.
  intros w st st' pk it H Hg. pose proof (frame_get w st st' H pk) as A. rewrite Hg in A.
  destruct (st_get pk st') as [it'|]; cbn in A; [|discriminate]. exists it'. split; [reflexivity|congruence].
Qed.
Lemma frame_pks : forall w st st', map (erase w) st' = map (erase w) st -> map hi_pk st' = map hi_pk st.
Proof. intros w. apply (map_pks _ (pk_erase w)). Qed.
Lemma frame_getd_kf : forall w w' st st' pk, map (erase w) st' = map (erase w) st ->
  kf w' (st_getd pk st') = kf w' (st_getd pk st).
Proof.
  intros w w' st st' pk H. unfold st_getd. pose proof (frame_get w st st' H pk) as A.
  destruct (st_get pk st') as [a|], (st_get pk st) as [b|]; cbn in A; try discriminate; [|reflexivity].
  apply (erase_kf w). congruence.
Qed.

Lemma length_list_set : forall (A : Type) i (v : A) l, length (list_set i v l) = length l.
Proof. intros A i v l. revert i. induction l as [|x r IH]; intros [|i]; cbn [list_set length]; try reflexivity. rewrite IH. reflexivity. Qed.
Lemma nth_list_set : forall (A : Type) i (v d : A) l k,
  nth k (list_set i v l) d = if Nat.eqb k i && Nat.ltb i (length l) then v else nth k l d.
Proof.
  intros A i v d l. revert i. induction l as [|x r IH]; intros [|i] [|k]; cbn [list_set nth length]; try reflexivity.
  - rewrite Bool.andb_false_r. reflexivity.
  - rewrite IH. cbn [Nat.eqb]. replace (Nat.ltb (S i) (S (length r))) with (Nat.ltb i (length r)); [reflexivity|].
    destruct (Nat.ltb_spec i (length r)), (Nat.ltb_spec (S i) (S (length r))); try reflexivity; lia.
Qed.

Definition K (w : qsel) (h : hq) (i : nat) : N := kf w (st_getd (nth i (snd h) 0) (fst h)).

Lemma h_less_K : forall w h i j, h_less w h i j = (K w h i <? K w h j).
Proof. intros w [st arr] i j. unfold h_less, K. cbn [fst snd]. apply item_less_kf. Qed.

(* item.index (resp. revIndex) is the position in the array, or -1 when the item is not in the array *)
Definition idx_ok (w : qsel) (h : hq) : Prop :=
  (forall i, (i < length (snd h))%nat ->
     exists it, st_get (nth i (snd h) 0) (fst h) = Some it /\ get_idx w it = Z.of_nat i) /\
  (forall pk it, st_get pk (fst h) = Some it -> get_idx w it <> (-1)%Z ->
     exists i, get_idx w it = Z.of_nat i /\ (i < length (snd h))%nat /\ nth i (snd h) 0 = pk).

Lemma idx_ok_inj : forall w h i j, idx_ok w h -> (i < length (snd h))%nat -> (j < length (snd h))%nat ->
  nth i (snd h) 0 = nth j (snd h) 0 -> i = j.
Proof.
  intros w h i j [H1 _] Hi Hj E. destruct (H1 i Hi) as [a [A1 A2]]. destruct (H1 j Hj) as [b [B1 B2]].
  rewrite E in A1. rewrite A1 in B1. injection B1 as B1. subst b. lia.
Qed.

(* the item of pk is in the array of heap w *)
Definition queued (w : qsel) (st : list hitem) (pk : N) : Prop :=
  exists it, st_get pk st = Some it /\ get_idx w it <> (-1)%Z.

(* what heap w reads of the index bookkeeping: the index field of the item of a key, -1 for an absent item *)
Definition ixv (w : qsel) (st : list hitem) (pk : N) : Z :=
  match st_get pk st with Some it => get_idx w it | None => (-1)%Z end.

Lemma queued_ixv : forall w st pk, queued w st pk <-> ixv w st pk <> (-1)%Z.
Proof.
  intros w st pk. unfold queued, ixv. destruct (st_get pk st) as [a|]; split.
  - intros [it [A B]]. injection A as <-. exact B.
  - intro B. exists a. split; [reflexivity|exact B].
  - intros [it [A _]]. discriminate.
  - intro B. congruence.
Qed.

Lemma idx_ok_iff : forall w st arr, idx_ok w (st, arr) <->
  (forall i, (i < length arr)%nat -> ixv w st (nth i arr 0) = Z.of_nat i) /\
  (forall pk, ixv w st pk <> (-1)%Z -> exists i, ixv w st pk = Z.of_nat i /\ (i < length arr)%nat /\ nth i arr 0 = pk).
Proof.
  intros w st arr. unfold idx_ok, ixv. cbn [fst snd]. split; intros [H1 H2]; split.
  - intros i Hi. destruct (H1 i Hi) as [a [A B]]. rewrite A. exact B.
  - intros pk Hne. destruct (st_get pk st) as [a|] eqn:Ea; [apply (H2 pk a Ea Hne)|congruence].
  - intros i Hi. specialize (H1 i Hi). destruct (st_get (nth i arr 0) st) as [a|]; [exists a; split; [reflexivity|exact H1]|lia].
  - intros pk a A Hne. specialize (H2 pk). rewrite A in H2. apply H2. exact Hne.
Qed.

(* setIndex through the item pointer *)
Lemma ixv_set : forall w v pk pk' st,
  ixv w (st_upd pk (set_idx w v) st) pk' = if pk =? pk' then match st_get pk' st with Some _ => v | None => (-1)%Z end else ixv w st pk'.
Proof.
  intros w v pk pk' st. unfold ixv. rewrite st_get_upd by (intros; rewrite pk_set_idx; assumption).
  destruct (pk =? pk'); [|reflexivity]. destruct (st_get pk' st); cbn [option_map]; [apply get_set_idx_same|reflexivity].
Qed.

(* what an operation on heap w may change: only index fields of heap w; array length kept; entries from
   position n on untouched; an item is in the array afterwards iff it was before *)
Definition frame (w : qsel) (n : nat) (h h' : hq) : Prop :=
  map (erase w) (fst h') = map (erase w) (fst h) /\
  length (snd h') = length (snd h) /\
  (forall k, (n <= k)%nat -> nth k (snd h') 0 = nth k (snd h) 0) /\
  (forall pk it it', st_get pk (fst h) = Some it -> st_get pk (fst h') = Some it' ->
     (get_idx w it = (-1)%Z <-> get_idx w it' = (-1)%Z)).

Lemma frame_refl : forall w n h, frame w n h h.
Proof.
  intros w n h. split; [reflexivity|]. split; [reflexivity|]. split; [reflexivity|].
  intros pk it it' A B. rewrite A in B. injection B as B. subst it'. reflexivity.
Qed.
Lemma frame_trans : forall w n h1 h2 h3, frame w n h1 h2 -> frame w n h2 h3 -> frame w n h1 h3.
Proof.
  intros w n h1 h2 h3 [A1 [A2 [A3 A4]]] [B1 [B2 [B3 B4]]].
  split; [congruence|]. split; [congruence|]. split; [intros k Hk; rewrite B3, A3 by exact Hk; reflexivity|].
  intros pk it it' G1 G3. destruct (frame_get_some w _ _ pk it A1 G1) as [it2 [G2 _]].
  rewrite (A4 pk it it2 G1 G2). apply (B4 pk it2 it' G2 G3).
Qed.

(* retryPrioQueue.Swap *)
Lemma h_swap_get : forall w st arr i j pk, (i < length arr)%nat -> (j < length arr)%nat ->
  st_get pk (fst (h_swap w (st, arr) i j)) =
  option_map (fun it => if nth i arr 0 =? pk then set_idx w (Z.of_nat j) it
                        else if nth j arr 0 =? pk then set_idx w (Z.of_nat i) it else it) (st_get pk st).
Proof.
  intros w st arr i j pk Hi Hj. unfold h_swap. cbn [fst].
  rewrite !nth_list_set, !length_list_set, !Nat.eqb_refl.
  replace (Nat.ltb i (length arr)) with true by (symmetry; apply Nat.ltb_lt; exact Hi).
  replace (Nat.ltb j (length arr)) with true by (symmetry; apply Nat.ltb_lt; exact Hj).
  cbn [andb]. rewrite Bool.andb_true_r.
  assert (Hji : (if Nat.eqb j i then nth j arr 0 else nth i arr 0) = nth i arr 0).
  { destruct (Nat.eqb_spec j i) as [E|E]; [subst j|]; reflexivity. }
  rewrite Hji.
  rewrite !st_get_upd by (intros; rewrite pk_set_idx; assumption).
  destruct (st_get pk st) as [it|]; cbn [option_map].
  - destruct (nth i arr 0 =? pk), (nth j arr 0 =? pk); cbn [option_map]; try reflexivity.
    rewrite set_set_idx. reflexivity.
  - destruct (nth i arr 0 =? pk), (nth j arr 0 =? pk); reflexivity.
Qed.

Lemma h_swap_arr : forall w st arr i j k, (i < length arr)%nat -> (j < length arr)%nat ->
  nth k (snd (h_swap w (st, arr) i j)) 0 =
  if Nat.eqb k i then nth j arr 0 else if Nat.eqb k j then nth i arr 0 else nth k arr 0.
Proof.
  intros w st arr i j k Hi Hj. unfold h_swap. cbn [snd].
  rewrite !nth_list_set, !length_list_set.
  replace (Nat.ltb i (length arr)) with true by (symmetry; apply Nat.ltb_lt; exact Hi).
  replace (Nat.ltb j (length arr)) with true by (symmetry; apply Nat.ltb_lt; exact Hj).
  rewrite !Bool.andb_true_r. reflexivity.
Qed.

Lemma h_swap_len : forall w h i j, length (snd (h_swap w h i j)) = length (snd h).
Proof. intros w [st arr] i j. unfold h_swap. cbn [snd]. rewrite !length_list_set. reflexivity. Qed.

Lemma h_swap_erase : forall w h i j, map (erase w) (fst (h_swap w h i j)) = map (erase w) (fst h).
Proof. intros w [st arr] i j. unfold h_swap. cbn [fst]. rewrite !st_upd_erase. reflexivity. Qed.

Lemma h_swap_K : forall w h i j k, (i < length (snd h))%nat -> (j < length (snd h))%nat ->
  K w (h_swap w h i j) k = swapf (K w h) i j k.
Proof.
  intros w [st arr] i j k Hi Hj. cbn [snd] in Hi, Hj. unfold K at 1.
  rewrite (frame_getd_kf w w _ _ _ (h_swap_erase w (st, arr) i j)).
  rewrite h_swap_arr by assumption. unfold swapf, K. cbn [fst snd].
  destruct (Nat.eqb k i); [reflexivity|]. destruct (Nat.eqb k j); reflexivity.
Qed.

(* setIndex of Swap by key: the two exchanged items get each other's position *)
Lemma h_swap_ixv : forall w st arr i j pk, idx_ok w (st, arr) -> (i < length arr)%nat -> (j < length arr)%nat ->
  ixv w (fst (h_swap w (st, arr) i j)) pk =
  if nth i arr 0 =? pk then Z.of_nat j else if nth j arr 0 =? pk then Z.of_nat i else ixv w st pk.
Proof.
  intros w st arr i j pk Hok Hi Hj. apply idx_ok_iff in Hok. destruct Hok as [H1 _].
  pose proof (H1 i Hi) as Pi. pose proof (H1 j Hj) as Pj. unfold ixv in *. rewrite h_swap_get by assumption.
  destruct (N.eqb_spec (nth i arr 0) pk) as [Ei|Ei]; [rewrite Ei in Pi|destruct (N.eqb_spec (nth j arr 0) pk) as [Ej|Ej]; [rewrite Ej in Pj|]];
    destruct (st_get pk st); cbn [option_map]; try apply get_set_idx_same; try reflexivity; lia.
Qed.

Lemma h_swap_idx_ok : forall w h i j, idx_ok w h -> (i < length (snd h))%nat -> (j < length (snd h))%nat ->
  idx_ok w (h_swap w h i j).
Proof.
  intros w [st arr] i j Hok Hi Hj. cbn [snd] in Hi, Hj.
  assert (Hinj : forall k l, (k < length arr)%nat -> (l < length arr)%nat -> nth k arr 0 = nth l arr 0 -> k = l)
    by (intros k l; apply (idx_ok_inj w (st, arr) k l Hok)).
  pose proof (fun pk => h_swap_ixv w st arr i j pk Hok Hi Hj) as Hx.
  pose proof (fun k => h_swap_arr w st arr i j k Hi Hj) as Ha.
  pose proof (h_swap_len w (st, arr) i j) as Hl.
  apply idx_ok_iff in Hok. destruct Hok as [H1 H2].
  destruct (h_swap w (st, arr) i j) as [st' arr']. cbn [fst snd] in *. apply idx_ok_iff. rewrite Hl. split.
  - intros k Hk. rewrite Hx, Ha.
    destruct (Nat.eqb_spec k i) as [->|Ei]; [|destruct (Nat.eqb_spec k j) as [->|Ej]].
    + destruct (N.eqb_spec (nth i arr 0) (nth j arr 0)) as [E1|E1]; [rewrite (Hinj i j Hi Hj E1)|rewrite N.eqb_refl]; reflexivity.
    + rewrite N.eqb_refl. reflexivity.
    + destruct (N.eqb_spec (nth i arr 0) (nth k arr 0)) as [E1|E1]; [elim Ei; symmetry; apply Hinj; assumption|].
      destruct (N.eqb_spec (nth j arr 0) (nth k arr 0)) as [E2|E2]; [elim Ej; symmetry; apply Hinj; assumption|]. apply H1, Hk.
  - intros pk. rewrite Hx.
    destruct (N.eqb_spec (nth i arr 0) pk) as [E1|E1]; [|destruct (N.eqb_spec (nth j arr 0) pk) as [E2|E2]].
    + intros _. exists j. split; [reflexivity|]. split; [exact Hj|]. rewrite Ha.
      destruct (Nat.eqb_spec j i) as [->|]; [exact E1|rewrite Nat.eqb_refl; exact E1].
    + intros _. exists i. split; [reflexivity|]. split; [exact Hi|]. rewrite Ha, Nat.eqb_refl. exact E2.
    + intro Hne. destruct (H2 pk Hne) as [k [A [B C]]]. exists k. split; [exact A|]. split; [exact B|]. rewrite Ha.
      destruct (Nat.eqb_spec k i) as [->|]; [contradiction|]. destruct (Nat.eqb_spec k j) as [->|]; [contradiction|]. exact C.
Qed.

Lemma h_swap_frame : forall w n h i j, idx_ok w h -> (i < n)%nat -> (j < n)%nat -> (n <= length (snd h))%nat ->
  frame w n h (h_swap w h i j).
Proof.
  intros w n [st arr] i j Hok Hi Hj Hn. cbn [snd] in Hn.
  split; [apply h_swap_erase|]. split; [apply h_swap_len|]. split.
  - intros k Hk. rewrite h_swap_arr by lia. cbn [snd].
    destruct (Nat.eqb_spec k i); [lia|]. destruct (Nat.eqb_spec k j); [lia|]. reflexivity.
  - (* the two exchanged items were at positions, and are *)
    intros pk it it' A B. cbn [fst] in A.
    pose proof (h_swap_ixv w st arr i j pk Hok ltac:(lia) ltac:(lia)) as X. unfold ixv in X. rewrite A, B in X.
    apply idx_ok_iff in Hok. destruct Hok as [H1 _].
    pose proof (H1 i ltac:(lia)) as Pi. pose proof (H1 j ltac:(lia)) as Pj. unfold ixv in Pi, Pj.
    destruct (N.eqb_spec (nth i arr 0) pk) as [E1|E1]; [rewrite E1, A in Pi; lia|].
    destruct (N.eqb_spec (nth j arr 0) pk) as [E2|E2]; [rewrite E2, A in Pj; lia|]. rewrite X. reflexivity.
Qed.

(* container/heap up *)
Lemma h_up_spec : forall w n fuel h x, (x < fuel)%nat -> (x < n)%nat -> (n <= length (snd h))%nat ->
  idx_ok w h -> hole (K w h) n x -> down_ok (K w h) n x ->
  idx_ok w (h_up w fuel h x) /\ frame w n h (h_up w fuel h x) /\ hp (K w (h_up w fuel h x)) n.
Proof.
  intros w n fuel. induction fuel as [|f IH]; intros h x Hf Hx Hn Hok Hh Hd; [lia|].
  cbn [h_up]. change (Nat.div (x - 1) 2) with (par x).
  destruct (Nat.eqb_spec (par x) x) as [E|E]; cbn [orb].
  - assert (x = 0%nat) by (destruct x; [reflexivity|pose proof (par_lt (S x)); lia]).
    split; [exact Hok|]. split; [apply frame_refl|]. apply (up_done _ _ x Hh Hd). left. assumption.
  - assert (Hx0 : (0 < x)%nat) by (destruct x; [rewrite par_0 in E; congruence|lia]).
    pose proof (par_lt x Hx0) as Hpx.
    rewrite h_less_K. destruct (K w h x <? K w h (par x)) eqn:El; cbn [negb].
    + apply N.ltb_lt in El.
      destruct (up_step _ _ _ Hh Hd Hx0 El) as [Hh' Hd'].
      assert (HK : forall k, (k < n)%nat -> K w (h_swap w h (par x) x) k = swapf (K w h) (par x) x k).
      { intros k _. apply h_swap_K; lia. }
      destruct (IH (h_swap w h (par x) x) (par x)) as [A [B C]].
      * lia.
      * lia.
      * rewrite h_swap_len. exact Hn.
      * apply h_swap_idx_ok; [exact Hok|lia|lia].
      * apply (hole_ext _ _ _ _ Hh' HK).
      * apply (down_ok_ext _ _ _ _ Hd' ltac:(lia) HK).
      * split; [exact A|]. split; [|exact C].
        apply (frame_trans w n h (h_swap w h (par x) x)); [apply h_swap_frame; [exact Hok|lia|lia|exact Hn]|exact B].
    + apply N.ltb_ge in El. split; [exact Hok|]. split; [apply frame_refl|]. apply (up_done _ _ x Hh Hd). right. exact El.
Qed.

(* container/heap down *)
(* the loop of down stops at a position x' whose children are not smaller; if it moved, the parent of x' is
   not greater either *)
Lemma h_down_spec : forall w n fuel h x h' x', (n - x <= fuel)%nat -> (x < n)%nat -> (n <= length (snd h))%nat ->
  idx_ok w h -> hole (K w h) n x -> h_down_loop w fuel h x n = (h', x') ->
  idx_ok w h' /\ frame w n h h' /\ hole (K w h') n x' /\ down_ok (K w h') n x' /\ (x <= x' < n)%nat /\
  ((x < x')%nat -> K w h' (par x') <= K w h' x') /\ (x' = x -> h' = h).
Proof.
  intros w n fuel. induction fuel as [|f IH]; intros h x h' x' Hf Hx Hn Hok Hh Eh; [lia|].
  cbn [h_down_loop] in Eh. rewrite !h_less_K in Eh.
  assert (Stop : (forall j, (0 < j < n)%nat -> par j = x -> K w h x <= K w h j) -> (h, x) = (h', x') ->
                 idx_ok w h' /\ frame w n h h' /\ hole (K w h') n x' /\ down_ok (K w h') n x' /\ (x <= x' < n)%nat /\
                 ((x < x')%nat -> K w h' (par x') <= K w h' x') /\ (x' = x -> h' = h)).
  { intros Hd E. injection E as <- <-. split; [exact Hok|]. split; [apply frame_refl|]. split; [exact Hh|].
    split; [exact Hd|]. split; [lia|]. split; [lia|reflexivity]. }
  destruct (Nat.leb_spec n (2 * x + 1)) as [E|E].
  - apply Stop; [|exact Eh]. intros j Hj Hpj. apply par_child in Hpj; lia.
  - set (j := if Nat.ltb (2 * x + 1 + 1) n && (K w h (2 * x + 1 + 1) <? K w h (2 * x + 1)) then (2 * x + 1 + 1)%nat else (2 * x + 1)%nat) in Eh.
    assert (Hj : (0 < j < n)%nat /\ par j = x /\ forall j', (0 < j' < n)%nat -> par j' = x -> K w h j <= K w h j').
    { (* the children of x are 2x+1 and 2x+2; j is the smaller of those below n *)
      assert (C : forall j', (0 < j')%nat -> par j' = x -> j' = (2 * x + 1)%nat \/ j' = (2 * x + 1 + 1)%nat)
        by (intros j' P Hp; apply par_child in Hp; lia).
      subst j. destruct (Nat.ltb_spec (2 * x + 1 + 1) n) as [E2|E2],
                        (N.ltb_spec (K w h (2 * x + 1 + 1)) (K w h (2 * x + 1))) as [El|El]; cbn [andb];
        (split; [lia|split; [apply par_child; lia|]]);
        intros j' Hj' Hp; destruct (C j' ltac:(lia) Hp) as [->| ->]; lia. }
    clearbody j. destruct Hj as [Hj [Hpj Hmin]].
    assert (Hxj : (x < j)%nat) by (rewrite <- Hpj; apply par_lt; lia).
    destruct (N.ltb_spec (K w h j) (K w h x)) as [El|El]; cbn [negb] in Eh.
    + destruct (down_step _ _ _ _ Hh Hj Hpj Hmin El) as [Hh' Hup].
      assert (HK : forall k, K w (h_swap w h x j) k = swapf (K w h) x j k) by (intros k; apply h_swap_K; lia).
      destruct (IH (h_swap w h x j) j h' x') as [A [B [C [D [F [G I]]]]]]; [lia|lia|rewrite h_swap_len; exact Hn| | |exact Eh|].
      * apply h_swap_idx_ok; [exact Hok|lia|lia].
      * apply (hole_ext _ _ _ _ Hh'). intros k _. apply HK.
      * split; [exact A|]. split.
        { apply (frame_trans w n h (h_swap w h x j)); [apply h_swap_frame; [exact Hok|lia|lia|exact Hn]|exact B]. }
        split; [exact C|]. split; [exact D|]. split; [lia|]. split; [|lia].
        intros _. destruct (Nat.eq_dec x' j) as [Ej|Ej]; [rewrite (I Ej), Ej, !HK; exact Hup|apply G; lia].
    + apply Stop; [|exact Eh]. intros j' Hj' Hp. specialize (Hmin j' Hj' Hp). lia.
Qed.

(* down followed, when nothing moved, by up: the body of heap.Fix and of heap.Remove *)
Definition down_up (w : qsel) (h : hq) (i n : nat) : hq :=
  let '(h2, moved) := h_down w h i n in
  if moved then h2 else h_up w (S (length (snd h2))) h2 i.

Lemma down_up_spec : forall w h i n, (i < n)%nat -> (n <= length (snd h))%nat -> idx_ok w h -> hole (K w h) n i ->
  idx_ok w (down_up w h i n) /\ frame w n h (down_up w h i n) /\ hp (K w (down_up w h i n)) n.
Proof.
  intros w h i n Hi Hn Hok Hh. unfold down_up, h_down.
  destruct (h_down_loop w (S (length (snd h))) h i n) as [h2 x] eqn:Eh.
  destruct (h_down_spec w n (S (length (snd h))) h i h2 x ltac:(lia) Hi Hn Hok Hh Eh) as [A [B [C [D [F [G I]]]]]].
  destruct (Nat.ltb_spec i x) as [E|E].
  - split; [exact A|]. split; [exact B|]. apply (up_done _ _ x C D). right. apply G. exact E.
  - assert (x = i) by lia. subst x. rewrite (I eq_refl) in *.
    destruct (h_up_spec w n (S (length (snd h))) h i ltac:(lia) Hi Hn Hok C D) as [A' [B' C']].
    split; [exact A'|]. split; [exact B'|exact C'].
Qed.

Definition heap_inv (w : qsel) (h : hq) : Prop := idx_ok w h /\ hp (K w h) (length (snd h)).

(* retryPrioQueue.Fix = heap.Fix, after the key of the item at position i changed *)
Lemma h_fix_spec : forall w h i, (i < length (snd h))%nat -> idx_ok w h -> hole (K w h) (length (snd h)) i ->
  heap_inv w (h_fix w h i) /\ frame w (length (snd h)) h (h_fix w h i).
Proof.
  intros w h i Hi Hok Hh. change (h_fix w h i) with (down_up w h i (length (snd h))).
  destruct (down_up_spec w h i (length (snd h)) Hi ltac:(lia) Hok Hh) as [A [B C]].
  split; [|exact B]. split; [exact A|]. destruct B as [_ [B _]]. rewrite B. exact C.
Qed.

Lemma queued_in : forall w h pk, idx_ok w h -> (queued w (fst h) pk <-> In pk (snd h)).
Proof.
  intros w h pk [H1 H2]. split.
  - intros [it [A B]]. destruct (H2 pk it A B) as [i [_ [C D]]]. rewrite <- D. apply nth_In. exact C.
  - intro Hin. destruct (In_nth _ _ 0 Hin) as [i [A B]]. destruct (H1 i A) as [it [C D]].
    exists it. rewrite <- B. split; [exact C|lia].
Qed.

Lemma frame_queued : forall w n h h' pk, frame w n h h' -> (queued w (fst h') pk <-> queued w (fst h) pk).
Proof.
  intros w n h h' pk [A [_ [_ B]]]. split.
  - intros [it' [C D]]. destruct (frame_get_some w _ _ pk it' (eq_sym A) C) as [it [E _]].
    exists it. split; [exact E|]. rewrite (B pk it it' E C). exact D.
  - intros [it [C D]]. destruct (frame_get_some w _ _ pk it A C) as [it' [E _]].
    exists it'. split; [exact E|]. rewrite <- (B pk it it' C E). exact D.
Qed.

Lemma frame_K : forall w n h h' k, frame w n h h' -> (n <= k)%nat -> K w h' k = K w h k.
Proof.
  intros w n h h' k [A [_ [B _]]] Hk. unfold K. rewrite (B k Hk). apply (frame_getd_kf w). exact A.
Qed.

Lemma nth_firstn_lt : forall (A : Type) n (l : list A) k d, (k < n)%nat -> nth k (firstn n l) d = nth k l d.
Proof.
  intros A n. induction n as [|n IH]; intros l k d Hk; [lia|].
  destruct l as [|x r]; [destruct k; reflexivity|]. destruct k as [|k]; [reflexivity|]. cbn [firstn nth]. apply IH. lia.
Qed.

(* retryPrioQueue.Pop (the last element) *)
Lemma h_pop_last_spec : forall w h n pk, idx_ok w h -> length (snd h) = S n -> nth n (snd h) 0 = pk ->
  idx_ok w (h_pop_last w h) /\ length (snd (h_pop_last w h)) = n /\
  map (erase w) (fst (h_pop_last w h)) = map (erase w) (fst h) /\
  (forall k, (k < n)%nat -> K w (h_pop_last w h) k = K w h k) /\
  (forall pk', queued w (fst (h_pop_last w h)) pk' <-> pk' <> pk /\ queued w (fst h) pk').
Proof.
  intros w [st arr] n pk Hok Hlen Hpk. cbn [snd] in Hlen, Hpk.
  unfold h_pop_last. rewrite Hlen. replace (S n - 1)%nat with n by lia. rewrite Hpk. cbn [fst snd].
  pose proof (idx_ok_inj w (st, arr) n) as Hinj. cbn [snd] in Hinj.
  apply idx_ok_iff in Hok. destruct Hok as [H1 H2].
  (* the popped item gets index -1, nothing else changes *)
  assert (Hx : forall pk', ixv w (st_upd pk (set_idx w (-1)%Z) st) pk' = if pk =? pk' then (-1)%Z else ixv w st pk').
  { intro pk'. rewrite ixv_set. destruct (pk =? pk'); [destruct (st_get pk' st)|]; reflexivity. }
  assert (Hlen' : length (firstn n arr) = n) by (rewrite firstn_length; lia).
  split; [apply idx_ok_iff; split|split; [exact Hlen'|split; [apply st_upd_erase|split]]].
  - intros k Hk. rewrite Hlen' in Hk. rewrite nth_firstn_lt, Hx by exact Hk.
    destruct (N.eqb_spec pk (nth k arr 0)) as [E|E]; [|apply H1; lia].
    rewrite <- Hpk in E. specialize (Hinj k (proj2 (idx_ok_iff w st arr) (conj H1 H2)) ltac:(lia) ltac:(lia) E). lia.
  - intros pk' Hne. rewrite Hx in Hne |- *. destruct (N.eqb_spec pk pk') as [E|E]; [congruence|].
    destruct (H2 pk' Hne) as [i [A [B C]]]. exists i. split; [exact A|].
    assert (i <> n) by (intro; subst i; congruence). rewrite Hlen'. split; [lia|]. rewrite nth_firstn_lt by lia. exact C.
  - intros k Hk. unfold K. cbn [fst snd]. rewrite nth_firstn_lt by exact Hk.
    apply (frame_getd_kf w). apply st_upd_erase.
  - intro pk'. rewrite !queued_ixv, Hx. destruct (N.eqb_spec pk pk') as [E|E].
    + split; [congruence|intros [A _]; congruence].
    + split; [intro A; split; [congruence|exact A]|intros [_ A]; exact A].
Qed.

(* what Pop / Remove establish: the item at position i leaves the heap, everything else stays *)
Definition removed (w : qsel) (h h' : hq) (pk : N) : Prop :=
  heap_inv w h' /\ S (length (snd h')) = length (snd h) /\
  map (erase w) (fst h') = map (erase w) (fst h) /\
  (forall pk', queued w (fst h') pk' <-> pk' <> pk /\ queued w (fst h) pk').

Lemma remove_tail : forall w h0 h n pk, idx_ok w h -> length (snd h) = S n -> hp (K w h) n -> nth n (snd h) 0 = pk ->
  length (snd h0) = S n -> map (erase w) (fst h) = map (erase w) (fst h0) ->
  (forall pk', queued w (fst h) pk' <-> queued w (fst h0) pk') ->
  removed w h0 (h_pop_last w h) pk.
Proof.
  intros w h0 h n pk Hok Hlen Hhp Hpk Hlen0 Her Hq.
  destruct (h_pop_last_spec w h n pk Hok Hlen Hpk) as [A [B [C [D E]]]].
  split; [split; [exact A|]|split; [lia|split; [congruence|]]].
  - rewrite B. apply (hp_ext (K w h)); assumption.
  - intro pk'. rewrite E, Hq. reflexivity.
Qed.

(* retryPrioQueue.Remove = heap.Remove *)
Lemma h_remove_spec : forall w h i, heap_inv w h -> (i < length (snd h))%nat ->
  removed w h (h_remove w h i) (nth i (snd h) 0).
Proof.
  intros w h i [Hok Hhp] Hi. unfold h_remove.
  set (n := (length (snd h) - 1)%nat). assert (Hlen : length (snd h) = S n) by lia.
  destruct (Nat.eqb_spec n i) as [E|E].
  - subst i. apply (remove_tail w h h n); try assumption; try reflexivity.
    apply (hp_shrink _ _ _ Hhp). lia.
  - change (let '(h2, moved) := h_down w (h_swap w h i n) i n in
            if moved then h2 else h_up w (S (length (snd h2))) h2 i) with (down_up w (h_swap w h i n) i n).
    assert (Hin : (i < n)%nat) by lia.
    assert (Hok1 : idx_ok w (h_swap w h i n)) by (apply h_swap_idx_ok; [exact Hok|lia|lia]).
    assert (Hf1 : frame w (S n) h (h_swap w h i n)) by (apply h_swap_frame; [exact Hok|lia|lia|lia]).
    assert (Hh1 : hole (K w (h_swap w h i n)) n i).
    { apply (hp_hole (K w h)); [apply (hp_shrink _ _ _ Hhp); lia|].
      intros k Hk Hne. rewrite h_swap_K by lia. unfold swapf.
      destruct (Nat.eqb_spec k i); [contradiction|]. destruct (Nat.eqb_spec k n); [lia|]. reflexivity. }
    destruct (down_up_spec w (h_swap w h i n) i n Hin ltac:(rewrite h_swap_len; lia) Hok1 Hh1) as [A [B C]].
    apply (remove_tail w h _ n); try assumption.
    + destruct B as [_ [B _]]. rewrite B, h_swap_len. exact Hlen.
    + destruct B as [_ [_ [B _]]]. rewrite B by lia. destruct h as [st arr]. rewrite h_swap_arr by (cbn [snd] in *; lia).
      destruct (Nat.eqb_spec n i); [lia|]. rewrite Nat.eqb_refl. reflexivity.
    + destruct B as [B _]. rewrite B. apply h_swap_erase.
    + intro pk'. rewrite (frame_queued w n _ _ pk' B). apply (frame_queued w (S n) _ _ pk' Hf1).
Qed.

(* retryPrioQueue.PopItem = heap.Pop: with more than one element it is Remove(0) (up at the root does nothing) *)
Lemma h_pop_remove : forall w h, (1 < length (snd h))%nat -> h_pop w h = h_remove w h 0.
Proof.
  intros w h H. unfold h_pop, h_remove. destruct (Nat.eqb_spec (length (snd h) - 1) 0) as [E|E]; [lia|].
  destruct (h_down w (h_swap w h 0 (length (snd h) - 1)) 0 (length (snd h) - 1)) as [h2 [|]]; reflexivity.
Qed.

Lemma h_pop_spec : forall w h, heap_inv w h -> (0 < length (snd h))%nat ->
  removed w h (h_pop w h) (nth 0 (snd h) 0).
Proof.
  intros w h Hinv Hpos.
  destruct (Nat.eq_dec (length (snd h)) 1) as [E1|E1]; [|rewrite h_pop_remove by lia; apply h_remove_spec; assumption].
  (* a single element: Swap(0, 0), then down(h, 0, 0) does nothing *)
  destruct Hinv as [Hok Hhp]. unfold h_pop, h_down. rewrite E1. cbn [Nat.sub h_down_loop Nat.leb Nat.mul Nat.add].
  apply (remove_tail w h _ 0%nat).
  - apply h_swap_idx_ok; [exact Hok|lia|lia].
  - rewrite h_swap_len. exact E1.
  - intros j Hj. lia.
  - destruct h as [st arr]. rewrite h_swap_arr by (cbn [snd] in *; lia). reflexivity.
  - exact E1.
  - apply h_swap_erase.
  - intro pk'. apply (frame_queued w 1 _ _ pk'). apply h_swap_frame; [exact Hok|lia|lia|lia].
Qed.

(* retryPrioQueue.Push and PushItem = heap.Push *)
Lemma nth_app_last : forall (l : list N) x, nth (length l) (l ++ [x]) 0 = x.
Proof. intros l x. rewrite app_nth2 by lia. rewrite Nat.sub_diag. reflexivity. Qed.

Definition pushed (w : qsel) (h h' : hq) (pk : N) : Prop :=
  heap_inv w h' /\ length (snd h') = S (length (snd h)) /\
  map (erase w) (fst h') = map (erase w) (fst h) /\
  (forall pk', queued w (fst h') pk' <-> pk' = pk \/ queued w (fst h) pk').

Lemma h_push_spec : forall w h pk it, heap_inv w h -> st_get pk (fst h) = Some it -> get_idx w it = (-1)%Z ->
  pushed w h (h_push w h pk) pk.
Proof.
  intros w [st arr] pk it [Hok Hhp] Hget Hidx. cbn [fst snd] in *.
  set (st1 := st_upd pk (set_idx w (Z.of_nat (length arr))) st).
  unfold h_push. change (h_push_last w (st, arr) pk) with (st1, arr ++ [pk]). cbn [snd].
  assert (Hl1 : length (arr ++ [pk]) = S (length arr)) by (rewrite app_length; cbn; lia).
  rewrite Hl1. replace (S (length arr) - 1)%nat with (length arr) by lia.
  assert (Her1 : map (erase w) st1 = map (erase w) st) by apply st_upd_erase.
  (* the pushed item gets the new last position as its index, nothing else changes *)
  assert (Hx : forall pk', ixv w st1 pk' = if pk =? pk' then Z.of_nat (length arr) else ixv w st pk').
  { intro pk'. unfold st1. rewrite ixv_set. destruct (N.eqb_spec pk pk') as [E|E]; [rewrite <- E, Hget|]; reflexivity. }
  assert (Hpk : ixv w st pk = (-1)%Z) by (unfold ixv; rewrite Hget; exact Hidx).
  apply idx_ok_iff in Hok. destruct Hok as [H1 H2].
  assert (Hok1 : idx_ok w (st1, arr ++ [pk])).
  { apply idx_ok_iff. rewrite Hl1. split.
    - intros k Hk. rewrite Hx. destruct (Nat.eq_dec k (length arr)) as [->|E].
      + rewrite nth_app_last, N.eqb_refl. reflexivity.
      + rewrite app_nth1 by lia. destruct (N.eqb_spec pk (nth k arr 0)) as [E1|E1]; [|apply H1; lia].
        specialize (H1 k ltac:(lia)). rewrite <- E1, Hpk in H1. lia.
    - intros pk' Hne. rewrite Hx in Hne |- *. destruct (N.eqb_spec pk pk') as [E|E].
      + subst pk'. exists (length arr). split; [reflexivity|]. split; [lia|apply nth_app_last].
      + destruct (H2 pk' Hne) as [i [A [B C]]]. exists i. split; [exact A|]. split; [lia|]. rewrite app_nth1 by lia. exact C. }
  assert (HK1 : forall k, (k < length arr)%nat -> K w (st1, arr ++ [pk]) k = K w (st, arr) k).
  { intros k Hk. unfold K. cbn [fst snd]. rewrite app_nth1 by exact Hk. apply (frame_getd_kf w). exact Her1. }
  assert (Hq1 : forall pk', queued w st1 pk' <-> pk' = pk \/ queued w st pk').
  { intro pk'. rewrite !queued_ixv, Hx. destruct (N.eqb_spec pk pk') as [E|E].
    - subst pk'. split; [intros _; left; reflexivity|intros _; lia].
    - split; [intro A; right; exact A|intros [A|A]; [congruence|exact A]]. }
  destruct (h_up_spec w (S (length arr)) (S (S (length arr))) (st1, arr ++ [pk]) (length arr) ltac:(lia) ltac:(lia)
              ltac:(cbn [snd]; lia) Hok1) as [A [B C]].
  - (* the new last position has no children; all other edges are those of the old heap *)
    split.
    + intros j Hj Hne Hpne. rewrite !HK1 by (pose proof (par_lt j); lia). apply Hhp. lia.
    + intros j Hj Hpj _. apply par_child in Hpj; lia.
  - intros j Hj Hpj. apply par_child in Hpj; lia.
  - pose proof B as [B1 [B2 _]]. cbn [fst snd] in B1, B2. split; [split; [exact A|rewrite B2, Hl1; exact C]|].
    split; [rewrite B2; exact Hl1|]. split; [rewrite B1; exact Her1|].
    intro pk'. rewrite (frame_queued w _ _ _ pk' B). apply Hq1.
Qed.
