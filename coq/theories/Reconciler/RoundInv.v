(* Reconciler/RoundInv.v — nothing_forgotten for a WHOLE round (either mode): the cover
   invariant is preserved by round_gen true true for arbitrary fault oracles and arbitrary user writes
   placed before the round, from inside any operation, and between the rounds. 
   Loops: single_ind / process_retries_ind carry an invariant of (env, queue, results) given one process_single step;
   the *_gen lemmas (LoopGen) carry an invariant of (env, queue) through both phases and both modes given what a
   scripted call, Clear, Pop and the Add of a failed Delete do to it; the *_keeps / *_env lemmas are LoopGen for a
   property that does not depend on the outcome of the call. *)
From Coq Require Import List NArith Bool Lia ZifyN ZifyBool.
From SV Require Import Reconciler.Retries Reconciler.Model Reconciler.RetriesProofs Reconciler.CommitProofs
  Reconciler.RoundProofs Reconciler.CoverProofs Reconciler.StepProofs Reconciler.TableWf Reconciler.StreamProofs
  Reconciler.PhaseProofs Reconciler.BatchProofs.
Import ListNotations.
Open Scope N_scope.

Definition side_inv (t : table) (q : retries) : Prop :=
  twf t /\ uniq q /\ forall it, In it (q_items q) -> ri_orig it <= t_rev t /\ ri_rev it <= t_rev t.

Lemma commit_one_side : forall fixed efb now t q r t' q', side_inv t q -> r_orig r <= t_rev t -> r_rev r <= t_rev t ->
  commit_one fixed efb now (t, q) r = (t', q') -> side_inv t' q' /\ t_rev t <= t_rev t'.
Proof.
  intros fixed efb now t q r t' q' [W [U P]] Ho Hr H. pose proof (twf_keyed _ W) as K.
  pose proof (commit_one_rev _ _ _ _ _ _ _ _ K H) as Hm. split; [|exact Hm].
  assert (PM : forall it, In it (q_items q) -> ri_orig it <= t_rev t' /\ ri_rev it <= t_rev t').
  { intros it Hin. apply (le2_mono _ _ _ _ (P it Hin) Hm). }
  destruct (commit_one_cases _ _ _ _ _ _ _ _ K H) as [[-> [-> _]]|[cur [rv [o' [_ [_ [_ [_ [-> ->]]]]]]]]].
  - split; [exact W|split; assumption].
  - split; [rewrite t_insert_tset; apply twf_tset; [exact W|reflexivity|reflexivity]|].
    destruct (r_ok r); [split; assumption|]. split; [apply uniq_add; exact U|].
    intros it Hin. rewrite add_items in Hin. apply in_put_item in Hin. destruct Hin as [->|Hin]; [|apply PM; exact Hin].
    cbn. destruct fixed; split; lia.
Qed.

Lemma commit_status_side : forall fixed efb now res t q t' q', side_inv t q ->
  (forall r, In r res -> r_orig r <= t_rev t /\ r_rev r <= t_rev t) ->
  commit_status_gen fixed efb now t q res = (t', q') -> side_inv t' q' /\ t_rev t <= t_rev t'.
Proof.
  intros fixed efb now res. unfold commit_status_gen. induction res as [|r rest IH]; intros t q t' q' S Hp H.
  - cbn in H. injection H as H1 H2. subst. split; [exact S|lia].
  - cbn [fold_left] in H. destruct (commit_one fixed efb now (t, q) r) as [t1 q1] eqn:E1.
    destruct (Hp r (or_introl eq_refl)) as [P1 P2].
    destruct (commit_one_side _ _ _ _ _ _ _ _ S P1 P2 E1) as [S1 M1].
    destruct (IH t1 q1 t' q' S1) as [S2 M2]; [|exact H|].
    + intros r2 Hin. apply (le2_mono _ _ _ _ (Hp r2 (or_intror Hin)) M1).
    + split; [exact S2|lia].
Qed.

Record retry_inv (e : env) (q : retries) (res : list opres) (c : N) : Prop := {
  ri_twf : twf (e_tab e);
  ri_cur : c <= t_rev (e_tab e);
  ri_uniq : uniq q;
  ri_past : forall it, In it (q_items q) -> ri_orig it <= t_rev (e_tab e) /\ ri_rev it <= t_rev (e_tab e);
  ri_nd : NoDup (res_pks res);
  ri_rpast : forall r, In r res -> r_orig r <= t_rev (e_tab e) /\ r_rev r <= t_rev (e_tab e);
  ri_popped : forall p it, In p (res_pks res) -> find_item p (q_items q) = Some it -> ri_inq it = false;
  ri_cov : forall pk, covered (Dlog e) (e_tab e) c res q pk
}.

Lemma find_clear_cases : forall q k p it, find_item p (q_items (r_clear q k)) = Some it -> p <> k /\ find_item p (q_items q) = Some it.
Proof.
  intros q k p it H. rewrite clear_items in H. destruct (N.eq_dec p k) as [E|E].
  - subst p. rewrite find_item_remove_same in H. discriminate.
  - rewrite find_item_remove_other in H by exact E. split; assumption.
Qed.

(* the bookkeeping side of retry_inv: one item per key, items and results lie in the past, one result per key,
   and the item of a key that has a result is out of the retryAt queue (it was popped in this round) *)
Definition qside (t : table) (q : retries) (res : list opres) : Prop :=
  uniq q /\ (forall it, In it (q_items q) -> ri_orig it <= t_rev t /\ ri_rev it <= t_rev t) /\
  NoDup (res_pks res) /\ (forall r, In r res -> r_orig r <= t_rev t /\ r_rev r <= t_rev t) /\
  (forall p it, In p (res_pks res) -> find_item p (q_items q) = Some it -> ri_inq it = false).

Lemma qside_mono : forall t t' q res, t_rev t <= t_rev t' -> qside t q res -> qside t' q res.
Proof.
  intros t t' q res M [A [B [C [D E]]]]. split; [exact A|]. split; [|split; [exact C|split; [|exact E]]].
  - intros it Hi. apply (le2_mono _ _ _ _ (B it Hi) M).
  - intros r Hr. apply (le2_mono _ _ _ _ (D r Hr) M).
Qed.

Lemma qside_clear : forall t q res k, qside t q res -> qside t (r_clear q k) res.
Proof.
  intros t q res k [A [B [C [D E]]]]. split; [apply uniq_clear, A|]. split; [|split; [exact C|split; [exact D|]]].
  - intros it Hi. apply B. apply in_clear_items in Hi. exact Hi.
  - intros p it Hp Hf. apply find_clear_cases in Hf. apply (E p it Hp), Hf.
Qed.

Lemma qside_add : forall t q res o rev orig del now, qside t q res -> ~ In (o_pk o) (res_pks res) ->
  orig <= t_rev t /\ rev <= t_rev t -> qside t (r_add q o rev orig del now) res.
Proof.
  intros t q res o rev orig del now [A [B [C [D E]]]] Hn Hp. split; [apply uniq_add, A|]. split; [|split; [exact C|split; [exact D|]]].
  - intros it Hi. rewrite add_items in Hi. apply in_put_item in Hi. destruct Hi as [->|Hi]; [exact Hp|apply B, Hi].
  - intros p it Hpr Hf. rewrite add_other in Hf by (intros ->; exact (Hn Hpr)). apply (E p it Hpr Hf).
Qed.

(* Pop: the head leaves the retryAt queue; it has no result yet *)
Lemma qside_pop : forall t q res it, qside t q res -> r_top q = Some it ->
  qside t (r_pop q) res /\ ~ In (ri_pk it) (res_pks res) /\ (ri_orig it <= t_rev t /\ ri_rev it <= t_rev t).
Proof.
  intros t q res it [A [B [C [D E]]]] Ht. destruct (top_of_spec _ _ Ht) as [Hin [Hq _]].
  assert (Hf : find_item (ri_pk it) (q_items q) = Some it) by (apply find_item_uniq; assumption).
  split; [|split; [intro X; rewrite (E _ _ X Hf) in Hq; discriminate|apply B, Hin]].
  split; [apply uniq_pop, A|]. split; [|split; [exact C|split; [exact D|]]].
  - intros i Hi. rewrite pop_items in Hi. unfold r_top in Ht. rewrite Ht in Hi. apply in_put_item in Hi.
    destruct Hi as [->|Hi]; [apply (B it Hin)|apply B, Hi].
  - intros p i Hp Hfi. destruct (N.eq_dec p (ri_pk it)) as [->|Ne].
    + rewrite (popped_find q it A Ht) in Hfi. injection Hfi as <-. reflexivity.
    + rewrite find_pop_other in Hfi; [exact (E p i Hp Hfi)|exact A|]. intros t0 Ht0. rewrite Ht in Ht0. injection Ht0 as <-. auto.
Qed.

(* the result of an operation on a key whose item is out of the retryAt queue *)
Lemma qside_result : forall t q res r, qside t q res ->
  (forall i, find_item (o_pk (r_obj r)) (q_items q) = Some i -> ri_inq i = false) ->
  ~ In (o_pk (r_obj r)) (res_pks res) -> r_orig r <= t_rev t /\ r_rev r <= t_rev t -> qside t q (res ++ [r]).
Proof.
  intros t q res r [A [B [C [D E]]]] Hu Hn Hp. split; [exact A|]. split; [exact B|]. unfold res_pks. rewrite map_app. split; [|split].
  - apply nodup_snoc; assumption.
  - intros x Hx. apply in_app_or in Hx. destruct Hx as [Hx|[<-|[]]]; [apply D, Hx|exact Hp].
  - intros p it Hpr Hf. apply in_app_or in Hpr. destruct Hpr as [Hpr|[<-|[]]]; [exact (E p it Hpr Hf)|exact (Hu it Hf)].
Qed.

Lemma retry_inv_qside : forall e q res c, retry_inv e q res c <->
  twf (e_tab e) /\ c <= t_rev (e_tab e) /\ qside (e_tab e) q res /\ forall pk, covered (Dlog e) (e_tab e) c res q pk.
Proof.
  intros e q res c. split.
  - intros [I1 I2 I3 I4 I5 I6 I7 I8]. unfold qside. auto 10.
  - intros [I1 [I2 [[I3 [I4 [I5 [I6 I7]]]] I8]]]. constructor; assumption.
Qed.

(* one iteration of processRetries: Pop the due head, run its operation (the hooks may write anything), then Clear on
   success / Add of a failed Delete / the result of an Update *)
Lemma retry_step : forall e snap q res c it e' q' res',
  retry_inv e q res c -> r_top q = Some it ->
  process_single e snap false (r_pop q) res (ri_obj it) (ri_rev it) (ri_orig it) (ri_del it) = (e', q', res') ->
  retry_inv e' q' res' c.
Proof.
  intros e snap q res c it e' q' res' INV Ht H. apply retry_inv_qside in INV. destruct INV as [I1 [I2 [QS I8]]].
  apply retry_inv_qside. pose proof QS as [I3 _]. destruct (qside_pop _ _ _ _ QS Ht) as [QP [Hnew Hpast]].
  assert (Unq : forall i, find_item (o_pk (ri_obj it)) (q_items (r_pop q)) = Some i -> ri_inq i = false).
  { intros i X. change (o_pk (ri_obj it)) with (ri_pk it) in X. rewrite (popped_find q it I3 Ht) in X. injection X as <-. reflexivity. }
  destruct (ri_del it) eqn:Hd.
  - unfold process_single in H. destruct (do_call e snap false 1 (ri_obj it) (ri_rev it)) as [e1 ok] eqn:Ec.
    pose proof (do_call_wstep _ _ _ _ _ _ _ _ (twf_keyed _ I1) Ec) as WS. pose proof (wstep_rev _ _ WS) as M.
    destruct (do_call_Dlog _ _ _ _ _ _ _ _ Ec) as [DM DL].
    set (D' := fun p r0 => Dlog e p r0 \/ (p = o_pk (ri_obj it) /\ r0 = ri_rev it)).
    assert (W1 : wstate D' (e_tab e1) c res (r_pop q)).
    { replace e1 with (fst (do_call e snap false 1 (ri_obj it) (ri_rev it))) by (rewrite Ec; reflexivity).
      apply do_call_wstate. split; [apply twf_keyed, I1|split; [exact I2|]]. intro pk.
      apply (cov_pop (Dlog e) D' _ _ res res q it); auto; [congruence|left; assumption|right; auto]. }
    destruct W1 as [_ [B1 C3]]. apply (qside_mono _ _ _ _ M) in QP.
    destruct ok; injection H as <- <- <-; (split; [exact (wstep_twf _ _ WS I1)|split; [exact B1|split]]).
    + apply qside_clear, QP.
    + intro pk. apply cov_clear_unqueued; [exact Unq|].
      apply (covered_D_mono D'); [|apply C3]. intros p r0 [X|[-> ->]]; [exact (DM p r0 X)|exact (DL eq_refl eq_refl)].
    + apply (qside_add _ _ _ _ _ _ _ _ QP Hnew), (le2_mono _ _ _ _ Hpast M).
    + intro pk. apply cov_add_del; [exact Unq|].
      apply (covered_D_mono D'); [|apply C3]. intros p r0 [X|X]; [left; exact (DM p r0 X)|right; exact X].
  - destruct (retry_update_step_covers (Dlog e) c e snap q res it e' q' res' I3 Ht Hd
                (conj (twf_keyed _ I1) (conj I2 I8)) H) as [[_ [K2 K3]] _].
    unfold process_single in H. destruct (do_call e snap false 0 (ri_obj it) (ri_rev it)) as [e1 ok] eqn:Ec.
    pose proof (do_call_wstep _ _ _ _ _ _ _ _ (twf_keyed _ I1) Ec) as WS. pose proof (wstep_rev _ _ WS) as M.
    destruct (do_call_Dlog _ _ _ _ _ _ _ _ Ec) as [DM _]. injection H as <- <- <-.
    split; [apply (wstep_twf _ _ WS I1)|]. split; [exact K2|]. split.
    + apply (qside_mono _ _ _ _ M). assert (QR := qside_result _ _ _ (mkRes (ri_obj it) (ri_rev it) (ri_orig it) (o_sid (ri_obj it)) ok) QP Unq Hnew Hpast).
      destruct ok; [apply qside_clear|]; exact QR.
    + intro pk. apply (covered_D_mono (Dlog e)); [exact DM|apply K3].
Qed.

(* the two loops over process_single: what one step keeps, the loop keeps *)
Section Loops.
Variables (I : env -> retries -> list opres -> Prop) (snap : table).

Lemma process_retries_ind :
  (forall e q res it e' q' res', I e q res -> r_top q = Some it ->
     process_single e snap false (r_pop q) res (ri_obj it) (ri_rev it) (ri_orig it) (ri_del it) = (e', q', res') -> I e' q' res') ->
  forall fuel rs e q res nrec e' q' res' nrec', I e q res ->
    process_retries fuel rs snap e q res nrec = (e', q', res', nrec') -> I e' q' res'.
Proof.
  intro Step. induction fuel as [|f IH]; intros rs e q res nrec e' q' res' nrec' HI H; cbn [process_retries] in H.
  - injection H as <- <- <- <-. exact HI.
  - destruct (nrec <? rs); [|injection H as <- <- <- <-; exact HI].
    destruct (r_top q) as [it|] eqn:Et; [|injection H as <- <- <- <-; exact HI].
    destruct (e_now e <? ri_at it); [injection H as <- <- <- <-; exact HI|].
    destruct (process_single e snap false (r_pop q) res (ri_obj it) (ri_rev it) (ri_orig it) (ri_del it)) as [[e1 q1] res1] eqn:Ep.
    exact (IH _ _ _ _ _ _ _ _ _ (Step _ _ _ _ _ _ _ HI Et Ep) H).
Qed.

Lemma single_ind :
  (forall e q res ch e' q' res', I e q res ->
     process_single e snap true (r_clear q (ch_pk ch)) res (c_obj ch) (c_rev ch) (c_rev ch) (c_del ch) = (e', q', res') -> I e' q' res') ->
  forall chs rs e q res nrec lastrev e' q' res' nrec' lastrev', I e q res ->
    single rs snap chs e q res nrec lastrev = (e', q', res', nrec', lastrev') -> I e' q' res'.
Proof.
  intro Step. induction chs as [|ch rest IH]; intros rs e q res nrec lastrev e' q' res' nrec' lastrev' HI H; cbn [single] in H.
  - injection H as <- <- <- <- <-. exact HI.
  - destruct (negb (c_del ch) && negb (is_pending (c_obj ch))); [exact (IH _ _ _ _ _ _ _ _ _ _ _ HI H)|].
    destruct (process_single e snap true (r_clear q (o_pk (c_obj ch))) res (c_obj ch) (c_rev ch) (c_rev ch) (c_del ch))
      as [[e1 q1] res1] eqn:Ep.
    pose proof (Step _ _ _ ch _ _ _ HI Ep) as HI1.
    destruct (rs <=? nrec + 1); [injection H as <- <- <- <- <-; exact HI1|exact (IH _ _ _ _ _ _ _ _ _ _ _ HI1 H)].
Qed.
End Loops.

Theorem process_retries_inv : forall fuel rs snap e q res nrec c e' q' res' nrec',
  retry_inv e q res c -> process_retries fuel rs snap e q res nrec = (e', q', res', nrec') ->
  retry_inv e' q' res' c.
Proof.
  intros fuel rs snap e q res nrec c e' q' res' nrec'.
  apply (process_retries_ind (fun e q res => retry_inv e q res c)). intros e0 q0 res0 it. apply retry_step.
Qed.

Definition round_inv (e : env) (s : rstate) : Prop :=
  side_inv (e_tab e) (k_ret s) /\ k_cursor s <= t_rev (e_tab e) /\
  forall pk, covered (Dlog e) (e_tab e) (k_cursor s) [] (k_ret s) pk.

Lemma Dlog_set_tab : forall e t p r, Dlog (set_tab e t) p r <-> Dlog e p r.
Proof. intros. unfold Dlog. cbn. reflexivity. Qed.

Lemma single_lastrev : forall chs rs snap e q res nrec lastrev e' q' res' nrec' lastrev',
  single rs snap chs e q res nrec lastrev = (e', q', res', nrec', lastrev') ->
  lastrev' = lastrev \/ exists ch, In ch chs /\ lastrev' = c_rev ch.
Proof.
  induction chs as [|ch rest IH]; intros rs snap e q res nrec lastrev e' q' res' nrec' lastrev' H; cbn [single] in H.
  - injection H as H1 H2 H3 H4 H5. left. symmetry. exact H5.
  - right. destruct (negb (c_del ch) && negb (is_pending (c_obj ch))).
    + destruct (IH _ _ _ _ _ _ _ _ _ _ _ _ H) as [X|[d [X1 X2]]]; [exists ch; split; [left; reflexivity|exact X]|exists d; split; [right; exact X1|exact X2]].
    + destruct (process_single e snap true (r_clear q (o_pk (c_obj ch))) res (c_obj ch) (c_rev ch) (c_rev ch) (c_del ch)) as [[e1 q1] res1].
      destruct (rs <=? nrec + 1).
      * injection H as H1 H2 H3 H4 H5. exists ch. split; [left; reflexivity|symmetry; exact H5].
      * destruct (IH _ _ _ _ _ _ _ _ _ _ _ _ H) as [X|[d [X1 X2]]]; [exists ch; split; [left; reflexivity|exact X]|exists d; split; [right; exact X1|exact X2]].
Qed.

Lemma batch_collect_lastrev : forall chs rs q dels upds nrec lastrev q' dels' upds' nrec' lastrev',
  batch_collect rs chs q dels upds nrec lastrev = (q', dels', upds', nrec', lastrev') ->
  lastrev' = lastrev \/ exists ch, In ch chs /\ lastrev' = c_rev ch.
Proof.
  induction chs as [|ch rest IH]; intros rs q dels upds nrec lastrev q' dels' upds' nrec' lastrev' H; cbn [batch_collect] in H.
  - injection H as H1 H2 H3 H4 H5. left. symmetry. exact H5.
  - right. destruct (negb (c_del ch) && negb (is_pending (c_obj ch))).
    + destruct (IH _ _ _ _ _ _ _ _ _ _ _ H) as [X|[d [X1 X2]]]; [exists ch; split; [left; reflexivity|exact X]|exists d; split; [right; exact X1|exact X2]].
    + destruct (rs <=? nrec + 1).
      * injection H as H1 H2 H3 H4 H5. exists ch. split; [left; reflexivity|symmetry; exact H5].
      * destruct (IH _ _ _ _ _ _ _ _ _ _ _ H) as [X|[d [X1 X2]]]; [exists ch; split; [left; reflexivity|exact X]|exists d; split; [right; exact X1|exact X2]].
Qed.

(* the change-stream phase of a round, either mode *)
Definition phase1 (cf : cfg) (snap : table) (chs : list change) (e : env) (q : retries)
  : env * retries * list opres * N * N :=
  if cf_batch cf then
    let '(q, dels, upds, nrec, lastrev) := batch_collect (cf_rs cf) chs q [] [] 0 0 in
    let (e, q) := batch_deletes snap dels e q in
    let (e, l) := batch_update_calls snap upds e [] in
    let (q, res) := batch_results l q [] in
    (e, q, res, nrec, lastrev)
  else single (cf_rs cf) snap chs e q [] 0 0.

Lemma phase1_cases : forall cf snap chs e q e1 q1 res1 nrec1 lastrev1,
  phase1 cf snap chs e q = (e1, q1, res1, nrec1, lastrev1) ->
  single (cf_rs cf) snap chs e q [] 0 0 = (e1, q1, res1, nrec1, lastrev1) \/
  exists qa dels upds e2 q2 l, batch_collect (cf_rs cf) chs q [] [] 0 0 = (qa, dels, upds, nrec1, lastrev1) /\
    batch_deletes snap dels e qa = (e2, q2) /\ batch_update_calls snap upds e2 [] = (e1, l) /\
    batch_results l q2 [] = (q1, res1).
Proof.
  intros cf snap chs e q e1 q1 res1 nrec1 lastrev1 H. unfold phase1 in H. destruct (cf_batch cf); [right|left; exact H].
  destruct (batch_collect (cf_rs cf) chs q [] [] 0 0) as [[[[qa dels] upds] nrec] lastrev].
  destruct (batch_deletes snap dels e qa) as [e2 q2] eqn:HD. destruct (batch_update_calls snap upds e2 []) as [e3 l] eqn:HU.
  destruct (batch_results l q2 []) as [q4 res] eqn:HR. injection H as <- <- <- <- <-. exists qa, dels, upds, e2, q2, l. auto.
Qed.

Lemma phase1_inv : forall cf snap c0 chs e q e1 q1 res1 nrec1 lastrev1,
  phase_inv (Dlog e) snap e q [] (curs c0 0) chs ->
  phase1 cf snap chs e q = (e1, q1, res1, nrec1, lastrev1) ->
  (exists chs', phase_inv (Dlog e1) snap e1 q1 res1 (curs c0 lastrev1) chs') /\
  (lastrev1 = 0 \/ exists ch, In ch chs /\ lastrev1 = c_rev ch).
Proof.
  intros cf snap c0 chs e q e1 q1 res1 nrec1 lastrev1 PH H.
  destruct (phase1_cases _ _ _ _ _ _ _ _ _ _ H) as [HS|[qa [dels [upds [e2 [q2 [l [HC [HD [HU HR]]]]]]]]]].
  - split; [apply (single_inv _ _ _ _ _ _ _ _ _ _ _ _ _ _ PH HS)|apply (single_lastrev _ _ _ _ _ _ _ _ _ _ _ _ _ HS)].
  - split; [apply (batch_inv _ _ _ _ _ _ _ _ _ _ _ _ _ _ _ _ _ PH HC HD HU HR)|apply (batch_collect_lastrev _ _ _ _ _ _ _ _ _ _ _ _ HC)].
Qed.

Lemma round_parts : forall cf e s e' s', round cf e s = (e', s') ->
  exists e1 q1 res1 nrec1 lastrev1 t1 q2 e3 q3 res2 nrec3 t2 q4,
    phase1 cf (e_tab e) (changes_of (e_tab e) (k_cursor s)) e (k_ret s) = (e1, q1, res1, nrec1, lastrev1) /\
    commit_status_gen true true (e_now e1) (e_tab e1) q1 res1 = (t1, q2) /\
    process_retries (N.to_nat (cf_rs cf)) (cf_rs cf) (e_tab e) (set_tab e1 t1) q2 [] nrec1 = (e3, q3, res2, nrec3) /\
    commit_status_gen true true (e_now e3) (e_tab e3) q3 res2 = (t2, q4) /\
    e_tab e' = t2 /\ e_now e' = e_now e3 /\ e_foff e' = e_foff e3 /\ e_hooks e' = e_hooks e3 /\
    e_attempts e' = e_attempts e3 /\
    k_cursor s' = curs (k_cursor s) lastrev1 /\ k_ret s' = q4 /\
    k_prev s' = (if k_prev s <? lastrev1 then lastrev1 else k_prev s) /\ (exists l, e_calls e' = e_calls e3 ++ l).
Proof.
  intros cf e s e' s' H. unfold round, round_gen in H. cbv zeta in H.
  change (if cf_batch cf
          then let '(q, dels, upds, nrec, lastrev) := batch_collect (cf_rs cf) (changes_of (e_tab e) (k_cursor s)) (k_ret s) [] [] 0 0 in
               let (e0, q0) := batch_deletes (e_tab e) dels e q in
               let (e1, l) := batch_update_calls (e_tab e) upds e0 [] in
               let (q1, res) := batch_results l q0 [] in (e1, q1, res, nrec, lastrev)
          else single (cf_rs cf) (e_tab e) (changes_of (e_tab e) (k_cursor s)) e (k_ret s) [] 0 0)
    with (phase1 cf (e_tab e) (changes_of (e_tab e) (k_cursor s)) e (k_ret s)) in H.
  destruct (phase1 cf (e_tab e) (changes_of (e_tab e) (k_cursor s)) e (k_ret s)) as [[[[e1 q1] res1] nrec1] lastrev1] eqn:E1.
  destruct (commit_status_gen true true (e_now e1) (e_tab e1) q1 res1) as [t1 q2] eqn:C1.
  destruct (process_retries (N.to_nat (cf_rs cf)) (cf_rs cf) (e_tab e) (set_tab e1 t1) q2 [] nrec1) as [[[e3 q3] res2] nrec3] eqn:R1.
  destruct (commit_status_gen true true (e_now e3) (e_tab e3) q3 res2) as [t2 q4] eqn:C2.
  exists e1, q1, res1, nrec1, lastrev1, t1, q2, e3, q3, res2, nrec3, t2, q4.
  split; [reflexivity|]. split; [exact C1|]. split; [exact R1|]. split; [exact C2|].
  match type of H with (if ?b then _ else _) = _ => destruct b end; injection H as H1 H2; subst e' s'; cbn;
    repeat split; [eexists; reflexivity|exists []; symmetry; apply app_nil_r].
Qed.

Lemma round_decompose : forall cf e s e' s', round cf e s = (e', s') ->
  exists e1 q1 res1 nrec1 lastrev1 t1 q2 e3 q3 res2 nrec3 t2 q4,
    phase1 cf (e_tab e) (changes_of (e_tab e) (k_cursor s)) e (k_ret s) = (e1, q1, res1, nrec1, lastrev1) /\
    commit_status_gen true true (e_now e1) (e_tab e1) q1 res1 = (t1, q2) /\
    process_retries (N.to_nat (cf_rs cf)) (cf_rs cf) (e_tab e) (set_tab e1 t1) q2 [] nrec1 = (e3, q3, res2, nrec3) /\
    commit_status_gen true true (e_now e3) (e_tab e3) q3 res2 = (t2, q4) /\
    e_tab e' = t2 /\ e_now e' = e_now e3 /\ e_foff e' = e_foff e3 /\ e_hooks e' = e_hooks e3 /\
    e_attempts e' = e_attempts e3 /\
    k_cursor s' = curs (k_cursor s) lastrev1 /\ k_ret s' = q4.
Proof.
  intros cf e s e' s' H.
  destruct (round_parts _ _ _ _ _ H) as [e1 [q1 [res1 [nrec1 [lastrev1 [t1 [q2 [e3 [q3 [res2 [nrec3 [t2 [q4 P]]]]]]]]]]]]].
  exists e1, q1, res1, nrec1, lastrev1, t1, q2, e3, q3, res2, nrec3, t2, q4. tauto.
Qed.

(* the invariants at the stages of a round: before and after the change phase, around the retry phase, at the end *)
Theorem round_stages : forall cf e s e1 q1 res1 nrec1 lastrev1 t1 q2 e3 q3 res2 nrec3 t2 q4, round_inv e s ->
  phase1 cf (e_tab e) (changes_of (e_tab e) (k_cursor s)) e (k_ret s) = (e1, q1, res1, nrec1, lastrev1) ->
  commit_status_gen true true (e_now e1) (e_tab e1) q1 res1 = (t1, q2) ->
  process_retries (N.to_nat (cf_rs cf)) (cf_rs cf) (e_tab e) (set_tab e1 t1) q2 [] nrec1 = (e3, q3, res2, nrec3) ->
  commit_status_gen true true (e_now e3) (e_tab e3) q3 res2 = (t2, q4) ->
  phase_inv (Dlog e) (e_tab e) e (k_ret s) [] (curs (k_cursor s) 0) (changes_of (e_tab e) (k_cursor s)) /\
  (exists chs', phase_inv (Dlog e1) (e_tab e) e1 q1 res1 (curs (k_cursor s) lastrev1) chs') /\
  (lastrev1 = 0 \/ k_cursor s < lastrev1) /\
  retry_inv (set_tab e1 t1) q2 [] (curs (k_cursor s) lastrev1) /\ retry_inv e3 q3 res2 (curs (k_cursor s) lastrev1) /\
  side_inv t2 q4 /\ curs (k_cursor s) lastrev1 <= t_rev t2 /\
  forall pk, covered (Dlog e3) t2 (curs (k_cursor s) lastrev1) [] q4 pk.
Proof.
  intros cf e s e1 q1 res1 nrec1 lastrev1 t1 q2 e3 q3 res2 nrec3 t2 q4 [[W [U P]] [Hc Hcov]] E1 C1 R1 C2.
  set (snap := e_tab e) in *.
  assert (INV0 : phase_inv (Dlog e) snap e (k_ret s) [] (curs (k_cursor s) 0) (changes_of snap (k_cursor s))).
  { constructor; first [assumption | exact Hc | apply snap_rel_refl | apply changes_stream_ok; exact W
                        | intros ch _ [] | intros r [] | constructor ]. }
  destruct (phase1_inv _ _ _ _ _ _ _ _ _ _ _ INV0 E1) as [[chs' PI] LR]. pose proof PI as [J1 J2 J3 J4 J5 J6 J7 J8 J9 J10 J11].
  set (cur1 := curs (k_cursor s) lastrev1) in *.
  assert (SR : t_rev snap <= t_rev (e_tab e1)) by (destruct J3 as [X _]; exact X).
  assert (LR' : lastrev1 = 0 \/ k_cursor s < lastrev1).
  { destruct LR as [X|[ch [X1 X2]]]; [left; exact X|right].
    destruct (changes_stream_ok snap (k_cursor s) W) as [_ [_ [_ [_ S5]]]]. specialize (S5 ch X1). lia. }
  assert (Hres1 : forall r, In r res1 -> r_orig r <= t_rev (e_tab e1) /\ r_rev r <= t_rev (e_tab e1)).
  { intros r Hr. apply (le2_mono _ _ _ _ (J10 r Hr) SR). }
  destruct (commit_status_side _ _ _ _ _ _ _ _ (conj J1 (conj J6 J7)) Hres1 C1) as [[W1 [U1 P1]] M1].
  assert (RI0 : retry_inv (set_tab e1 t1) q2 [] cur1).
  { constructor; first [assumption | cbn; lia | intros r [] | intros p it [] | constructor | idtac].
    apply (commit_status_covers (Dlog e1) cur1 (e_now e1) res1 (e_tab e1) q1 t1 q2 (twf_keyed _ J1) J6 J8); auto.
    intros r Hr. apply Hres1. exact Hr. }
  pose proof (process_retries_inv _ _ _ _ _ _ _ _ _ _ _ _ RI0 R1) as RI3. pose proof RI3 as [K1 K2 K3 K4 K5 K6 K7 K8].
  destruct (commit_status_side _ _ _ _ _ _ _ _ (conj K1 (conj K3 K4)) K6 C2) as [S2 M2].
  split; [exact INV0|]. split; [exists chs'; exact PI|]. split; [exact LR'|]. split; [exact RI0|]. split; [exact RI3|].
  split; [exact S2|]. split; [exact (N.le_trans _ _ _ K2 M2)|].
  apply (commit_status_covers (Dlog e3) cur1 (e_now e3) res2 (e_tab e3) q3 t2 q4 (twf_keyed _ K1) K3 K5); auto.
  intros r Hr. apply K6. exact Hr.
Qed.

Theorem round_keeps_inv : forall cf e s e' s',
  round_inv e s -> round cf e s = (e', s') -> round_inv e' s' /\ k_cursor s <= k_cursor s'.
Proof.
  intros cf e s e' s' RI H.
  destruct (round_parts _ _ _ _ _ H) as [e1 [q1 [res1 [nrec1 [lastrev1 [t1 [q2 [e3 [q3 [res2 [nrec3 [t2 [q4
    [E1 [C1 [R1 [C2 [Tt [_ [_ [_ [_ [Tc [Tq [_ [lg TL]]]]]]]]]]]]]]]]]]]]]]]]]].
  destruct (round_stages _ _ _ _ _ _ _ _ _ _ _ _ _ _ _ _ RI E1 C1 R1 C2) as [_ [_ [LR [_ [_ [S2 [M2 Cov2]]]]]]].
  unfold round_inv. rewrite Tt, Tc, Tq. split.
  - split; [exact S2|]. split; [exact M2|]. intro pk. apply (covered_D_mono (Dlog e3)); [exact (Dlog_mono e3 e' lg TL)|apply Cov2].
  - unfold curs. destruct (N.eqb_spec lastrev1 0); lia.
Qed.

(* within the two phases of a round the environment moves by scripted operations only (do_call with op 0..3: Update,
   Delete, UpdateBatch entry, DeleteBatch entry; the status commits change the table through set_tab, outside the
   phases), and the retry queue by Clear, Pop and the Add of a DELETE retry (update retries are added by the status
   commits) *)
Lemma is_del_op_lt : forall op, is_del_op op = true -> op < 4.
Proof. intros op H. unfold is_del_op in H. apply orb_prop in H. destruct H as [H|H]; apply N.eqb_eq in H; subst op; reflexivity. Qed.

Section LoopGen.
Variable I : env -> retries -> Prop.
Hypothesis call : forall e q snap fresh op o rev e' ok, op < 4 -> I e q -> do_call e snap fresh op o rev = (e', ok) -> I e' q.
Hypothesis clear : forall e q k, I e q -> I e (r_clear q k).
Hypothesis del_failed : forall e q snap fresh op o rev orig e', is_del_op op = true -> I e q ->
  do_call e snap fresh op o rev = (e', false) -> I e' (r_add q o rev orig true (e_now e')).
Hypothesis pop : forall e q, I e q -> I e (r_pop q).

Lemma process_single_gen : forall e snap fresh q res o rev orig del e' q' res', I e q ->
  process_single e snap fresh q res o rev orig del = (e', q', res') -> I e' q'.
Proof.
  intros e snap fresh q res o rev orig del e' q' res' H0 H. unfold process_single in H. destruct del.
  - destruct (do_call e snap fresh 1 o rev) as [e1 ok] eqn:Ec.
    destruct ok; injection H as <- <- _; [apply clear, (call e q snap fresh 1 o rev e1 true eq_refl H0 Ec)|exact (del_failed e q snap fresh 1 o rev orig e1 eq_refl H0 Ec)].
  - destruct (do_call e snap fresh 0 o rev) as [e1 ok] eqn:Ec. pose proof (call e q snap fresh 0 o rev e1 ok eq_refl H0 Ec) as X.
    injection H as <- <- _. destruct ok; [apply clear|]; exact X.
Qed.

Lemma batch_collect_gen : forall chs rs e q dels upds nrec lastrev q' dels' upds' nrec' lastrev', I e q ->
  batch_collect rs chs q dels upds nrec lastrev = (q', dels', upds', nrec', lastrev') -> I e q'.
Proof.
  induction chs as [|ch rest IH]; intros rs e q dels upds nrec lastrev q' dels' upds' nrec' lastrev' H0 H; cbn [batch_collect] in H.
  - injection H as <- _ _ _ _. exact H0.
  - destruct (negb (c_del ch) && negb (is_pending (c_obj ch))); [exact (IH _ _ _ _ _ _ _ _ _ _ _ _ H0 H)|].
    pose proof (clear _ _ (o_pk (c_obj ch)) H0) as H1.
    destruct (rs <=? nrec + 1); [injection H as <- _ _ _ _; exact H1|exact (IH _ _ _ _ _ _ _ _ _ _ _ _ H1 H)].
Qed.

Lemma batch_deletes_gen : forall dl snap e q e' q', I e q -> batch_deletes snap dl e q = (e', q') -> I e' q'.
Proof.
  induction dl as [|d rest IH]; intros snap e q e' q' H0 H; cbn [batch_deletes] in H.
  - injection H as <- <-. exact H0.
  - destruct (do_call e snap true 3 (c_obj d) (c_rev d)) as [e1 ok] eqn:Ec.
    destruct ok; [exact (IH _ _ _ _ _ (call e q snap true 3 _ _ e1 true eq_refl H0 Ec) H)|exact (IH _ _ _ _ _ (del_failed e q snap true 3 _ _ _ e1 eq_refl H0 Ec) H)].
Qed.

Lemma batch_update_calls_gen : forall upds snap e q acc e' l, I e q -> batch_update_calls snap upds e acc = (e', l) -> I e' q.
Proof.
  induction upds as [|u rest IH]; intros snap e q acc e' l H0 H; cbn [batch_update_calls] in H.
  - injection H as <- _. exact H0.
  - destruct (do_call e snap true 2 (c_obj u) (c_rev u)) as [e1 ok] eqn:Ec.
    exact (IH _ _ _ _ _ _ (call e q snap true 2 _ _ e1 ok eq_refl H0 Ec) H).
Qed.

Lemma batch_results_gen : forall l e q res0 q' res', I e q -> batch_results l q res0 = (q', res') -> I e q'.
Proof.
  induction l as [|[c ok] rest IH]; intros e q res0 q' res' H0 H; cbn [batch_results] in H.
  - injection H as <- _. exact H0.
  - destruct ok; [exact (IH _ _ _ _ _ (clear _ _ _ H0) H)|exact (IH _ _ _ _ _ H0 H)].
Qed.

Lemma phase1_gen : forall cf snap chs e q e1 q1 res1 nrec1 lastrev1, I e q ->
  phase1 cf snap chs e q = (e1, q1, res1, nrec1, lastrev1) -> I e1 q1.
Proof.
  intros cf snap chs e q e1 q1 res1 nrec1 lastrev1 H0 H.
  destruct (phase1_cases _ _ _ _ _ _ _ _ _ _ H) as [HS|[qa [dels [upds [e2 [q2 [l [HC [HD [HU HR]]]]]]]]]].
  - revert H0 HS. apply (single_ind (fun e q _ => I e q)). intros e0 q0 res0 ch e' q' res' H0.
    apply process_single_gen, clear, H0.
  - apply (batch_results_gen _ _ _ _ _ _ (batch_update_calls_gen _ _ _ _ _ _ _
             (batch_deletes_gen _ _ _ _ _ _ (batch_collect_gen _ _ _ _ _ _ _ _ _ _ _ _ _ H0 HC) HD) HU) HR).
Qed.

Lemma process_retries_gen : forall fuel rs snap e q res nrec e' q' res' nrec', I e q ->
  process_retries fuel rs snap e q res nrec = (e', q', res', nrec') -> I e' q'.
Proof.
  intros fuel rs snap e q res nrec e' q' res' nrec'. apply (process_retries_ind (fun e q _ => I e q)).
  intros e0 q0 res0 it e1 q1 res1 H0 _. apply process_single_gen, pop, H0.
Qed.
End LoopGen.

Section LoopInv.
Variable I : env -> retries -> Prop.
Hypothesis call : forall e q snap fresh op o rev, op < 4 -> I e q -> I (fst (do_call e snap fresh op o rev)) q.
Hypothesis clear : forall e q k, I e q -> I e (r_clear q k).
Hypothesis add_del : forall e q o rev orig, I e q -> I e (r_add q o rev orig true (e_now e)).
Hypothesis pop : forall e q, I e q -> I e (r_pop q).

Lemma call_outcome : forall e q snap fresh op o rev e' ok, op < 4 -> I e q -> do_call e snap fresh op o rev = (e', ok) -> I e' q.
Proof. intros e q snap fresh op o rev e' ok Hop H0 Ec. pose proof (call e q snap fresh op o rev Hop H0) as X. rewrite Ec in X. exact X. Qed.

Lemma failed_delete_added : forall e q snap fresh op o rev orig e', is_del_op op = true -> I e q ->
  do_call e snap fresh op o rev = (e', false) -> I e' (r_add q o rev orig true (e_now e')).
Proof.
  intros e q snap fresh op o rev orig e' Hd H0 Ec. apply add_del, (call_outcome _ _ _ _ _ _ _ _ _ (is_del_op_lt op Hd) H0 Ec).
Qed.

Lemma process_single_keeps : forall e snap fresh q res o rev orig del e' q' res', I e q ->
  process_single e snap fresh q res o rev orig del = (e', q', res') -> I e' q'.
Proof. exact (process_single_gen I call_outcome clear failed_delete_added). Qed.

Lemma phase1_keeps : forall cf snap chs e q e1 q1 res1 nrec1 lastrev1, I e q ->
  phase1 cf snap chs e q = (e1, q1, res1, nrec1, lastrev1) -> I e1 q1.
Proof. exact (phase1_gen I call_outcome clear failed_delete_added). Qed.

Lemma process_retries_keeps : forall fuel rs snap e q res nrec e' q' res' nrec', I e q ->
  process_retries fuel rs snap e q res nrec = (e', q', res', nrec') -> I e' q'.
Proof. exact (process_retries_gen I call_outcome clear failed_delete_added pop). Qed.
End LoopInv.

(* a property of the environment alone *)
Section CallInv.
Variable P : env -> Prop.
Hypothesis call : forall e snap fresh op o rev, op < 4 -> P e -> P (fst (do_call e snap fresh op o rev)).

Lemma phase1_env : forall cf snap chs e q e1 q1 res1 nrec1 lastrev1, P e ->
  phase1 cf snap chs e q = (e1, q1, res1, nrec1, lastrev1) -> P e1.
Proof.
  exact (phase1_keeps (fun e _ => P e) (fun e _ => call e) (fun _ _ _ H => H) (fun _ _ _ _ _ H => H)).
Qed.

Lemma process_retries_env : forall fuel rs snap e q res nrec e' q' res' nrec', P e ->
  process_retries fuel rs snap e q res nrec = (e', q', res', nrec') -> P e'.
Proof.
  exact (process_retries_keeps (fun e _ => P e) (fun e _ => call e) (fun _ _ _ H => H) (fun _ _ _ _ _ H => H) (fun _ _ H => H)).
Qed.
End CallInv.
