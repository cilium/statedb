(* Reconciler/StatusSetProofs.v — proofs about the model of reconciler/types.go StatusSet (StatusSet.v). *)
From Coq Require Import List NArith Bool Lia.
From SV Require Import Base.Bytes Base.OrdMap Reconciler.Retries Reconciler.StatusSet.
Import ListNotations.
Open Scope N_scope.

(* representation invariant: entries strictly sorted by name (hence distinct names) *)
Definition ss_wf (s : sset) : Prop := om_sorted (ss_list s).

Definition lookup (n : bytes) (l : list (bytes * status)) : option status :=
  match index_of n l with
  | Some i => match nth_error l i with Some e => Some (snd e) | None => None end
  | None => None
  end.

Lemma lookup_cons n n' st r :
  lookup n ((n', st) :: r) = if bytes_eqb n n' then Some st else lookup n r.
Proof.
  unfold lookup. cbn [index_of]. destruct (bytes_eqb n n'); [reflexivity|].
  destruct (index_of n r) as [i|]; reflexivity.
Qed.

Lemma lookup_om_get n l : om_sorted l -> lookup n l = om_get n l.
Proof.
  induction l as [|[n' st] r IH]; intros Hs; [reflexivity|].
  rewrite lookup_cons. cbn [om_get]. destruct (bytes_eqb n n') eqn:E; [reflexivity|].
  destruct Hs as [Ha Hs]. destruct (bytes_ltb n n') eqn:L.
  - rewrite IH by exact Hs. apply om_get_above. apply bytes_ltb_spec in L.
    eapply om_above_weaken; eauto.
  - apply IH; exact Hs.
Qed.

Lemma ss_get_lookup s n :
  ss_get s n = match lookup n (ss_list s) with Some st => st | None => mkSt Pending (ss_id s) end.
Proof.
  unfold ss_get, lookup. destruct (index_of n (ss_list s)) as [i|]; [|reflexivity].
  destruct (nth_error (ss_list s) i); reflexivity.
Qed.

Lemma index_of_none_lookup n l : index_of n l = None <-> lookup n l = None.
Proof.
  induction l as [|[n' st] r IH]; [unfold lookup; cbn; tauto|].
  rewrite lookup_cons. cbn [index_of]. destruct (bytes_eqb n n'); [split; discriminate|].
  destruct (index_of n r) as [i|] eqn:E; cbn [option_map].
  - split; [discriminate|]. intros H. apply IH in H. discriminate.
  - split; [intros _; apply IH; reflexivity|reflexivity].
Qed.

Lemma ins_above e m : om_above (fst e) m -> ins_by_name e m = e :: m.
Proof.
  destruct m as [|x r]; [reflexivity|]. intros H. cbn [ins_by_name].
  inversion H as [|? ? Hx _]; subst. destruct (bytes_ltb (fst x) (fst e)) eqn:L; [|reflexivity].
  apply bytes_ltb_spec in L. exfalso. eapply lex_lt_asym; eauto.
Qed.

Lemma om_insert_above (n : bytes) (st : status) m : om_above n m -> om_insert n st m = (n, st) :: m.
Proof.
  destruct m as [|[n' st'] r]; [reflexivity|]. intros H. cbn [om_insert].
  inversion H as [|? ? Hx _]; subst. cbn [fst] in Hx.
  destruct (bytes_eqb n n') eqn:E.
  - apply bytes_eqb_spec in E. subst. exfalso. eapply lex_lt_irrefl; eauto.
  - apply bytes_ltb_spec in Hx. rewrite Hx. reflexivity.
Qed.

Lemma sort_append_is_insert n st l : om_sorted l -> lookup n l = None ->
  sort_by_name (l ++ [(n, st)]) = om_insert n st l.
Proof.
  unfold sort_by_name. rewrite fold_right_app. cbn [fold_right ins_by_name].
  induction l as [|[n' st'] r IH]; intros Hs Hn; [reflexivity|].
  rewrite lookup_cons in Hn. destruct (bytes_eqb n n') eqn:E; [discriminate|].
  destruct Hs as [Ha Hs]. cbn [fold_right]. rewrite IH by assumption. cbn [om_insert]. rewrite E.
  destruct (bytes_ltb n n') eqn:L.
  - apply bytes_ltb_spec in L.
    rewrite om_insert_above by (eapply om_above_weaken; eauto).
    cbn [ins_by_name fst]. pose proof (proj2 (bytes_ltb_spec n n') L) as L'. rewrite L'.
    rewrite ins_above by exact Ha. reflexivity.
  - apply ins_above. cbn [fst]. apply om_above_insert; [|exact Ha].
    destruct (lex_lt_total n n') as [H|[H|H]]; [apply bytes_ltb_spec in H; congruence| |exact H].
    subst. rewrite bytes_eqb_refl in E. discriminate.
Qed.

Lemma replace_is_insert n st l i : om_sorted l -> index_of n l = Some i ->
  replace_nth i (n, st) l = om_insert n st l.
Proof.
  revert i. induction l as [|[n' st'] r IH]; intros i Hs Hi; [discriminate|].
  cbn [index_of] in Hi. cbn [om_insert]. destruct (bytes_eqb n n') eqn:E.
  - inversion Hi; subst. reflexivity.
  - destruct (index_of n r) as [j|] eqn:Ej; [|discriminate]. inversion Hi; subst. cbn [replace_nth].
    destruct Hs as [Ha Hs]. destruct (bytes_ltb n n') eqn:L.
    + exfalso. apply bytes_ltb_spec in L.
      assert (Hl : lookup n r = None).
      { rewrite lookup_om_get by exact Hs. apply om_get_above. eapply om_above_weaken; eauto. }
      apply index_of_none_lookup in Hl. congruence.
    + f_equal. apply IH; [exact Hs|reflexivity].
Qed.

Theorem ss_set_is_insert s n st : ss_wf s ->
  ss_id (ss_set s n st) = ss_id s /\ ss_list (ss_set s n st) = om_insert n st (ss_list s).
Proof.
  intros Hw. unfold ss_set. destruct (index_of n (ss_list s)) as [i|] eqn:E; cbn [ss_id ss_list].
  - split; [reflexivity|]. apply replace_is_insert; assumption.
  - split; [reflexivity|]. apply sort_append_is_insert; [exact Hw|]. apply index_of_none_lookup. exact E.
Qed.

Theorem ss_set_wf s n st : ss_wf s -> ss_wf (ss_set s n st).
Proof.
  intros Hw. unfold ss_wf. rewrite (proj2 (ss_set_is_insert s n st Hw)). apply om_insert_sorted. exact Hw.
Qed.

Theorem ss_get_set_same s n st : ss_wf s -> ss_get (ss_set s n st) n = st.
Proof.
  intros Hw. rewrite ss_get_lookup. rewrite lookup_om_get by (apply ss_set_wf; exact Hw).
  rewrite (proj2 (ss_set_is_insert s n st Hw)). rewrite om_get_insert_same. reflexivity.
Qed.

Theorem ss_get_set_other s n m st : ss_wf s -> m <> n -> ss_get (ss_set s n st) m = ss_get s m.
Proof.
  intros Hw Hne. rewrite !ss_get_lookup. rewrite lookup_om_get by (apply ss_set_wf; exact Hw).
  rewrite lookup_om_get by exact Hw.
  destruct (ss_set_is_insert s n st Hw) as [Hid Hl]. rewrite Hl, Hid.
  rewrite om_get_insert_other by assumption. reflexivity.
Qed.

(* a reconciler's write leaves everything it does not own exactly as it was *)
Lemma filter_insert me st l :
  filter (fun e : bytes * status => negb (bytes_eqb (fst e) me)) (om_insert me st l) =
  filter (fun e : bytes * status => negb (bytes_eqb (fst e) me)) l.
Proof.
  induction l as [|[n' st'] r IH]; cbn [om_insert filter fst].
  - rewrite bytes_eqb_refl. reflexivity.
  - destruct (bytes_eqb me n') eqn:E.
    + apply bytes_eqb_spec in E. subst. cbn [filter fst]. rewrite bytes_eqb_refl. reflexivity.
    + assert (E' : bytes_eqb n' me = false).
      { destruct (bytes_eqb n' me) eqn:E2; [|reflexivity]. apply bytes_eqb_spec in E2. subst.
        rewrite bytes_eqb_refl in E. discriminate. }
      destruct (bytes_ltb me n'); cbn [filter fst]; rewrite ?bytes_eqb_refl, ?E'; cbn [negb].
      * reflexivity.
      * rewrite IH. reflexivity.
Qed.

Theorem own_write_keeps_others me s st : ss_wf s -> others me (ss_set s me st) = others me s.
Proof.
  intros Hw. unfold others. destruct (ss_set_is_insert s me st Hw) as [Hid Hl]. rewrite Hid, Hl.
  rewrite filter_insert. reflexivity.
Qed.

Theorem foreign_write_keeps_view me other s st : ss_wf s -> me <> other ->
  view me (ss_set s other st) = view me s.
Proof. intros Hw Hne. apply ss_get_set_other; assumption. Qed.

Lemma above_map (f : bytes * status -> bytes * status) k l : (forall e, fst (f e) = fst e) ->
  om_above k l -> om_above k (map f l).
Proof.
  intros Hf. unfold om_above. induction 1 as [|e r He _ IH]; cbn [map]; constructor; [rewrite Hf; exact He|exact IH].
Qed.

Lemma sorted_map (f : bytes * status -> bytes * status) l : (forall e, fst (f e) = fst e) ->
  om_sorted l -> om_sorted (map f l).
Proof.
  intros Hf. induction l as [|[n st] r IH]; [trivial|]. intros [Ha Hs]. cbn [map].
  specialize (Hf (n, st)) as Hn. destruct (f (n, st)) as [n2 st2] eqn:E. cbn [fst] in Hn. subst n2.
  split; [apply above_map; [exact Hf|exact Ha]|apply IH; exact Hs].
Qed.

Lemma lookup_map g n l :
  lookup n (map (fun e => (fst e, g (snd e))) l) = option_map g (lookup n l).
Proof.
  induction l as [|[n' st] r IH]; [reflexivity|]. cbn [map fst snd]. rewrite !lookup_cons.
  destruct (bytes_eqb n n'); [reflexivity|exact IH].
Qed.

Theorem ss_pending_wf s g : ss_wf s -> ss_wf (fst (ss_pending s g)).
Proof. intros Hw. unfold ss_pending, next_id, ss_wf. cbn [fst ss_list]. apply sorted_map; [reflexivity|exact Hw]. Qed.

(* after Pending() EVERY reconciler - named in the set or not - reads Pending with the new id *)
Theorem ss_get_pending s g n : ss_get (fst (ss_pending s g)) n = mkSt Pending (g + 1).
Proof.
  unfold ss_pending, next_id. cbn [fst]. rewrite ss_get_lookup. cbn [ss_list ss_id].
  rewrite (lookup_map (fun _ => mkSt Pending (g + 1))). destruct (lookup n (ss_list s)); reflexivity.
Qed.

Theorem ss_pending_names s g : map fst (ss_list (fst (ss_pending s g))) = map fst (ss_list s).
Proof. unfold ss_pending, next_id. cbn [fst ss_list]. rewrite map_map. reflexivity. Qed.

Theorem ss_pending_gen s g : snd (ss_pending s g) = g + 1.
Proof. reflexivity. Qed.

(* every id in the value was drawn from the counter: it is at most the counter's value *)
Definition ids_le (g : N) (s : sset) : Prop :=
  ss_id s <= g /\ Forall (fun e => st_id (snd e) <= g) (ss_list s).

Lemma ids_le_get g s n : ids_le g s -> st_id (ss_get s n) <= g.
Proof.
  intros [Hi Hf]. rewrite ss_get_lookup. unfold lookup.
  destruct (index_of n (ss_list s)) as [i|]; [|exact Hi].
  destruct (nth_error (ss_list s) i) as [e|] eqn:E; [|exact Hi].
  apply nth_error_In in E. rewrite Forall_forall in Hf. apply Hf. exact E.
Qed.

Lemma ids_le_mono g g' s : g <= g' -> ids_le g s -> ids_le g' s.
Proof.
  intros Hg [Hi Hf]. split; [lia|]. eapply Forall_impl; [|exact Hf]. cbn. intros; lia.
Qed.

Lemma forall_insert (P : bytes * status -> Prop) n st l : P (n, st) -> Forall P l -> Forall P (om_insert n st l).
Proof.
  intros Hp. induction 1 as [|[n' st'] r Hx Hr IH]; cbn [om_insert]; [repeat constructor; exact Hp|].
  destruct (bytes_eqb n n'); [constructor; assumption|].
  destruct (bytes_ltb n n'); repeat constructor; assumption.
Qed.

Theorem ids_le_new g : ids_le (snd (ss_new g)) (fst (ss_new g)).
Proof. unfold ss_new, next_id, ids_le. cbn [fst snd ss_id ss_list]. split; [lia|constructor]. Qed.

Theorem ids_le_set g s n st : ss_wf s -> ids_le g s -> st_id st <= g -> ids_le g (ss_set s n st).
Proof.
  intros Hw [Hi Hf] Hs. destruct (ss_set_is_insert s n st Hw) as [Hid Hl]. split; [rewrite Hid; exact Hi|].
  rewrite Hl. apply forall_insert; assumption.
Qed.

Theorem ids_le_pending g s : ids_le (snd (ss_pending s g)) (fst (ss_pending s g)).
Proof.
  unfold ss_pending, next_id. cbn [fst snd]. split; cbn [ss_id ss_list]; [lia|].
  apply Forall_forall. intros e He. apply in_map_iff in He. destruct He as [x [Hx _]]. subst. cbn. lia.
Qed.

(* the id every reconciler reads after Pending() is carried by NO value built before: a result computed for an
   older value of the object (any reconciler's view of any value built before) has a different id, so the
   "same pending id" test of commitStatus cannot take the new version for the one that was reconciled *)
Theorem pending_id_is_fresh g s old n m : ids_le g old ->
  st_id (ss_get (fst (ss_pending s g)) n) <> st_id (ss_get old m).
Proof.
  intros Ho. rewrite ss_get_pending. cbn [st_id]. pose proof (ids_le_get g old m Ho). lia.
Qed.

Lemma sm_val_app m x i : (i < length (sm_vals m))%nat ->
  nth i (sm_vals m ++ [x]) (mkSS 0 []) = sm_val m i.
Proof. intros H. unfold sm_val. apply app_nth1. exact H. Qed.

Theorem sm_new_keeps m i : (i < length (sm_vals m))%nat -> sm_val (sm_new m) i = sm_val m i.
Proof. intros H. unfold sm_new, ss_new, next_id. unfold sm_val at 1. cbn [sm_vals]. apply sm_val_app. exact H. Qed.
Theorem sm_pending_keeps m j i : (i < length (sm_vals m))%nat -> sm_val (sm_pending m j) i = sm_val m i.
Proof. intros H. unfold sm_pending, ss_pending, next_id. unfold sm_val at 1. cbn [sm_vals]. apply sm_val_app. exact H. Qed.
Theorem sm_set_keeps m j n k i : (i < length (sm_vals m))%nat -> sm_val (sm_set m j n k) i = sm_val m i.
Proof. intros H. unfold sm_set, status_new, next_id. unfold sm_val at 1. cbn [sm_vals]. apply sm_val_app. exact H. Qed.

(* every value the machine ever holds is well-formed and has ids below the counter *)
Definition sm_inv (m : smach) : Prop := Forall (fun s => ss_wf s /\ ids_le (sm_gen m) s) (sm_vals m).

Lemma sm_val_inv m i : sm_inv m -> ss_wf (sm_val m i) /\ ids_le (sm_gen m) (sm_val m i).
Proof.
  intros H. unfold sm_val. destruct (nth_in_or_default i (sm_vals m) (mkSS 0 [])) as [Hin|Hd].
  - unfold sm_inv in H. rewrite Forall_forall in H. apply H. exact Hin.
  - rewrite Hd. split; [exact I|]. split; cbn; [lia|constructor].
Qed.

Lemma sm_inv_step g' m x : sm_inv m -> sm_gen m <= g' -> ss_wf x -> ids_le g' x ->
  sm_inv (mkSM g' (sm_vals m ++ [x])).
Proof.
  intros H Hg Hw Hi. unfold sm_inv. cbn [sm_gen sm_vals]. apply Forall_app. split.
  - eapply Forall_impl; [|exact H]. cbn. intros s [Hs Hl]. split; [exact Hs|]. eapply ids_le_mono; eauto.
  - constructor; [split; assumption|constructor].
Qed.

Theorem sm_inv_init : sm_inv sm_init.
Proof. constructor. Qed.
Theorem sm_inv_new m : sm_inv m -> sm_inv (sm_new m).
Proof.
  intros H. unfold sm_new, ss_new, next_id. apply sm_inv_step; [exact H|lia|exact I|]. split; cbn; [lia|constructor].
Qed.
Theorem sm_inv_pending m j : sm_inv m -> sm_inv (sm_pending m j).
Proof.
  intros H. destruct (sm_val_inv m j H) as [Hw _].
  pose proof (ss_pending_wf (sm_val m j) (sm_gen m) Hw) as Hw'.
  pose proof (ids_le_pending (sm_gen m) (sm_val m j)) as Hi'.
  unfold sm_pending. unfold ss_pending, next_id in *. cbn [fst snd] in *.
  apply sm_inv_step; [exact H|lia|exact Hw'|exact Hi'].
Qed.
Theorem sm_inv_set m j n k : sm_inv m -> sm_inv (sm_set m j n k).
Proof.
  intros H. destruct (sm_val_inv m j H) as [Hw Hi].
  unfold sm_set, status_new, next_id. apply sm_inv_step; [exact H|lia|apply ss_set_wf; exact Hw|].
  apply ids_le_set; [exact Hw|eapply ids_le_mono; [|exact Hi]; lia|cbn; lia].
Qed.

