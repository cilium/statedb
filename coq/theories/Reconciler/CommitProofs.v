(* Reconciler/CommitProofs.v — proofs about incremental.go commitStatus (C15) and about origRev being
   carried through retries (C16, fix cd98c3d). *)
From Coq Require Import List NArith Bool Lia ZifyN ZifyBool.
From SV Require Import Reconciler.Retries Reconciler.Model Reconciler.RetriesProofs.
Import ListNotations.
Open Scope N_scope.

Lemma aget_aset_same : forall V k (v : V) l, aget k (aset k v l) = Some v.
Proof.
  intros V k v l. induction l as [|[k' v'] r IH]; cbn [aset aget].
  - rewrite N.eqb_refl. reflexivity.
  - destruct (k' =? k) eqn:E; cbn [aget]; [rewrite N.eqb_refl; reflexivity|rewrite E; exact IH].
Qed.

Lemma aget_aset_other : forall V k k' (v : V) l, k' <> k -> aget k' (aset k v l) = aget k' l.
Proof.
  intros V k k' v l Hn. induction l as [|[k0 v0] r IH]; cbn [aset aget].
  - destruct (k =? k') eqn:E; [apply N.eqb_eq in E; congruence|reflexivity].
  - destruct (k0 =? k) eqn:E; cbn [aget].
    + apply N.eqb_eq in E. subst k0.
      destruct (k =? k') eqn:E2; [apply N.eqb_eq in E2; congruence|reflexivity].
    + destruct (k0 =? k'); [reflexivity|exact IH].
Qed.

Definition slot_of (t : table) (k : N) : option slot := aget k (t_slots t).

Lemma slot_insert_same : forall t o, slot_of (t_insert t o) (o_pk o) = Some (Live o (t_rev t + 1)).
Proof. intros. unfold slot_of, t_insert. cbn [t_slots]. apply aget_aset_same. Qed.
Lemma slot_insert_other : forall t o k, k <> o_pk o -> slot_of (t_insert t o) k = slot_of t k.
Proof. intros. unfold slot_of, t_insert. cbn [t_slots]. apply aget_aset_other. exact H. Qed.
Lemma t_live_slot : forall t k o r, t_live t k = Some (o, r) <-> slot_of t k = Some (Live o r).
Proof.
  intros. unfold t_live, slot_of. destruct (aget k (t_slots t)) as [[o' r'|o' r']|]; split; intro H;
    try discriminate; injection H as H1 H2; subst; reflexivity.
Qed.

Definition wrote (t t' : table) : bool := t_rev t' =? t_rev t + 1.

(* every live object is stored under its own primary key *)
Definition keyed (t : table) : Prop := forall k o r, slot_of t k = Some (Live o r) -> o_pk o = k.

Lemma keyed_insert : forall t o, keyed t -> keyed (t_insert t o).
Proof.
  intros t o H k o' r' Hs. destruct (N.eq_dec k (o_pk o)) as [E|E].
  - subst k. rewrite slot_insert_same in Hs. injection Hs as H1 H2. subst o'. reflexivity.
  - rewrite slot_insert_other in Hs by exact E. apply (H k o' r'). exact Hs.
Qed.

(* when the fallback applies: Pending with the reconciled id, or (code after fix 8844901) a retry
   result meeting an object that still carries our Error status *)
Lemma fallback_ok_spec : forall efb cur r, fallback_ok efb cur r = true <->
  (o_kind cur = Pending /\ o_sid cur = r_id r) \/ (efb = true /\ o_kind cur = Error /\ r_rev r <> r_orig r).
Proof.
  intros efb cur r. unfold fallback_ok. destruct (o_kind cur) eqn:Ek.
  - rewrite N.eqb_eq. split; [intro H; left; split; [reflexivity|exact H]|].
    intros [[_ H]|[_ [H _]]]; [exact H|discriminate].
  - split; [discriminate|]. intros [[H _]|[_ [H _]]]; discriminate.
  - split; [discriminate|]. intros [[H _]|[_ [H _]]]; discriminate.
  - destruct efb; cbn [andb].
    + destruct (r_rev r =? r_orig r) eqn:E; cbn [negb].
      * apply N.eqb_eq in E. split; [discriminate|]. intros [[H _]|[_ [_ H]]]; [discriminate|contradiction].
      * apply N.eqb_neq in E. split; [|reflexivity]. intros _. right. repeat split; assumption.
    + split; [discriminate|]. intros [[H _]|[H _]]; discriminate.
Qed.

(* result.original at the time the retry is queued: the reconciled object after a CompareAndSwap, the
   object just inserted (current + new status) after the fallback (fix 1583841) *)
Definition queued (t : table) (r : opres) : obj :=
  match t_live t (o_pk (r_obj r)) with
  | Some (cur, rv) =>
    if rv =? r_rev r then r_obj r else with_status cur (if r_ok r then Done else Error) (t_nextid t)
  | None => r_obj r
  end.

Lemma queued_pk : forall t r, keyed t -> o_pk (queued t r) = o_pk (r_obj r).
Proof.
  intros t r Hk. unfold queued. destruct (t_live t (o_pk (r_obj r))) as [[cur rv]|] eqn:E; [|reflexivity].
  destruct (rv =? r_rev r); [reflexivity|]. cbn. apply (Hk _ cur rv). apply t_live_slot. exact E.
Qed.

(* Exact effect of one status commit. Three cases only:
   (1) nothing is written (object absent/deleted, or changed and the fallback does not apply);
   (2) the object still has the reconciled revision: it is replaced by the reconciled object with the
       new status (CompareAndSwap);
   (3) revision differs but the fallback applies (fallback_ok_spec): the CURRENT object gets the new status.
   No other key is touched; a missing key is never inserted; a retry is queued iff the operation had
   failed and the status write happened. *)
Definition commit_effect (fixed efb : bool) (now : N) (t : table) (q : retries) (r : opres) (t' : table) (q' : retries) : Prop :=
  let pk := o_pk (r_obj r) in
  let st := if r_ok r then Done else Error in
  (forall k, k <> pk -> slot_of t' k = slot_of t k) /\
  ( (slot_of t' pk = slot_of t pk /\ t_rev t' = t_rev t /\
       forall cur rv, t_live t pk = Some (cur, rv) -> rv <> r_rev r /\ fallback_ok efb cur r = false)
    \/ (exists cur, t_live t pk = Some (cur, r_rev r) /\
         slot_of t' pk = Some (Live (with_status (r_obj r) st (t_nextid t)) (t_rev t + 1)) /\
         t_rev t' = t_rev t + 1)
    \/ (exists cur rv, t_live t pk = Some (cur, rv) /\ rv <> r_rev r /\ fallback_ok efb cur r = true /\
         slot_of t' pk = Some (Live (with_status cur st (t_nextid t)) (t_rev t + 1)) /\
         t_rev t' = t_rev t + 1) ) /\
  q' = (if negb (r_ok r) && wrote t t'
        then r_add q (queued t r) (t_rev t') (if fixed then r_orig r else r_rev r) false now else q).

(* commit_one either leaves everything but the id counter alone, or inserts one object under the key of the
   result: the reconciled object (revision unchanged) or the current one (fallback), with the new status *)
Lemma commit_one_cases : forall fixed efb now t q r t' q', keyed t ->
  commit_one fixed efb now (t, q) r = (t', q') ->
  let pk := o_pk (r_obj r) in
  (t' = fst (t_fresh_id t) /\ q' = q /\
   forall cur rv, t_live t pk = Some (cur, rv) -> rv <> r_rev r /\ fallback_ok efb cur r = false)
  \/ exists cur rv o', t_live t pk = Some (cur, rv) /\
       (rv = r_rev r \/ rv <> r_rev r /\ fallback_ok efb cur r = true) /\
       o' = with_status (if rv =? r_rev r then r_obj r else cur) (if r_ok r then Done else Error) (t_nextid t) /\
       o_pk o' = pk /\ t' = t_insert (fst (t_fresh_id t)) o' /\
       q' = if r_ok r then q
            else r_add q (queued t r) (t_rev t + 1) (if fixed then r_orig r else r_rev r) false now.
Proof.
  intros fixed efb now t q r t' q' Hk H pk. unfold commit_one, t_fresh_id, t_cas, queued in *.
  change (t_live (mkTable (t_slots t) (t_rev t) (t_nextid t + 1) (t_pendinit t)) (o_pk (with_status (r_obj r)
            (if r_ok r then Done else Error) (t_nextid t)))) with (t_live t pk) in H. fold pk.
  destruct (t_live t pk) as [[cur rv]|] eqn:EL.
  2:{ rewrite andb_false_r in H. injection H as <- <-. left. repeat split; discriminate. }
  assert (Hpk : o_pk cur = pk) by (apply (Hk _ cur rv), t_live_slot, EL).
  destruct (rv =? r_rev r) eqn:Erv; [|destruct (fallback_ok efb cur r) eqn:Ef].
  - right. exists cur, rv. rewrite Erv. eexists. split; [reflexivity|]. split; [left; apply N.eqb_eq, Erv|].
    split; [reflexivity|]. split; [reflexivity|]. rewrite andb_true_r in H.
    destruct (r_ok r); injection H as <- <-; split; reflexivity.
  - right. exists cur, rv. rewrite Erv. eexists. split; [reflexivity|].
    split; [right; split; [apply N.eqb_neq, Erv|exact Ef]|].
    split; [reflexivity|]. split; [exact Hpk|]. rewrite andb_true_r in H.
    destruct (r_ok r); injection H as <- <-; split; reflexivity.
  - left. rewrite andb_false_r in H. injection H as <- <-. apply N.eqb_neq in Erv. repeat split; congruence.
Qed.

Theorem commit_one_spec : forall fixed efb now t q r t' q', keyed t ->
  commit_one fixed efb now (t, q) r = (t', q') -> commit_effect fixed efb now t q r t' q'.
Proof.
  intros fixed efb now t q r t' q' Hk H. unfold commit_effect, wrote.
  destruct (commit_one_cases _ _ _ _ _ _ _ _ Hk H) as [[-> [-> NW]]|[cur [rv [o' [EL [C [Eo [Hpk [-> ->]]]]]]]]].
  - replace (t_rev _ =? _) with false by (symmetry; apply N.eqb_neq; cbn; lia). rewrite andb_false_r.
    split; [reflexivity|]. split; [left; split; [reflexivity|split; [reflexivity|exact NW]]|reflexivity].
  - rewrite <- Hpk. rewrite (slot_insert_same (fst (t_fresh_id t)) o'). change (t_rev (t_insert _ o')) with (t_rev t + 1).
    rewrite N.eqb_refl, andb_true_r. split; [intros k Hn; exact (slot_insert_other (fst (t_fresh_id t)) o' k Hn)|]. split; [|destruct (r_ok r); reflexivity].
    right. rewrite Hpk, Eo. destruct C as [->|[Erv Ef]].
    + left. exists cur. rewrite N.eqb_refl. repeat split. exact EL.
    + right. exists cur, rv. rewrite (proj2 (N.eqb_neq _ _) Erv). repeat split; assumption.
Qed.

Definition payload (t : table) (k : N) : option N :=
  match slot_of t k with Some (Live o _) => Some (o_ver o) | _ => None end.
Definition not_live (t : table) (k : N) : Prop :=
  match slot_of t k with Some (Live _ _) => False | _ => True end.

(* the reconciled object of a result is the object the table held at the reconciled revision
   (revisions identify object versions): same payload, same data of the other writers *)
Definition rev_identifies (t : table) (r : opres) : Prop :=
  forall cur, t_live t (o_pk (r_obj r)) = Some (cur, r_rev r) ->
    o_ver cur = o_ver (r_obj r) /\ o_aux cur = o_aux (r_obj r).

Lemma commit_one_keyed : forall fixed efb now t q r t' q', keyed t ->
  commit_one fixed efb now (t, q) r = (t', q') -> keyed t'.
Proof.
  intros fixed efb now t q r t' q' Hk H.
  destruct (commit_one_cases _ _ _ _ _ _ _ _ Hk H) as [[-> _]|[cur [rv [o' [_ [_ [_ [_ [-> _]]]]]]]]];
    [exact Hk|apply keyed_insert; exact Hk].
Qed.

(* the queue is untouched, or a failed operation was queued as an update retry *)
Lemma commit_one_queue : forall fixed efb now t q r t' q', commit_one fixed efb now (t, q) r = (t', q') ->
  q' = q \/ (r_ok r = false /\ exists o rv og, q' = r_add q o rv og false now).
Proof.
  intros fixed efb now t q r t' q' H. unfold commit_one in H. destruct (t_fresh_id t) as [t0 id].
  destruct (t_cas t0 (r_rev r) (with_status (r_obj r) (if r_ok r then Done else Error) id)) as [t'0 c].
  destruct c as [| |cur cr]; [| |destruct (fallback_ok efb cur r)]; destruct (r_ok r); injection H as <- <-;
    first [left; reflexivity|right; split; [reflexivity|do 3 eexists; reflexivity]].
Qed.

Lemma commit_one_rev : forall fixed efb now t q r t' q', keyed t ->
  commit_one fixed efb now (t, q) r = (t', q') -> t_rev t <= t_rev t'.
Proof.
  intros fixed efb now t q r t' q' Hk H.
  destruct (commit_one_cases _ _ _ _ _ _ _ _ Hk H) as [[-> _]|[cur [rv [o' [_ [_ [_ [_ [-> _]]]]]]]]]; cbn; lia.
Qed.

(* commitStatus is a fold of commit_one: an invariant of the remaining results is carried to the end *)
Lemma commit_status_ind : forall fixed efb now (I : table -> retries -> list opres -> Prop),
  (forall t q r rest t1 q1, I t q (r :: rest) -> commit_one fixed efb now (t, q) r = (t1, q1) -> I t1 q1 rest) ->
  forall res t q t' q', I t q res -> commit_status_gen fixed efb now t q res = (t', q') -> I t' q' [].
Proof.
  intros fixed efb now I Hstep. unfold commit_status_gen.
  induction res as [|r rest IH]; intros t q t' q' HI H; cbn [fold_left] in H.
  - injection H as <- <-. exact HI.
  - destruct (commit_one fixed efb now (t, q) r) as [t1 q1] eqn:E. exact (IH _ _ _ _ (Hstep _ _ _ _ _ _ HI E) H).
Qed.

(* only the status component changes: every key keeps its payload version, dead/absent stays so *)
Theorem commit_one_status_only : forall fixed efb now t q r t' q', keyed t -> rev_identifies t r ->
  commit_one fixed efb now (t, q) r = (t', q') ->
  (forall k, payload t' k = payload t k) /\ (forall k, not_live t k -> slot_of t' k = slot_of t k).
Proof.
  intros fixed efb now t q r t' q' Hk Hri H.
  destruct (commit_one_cases _ _ _ _ _ _ _ _ Hk H) as [[-> _]|[cur [rv [o' [EL [C [Eo [Hpk [-> _]]]]]]]]]; [split; reflexivity|].
  assert (V : o_ver o' = o_ver cur).
  { rewrite Eo. destruct C as [->|[C _]]; [rewrite N.eqb_refl; symmetry; apply (Hri cur EL)|].
    apply N.eqb_neq in C. rewrite C. reflexivity. }
  apply t_live_slot in EL. rewrite <- Hpk in EL.
  split; intros k; destruct (N.eq_dec k (o_pk o')) as [->|E].
  - unfold payload. rewrite slot_insert_same. change (slot_of (fst (t_fresh_id t))) with (slot_of t). rewrite EL, V. reflexivity.
  - unfold payload. rewrite slot_insert_other by exact E. reflexivity.
  - unfold not_live. rewrite EL. intros [].
  - intros _. apply (slot_insert_other (fst (t_fresh_id t))). exact E.
Qed.

(* the whole commitStatus (any number of results, any order) *)
Definition res_consistent (t : table) (res : list opres) : Prop :=
  NoDup (map (fun r => o_pk (r_obj r)) res) /\ forall r, In r res -> rev_identifies t r.

Theorem commit_status_status_only : forall fixed efb now res t q t' q', keyed t -> res_consistent t res ->
  commit_status_gen fixed efb now t q res = (t', q') ->
  keyed t' /\ (forall k, payload t' k = payload t k) /\ (forall k, not_live t k -> slot_of t' k = slot_of t k).
Proof.
  intros fixed efb now res. unfold commit_status_gen. induction res as [|r rest IH]; intros t q t' q' Hk [Hnd Hri] H.
  - cbn in H. injection H as H1 H2. subst. split; [exact Hk|]. split; intros; reflexivity.
  - cbn [fold_left] in H. destruct (commit_one fixed efb now (t, q) r) as [t1 q1] eqn:E1.
    pose proof (commit_one_keyed _ _ _ _ _ _ _ _ Hk E1) as Hk1.
    destruct (commit_one_spec _ _ _ _ _ _ _ _ Hk E1) as [Ho _].
    destruct (commit_one_status_only _ _ _ _ _ _ _ _ Hk (Hri r (or_introl eq_refl)) E1) as [P1 N1].
    cbn [map] in Hnd. inversion Hnd as [|x xs Hx Hr]; subst.
    assert (C1 : res_consistent t1 rest).
    { split; [exact Hr|]. intros r2 Hin cur Hl. apply (Hri r2 (or_intror Hin) cur).
      assert (Hne : o_pk (r_obj r2) <> o_pk (r_obj r)).
      { intro Heq. apply Hx. rewrite <- Heq. apply (in_map (fun r => o_pk (r_obj r))). exact Hin. }
      apply t_live_slot. rewrite <- (Ho _ Hne). apply t_live_slot. exact Hl. }
    destruct (IH t1 q1 t' q' Hk1 C1 H) as [K2 [P2 N2]].
    split; [exact K2|]. split.
    + intro k. rewrite P2. apply P1.
    + intros k Hn. rewrite N2; [apply N1; exact Hn|]. unfold not_live. rewrite (N1 k Hn). exact Hn.
Qed.

(* with the fix, the item re-queued by a status commit carries the origRev of the result; every other
   item is untouched *)
Lemma commit_one_orig : forall efb now t q r t' q' pk, keyed t ->
  commit_one true efb now (t, q) r = (t', q') ->
  orig_of q' pk = orig_of q pk \/ (pk = o_pk (r_obj r) /\ orig_of q' pk = Some (r_orig r)).
Proof.
  intros efb now t q r t' q' pk Hk H. destruct (commit_one_spec _ _ _ _ _ _ _ _ Hk H) as [_ [_ Hq]].
  destruct (negb (r_ok r) && wrote t t'); [|left; rewrite Hq; reflexivity].
  pose proof (queued_pk t r Hk) as Qk.
  subst q'. unfold orig_of. destruct (N.eq_dec pk (o_pk (r_obj r))) as [E|E].
  - right. split; [exact E|]. subst pk.
    destruct (add_item_spec q (queued t r) (t_rev t') (r_orig r) false now) as [it [H1 [_ [_ [H4 _]]]]].
    rewrite Qk in H1. rewrite H1. cbn. rewrite H4. reflexivity.
  - left. rewrite add_other by (rewrite Qk; exact E). reflexivity.
Qed.

(* processSingle hands the item's origRev on to the result (update) or straight back to Add (delete) *)
Lemma process_single_retry_orig : forall e snap q res it e' q' res',
  process_single e snap false q res (ri_obj it) (ri_rev it) (ri_orig it) (ri_del it) = (e', q', res') ->
  if ri_del it
  then res' = res /\ (orig_of q' (ri_pk it) = None \/ orig_of q' (ri_pk it) = Some (ri_orig it))
  else exists ok, res' = res ++ [mkRes (ri_obj it) (ri_rev it) (ri_orig it) (o_sid (ri_obj it)) ok].
Proof.
  intros e snap q res it e' q' res' H. unfold process_single in H.
  destruct (ri_del it).
  - destruct (do_call e snap false 1 (ri_obj it) (ri_rev it)) as [e1 ok]. destruct ok; injection H as H1 H2 H3; subst.
    + split; [reflexivity|]. left. unfold orig_of. rewrite clear_items. unfold ri_pk. rewrite find_item_remove_same. reflexivity.
    + split; [reflexivity|]. right. unfold orig_of, ri_pk.
      destruct (add_item_spec q (ri_obj it) (ri_rev it) (ri_orig it) true (e_now e')) as [i2 [A [_ [_ [B _]]]]].
      rewrite A. cbn. rewrite B. reflexivity.
  - destruct (do_call e snap false 0 (ri_obj it) (ri_rev it)) as [e1 ok]. injection H as H1 H2 H3. subst.
    exists ok. reflexivity.
Qed.

