(* Reconciler/RetriesProofs.v — proofs about the retry queue model (Retries.v): backoff arithmetic,
   item bookkeeping, low watermark, timer re-arming. *)
From Coq Require Import List NArith Bool Lia ZifyN ZifyBool.
From SV Require Import Reconciler.Retries.
Import ListNotations.
Open Scope N_scope.

Lemma duration_le_max : forall bmin bmax n, duration bmin bmax n <= bmax.
Proof. intros bmin bmax n. unfold duration. destruct (N.ltb_spec bmax (bmin * 2 ^ n)); lia. Qed.

Lemma duration_ge_min : forall bmin bmax n, bmin <= bmax -> bmin <= duration bmin bmax n.
Proof.
  intros bmin bmax n H. unfold duration. destruct (N.ltb_spec bmax (bmin * 2 ^ n)); [exact H|].
  pose proof (N.pow_le_mono_r 2 0 n ltac:(lia) ltac:(lia)) as P. rewrite N.pow_0_r in P. nia.
Qed.

Lemma duration_mono : forall bmin bmax n m, n <= m -> duration bmin bmax n <= duration bmin bmax m.
Proof.
  intros bmin bmax n m H. unfold duration.
  pose proof (N.pow_le_mono_r 2 n m ltac:(lia) H) as P.
  assert (Q : bmin * 2 ^ n <= bmin * 2 ^ m) by nia.
  destruct (N.ltb_spec bmax (bmin * 2 ^ n)), (N.ltb_spec bmax (bmin * 2 ^ m)); lia.
Qed.

(* exponential until the cap: below the cap the wait doubles *)
Lemma duration_doubles : forall bmin bmax n,
  bmin * 2 ^ (n + 1) <= bmax -> duration bmin bmax (n + 1) = 2 * duration bmin bmax n.
Proof.
  intros bmin bmax n H. unfold duration. rewrite N.add_1_r, N.pow_succ_r' in *.
  destruct (N.ltb_spec bmax (bmin * (2 * 2 ^ n))), (N.ltb_spec bmax (bmin * 2 ^ n)); nia.
Qed.

Lemma in_remove_item : forall pk l j, In j (remove_item pk l) -> In j l /\ ri_pk j <> pk.
Proof.
  intros pk l j. induction l as [|i r IH]; cbn [remove_item]; intro H.
  - destruct H.
  - destruct (ri_pk i =? pk) eqn:E.
    + destruct (IH H) as [A B]. split; [right; exact A|exact B].
    + destruct H as [H|H].
      * subst j. split; [left; reflexivity|apply N.eqb_neq; exact E].
      * destruct (IH H) as [A B]. split; [right; exact A|exact B].
Qed.

Lemma in_remove_item_intro : forall pk l j, In j l -> ri_pk j <> pk -> In j (remove_item pk l).
Proof.
  intros pk l j. induction l as [|i r IH]; cbn [remove_item]; intros H Hn.
  - destruct H.
  - destruct H as [H|H].
    + subst i. apply N.eqb_neq in Hn. rewrite Hn. left. reflexivity.
    + destruct (ri_pk i =? pk); [apply IH; assumption|right; apply IH; assumption].
Qed.

Lemma in_put_item : forall it l j, In j (put_item it l) -> j = it \/ In j l.
Proof.
  intros it l j. induction l as [|i r IH]; cbn [put_item]; intro H.
  - destruct H as [H|[]]. left. symmetry. exact H.
  - destruct (ri_pk i =? ri_pk it).
    + destruct H as [H|H]; [left; symmetry; exact H|right; right; exact H].
    + destruct H as [H|H]; [right; left; exact H|].
      destruct (IH H) as [A|A]; [left; exact A|right; right; exact A].
Qed.

Lemma in_put_item_self : forall it l, In it (put_item it l).
Proof.
  intros it l. induction l as [|a r IH]; cbn [put_item]; [left; reflexivity|].
  destruct (ri_pk a =? ri_pk it); [left; reflexivity|right; exact IH].
Qed.
Lemma in_put_item_other : forall it l j, In j l -> ri_pk j <> ri_pk it -> In j (put_item it l).
Proof.
  intros it l j. induction l as [|a r IH]; cbn [put_item]; intros Hin Hne; [destruct Hin|].
  destruct Hin as [Hin|Hin].
  - subst a. apply N.eqb_neq in Hne. rewrite Hne. left. reflexivity.
  - destruct (ri_pk a =? ri_pk it); right; [exact Hin|apply IH; assumption].
Qed.
Lemma find_item_remove_same : forall pk l, find_item pk (remove_item pk l) = None.
Proof.
  intros pk l. induction l as [|i r IH]; cbn [remove_item find_item]; [reflexivity|].
  destruct (ri_pk i =? pk) eqn:E; [exact IH|]. cbn [find_item]. rewrite E. exact IH.
Qed.

Lemma find_item_remove_other : forall pk pk' l, pk' <> pk -> find_item pk' (remove_item pk l) = find_item pk' l.
Proof.
  intros pk pk' l Hn. induction l as [|i r IH]; cbn [remove_item find_item]; [reflexivity|].
  destruct (ri_pk i =? pk) eqn:E.
  - apply N.eqb_eq in E. destruct (ri_pk i =? pk') eqn:E2; [apply N.eqb_eq in E2; congruence|exact IH].
  - cbn [find_item]. destruct (ri_pk i =? pk'); [reflexivity|exact IH].
Qed.

Lemma find_item_put_same : forall it l, find_item (ri_pk it) (put_item it l) = Some it.
Proof.
  intros it l. induction l as [|i r IH]; cbn [put_item find_item].
  - rewrite N.eqb_refl. reflexivity.
  - destruct (ri_pk i =? ri_pk it) eqn:E; cbn [find_item].
    + rewrite N.eqb_refl. reflexivity.
    + rewrite E. exact IH.
Qed.

Lemma find_item_put_other : forall it l pk, pk <> ri_pk it -> find_item pk (put_item it l) = find_item pk l.
Proof.
  intros it l pk Hn. induction l as [|i r IH]; cbn [put_item find_item].
  - destruct (ri_pk it =? pk) eqn:E; [apply N.eqb_eq in E; congruence|reflexivity].
  - destruct (ri_pk i =? ri_pk it) eqn:E; cbn [find_item].
    + apply N.eqb_eq in E. rewrite E.
      destruct (ri_pk it =? pk) eqn:E2; [apply N.eqb_eq in E2; congruence|reflexivity].
    + destruct (ri_pk i =? pk); [reflexivity|exact IH].
Qed.

Lemma find_item_in : forall pk l it, find_item pk l = Some it -> In it l /\ ri_pk it = pk.
Proof.
  intros pk l it. induction l as [|i r IH]; cbn [find_item]; intro H; [discriminate|].
  destruct (ri_pk i =? pk) eqn:E.
  - injection H as H. subst i. split; [left; reflexivity|apply N.eqb_eq; exact E].
  - destruct (IH H) as [A B]. split; [right; exact A|exact B].
Qed.

Lemma top_of_none : forall l, top_of l = None -> forall j, In j l -> ri_inq j = false.
Proof.
  induction l as [|i r IH]; cbn [top_of]; intros H j Hj; [destruct Hj|].
  destruct (top_of r) as [y|] eqn:Ey.
  - destruct (ri_inq i && (ri_at i <=? ri_at y)); discriminate.
  - destruct (ri_inq i) eqn:Ei; [discriminate|].
    destruct Hj as [Hj|Hj]; [subst j; exact Ei|apply IH; [reflexivity|exact Hj]].
Qed.

Lemma top_of_spec : forall l t, top_of l = Some t ->
  In t l /\ ri_inq t = true /\ forall j, In j l -> ri_inq j = true -> ri_at t <= ri_at j.
Proof.
  induction l as [|i r IH]; cbn [top_of]; intros t H; [discriminate|].
  destruct (top_of r) as [j0|] eqn:Er.
  - destruct (IH j0 eq_refl) as [A [B C]].
    destruct (ri_inq i && (ri_at i <=? ri_at j0)) eqn:E; injection H as H; subst t.
    + apply andb_prop in E. destruct E as [E1 E2]. apply N.leb_le in E2.
      split; [left; reflexivity|]. split; [exact E1|].
      intros j [Hj|Hj] Hq; [subst j; lia|]. specialize (C j Hj Hq). lia.
    + split; [right; exact A|]. split; [exact B|].
      intros j [Hj|Hj] Hq; [|apply C; assumption].
      subst j. rewrite Hq in E. cbn in E. apply N.leb_gt in E. lia.
  - destruct (ri_inq i) eqn:E; [|discriminate]. injection H as H. subst t.
    split; [left; reflexivity|]. split; [exact E|].
    intros j [Hj|Hj] Hq; [subst j; lia|]. rewrite (top_of_none r Er j Hj) in Hq. discriminate.
Qed.

Lemma top_of_some_if_queued : forall l j, In j l -> ri_inq j = true -> exists t, top_of l = Some t.
Proof.
  intros l j Hj Hq. destruct (top_of l) as [t|] eqn:E; [exists t; reflexivity|].
  rewrite (top_of_none l E j Hj) in Hq. discriminate.
Qed.

(* whenever an item is queued, a timer is armed (or has fired) with a deadline not after the head's
   retryAt: the wait channel closes no later than the moment the head becomes due *)
Definition timer_ok (q : retries) : Prop :=
  forall t, top_of (q_items q) = Some t -> exists d, q_timer q = Some d /\ d <= ri_at t.

Lemma reset_timer_ok : forall q, timer_ok (r_reset_timer q).
Proof.
  intros q t H. unfold r_reset_timer in *. cbn [q_items q_timer] in *. rewrite H. cbn.
  exists (ri_at t). split; [reflexivity|lia].
Qed.

Lemma timer_ok_new : forall a b, timer_ok (r_new a b).
Proof. intros a b t H. cbn in H. discriminate. Qed.

Lemma pop_timer_ok : forall q, timer_ok (r_pop q).
Proof. intro q. unfold r_pop. destruct (top_of (q_items q)); apply reset_timer_ok. Qed.

(* the timer may be left as it is when every new head is no earlier than some item that was queued before *)
Lemma timer_ok_kept : forall q q', timer_ok q -> q_timer q' = q_timer q ->
  (forall t, top_of (q_items q') = Some t -> exists j, In j (q_items q) /\ ri_inq j = true /\ ri_at j <= ri_at t) ->
  timer_ok q'.
Proof.
  intros q q' H Et Hj t Ht. destruct (Hj t Ht) as [j [Jin [Jq Jle]]].
  destruct (top_of_some_if_queued _ _ Jin Jq) as [t0 Ht0].
  destruct (H t0 Ht0) as [d [Hd1 Hd2]]. exists d. split; [congruence|].
  destruct (top_of_spec _ _ Ht0) as [_ [_ Hmin]]. specialize (Hmin j Jin Jq). lia.
Qed.

Lemma add_timer_ok : forall q o rev orig del now, timer_ok q -> timer_ok (r_add q o rev orig del now).
Proof.
  intros q o rev orig del now H. unfold r_add.
  set (n := match find_item (o_pk o) (q_items q) with Some i => ri_n i + 1 | None => 1 end).
  set (it := mkItem o rev orig del (now + duration (q_min q) (q_max q) n) n true).
  unfold others_min_at.
  destruct (top_of (remove_item (o_pk o) (q_items q))) as [m|] eqn:Em; cbn [option_map]; [|apply reset_timer_ok].
  destruct (N.ltb_spec (ri_at it) (ri_at m)) as [E|E]; [apply reset_timer_ok|].
  (* the timer is kept: the earliest other item m is not later than the added one *)
  apply (timer_ok_kept q); [exact H|reflexivity|]. intros t Ht. cbn [q_items] in Ht.
  destruct (top_of_spec _ _ Em) as [Hm1 [Hm2 _]]. destruct (in_remove_item _ _ _ Hm1) as [Hm3 _].
  destruct (top_of_spec _ _ Ht) as [Ht1 [Ht2 _]].
  destruct (in_put_item _ _ _ Ht1) as [Hx|Hx]; [subst t; exists m|exists t]; (split; [assumption|split; [assumption|lia]]).
Qed.

Lemma clear_timer_ok : forall q pk, timer_ok q -> timer_ok (r_clear q pk).
Proof.
  intros q pk H. unfold r_clear.
  destruct (find_item pk (q_items q)) as [it|] eqn:Ef; [|exact H].
  match goal with |- timer_ok (if ?c then _ else _) => destruct c end; [apply reset_timer_ok|].
  apply (timer_ok_kept q); [exact H|reflexivity|]. intros t Ht. cbn [q_items] in Ht.
  destruct (top_of_spec _ _ Ht) as [Ht1 [Ht2 _]]. destruct (in_remove_item _ _ _ Ht1) as [Ht3 _].
  exists t. split; [exact Ht3|split; [exact Ht2|lia]].
Qed.

(* consequence: a due head means the wait channel is closed (the idle loop wakes up) *)
Lemma due_head_fires : forall q now t, timer_ok q -> r_top q = Some t -> ri_at t <= now -> r_fired q now = true.
Proof.
  intros q now t H Ht Hd. destruct (H t Ht) as [d [Hd1 Hd2]].
  unfold r_fired. rewrite Hd1. apply N.leb_le. lia.
Qed.

Lemma items_reset_timer : forall q, q_items (r_reset_timer q) = q_items q.
Proof. reflexivity. Qed.

Lemma add_items : forall q o rev orig del now,
  q_items (r_add q o rev orig del now) =
  put_item (mkItem o rev orig del
     (now + duration (q_min q) (q_max q) (match find_item (o_pk o) (q_items q) with Some i => ri_n i + 1 | None => 1 end))
     (match find_item (o_pk o) (q_items q) with Some i => ri_n i + 1 | None => 1 end) true) (q_items q).
Proof.
  intros. unfold r_add.
  match goal with |- q_items (if ?c then _ else _) = _ => destruct c end; reflexivity.
Qed.

Lemma add_bounds : forall q o rev orig del now,
  q_min (r_add q o rev orig del now) = q_min q /\ q_max (r_add q o rev orig del now) = q_max q.
Proof.
  intros. unfold r_add.
  match goal with |- q_min (if ?c then _ else _) = _ /\ _ => destruct c end; split; reflexivity.
Qed.

(* an item that failed at time `now` with n retries is queued for now + Duration(n), n >= 1, n one more
   than before; all fields are the arguments of Add *)
Lemma add_item_spec : forall q o rev orig del now,
  exists it, find_item (o_pk o) (q_items (r_add q o rev orig del now)) = Some it /\
    ri_obj it = o /\ ri_rev it = rev /\ ri_orig it = orig /\ ri_del it = del /\ ri_inq it = true /\
    ri_n it = (match find_item (o_pk o) (q_items q) with Some i => ri_n i + 1 | None => 1 end) /\
    ri_at it = now + duration (q_min q) (q_max q) (ri_n it).
Proof.
  intros. rewrite add_items. eexists. split.
  - apply (find_item_put_same (mkItem o rev orig del _ _ true)).
  - cbn. repeat split; reflexivity.
Qed.

Lemma add_not_due_before : forall q o rev orig del now it,
  q_min q <= q_max q ->
  find_item (o_pk o) (q_items (r_add q o rev orig del now)) = Some it ->
  now + q_min q <= ri_at it /\ ri_at it <= now + q_max q /\ ri_at it = now + duration (q_min q) (q_max q) (ri_n it).
Proof.
  intros q o rev orig del now it Hmm H.
  destruct (add_item_spec q o rev orig del now) as [it' [H1 [_ [_ [_ [_ [_ [_ H7]]]]]]]].
  rewrite H1 in H. injection H as H. subst it'.
  pose proof (duration_ge_min (q_min q) (q_max q) (ri_n it) Hmm).
  pose proof (duration_le_max (q_min q) (q_max q) (ri_n it)). lia.
Qed.

Lemma add_other : forall q o rev orig del now pk, pk <> o_pk o ->
  find_item pk (q_items (r_add q o rev orig del now)) = find_item pk (q_items q).
Proof. intros. rewrite add_items. apply find_item_put_other. cbn. exact H. Qed.

Definition uniq (q : retries) : Prop := NoDup (map ri_pk (q_items q)).

Lemma find_item_uniq : forall l t, NoDup (map ri_pk l) -> In t l -> find_item (ri_pk t) l = Some t.
Proof.
  induction l as [|i r IH]; intros t Hn Hin; [destruct Hin|].
  cbn [find_item]. cbn [map] in Hn. inversion Hn as [|x xs Hx Hr]; subst.
  destruct Hin as [Hin|Hin].
  - subst i. rewrite N.eqb_refl. reflexivity.
  - destruct (ri_pk i =? ri_pk t) eqn:E.
    + apply N.eqb_eq in E. exfalso. apply Hx. rewrite E. apply in_map. exact Hin.
    + apply IH; assumption.
Qed.

Lemma uniq_put_item : forall it l, NoDup (map ri_pk l) -> NoDup (map ri_pk (put_item it l)).
Proof.
  intros it l. induction l as [|i r IH]; intro Hn; cbn [put_item map].
  - constructor; [intros []|constructor].
  - cbn [map] in Hn. inversion Hn as [|x xs Hx Hr]; subst.
    destruct (ri_pk i =? ri_pk it) eqn:E; cbn [map].
    + apply N.eqb_eq in E. rewrite <- E. constructor; assumption.
    + constructor; [|apply IH; exact Hr].
      intro Hin. apply in_map_iff in Hin. destruct Hin as [j [Hj1 Hj2]].
      destruct (in_put_item _ _ _ Hj2) as [A|A].
      * subst j. apply N.eqb_neq in E. congruence.
      * apply Hx. rewrite <- Hj1. apply in_map. exact A.
Qed.

Lemma remove_item_pks : forall pk l, map ri_pk (remove_item pk l) = filter (fun k => negb (k =? pk)) (map ri_pk l).
Proof.
  intros pk l. induction l as [|a r IH]; cbn [remove_item map filter]; [reflexivity|].
  destruct (ri_pk a =? pk); cbn [negb map]; rewrite IH; reflexivity.
Qed.
Lemma uniq_new : forall a b, uniq (r_new a b).
Proof. intros. unfold uniq. cbn. constructor. Qed.
Lemma uniq_add : forall q o rev orig del now, uniq q -> uniq (r_add q o rev orig del now).
Proof. intros. unfold uniq. rewrite add_items. apply uniq_put_item. exact H. Qed.
Lemma pop_items : forall q, q_items (r_pop q) =
  match top_of (q_items q) with Some t => put_item (set_inq false t) (q_items q) | None => q_items q end.
Proof. intro q. unfold r_pop. destruct (top_of (q_items q)); reflexivity. Qed.
Lemma uniq_pop : forall q, uniq q -> uniq (r_pop q).
Proof.
  intros q H. unfold uniq. rewrite pop_items. destruct (top_of (q_items q)); [apply uniq_put_item|]; exact H.
Qed.
Lemma remove_item_absent : forall pk l, find_item pk l = None -> remove_item pk l = l.
Proof.
  intros pk l. induction l as [|i r IH]; cbn [find_item remove_item]; [reflexivity|].
  destruct (ri_pk i =? pk); [discriminate|]. intro E. rewrite IH by exact E. reflexivity.
Qed.
Lemma clear_items : forall q pk, q_items (r_clear q pk) = remove_item pk (q_items q).
Proof.
  intros q pk. unfold r_clear. destruct (find_item pk (q_items q)) as [it|] eqn:E.
  - match goal with |- q_items (if ?c then _ else _) = _ => destruct c end; reflexivity.
  - symmetry. apply remove_item_absent. exact E.
Qed.
Lemma uniq_clear : forall q pk, uniq q -> uniq (r_clear q pk).
Proof. intros. unfold uniq. rewrite clear_items, remove_item_pks. apply NoDup_filter. exact H. Qed.

Definition n_of (q : retries) (pk : N) : option N := option_map ri_n (find_item pk (q_items q)).
Definition orig_of (q : retries) (pk : N) : option N := option_map ri_orig (find_item pk (q_items q)).

Lemma n_of_add_same : forall q o rev orig del now,
  n_of (r_add q o rev orig del now) (o_pk o) = Some (match n_of q (o_pk o) with Some n => n + 1 | None => 1 end).
Proof.
  intros. unfold n_of. destruct (add_item_spec q o rev orig del now) as [it [H1 [_ [_ [_ [_ [_ [H7 _]]]]]]]].
  rewrite H1. cbn. rewrite H7. destruct (find_item (o_pk o) (q_items q)); reflexivity.
Qed.
Lemma n_of_add_other : forall q o rev orig del now pk, pk <> o_pk o -> n_of (r_add q o rev orig del now) pk = n_of q pk.
Proof. intros. unfold n_of. rewrite add_other by exact H. reflexivity. Qed.

Lemma pop_find : forall q pk, uniq q ->
  option_map (fun i => (ri_obj i, ri_rev i, ri_orig i, ri_del i, ri_at i, ri_n i)) (find_item pk (q_items (r_pop q))) =
  option_map (fun i => (ri_obj i, ri_rev i, ri_orig i, ri_del i, ri_at i, ri_n i)) (find_item pk (q_items q)).
Proof.
  intros q pk Hu. rewrite pop_items. destruct (top_of (q_items q)) as [t|] eqn:Et; [|reflexivity].
  destruct (top_of_spec _ _ Et) as [Hin _].
  destruct (N.eq_dec pk (ri_pk t)) as [E|E].
  - subst pk. rewrite (find_item_uniq _ _ Hu Hin).
    change (ri_pk t) with (ri_pk (set_inq false t)). rewrite find_item_put_same. reflexivity.
  - rewrite find_item_put_other by (cbn; exact E). reflexivity.
Qed.
Lemma n_of_pop : forall q pk, uniq q -> n_of (r_pop q) pk = n_of q pk.
Proof.
  intros q pk Hu. pose proof (pop_find q pk Hu) as H. unfold n_of.
  destruct (find_item pk (q_items (r_pop q))), (find_item pk (q_items q)); cbn in *; congruence.
Qed.
Lemma orig_of_pop : forall q pk, uniq q -> orig_of (r_pop q) pk = orig_of q pk.
Proof.
  intros q pk Hu. pose proof (pop_find q pk Hu) as H. unfold orig_of.
  destruct (find_item pk (q_items (r_pop q))), (find_item pk (q_items q)); cbn in *; congruence.
Qed.
Lemma n_of_clear_same : forall q pk, n_of (r_clear q pk) pk = None.
Proof. intros. unfold n_of. rewrite clear_items, find_item_remove_same. reflexivity. Qed.
Lemma n_of_clear_other : forall q pk pk', pk' <> pk -> n_of (r_clear q pk) pk' = n_of q pk'.
Proof. intros. unfold n_of. rewrite clear_items, find_item_remove_other by exact H. reflexivity. Qed.

(* summary: any queue operation other than Clear of that key leaves the retry count of a key
   unchanged or increments it *)
Inductive qop := QAdd (o : obj) (rev orig : N) (del : bool) (now : N) | QPop | QClear (pk : N).
Definition apply_qop (q : retries) (op : qop) : retries :=
  match op with
  | QAdd o rev orig del now => r_add q o rev orig del now
  | QPop => r_pop q
  | QClear pk => r_clear q pk
  end.
Lemma uniq_apply : forall q op, uniq q -> uniq (apply_qop q op).
Proof. intros q [o rev orig del now| |pk] H; cbn; [apply uniq_add|apply uniq_pop|apply uniq_clear]; exact H. Qed.

Lemma numretries_only_grows : forall q op pk n, uniq q -> op <> QClear pk -> n_of q pk = Some n ->
  exists n', n_of (apply_qop q op) pk = Some n' /\ n <= n'.
Proof.
  intros q op pk n Hu Hop Hn. destruct op as [o rev orig del now| |pk']; cbn [apply_qop].
  - destruct (N.eq_dec pk (o_pk o)) as [E|E].
    + subst pk. rewrite n_of_add_same, Hn. eexists. split; [reflexivity|lia].
    + rewrite n_of_add_other by exact E. exists n. split; [exact Hn|lia].
  - rewrite n_of_pop by exact Hu. exists n. split; [exact Hn|lia].
  - assert (pk <> pk') by congruence. rewrite n_of_clear_other by exact H. exists n. split; [exact Hn|lia].
Qed.

Lemma min_orig_none : forall l, min_orig l = None <-> l = [].
Proof.
  intro l. destruct l as [|i r]; cbn [min_orig]; [split; reflexivity|].
  destruct (min_orig r); split; discriminate.
Qed.

Lemma min_orig_spec : forall l m, min_orig l = Some m ->
  (exists i, In i l /\ ri_orig i = m) /\ forall j, In j l -> m <= ri_orig j.
Proof.
  induction l as [|i r IH]; cbn [min_orig]; intros m H; [discriminate|].
  destruct (min_orig r) as [m0|] eqn:E.
  - injection H as H. destruct (IH m0 eq_refl) as [[x [Hx1 Hx2]] Hmin].
    split.
    + destruct (N.min_spec (ri_orig i) m0) as [[A B]|[A B]].
      * exists i. split; [left; reflexivity|lia].
      * exists x. split; [right; exact Hx1|lia].
    + intros j [Hj|Hj]; [subst j; lia|]. specialize (Hmin j Hj). lia.
  - injection H as H. apply min_orig_none in E. subst r m.
    split; [exists i; split; [left; reflexivity|reflexivity]|].
    intros j [Hj|[]]. subst j. lia.
Qed.

(* LowWatermark = 0 <-> no items (revisions of changes are positive), else the minimum origRev *)
Lemma low_watermark_zero_iff : forall q, (forall i, In i (q_items q) -> 0 < ri_orig i) ->
  (r_low_watermark q = 0 <-> q_items q = []).
Proof.
  intros q Hpos. unfold r_low_watermark. destruct (min_orig (q_items q)) as [m|] eqn:E.
  - destruct (min_orig_spec _ _ E) as [[x [Hx1 Hx2]] _]. specialize (Hpos x Hx1).
    split; intro H; [lia|]. rewrite H in Hx1. destruct Hx1.
  - apply min_orig_none in E. split; intro; [exact E|reflexivity].
Qed.

Definition lwm_is_min (q : retries) : Prop :=
  (exists i, In i (q_items q) /\ ri_orig i = r_low_watermark q) /\
  (forall j, In j (q_items q) -> r_low_watermark q <= ri_orig j).

