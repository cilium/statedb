(* Reconciler/StatusOnly.v — C15: the hypothesis `rev_identifies` of the status-commit theorem
   (CommitProofs.commit_status_status_only) is an invariant of every reachable state: at both status
   commits of every round of every run, every committed result (obj, rev) identifies the object version
   the table holds at revision rev (same payload, same data of the OTHER writers, o_aux), result keys are
   pairwise distinct and the table is keyed.  Hence a whole status commit changes only OUR statuses: it
   leaves payloads and the other writers' data alone, unconditionally; every payload change during a round is a
   user write (do_write) performed by a hook from inside an operation. *)
From Coq Require Import List NArith Bool Lia ZifyN ZifyBool.
From SV Require Import Reconciler.Retries Reconciler.Model Reconciler.RetriesProofs Reconciler.CommitProofs
  Reconciler.RoundProofs Reconciler.CoverProofs Reconciler.StepProofs Reconciler.TableWf Reconciler.StreamProofs
  Reconciler.PhaseProofs Reconciler.BatchProofs Reconciler.RoundInv Reconciler.Runs.
Import ListNotations.
Open Scope N_scope.

(* the primitive effects of a user write on the table:
   us_new: an object with a freshly drawn status id, not in Error (put, refresh, re-pend);
   us_re : the live object of a key is written back with the other writers' data changed (bump_aux: the
           status write of another reconciler);
   us_del: deletion. *)
Inductive ustep : table -> table -> Prop :=
| us_refl : forall t, ustep t t
| us_new : forall t o, o_sid o = t_nextid t -> o_kind o <> Error -> ustep t (t_insert (fst (t_fresh_id t)) o)
| us_re : forall t k o r, t_live t k = Some (o, r) -> ustep t (t_insert t (bump_aux o))
| us_del : forall t k, ustep t (t_delete t k)
| us_trans : forall t1 t2 t3, ustep t1 t2 -> ustep t2 t3 -> ustep t1 t3.

(* every user write on key k is made of three primitive writes: a Pending/Refreshing object with a freshly
   drawn status id is inserted (under k, if the table is keyed); the live object of k is written back with the
   other writers' data changed; k is deleted.  What these keep, do_write keeps.
   (CoverProofs.wclosed / do_write_closed is the coarser form, for predicates that need neither the key nor the fresh id;
   `ustep` needs the id, `do_write_other` the key.) *)
Lemma do_write_closed_at : forall (Q : table -> Prop) e kind k,
  (forall t o, (keyed t -> o_pk o = k) -> is_pending o = true -> o_sid o = t_nextid t -> Q t ->
     Q (t_insert (fst (t_fresh_id t)) o)) ->
  (forall t o r, t_live t k = Some (o, r) -> Q t -> Q (t_insert t (bump_aux o))) ->
  (forall t, Q t -> Q (t_delete t k)) ->
  Q (e_tab e) -> Q (e_tab (do_write e kind k)).
Proof.
  intros Q e kind k Hnew Hre Hdel H.
  assert (P : forall e0, Q (e_tab e0) -> Q (e_tab (w_put e0 k))).
  { intros e0 H0. unfold w_put, t_fresh_id. cbn [bump_ver e_tab e_ver add_urev set_tab].
    exact (Hnew (e_tab e0) (mkObj k (e_ver e0 + 1) Pending (t_nextid (e_tab e0)) _) (fun _ => eq_refl) eq_refl eq_refl H0). }
  assert (D : Q (e_tab (w_del e k))).
  { unfold w_del. destruct (t_live (e_tab e) k); [exact (Hdel _ H)|exact H]. }
  assert (Kk : forall o r, t_live (e_tab e) k = Some (o, r) -> keyed (e_tab e) -> o_pk o = k).
  { intros o r Hl K. apply (K k o r). apply t_live_slot. exact Hl. }
  assert (S : forall g, Q (e_tab (w_stat g e k))).
  { intro g. unfold w_stat. destruct (t_live (e_tab e) k) as [[o r]|] eqn:El; [|exact H].
    match goal with |- Q (e_tab (if ?b then _ else _)) => destruct b end; [exact H|exact (Hre _ o r El H)]. }
  assert (R : Q (e_tab (w_ref e k))).
  { unfold w_ref. destruct (t_live (e_tab e) k) as [[o r]|] eqn:El; [|exact H]. destruct (o_kind o); try exact H.
    exact (Hnew _ (with_status o Refreshing (t_nextid (e_tab e))) (Kk o r eq_refl) eq_refl eq_refl H). }
  assert (W : Q (e_tab (w_pend e k))).
  { unfold w_pend. destruct (t_live (e_tab e) k) as [[o r]|] eqn:El; [|exact H].
    exact (Hnew _ (with_status o Pending (t_nextid (e_tab e))) (Kk o r eq_refl) eq_refl eq_refl H). }
  unfold do_write. destruct kind as [|[[p|[p|p|]|]|[p|[p|p|]|]|]];
    first [ exact (P e H) | exact D | exact (P _ D) | exact (S true) | exact (S false) | exact R | exact W ].
Qed.

Lemma do_write_ustep : forall e kind k, ustep (e_tab e) (e_tab (do_write e kind k)).
Proof.
  intros e kind k. apply do_write_closed_at; [| | |apply us_refl].
  - intros t o _ Hp Hs U. apply (us_trans _ t); [exact U|apply us_new; [exact Hs|]].
    intro E. unfold is_pending in Hp. rewrite E in Hp. discriminate.
  - intros t o r Hl U. apply (us_trans _ t); [exact U|exact (us_re _ k o r Hl)].
  - intros t U. apply (us_trans _ t); [exact U|apply us_del].
Qed.

(* the table t' is obtained from t by a sequence of user writes (harness doWrite) on keys in K, nothing
   else *)
Inductive user_writes_in (K : N -> Prop) : table -> table -> Prop :=
| uw_refl : forall t, user_writes_in K t t
| uw_step : forall t e kind k, K k -> user_writes_in K t (e_tab e) -> user_writes_in K t (e_tab (do_write e kind k)).
Definition user_writes : table -> table -> Prop := user_writes_in (fun _ => True).

Lemma user_writes_in_trans : forall K a b c, user_writes_in K a b -> user_writes_in K b c -> user_writes_in K a c.
Proof. intros K a b c H1 H2. induction H2; [exact H1|apply uw_step; [assumption|apply IHuser_writes_in; exact H1]]. Qed.

Lemma user_writes_in_mono : forall (K K' : N -> Prop) t t', (forall k, K k -> K' k) -> user_writes_in K t t' -> user_writes_in K' t t'.
Proof. intros K K' t t' H U. induction U; [apply uw_refl|apply uw_step; [apply H; assumption|exact IHU]]. Qed.

Lemma user_writes_in_all : forall K t t', user_writes_in K t t' -> user_writes t t'.
Proof. intros K t t' U. apply (user_writes_in_mono K); [intros; exact I|exact U]. Qed.

Lemma user_writes_ustep : forall K t t', user_writes_in K t t' -> ustep t t'.
Proof.
  intros K t t' H. induction H; [apply us_refl|].
  apply (us_trans _ (e_tab e)); [exact IHuser_writes_in|apply do_write_ustep].
Qed.

Lemma user_writes_in_none : forall t t', user_writes_in (fun _ => False) t t' -> t' = t.
Proof. intros t t' H. induction H; [reflexivity|contradiction]. Qed.

Definition hooks_in (K : N -> Prop) (e : env) : Prop :=
  forall k n wk k2, In (k, n, (wk, k2)) (e_hooks e) -> K k2.
Definition hook_keys (e : env) (k2 : N) : Prop := exists k n wk, In (k, n, (wk, k2)) (e_hooks e).
Lemma hooks_in_keys : forall e, hooks_in (hook_keys e) e.
Proof. intros e k n wk k2 H. exists k, n, wk. exact H. Qed.
Lemma hooks_in_eq : forall (K : N -> Prop) e e', e_hooks e' = e_hooks e -> hooks_in K e -> hooks_in K e'.
Proof. intros K e e' H A. unfold hooks_in. rewrite H. exact A. Qed.

Lemma run_hooks_uw : forall (K : N -> Prop) hs k n e t, (forall k0 n0 wk k2, In (k0, n0, (wk, k2)) hs -> K k2) ->
  user_writes_in K t (e_tab e) -> user_writes_in K t (e_tab (run_hooks hs k n e)).
Proof.
  intros K. induction hs as [|[[k' n'] [wk k2]] r IH]; intros k n e t HK H; cbn [run_hooks]; [exact H|].
  apply IH; [intros; eapply HK; right; eassumption|]. destruct ((k' =? k) && (n' =? n)); [|exact H].
  apply uw_step; [apply (HK k' n' wk k2); left; reflexivity|exact H].
Qed.

Lemma run_hooks_hooks : forall hs k n e, e_hooks (run_hooks hs k n e) = e_hooks e.
Proof. intros hs k n e. pose proof (run_hooks_frame hs k n e) as Fr. unfold frame in Fr. injection Fr; intros; assumption. Qed.

(* a scripted operation moves the table by the writes of the hooks only; the hooks stay registered *)
Lemma do_call_uw : forall (K : N -> Prop) e snap fresh op o rev e' ok, do_call e snap fresh op o rev = (e', ok) -> hooks_in K e ->
  forall t, user_writes_in K t (e_tab e) -> user_writes_in K t (e_tab e') /\ e_hooks e' = e_hooks e.
Proof.
  intros K e snap fresh op o rev e' ok H HK t U.
  destruct (do_call_hooked e snap fresh op o rev) as [c [tg [E _]]]. rewrite H in E. injection E as -> _.
  cbn [log_call e_tab e_hooks]. destruct (hooked_frame e fresh (o_pk o)) as [_ [_ [F _]]]. split; [|exact F].
  unfold hooked. cbv zeta.
  assert (X : forall k n e1, e_hooks e1 = e_hooks e -> user_writes_in K t (e_tab e1) ->
                user_writes_in K t (e_tab (run_hooks (e_hooks e1) k n e1))).
  { intros k n e1 Eh U1. apply run_hooks_uw; [rewrite Eh; exact HK|exact U1]. }
  destruct fresh; repeat (apply X; [try reflexivity|]); try exact U. exact (run_hooks_hooks _ _ _ _).
Qed.

Lemma ustep_wstep : forall t t', ustep t t' -> twf t -> wstep t t'.
Proof.
  intros t t' H. induction H; intro W.
  - apply ws_refl.
  - apply (ws_trans _ (fst (t_fresh_id t))); [apply ws_id|]. apply ws_ins. intro E. contradiction.
  - apply ws_ins. intros He. exists o, r. apply t_live_slot in H.
    change (o_pk (bump_aux o)) with (o_pk o). rewrite (twf_keyed _ W k o r H). split; [exact H|exact He].
  - apply ws_del.
  - apply (ws_trans _ t2); [apply IHustep1; exact W|]. apply IHustep2. apply (wstep_twf _ _ (IHustep1 W) W).
Qed.

Lemma ustep_twf : forall t t', ustep t t' -> twf t -> twf t'.
Proof. intros t t' H W. apply (wstep_twf _ _ (ustep_wstep _ _ H W) W). Qed.
Lemma ustep_rev : forall t t', ustep t t' -> twf t -> t_rev t <= t_rev t'.
Proof. intros t t' H W. apply (wstep_rev _ _ (ustep_wstep _ _ H W)). Qed.
(* status ids identify payload versions: there is a function f from the ids drawn so far to payload
   versions such that every object around carries the version of its id.  f is not part of any state: the invariant
   says it exists, and every step extends it (`ext`) to the ids drawn meanwhile; this is what makes the same-pending-id
   fallback of commitStatus write the reconciled payload (fallback_same_ver) *)
Definition okobj (f : N -> N) (n : N) (o : obj) : Prop := o_ver o = f (o_sid o) /\ o_sid o < n.
Definition ext (f : N -> N) (n : N) (f' : N -> N) (n' : N) : Prop := n <= n' /\ forall i, i < n -> f' i = f i.
Definition tab_ids (f : N -> N) (t : table) : Prop :=
  forall k sl, slot_of t k = Some sl -> okobj f (t_nextid t) (slot_obj sl).

Lemma ext_refl : forall f n, ext f n f n.
Proof. intros. split; [lia|reflexivity]. Qed.
Lemma ext_trans : forall f1 n1 f2 n2 f3 n3, ext f1 n1 f2 n2 -> ext f2 n2 f3 n3 -> ext f1 n1 f3 n3.
Proof.
  intros f1 n1 f2 n2 f3 n3 [A1 A2] [B1 B2]. split; [lia|]. intros i Hi. rewrite B2 by lia. apply A2. exact Hi.
Qed.
Lemma okobj_ext : forall f n f' n' o, ext f n f' n' -> okobj f n o -> okobj f' n' o.
Proof. intros f n f' n' o [A B] [C D]. split; [rewrite B by exact D; exact C|lia]. Qed.
Lemma okobj_same_id : forall f n o1 o2, okobj f n o1 -> okobj f n o2 -> o_sid o1 = o_sid o2 -> o_ver o1 = o_ver o2.
Proof. intros f n o1 o2 [A _] [B _] E. rewrite A, B, E. reflexivity. Qed.

Definition upd_fun (f : N -> N) (i v : N) : N -> N := fun j => if j =? i then v else f j.
Lemma ext_upd : forall f n v, ext f n (upd_fun f n v) (n + 1).
Proof.
  intros f n v. split; [lia|]. intros i Hi. unfold upd_fun. destruct (i =? n) eqn:E; [apply N.eqb_eq in E; lia|reflexivity].
Qed.

Lemma slot_fresh : forall t k, slot_of (fst (t_fresh_id t)) k = slot_of t k.
Proof. reflexivity. Qed.

Lemma tab_ids_insert_fresh : forall f t o, tab_ids f t -> o_sid o = t_nextid t ->
  tab_ids (upd_fun f (t_nextid t) (o_ver o)) (t_insert (fst (t_fresh_id t)) o).
Proof.
  intros f t o T Hs k sl H. cbn [t_insert t_nextid t_fresh_id fst].
  destruct (N.eq_dec k (o_pk o)) as [E|E].
  - subst k. rewrite slot_insert_same in H. injection H as H. subst sl. cbn [slot_obj].
    split; [unfold upd_fun; rewrite Hs, N.eqb_refl; reflexivity|lia].
  - rewrite slot_insert_other in H by exact E. rewrite slot_fresh in H.
    apply (okobj_ext f (t_nextid t)); [apply ext_upd|apply (T k sl H)].
Qed.

Lemma ustep_ids : forall t t', ustep t t' -> forall f, twf t -> tab_ids f t ->
  exists f', ext f (t_nextid t) f' (t_nextid t') /\ tab_ids f' t'.
Proof.
  intros t t' H. induction H; intros f W T.
  - exists f. split; [apply ext_refl|exact T].
  - exists (upd_fun f (t_nextid t) (o_ver o)). split; [apply ext_upd|apply tab_ids_insert_fresh; assumption].
  - exists f. split; [apply ext_refl|]. intros k0 sl Hs. cbn [t_insert t_nextid].
    destruct (N.eq_dec k0 (o_pk (bump_aux o))) as [E|E].
    + subst k0. rewrite slot_insert_same in Hs. injection Hs as Hs. subst sl. cbn [slot_obj].
      apply t_live_slot in H. exact (T k _ H).
    + rewrite slot_insert_other in Hs by exact E. apply (T k0 sl Hs).
  - exists f. destruct (t_delete_cases t k) as [[o [r [A B]]]|[_ B]]; rewrite B; [|split; [apply ext_refl|exact T]].
    split; [apply ext_refl|]. intros k0 sl Hs. cbn [tset t_nextid].
    destruct (N.eq_dec k0 k) as [E|E].
    + subst k0. rewrite slot_tset_same in Hs. injection Hs as Hs. subst sl. apply (T k _ A).
    + rewrite slot_tset_other in Hs by exact E. apply (T k0 sl Hs).
  - destruct (IHustep1 f W T) as [f2 [E2 T2]].
    destruct (IHustep2 f2 (ustep_twf _ _ H W) T2) as [f3 [E3 T3]].
    exists f3. split; [apply (ext_trans _ _ _ _ _ _ E2 E3)|exact T3].
Qed.

(* J1: (o, rev) still identifies a version: whatever the table holds at revision rev under o's key has
   o's payload AND o's data of the other writers (every write, also a foreign status write, draws a new
   revision).  J2: an object of that key in Error has o's payload (only commitStatus writes Error; its
   o_aux may have been changed by a foreign status write meanwhile). *)
Definition J1 (t : table) (o : obj) (rev : N) : Prop :=
  rev <= t_rev t /\ forall cur, t_live t (o_pk o) = Some (cur, rev) -> o_ver cur = o_ver o /\ o_aux cur = o_aux o.
Definition J2 (t : table) (o : obj) : Prop :=
  forall cur rv, t_live t (o_pk o) = Some (cur, rv) -> o_kind cur = Error -> o_ver cur = o_ver o.

Lemma live_insert_same : forall t o, t_live (t_insert t o) (o_pk o) = Some (o, t_rev t + 1).
Proof. intros. apply t_live_slot. apply slot_insert_same. Qed.
Lemma live_insert_other : forall t o k, k <> o_pk o -> t_live (t_insert t o) k = t_live t k.
Proof.
  intros t o k H. unfold t_live. change (aget k (t_slots (t_insert t o))) with (slot_of (t_insert t o) k).
  rewrite slot_insert_other by exact H. reflexivity.
Qed.
Lemma live_delete : forall t k k' o r, t_live (t_delete t k) k' = Some (o, r) -> t_live t k' = Some (o, r).
Proof.
  intros t k k' o r H. destruct (t_delete_cases t k) as [[o0 [r0 [A B]]]|[_ B]]; rewrite B in H; [|exact H].
  apply t_live_slot in H. apply t_live_slot. destruct (N.eq_dec k' k) as [E|E].
  - subst k'. rewrite slot_tset_same in H. discriminate.
  - rewrite slot_tset_other in H by exact E. exact H.
Qed.

Lemma J1_frame : forall t t' o rev, t_live t' (o_pk o) = t_live t (o_pk o) -> t_rev t <= t_rev t' -> J1 t o rev -> J1 t' o rev.
Proof. intros t t' o rev H M [A B]. split; [lia|]. rewrite H. exact B. Qed.
Lemma J2_frame : forall t t' o, t_live t' (o_pk o) = t_live t (o_pk o) -> J2 t o -> J2 t' o.
Proof. intros t t' o H B. unfold J2. rewrite H. exact B. Qed.

Lemma ustep_J1 : forall t t', ustep t t' -> forall o rev, twf t -> J1 t o rev -> J1 t' o rev.
Proof.
  intros t t' H. induction H; intros x rev W [A B].
  - split; assumption.
  - split; [cbn; lia|]. intros cur Hl. destruct (N.eq_dec (o_pk x) (o_pk o)) as [E|E].
    + rewrite E, live_insert_same in Hl. injection Hl as H1 H2. cbn in H2. lia.
    + rewrite live_insert_other in Hl by exact E. apply B. exact Hl.
  - split; [cbn; lia|]. intros cur Hl. destruct (N.eq_dec (o_pk x) (o_pk (bump_aux o))) as [E|E].
    + rewrite E, live_insert_same in Hl. injection Hl as H1 H2. lia.
    + rewrite live_insert_other in Hl by exact E. apply B. exact Hl.
  - split; [pose proof (t_rev_delete t k); lia|]. intros cur Hl. apply B. apply (live_delete _ _ _ _ _ Hl).
  - apply IHustep2; [apply (ustep_twf _ _ H W)|]. apply IHustep1; [exact W|split; assumption].
Qed.

Lemma ustep_J2 : forall t t', ustep t t' -> forall o, twf t -> J2 t o -> J2 t' o.
Proof.
  intros t t' H. induction H; intros x W B.
  - exact B.
  - intros cur rv Hl He. destruct (N.eq_dec (o_pk x) (o_pk o)) as [E|E].
    + rewrite E, live_insert_same in Hl. injection Hl as H1 H2. subst cur. contradiction.
    + rewrite live_insert_other in Hl by exact E. apply (B cur rv Hl He).
  - intros cur rv Hl He. destruct (N.eq_dec (o_pk x) (o_pk (bump_aux o))) as [E|E].
    + rewrite E, live_insert_same in Hl. injection Hl as H1 H2. subst cur.
      assert (K : o_pk o = k) by (apply (twf_keyed _ W k o r); apply t_live_slot; exact H).
      apply (B o r); [rewrite E; change (o_pk (bump_aux o)) with (o_pk o); rewrite K; exact H|exact He].
    + rewrite live_insert_other in Hl by exact E. apply (B cur rv Hl He).
  - intros cur rv Hl He. apply (B cur rv); [apply (live_delete _ _ _ _ _ Hl)|exact He].
  - apply IHustep2; [apply (ustep_twf _ _ H W)|]. apply IHustep1; assumption.
Qed.

(* every update item of q' is an update item of q (same key, object, revision): the queue operations of
   the two phases (Clear, Pop, Add of a DELETE retry) never create an update item *)
Definition usub (q' q : retries) : Prop :=
  forall pk it', find_item pk (q_items q') = Some it' -> ri_del it' = false ->
    exists it, find_item pk (q_items q) = Some it /\ ri_del it = false /\ ri_obj it = ri_obj it' /\ ri_rev it = ri_rev it'.

Lemma usub_refl : forall q, usub q q.
Proof. intros q pk it H D. exists it. repeat split; assumption. Qed.
Lemma usub_trans : forall a b c, usub a b -> usub b c -> usub a c.
Proof.
  intros a b c H1 H2 pk it Hf Hd. destruct (H1 pk it Hf Hd) as [i1 [A [B [C D]]]].
  destruct (H2 pk i1 A B) as [i2 [A2 [B2 [C2 D2]]]]. exists i2. repeat split; congruence.
Qed.
Lemma usub_clear : forall q k, usub (r_clear q k) q.
Proof.
  intros q k pk it Hf Hd. destruct (find_clear_cases _ _ _ _ Hf) as [_ A]. exists it. repeat split; assumption.
Qed.
Lemma usub_add_del : forall q o rev orig now, usub (r_add q o rev orig true now) q.
Proof.
  intros q o rev orig now pk it Hf Hd. destruct (N.eq_dec pk (o_pk o)) as [E|E].
  - subst pk. destruct (add_item_spec q o rev orig true now) as [i2 [A [_ [_ [_ [B _]]]]]].
    rewrite A in Hf. injection Hf as Hf. subst i2. congruence.
  - rewrite add_other in Hf by exact E. exists it. repeat split; assumption.
Qed.
Lemma usub_pop : forall q, uniq q -> usub (r_pop q) q.
Proof.
  intros q U pk it Hf Hd. destruct (r_top q) as [t|] eqn:Et.
  - destruct (N.eq_dec pk (ri_pk t)) as [E|E].
    + subst pk. rewrite (popped_find q t U Et) in Hf. injection Hf as Hf. subst it. cbn in Hd.
      exists t. split; [|repeat split; try reflexivity; exact Hd].
      apply find_item_uniq; [exact U|]. destruct (top_of_spec _ _ Et) as [A _]. exact A.
    + rewrite find_pop_other in Hf; [exists it; repeat split; assumption|exact U|].
      intros t0 Ht0. rewrite Et in Ht0. injection Ht0 as X. subst t0. congruence.
  - rewrite pop_items in Hf. unfold r_top in Et. rewrite Et in Hf. exists it. repeat split; assumption.
Qed.

(* the state invariant: well-formed table, unique item keys, ids identify versions in the table and in the
   update items, every update item still identifies its version and matches an Error object of its key *)
Definition items_ok (f : N -> N) (t : table) (q : retries) : Prop :=
  forall pk it, find_item pk (q_items q) = Some it -> ri_del it = false ->
    okobj f (t_nextid t) (ri_obj it) /\ J1 t (ri_obj it) (ri_rev it) /\ J2 t (ri_obj it).
Definition sinv (f : N -> N) (t : table) (q : retries) : Prop :=
  twf t /\ uniq q /\ tab_ids f t /\ items_ok f t q.

Lemma items_ok_usub : forall f t q q', usub q' q -> items_ok f t q -> items_ok f t q'.
Proof.
  intros f t q q' S I pk it Hf Hd. destruct (S pk it Hf Hd) as [i0 [A [B [C D]]]].
  destruct (I pk i0 A B) as [X [Y Z]]. rewrite <- C, <- D. split; [exact X|split; [exact Y|exact Z]].
Qed.

Lemma items_ok_ustep : forall f t q t' f', twf t -> ustep t t' -> ext f (t_nextid t) f' (t_nextid t') ->
  items_ok f t q -> items_ok f' t' q.
Proof.
  intros f t q t' f' W U E I pk it Hf Hd. destruct (I pk it Hf Hd) as [X [Y Z]].
  split; [apply (okobj_ext _ _ _ _ _ E X)|]. split; [apply (ustep_J1 _ _ U _ _ W Y)|apply (ustep_J2 _ _ U _ W Z)].
Qed.

Lemma sinv_move : forall f t q t' q', sinv f t q -> ustep t t' -> usub q' q -> uniq q' ->
  exists f', ext f (t_nextid t) f' (t_nextid t') /\ sinv f' t' q'.
Proof.
  intros f t q t' q' [W [U [T I]]] S Q U'.
  destruct (ustep_ids _ _ S f W T) as [f' [E T']]. exists f'. split; [exact E|].
  split; [apply (ustep_twf _ _ S W)|]. split; [exact U'|]. split; [exact T'|].
  apply (items_ok_usub _ _ q); [exact Q|]. apply (items_ok_ustep f t q t' f' W S E I).
Qed.

(* the three outcomes of one commitStatus iteration, structurally, for the code as it is and for the variant
   before fix 1583841.  A failed operation whose status was written is queued with result.original: the reconciled
   object after the CompareAndSwap; after the fallback the object just inserted (fix 1583841), where the variant
   queues the STALE reconciled object — the only place where the two differ *)
Lemma commit_one_both : forall (fixed efb : bool) now t q r,
  let t1 := fst (t_fresh_id t) in
  let st := if r_ok r then Done else Error in
  let pk := o_pk (r_obj r) in
  let qa o := if r_ok r then q else r_add q o (t_rev t + 1) (if fixed then r_orig r else r_rev r) false now in
  (commit_one fixed efb now (t, q) r = (t1, q) /\ commit_one_stale fixed efb now (t, q) r = (t1, q) /\
     forall cur rv, t_live t pk = Some (cur, rv) -> rv <> r_rev r /\ fallback_ok efb cur r = false) \/
  (exists cur, t_live t pk = Some (cur, r_rev r) /\
     commit_one fixed efb now (t, q) r = (t_insert t1 (with_status (r_obj r) st (t_nextid t)), qa (r_obj r)) /\
     commit_one_stale fixed efb now (t, q) r = (t_insert t1 (with_status (r_obj r) st (t_nextid t)), qa (r_obj r))) \/
  (exists cur rv, t_live t pk = Some (cur, rv) /\ rv <> r_rev r /\ fallback_ok efb cur r = true /\
     commit_one fixed efb now (t, q) r = (t_insert t1 (with_status cur st (t_nextid t)), qa (with_status cur st (t_nextid t))) /\
     commit_one_stale fixed efb now (t, q) r = (t_insert t1 (with_status cur st (t_nextid t)), qa (r_obj r))).
Proof.
  intros fixed efb now t q r. cbv zeta. unfold commit_one, commit_one_stale, t_fresh_id, t_cas. cbn [fst].
  set (t1 := mkTable (t_slots t) (t_rev t) (t_nextid t + 1) (t_pendinit t)).
  change (t_live t1 (o_pk (with_status (r_obj r) (if r_ok r then Done else Error) (t_nextid t)))) with (t_live t (o_pk (r_obj r))).
  destruct (t_live t (o_pk (r_obj r))) as [[cur rv]|].
  - destruct (N.eqb_spec rv (r_rev r)) as [Erv|Erv].
    + subst rv. right. left. exists cur. split; [reflexivity|]. destruct (r_ok r); split; reflexivity.
    + destruct (fallback_ok efb cur r) eqn:Ef.
      * right. right. exists cur, rv. split; [reflexivity|]. split; [exact Erv|]. split; [exact Ef|].
        destruct (r_ok r); split; reflexivity.
      * left. rewrite !andb_false_r. split; [reflexivity|]. split; [reflexivity|].
        intros c0 v0 Hc. injection Hc as <- <-. split; [exact Erv|exact Ef].
  - left. rewrite !andb_false_r. split; [reflexivity|]. split; [reflexivity|]. intros c0 v0 Hc. discriminate.
Qed.

Lemma commit_one_outcomes : forall fixed efb now t q r t' q',
  commit_one fixed efb now (t, q) r = (t', q') ->
  let t1 := fst (t_fresh_id t) in
  let st := if r_ok r then Done else Error in
  let pk := o_pk (r_obj r) in
  let qa o := if r_ok r then q else r_add q o (t_rev t + 1) (if fixed then r_orig r else r_rev r) false now in
  (t' = t1 /\ q' = q /\
     forall cur rv, t_live t pk = Some (cur, rv) -> rv <> r_rev r /\ fallback_ok efb cur r = false) \/
  (exists cur, t_live t pk = Some (cur, r_rev r) /\
     t' = t_insert t1 (with_status (r_obj r) st (t_nextid t)) /\ q' = qa (r_obj r)) \/
  (exists cur rv, t_live t pk = Some (cur, rv) /\ rv <> r_rev r /\ fallback_ok efb cur r = true /\
     t' = t_insert t1 (with_status cur st (t_nextid t)) /\ q' = qa (with_status cur st (t_nextid t))).
Proof.
  intros fixed efb now t q r t' q' H. cbv zeta.
  destruct (commit_one_both fixed efb now t q r) as [[A [_ B]]|[[cur [A [B _]]]|[cur [rv [A [B [C [D _]]]]]]]];
    [rewrite H in A; injection A as -> ->|rewrite H in B; injection B as -> ->|rewrite H in D; injection D as -> ->].
  - left. split; [reflexivity|]. split; [reflexivity|exact B].
  - right. left. exists cur. split; [exact A|]. split; reflexivity.
  - right. right. exists cur, rv. split; [exact A|]. split; [exact B|]. split; [exact C|]. split; reflexivity.
Qed.

(* what a result must know about the table the commit starts from *)
Definition res_ok (f : N -> N) (t : table) (r : opres) : Prop :=
  r_id r = o_sid (r_obj r) /\ okobj f (t_nextid t) (r_obj r) /\ J1 t (r_obj r) (r_rev r) /\
  (r_rev r <> r_orig r -> J2 t (r_obj r)).

Lemma res_ok_identifies : forall f t r, res_ok f t r -> rev_identifies t r.
Proof. intros f t r [_ [_ [[_ B] _]]]. exact B. Qed.

Lemma twf_fresh : forall t, twf t -> twf (fst (t_fresh_id t)).
Proof. intros t W. apply (twf_ext t); [reflexivity|reflexivity|exact W]. Qed.
Lemma live_fresh : forall t k, t_live (fst (t_fresh_id t)) k = t_live t k.
Proof. reflexivity. Qed.

(* the write of a status commit: object x (payload of the object stored under its key) with a fresh id; if the
   operation had failed, a retry is queued with an object y that has the payload and foreign data of x, for the
   written revision; an older update item of the key matches neither the written revision nor the status *)
Lemma sinv_status_write : forall f t q x y cur rv (ok : bool) orig now,
  sinv f t q -> t_live t (o_pk x) = Some (cur, rv) -> o_ver x = o_ver cur ->
  o_pk y = o_pk x -> o_ver y = o_ver x -> o_aux y = o_aux x ->
  okobj (upd_fun f (t_nextid t) (o_ver x)) (t_nextid t + 1) y ->
  let t' := t_insert (fst (t_fresh_id t)) (with_status x (if ok then Done else Error) (t_nextid t)) in
  let f' := upd_fun f (t_nextid t) (o_ver x) in
  ext f (t_nextid t) f' (t_nextid t') /\ sinv f' t' (if ok then q else r_add q y (t_rev t + 1) orig false now).
Proof.
  intros f t q x y cur rv ok orig now [W [U [T I]]] Hl Hv Yk Yv Ya Yo. cbv zeta.
  set (x' := with_status x (if ok then Done else Error) (t_nextid t)).
  assert (E : ext f (t_nextid t) (upd_fun f (t_nextid t) (o_ver x)) (t_nextid t + 1)) by apply ext_upd.
  split; [exact E|].
  split; [rewrite t_insert_tset; apply twf_tset; [apply twf_fresh; exact W|reflexivity|reflexivity]|].
  split; [destruct ok; [exact U|apply uniq_add; exact U]|]. split; [apply (tab_ids_insert_fresh f t x' T); reflexivity|].
  assert (Lsame : t_live (t_insert (fst (t_fresh_id t)) x') (o_pk x) = Some (x', t_rev t + 1)).
  { exact (live_insert_same (fst (t_fresh_id t)) x'). }
  assert (Loth : forall k, k <> o_pk x -> t_live (t_insert (fst (t_fresh_id t)) x') k = t_live t k).
  { intros k Hk. rewrite live_insert_other by exact Hk. apply live_fresh. }
  intros pk it Hf Hd. destruct (N.eq_dec pk (o_pk x)) as [Ek|Ek].
  - subst pk. destruct ok.
    + destruct (I _ it Hf Hd) as [X [[Y1 Y2] Z]]. destruct (find_item_in _ _ _ Hf) as [_ Kp]. unfold ri_pk in Kp.
      split; [apply (okobj_ext _ _ _ _ _ E X)|]. split.
      * split; [cbn; lia|]. intros c Hc. rewrite Kp, Lsame in Hc. injection Hc as H1 H2. lia.
      * intros c v Hc He. rewrite Kp, Lsame in Hc. injection Hc as H1 H2. subst c. discriminate He.
    + destruct (add_item_spec q y (t_rev t + 1) orig false now) as [i2 [X1 [X2 [X3 _]]]].
      rewrite Yk in X1. rewrite X1 in Hf. injection Hf as Hf. subst i2. rewrite X2, X3. split; [exact Yo|]. split.
      * split; [cbn; lia|]. intros c Hc. rewrite Yk, Lsame in Hc. injection Hc as H1. subst c. cbn. split; congruence.
      * intros c v Hc He. rewrite Yk, Lsame in Hc. injection Hc as H1 H2. subst c. cbn. congruence.
  - assert (B : find_item pk (q_items q) = Some it).
    { destruct ok; [exact Hf|]. rewrite add_other in Hf by (rewrite Yk; exact Ek). exact Hf. }
    destruct (I pk it B Hd) as [X [Y Z]]. destruct (find_item_in _ _ _ B) as [_ Kp]. unfold ri_pk in Kp.
    split; [apply (okobj_ext _ _ _ _ _ E X)|]. split.
    + apply (J1_frame t); [rewrite Kp; apply Loth; exact Ek|cbn; lia|exact Y].
    + apply (J2_frame t); [rewrite Kp; apply Loth; exact Ek|exact Z].
Qed.

Lemma sinv_fresh : forall f t q, sinv f t q -> sinv f (fst (t_fresh_id t)) q.
Proof.
  intros f t q [W [U [T I]]].
  assert (E : ext f (t_nextid t) f (t_nextid t + 1)) by (split; [lia|reflexivity]).
  split; [apply twf_fresh; exact W|]. split; [exact U|]. split.
  - intros k sl Hs. apply (okobj_ext _ _ _ _ _ E). apply (T k sl Hs).
  - intros pk it Hf Hd. destruct (I pk it Hf Hd) as [X [Y Z]].
    split; [apply (okobj_ext _ _ _ _ _ E X)|]. split; [exact Y|exact Z].
Qed.

(* when the fallback applies, the current object has the payload of the reconciled one: either it still
   carries the reconciled pending id (ids identify versions), or it is the Error object of a retry *)
Lemma fallback_same_ver : forall f t q efb r cur rv, sinv f t q -> res_ok f t r ->
  t_live t (o_pk (r_obj r)) = Some (cur, rv) -> fallback_ok efb cur r = true -> o_ver cur = o_ver (r_obj r).
Proof.
  intros f t q efb r cur rv [W [U [T I]]] [R1 [R2 [R3 R4]]] Hl Hf.
  apply fallback_ok_spec in Hf. destruct Hf as [[A B]|[_ [A B]]].
  - apply (okobj_same_id f (t_nextid t)); [|exact R2|congruence].
    apply t_live_slot in Hl. apply (T _ _ Hl).
  - apply (R4 B cur rv Hl A).
Qed.

Lemma res_ok_frame : forall f t f' t' r, ext f (t_nextid t) f' (t_nextid t') ->
  t_live t' (o_pk (r_obj r)) = t_live t (o_pk (r_obj r)) -> t_rev t <= t_rev t' -> res_ok f t r -> res_ok f' t' r.
Proof.
  intros f t f' t' r E L M [R1 [R2 [R3 R4]]]. split; [exact R1|]. split; [apply (okobj_ext _ _ _ _ _ E R2)|].
  split; [apply (J1_frame t); assumption|]. intro Hn. apply (J2_frame t); [exact L|apply R4; exact Hn].
Qed.

Lemma commit_one_sinv : forall fixed efb now f t q r t' q',
  sinv f t q -> res_ok f t r -> commit_one fixed efb now (t, q) r = (t', q') ->
  exists f', ext f (t_nextid t) f' (t_nextid t') /\ sinv f' t' q' /\ t_rev t <= t_rev t' /\
    (forall k, k <> o_pk (r_obj r) -> t_live t' k = t_live t k).
Proof.
  intros fixed efb now f t q r t' q' S R H.
  pose proof S as [W _]. pose proof R as [_ [R2 [[_ R3b] _]]].
  destruct (commit_one_outcomes _ _ _ _ _ _ _ _ H) as [[A [B _]]|[[cur [A [B C]]]|[cur [rv [A [_ [_ [B C]]]]]]]]; subst t' q'.
  - exists f. split; [split; [cbn; lia|reflexivity]|]. split; [apply sinv_fresh; exact S|].
    split; [cbn; lia|]. intros k _. apply live_fresh.
  - (* CompareAndSwap on the reconciled revision: the reconciled object is queued *)
    destruct (sinv_status_write f t q (r_obj r) (r_obj r) cur (r_rev r) (r_ok r) (if fixed then r_orig r else r_rev r) now S A) as [E S'];
      [symmetry; apply R3b; exact A|reflexivity|reflexivity|reflexivity|apply (okobj_ext f (t_nextid t)); [apply ext_upd|exact R2]|].
    eexists. split; [exact E|]. split; [exact S'|]. split; [cbn; lia|].
    intros k Hk. rewrite live_insert_other by exact Hk. apply live_fresh.
  - (* fallback: the current object gets the status, and it is the object that is queued (fix 1583841) *)
    assert (Kc : o_pk cur = o_pk (r_obj r)) by (apply (twf_keyed _ W _ cur rv); apply t_live_slot; exact A).
    destruct (sinv_status_write f t q cur (with_status cur (if r_ok r then Done else Error) (t_nextid t)) cur rv (r_ok r)
                (if fixed then r_orig r else r_rev r) now S) as [E S'];
      [rewrite Kc; exact A|reflexivity|reflexivity|reflexivity|reflexivity| |].
    { split; [cbn; unfold upd_fun; rewrite N.eqb_refl; reflexivity|cbn; lia]. }
    eexists. split; [exact E|]. split; [exact S'|]. split; [cbn; lia|].
    intros k Hk. rewrite live_insert_other by (cbn [with_status o_pk]; rewrite Kc; exact Hk). apply live_fresh.
Qed.

Lemma commit_status_sinv : forall fixed efb now res f t q t' q',
  sinv f t q -> NoDup (res_pks res) -> (forall r, In r res -> res_ok f t r) ->
  commit_status_gen fixed efb now t q res = (t', q') ->
  exists f', ext f (t_nextid t) f' (t_nextid t') /\ sinv f' t' q' /\ t_rev t <= t_rev t'.
Proof.
  intros fixed efb now res. unfold commit_status_gen. induction res as [|r rest IH]; intros f t q t' q' S Hnd Hr H.
  - cbn in H. injection H as H1 H2. subst. exists f. split; [apply ext_refl|]. split; [exact S|lia].
  - cbn [fold_left] in H. destruct (commit_one fixed efb now (t, q) r) as [t1 q1] eqn:E1.
    destruct (commit_one_sinv _ _ _ _ _ _ _ _ _ S (Hr r (or_introl eq_refl)) E1) as [f1 [X1 [S1 [M1 L1]]]].
    cbn [res_pks map] in Hnd. inversion Hnd as [|x xs Hx Hrest]; subst.
    destruct (IH f1 t1 q1 t' q' S1 Hrest) as [f2 [X2 [S2 M2]]]; [|exact H|].
    + intros r2 Hin. apply (res_ok_frame f t); [exact X1| |exact M1|apply Hr; right; exact Hin].
      apply L1. intro Heq. apply Hx. rewrite <- Heq. apply (in_map (fun r => o_pk (r_obj r))). exact Hin.
    + exists f2. split; [apply (ext_trans _ _ _ _ _ _ X1 X2)|]. split; [exact S2|lia].
Qed.

(* the table of e comes from t by writes on keys in K, and e has the hooks of e0 *)
Definition hook_written (K : N -> Prop) (e0 : env) (t : table) (e : env) : Prop :=
  user_writes_in K t (e_tab e) /\ e_hooks e = e_hooks e0.

Lemma do_call_hook_written : forall (K : N -> Prop) e0 t, hooks_in K e0 -> forall e snap fresh op o rev, op < 4 ->
  hook_written K e0 t e -> hook_written K e0 t (fst (do_call e snap fresh op o rev)).
Proof.
  intros K e0 t HK e snap fresh op o rev _ [U F]. destruct (do_call e snap fresh op o rev) as [e' ok] eqn:Ec.
  destruct (do_call_uw K _ _ _ _ _ _ _ _ Ec (hooks_in_eq K e0 e F HK) t U) as [U' F']. split; [exact U'|exact (eq_trans F' F)].
Qed.

Lemma phase1_uw : forall (K : N -> Prop) cf snap chs e q e1 q1 res1 nrec1 lastrev1,
  phase1 cf snap chs e q = (e1, q1, res1, nrec1, lastrev1) -> hooks_in K e ->
  user_writes_in K (e_tab e) (e_tab e1) /\ e_hooks e1 = e_hooks e.
Proof.
  intros K cf snap chs e q e1 q1 res1 nrec1 lastrev1 H HK.
  exact (phase1_env _ (do_call_hook_written K e (e_tab e) HK) _ _ _ _ _ _ _ _ _ _ (conj (uw_refl K _) eq_refl) H).
Qed.

Lemma process_retries_uw : forall (K : N -> Prop) fuel rs snap e q res nrec e' q' res' nrec',
  process_retries fuel rs snap e q res nrec = (e', q', res', nrec') -> hooks_in K e ->
  forall t, user_writes_in K t (e_tab e) -> user_writes_in K t (e_tab e') /\ e_hooks e' = e_hooks e.
Proof.
  intros K fuel rs snap e q res nrec e' q' res' nrec' H HK t U.
  exact (process_retries_env _ (do_call_hook_written K e t HK) _ _ _ _ _ _ _ _ _ _ _ (conj U eq_refl) H).
Qed.

(* q has no update item that q0 had not (q0 with unique keys); the environment plays no part, the argument is there for
   RoundInv's loop invariants over environment and queue *)
Definition shrunk (q0 : retries) (_ : env) (q : retries) : Prop := uniq q0 -> usub q q0 /\ uniq q.

Lemma shrunk_refl : forall q e, shrunk q e q.
Proof. intros q e U. split; [apply usub_refl|exact U]. Qed.

Lemma shrunk_step : forall q0 e q q', (uniq q -> usub q' q /\ uniq q') -> shrunk q0 e q -> shrunk q0 e q'.
Proof.
  intros q0 e q q' H S U0. destruct (S U0) as [S1 U1]. destruct (H U1) as [S2 U2]. split; [exact (usub_trans _ _ _ S2 S1)|exact U2].
Qed.

Lemma shrunk_clear : forall q0 e q k, shrunk q0 e q -> shrunk q0 e (r_clear q k).
Proof. intros q0 e q k. apply shrunk_step. intro U. split; [apply usub_clear|apply uniq_clear; exact U]. Qed.
Lemma shrunk_add_del : forall q0 e q o rev orig, shrunk q0 e q -> shrunk q0 e (r_add q o rev orig true (e_now e)).
Proof. intros q0 e q o rev orig. apply shrunk_step. intro U. split; [apply usub_add_del|apply uniq_add; exact U]. Qed.
Lemma shrunk_pop : forall q0 e q, shrunk q0 e q -> shrunk q0 e (r_pop q).
Proof. intros q0 e q. apply shrunk_step. intro U. split; [apply usub_pop; exact U|apply uniq_pop; exact U]. Qed.

Lemma process_single_q : forall e snap fresh q res o rev orig del e' q' res', uniq q ->
  process_single e snap fresh q res o rev orig del = (e', q', res') -> usub q' q /\ uniq q'.
Proof.
  intros e snap fresh q res o rev orig del e' q' res' U H.
  exact (process_single_keeps (shrunk q) (fun _ _ _ _ _ _ _ _ X => X) (shrunk_clear q) (shrunk_add_del q)
           _ _ _ _ _ _ _ _ _ _ _ _ (shrunk_refl q e) H U).
Qed.

Lemma phase1_q : forall cf snap chs e q e1 q1 res1 nrec1 lastrev1, uniq q ->
  phase1 cf snap chs e q = (e1, q1, res1, nrec1, lastrev1) -> usub q1 q /\ uniq q1.
Proof.
  intros cf snap chs e q e1 q1 res1 nrec1 lastrev1 U H.
  exact (phase1_keeps (shrunk q) (fun _ _ _ _ _ _ _ _ X => X) (shrunk_clear q) (shrunk_add_del q)
           _ _ _ _ _ _ _ _ _ _ (shrunk_refl q e) H U).
Qed.

Lemma process_retries_q : forall fuel rs snap e q res nrec e' q' res' nrec', uniq q ->
  process_retries fuel rs snap e q res nrec = (e', q', res', nrec') -> usub q' q /\ uniq q'.
Proof.
  intros fuel rs snap e q res nrec e' q' res' nrec' U H.
  exact (process_retries_keeps (shrunk q) (fun _ _ _ _ _ _ _ _ X => X) (shrunk_clear q) (shrunk_add_del q) (shrunk_pop q)
           _ _ _ _ _ _ _ _ _ _ _ (shrunk_refl q e) H U).
Qed.

(* a result of the change-stream phase is an undeleted Pending/Refreshing change of the round's stream, unchanged *)
Definition from_change (chs : list change) (r : opres) : Prop :=
  exists ch, In ch chs /\ c_del ch = false /\ is_pending (c_obj ch) = true /\
             r_obj r = c_obj ch /\ r_rev r = c_rev ch /\ r_orig r = c_rev ch /\ r_id r = o_sid (c_obj ch).

Lemma process_single_res : forall e snap fresh q res o rev orig del e' q' res',
  process_single e snap fresh q res o rev orig del = (e', q', res') ->
  forall r, In r res' -> In r res \/ (del = false /\ exists ok, r = mkRes o rev orig (o_sid o) ok).
Proof.
  intros e snap fresh q res o rev orig del e' q' res' H r Hr. unfold process_single in H. destruct del.
  - destruct (do_call e snap fresh 1 o rev) as [e1 ok]. destruct ok; injection H as _ _ <-; left; exact Hr.
  - destruct (do_call e snap fresh 0 o rev) as [e1 ok]. injection H as _ _ <-. apply in_app_or in Hr.
    destruct Hr as [Hr|[Hr|[]]]; [left; exact Hr|right; split; [reflexivity|exists ok; symmetry; exact Hr]].
Qed.

Lemma from_change_cons : forall ch chs r, from_change chs r -> from_change (ch :: chs) r.
Proof. intros ch chs r [c [A B]]. exists c. split; [right; exact A|exact B]. Qed.

Lemma single_res : forall chs rs snap e q res nrec lastrev e' q' res' nrec' lastrev',
  single rs snap chs e q res nrec lastrev = (e', q', res', nrec', lastrev') ->
  forall r, In r res' -> In r res \/ from_change chs r.
Proof.
  induction chs as [|ch rest IH]; intros rs snap e q res nrec lastrev e' q' res' nrec' lastrev' H r Hr; cbn [single] in H.
  - injection H as H1 H2 H3 H4 H5. subst. left. exact Hr.
  - destruct (negb (c_del ch) && negb (is_pending (c_obj ch))) eqn:Esk.
    + destruct (IH _ _ _ _ _ _ _ _ _ _ _ _ H r Hr) as [A|A]; [left; exact A|right; apply from_change_cons; exact A].
    + destruct (process_single e snap true (r_clear q (o_pk (c_obj ch))) res (c_obj ch) (c_rev ch) (c_rev ch) (c_del ch)) as [[e1 q1] res1] eqn:Ep.
      assert (Q : forall x, In x res1 -> In x res \/ from_change (ch :: rest) x).
      { intros x Hx. destruct (process_single_res _ _ _ _ _ _ _ _ _ _ _ _ Ep x Hx) as [A|[Ed [ok A]]]; [left; exact A|right].
        rewrite Ed in Esk. apply negb_false_iff in Esk.
        subst x. exists ch. split; [left; reflexivity|]. split; [exact Ed|]. split; [exact Esk|]. repeat split. }
      destruct (rs <=? nrec + 1).
      * injection H as H1 H2 H3 H4 H5. subst. apply Q. exact Hr.
      * destruct (IH _ _ _ _ _ _ _ _ _ _ _ _ H r Hr) as [A|A]; [apply Q; exact A|right; apply from_change_cons; exact A].
Qed.

(* the collected batches: undeleted Pending/Refreshing changes of the stream are updates, deletions deletes *)
Lemma batch_collect_parts : forall chs rs q dels upds nrec lastrev q' dels' upds' nrec' lastrev',
  batch_collect rs chs q dels upds nrec lastrev = (q', dels', upds', nrec', lastrev') ->
  forall c, (In c dels' -> In c dels \/ (In c chs /\ c_del c = true)) /\
            (In c upds' -> In c upds \/ (In c chs /\ c_del c = false /\ is_pending (c_obj c) = true)).
Proof.
  induction chs as [|ch rest IH]; intros rs q dels upds nrec lastrev q' dels' upds' nrec' lastrev' H c; cbn [batch_collect] in H.
  - injection H as _ <- <- _ _. split; intro X; left; exact X.
  - destruct (negb (c_del ch) && negb (is_pending (c_obj ch))) eqn:Esk.
    + destruct (IH _ _ _ _ _ _ _ _ _ _ _ H c) as [A B].
      split; intro X; [destruct (A X) as [Y|[Y Z]]|destruct (B X) as [Y|[Y Z]]];
        [left; exact Y|right; split; [right; exact Y|exact Z]|left; exact Y|right; split; [right; exact Y|exact Z]].
    + assert (St : (In c (if c_del ch then dels ++ [ch] else dels) -> In c dels \/ (In c (ch :: rest) /\ c_del c = true)) /\
                   (In c (if c_del ch then upds else upds ++ [ch]) ->
                    In c upds \/ (In c (ch :: rest) /\ c_del c = false /\ is_pending (c_obj c) = true))).
      { destruct (c_del ch) eqn:Ed; cbn [negb andb] in Esk; split; intro X; try (left; exact X);
          apply in_app_or in X; destruct X as [X|[X|[]]]; try (left; exact X); right; subst c; (split; [left; reflexivity|]).
        - exact Ed.
        - apply negb_false_iff in Esk. split; [exact Ed|exact Esk]. }
      destruct (rs <=? nrec + 1); [injection H as _ <- <- _ _; exact St|].
      destruct (IH _ _ _ _ _ _ _ _ _ _ _ H c) as [A B]. destruct St as [A0 B0]. split; intro X.
      * destruct (A X) as [Y|[Y Z]]; [exact (A0 Y)|right; split; [right; exact Y|exact Z]].
      * destruct (B X) as [Y|[Y Z]]; [exact (B0 Y)|right; split; [right; exact Y|exact Z]].
Qed.

Lemma batch_update_calls_l : forall upds snap e acc e' l, batch_update_calls snap upds e acc = (e', l) ->
  forall x, In x l -> In x acc \/ In (fst x) upds.
Proof.
  induction upds as [|c rest IH]; intros snap e acc e' l H x Hx; cbn [batch_update_calls] in H.
  - injection H as H1 H2. subst. left. exact Hx.
  - destruct (do_call e snap true 2 (c_obj c) (c_rev c)) as [e1 ok].
    destruct (IH _ _ _ _ _ H x Hx) as [A|A]; [|right; right; exact A].
    apply in_app_or in A. destruct A as [A|[A|[]]]; [left; exact A|right; left; subst x; reflexivity].
Qed.

Lemma batch_results_res : forall l q res0 q' res', batch_results l q res0 = (q', res') ->
  forall r, In r res' -> In r res0 \/ exists x, In x l /\ r = mk_res x.
Proof.
  induction l as [|[c ok] rest IH]; intros q res0 q' res' H r Hr; cbn [batch_results] in H.
  - injection H as H1 H2. subst. left. exact Hr.
  - destruct (IH _ _ _ _ H r Hr) as [A|[x [A B]]]; [|right; exists x; split; [right; exact A|exact B]].
    apply in_app_or in A. destruct A as [A|[A|[]]]; [left; exact A|right]. exists (c, ok). split; [left; reflexivity|symmetry; exact A].
Qed.

Lemma phase1_res : forall cf snap chs e q e1 q1 res1 nrec1 lastrev1,
  phase1 cf snap chs e q = (e1, q1, res1, nrec1, lastrev1) -> forall r, In r res1 -> from_change chs r.
Proof.
  intros cf snap chs e q e1 q1 res1 nrec1 lastrev1 H r Hr.
  destruct (phase1_cases _ _ _ _ _ _ _ _ _ _ H) as [HS|[qa [dels [upds [e2 [q2 [l [HC [HD [HU HR]]]]]]]]]].
  - destruct (single_res _ _ _ _ _ _ _ _ _ _ _ _ _ HS r Hr) as [[]|A]. exact A.
  - destruct (batch_results_res _ _ _ _ _ HR r Hr) as [[]|[x [A B]]].
    destruct (batch_update_calls_l _ _ _ _ _ _ HU x A) as [[]|C].
    destruct (proj2 (batch_collect_parts _ _ _ _ _ _ _ _ _ _ _ _ HC _) C) as [[]|[D [F G]]].
    exists (fst x). subst r. split; [exact D|]. split; [exact F|]. split; [exact G|]. repeat split.
Qed.

(* such a result is the live Pending/Refreshing object of its key in the snapshot, at its revision *)
Lemma from_change_slot : forall snap c r, twf snap -> from_change (changes_of snap c) r ->
  slot_of snap (o_pk (r_obj r)) = Some (Live (r_obj r) (r_rev r)) /\ is_pending (r_obj r) = true /\
  r_orig r = r_rev r /\ r_id r = o_sid (r_obj r).
Proof.
  intros snap c r W [ch [A [B [P [C [D [F G]]]]]]].
  destruct (changes_stream_ok snap c W) as [_ [_ [SO _]]]. destruct (SO ch A) as [sl [Hs Hc]].
  assert (Hsl : sl = Live (r_obj r) (r_rev r)).
  { destruct sl as [o0 r0|o0 r0]; rewrite <- Hc in *; cbn in *; [congruence|discriminate]. }
  subst sl. unfold ch_pk in Hs. rewrite <- C in Hs. split; [exact Hs|]. split; [rewrite C; exact P|]. split; congruence.
Qed.

(* a result of the retry phase is an update item of the queue the phase started with *)
Definition from_item (q : retries) (r : opres) : Prop :=
  exists pk it, find_item pk (q_items q) = Some it /\ ri_del it = false /\ r_obj r = ri_obj it /\ r_rev r = ri_rev it /\
                r_id r = o_sid (ri_obj it).

Lemma from_item_usub : forall q q' r, usub q' q -> from_item q' r -> from_item q r.
Proof.
  intros q q' r S [pk [it [A [B [C [D E]]]]]]. destruct (S pk it A B) as [i0 [A0 [B0 [C0 D0]]]].
  exists pk, i0. split; [exact A0|]. split; [exact B0|]. repeat split; congruence.
Qed.

Lemma process_retries_res : forall fuel rs snap e q res nrec e' q' res' nrec', uniq q ->
  process_retries fuel rs snap e q res nrec = (e', q', res', nrec') ->
  forall r, In r res' -> In r res \/ from_item q r.
Proof.
  induction fuel as [|fu IH]; intros rs snap e q res nrec e' q' res' nrec' U H r Hr; cbn [process_retries] in H.
  - injection H as H1 H2 H3 H4. subst. left. exact Hr.
  - destruct (nrec <? rs); [|injection H as H1 H2 H3 H4; subst; left; exact Hr].
    destruct (r_top q) as [it|] eqn:Et; [|injection H as H1 H2 H3 H4; subst; left; exact Hr].
    destruct (e_now e <? ri_at it); [injection H as H1 H2 H3 H4; subst; left; exact Hr|].
    destruct (process_single e snap false (r_pop q) res (ri_obj it) (ri_rev it) (ri_orig it) (ri_del it)) as [[e1 q1] res1] eqn:Ep.
    destruct (process_single_q _ _ _ _ _ _ _ _ _ _ _ _ (uniq_pop _ U) Ep) as [S1 U1].
    assert (Hf : find_item (ri_pk it) (q_items q) = Some it).
    { apply find_item_uniq; [exact U|]. destruct (top_of_spec _ _ Et) as [A _]. exact A. }
    destruct (IH _ _ _ _ _ _ _ _ _ _ U1 H r Hr) as [A|A].
    + destruct (process_single_res _ _ _ _ _ _ _ _ _ _ _ _ Ep r A) as [B|[Ed [ok B]]]; [left; exact B|right].
      subst r. exists (ri_pk it), it. split; [exact Hf|]. split; [exact Ed|]. repeat split.
    + right. apply (from_item_usub q q1); [|exact A]. apply (usub_trans _ _ _ S1). apply usub_pop. exact U.
Qed.

(* the intermediate states of a round: after the change-stream phase (e1, q1, res1), after the first
   status commit (t1, q2), after the retry phase (e3, q3, res2), after the second commit (t2, q4) *)
Record rtrace := mkTrace {
  tr_e1 : env; tr_q1 : retries; tr_res1 : list opres; tr_t1 : table; tr_q2 : retries;
  tr_e3 : env; tr_q3 : retries; tr_res2 : list opres; tr_t2 : table; tr_q4 : retries }.

Definition round_trace (cf : cfg) (e : env) (s : rstate) : rtrace :=
  let snap := e_tab e in
  let '(e1, q1, res1, nrec1, _) := phase1 cf snap (changes_of snap (k_cursor s)) e (k_ret s) in
  let '(t1, q2) := commit_status (e_now e1) (e_tab e1) q1 res1 in
  let '(e3, q3, res2, _) := process_retries (N.to_nat (cf_rs cf)) (cf_rs cf) snap (set_tab e1 t1) q2 [] nrec1 in
  let '(t2, q4) := commit_status (e_now e3) (e_tab e3) q3 res2 in
  mkTrace e1 q1 res1 t1 q2 e3 q3 res2 t2 q4.

Lemma round_trace_eq : forall cf e s e1 q1 res1 nrec1 lastrev1 t1 q2 e3 q3 res2 nrec3 t2 q4,
  phase1 cf (e_tab e) (changes_of (e_tab e) (k_cursor s)) e (k_ret s) = (e1, q1, res1, nrec1, lastrev1) ->
  commit_status (e_now e1) (e_tab e1) q1 res1 = (t1, q2) ->
  process_retries (N.to_nat (cf_rs cf)) (cf_rs cf) (e_tab e) (set_tab e1 t1) q2 [] nrec1 = (e3, q3, res2, nrec3) ->
  commit_status (e_now e3) (e_tab e3) q3 res2 = (t2, q4) ->
  round_trace cf e s = mkTrace e1 q1 res1 t1 q2 e3 q3 res2 t2 q4 /\
  e_tab (fst (round cf e s)) = t2 /\ k_ret (snd (round cf e s)) = q4 /\
  e_target (fst (round cf e s)) = e_target e3 /\
  (e_calls (fst (round cf e s)) = e_calls e3 \/
   exists c, e_calls (fst (round cf e s)) = e_calls e3 ++ [c] /\ cl_op c = 4 /\ cl_ok c = true).
Proof.
  intros cf e s e1 q1 res1 nrec1 lastrev1 t1 q2 e3 q3 res2 nrec3 t2 q4 E1 C1 R1 C2. split.
  - unfold round_trace. cbv zeta. rewrite E1, C1, R1, C2. reflexivity.
  - unfold round, round_gen. cbv zeta.
    change (if cf_batch cf
            then let '(q, dels, upds, nrec, lastrev) := batch_collect (cf_rs cf) (changes_of (e_tab e) (k_cursor s)) (k_ret s) [] [] 0 0 in
                 let (e0, q0) := batch_deletes (e_tab e) dels e q in
                 let (e1, l) := batch_update_calls (e_tab e) upds e0 [] in
                 let (q1, res) := batch_results l q0 [] in (e1, q1, res, nrec, lastrev)
            else single (cf_rs cf) (e_tab e) (changes_of (e_tab e) (k_cursor s)) e (k_ret s) [] 0 0)
      with (phase1 cf (e_tab e) (changes_of (e_tab e) (k_cursor s)) e (k_ret s)).
    rewrite E1. unfold commit_status in C1, C2. rewrite C1, R1, C2.
    match goal with |- e_tab (fst (if ?b then _ else _)) = _ /\ _ => destruct b end; cbn [fst snd e_tab k_ret e_target e_calls set_tab progress_update];
      (split; [reflexivity|split; [reflexivity|split; [reflexivity|]]]); [right; eexists; repeat split|left; reflexivity].
Qed.

(* what the four stages of round_trace are (so that the theorems below, stated on round_trace, speak about
   the two commitStatus calls round performs) *)
Lemma round_trace_spec : forall cf e s, let tr := round_trace cf e s in
  (exists nrec1 lastrev1 nrec3,
     phase1 cf (e_tab e) (changes_of (e_tab e) (k_cursor s)) e (k_ret s) = (tr_e1 tr, tr_q1 tr, tr_res1 tr, nrec1, lastrev1) /\
     process_retries (N.to_nat (cf_rs cf)) (cf_rs cf) (e_tab e) (set_tab (tr_e1 tr) (tr_t1 tr)) (tr_q2 tr) [] nrec1 =
       (tr_e3 tr, tr_q3 tr, tr_res2 tr, nrec3)) /\
  commit_status (e_now (tr_e1 tr)) (e_tab (tr_e1 tr)) (tr_q1 tr) (tr_res1 tr) = (tr_t1 tr, tr_q2 tr) /\
  commit_status (e_now (tr_e3 tr)) (e_tab (tr_e3 tr)) (tr_q3 tr) (tr_res2 tr) = (tr_t2 tr, tr_q4 tr) /\
  e_tab (fst (round cf e s)) = tr_t2 tr /\ k_ret (snd (round cf e s)) = tr_q4 tr.
Proof.
  intros cf e s.
  destruct (phase1 cf (e_tab e) (changes_of (e_tab e) (k_cursor s)) e (k_ret s)) as [[[[e1 q1] res1] nrec1] lastrev1] eqn:E1.
  destruct (commit_status (e_now e1) (e_tab e1) q1 res1) as [t1 q2] eqn:C1.
  destruct (process_retries (N.to_nat (cf_rs cf)) (cf_rs cf) (e_tab e) (set_tab e1 t1) q2 [] nrec1) as [[[e3 q3] res2] nrec3] eqn:R1.
  destruct (commit_status (e_now e3) (e_tab e3) q3 res2) as [t2 q4] eqn:C2.
  destruct (round_trace_eq _ _ _ _ _ _ _ _ _ _ _ _ _ _ _ _ E1 C1 R1 C2) as [TR [T2 [Q4 _]]].
  cbv zeta. rewrite TR. cbn [tr_e1 tr_q1 tr_res1 tr_t1 tr_q2 tr_e3 tr_q3 tr_res2 tr_t2 tr_q4].
  split; [exists nrec1, lastrev1, nrec3; split; [reflexivity|exact R1]|].
  split; [exact C1|]. split; [exact C2|]. split; assumption.
Qed.

(* the change-stream phase keeps the state invariant, and its results know their versions: a result is the snapshot's
   object of its key, and whatever the table holds at that revision later is the snapshot's object *)
Lemma phase1_sinv : forall cf e q c e1 q1 res1 nrec1 lastrev1 f, sinv f (e_tab e) q ->
  phase1 cf (e_tab e) (changes_of (e_tab e) c) e q = (e1, q1, res1, nrec1, lastrev1) ->
  user_writes_in (hook_keys e) (e_tab e) (e_tab e1) /\ e_hooks e1 = e_hooks e /\
  exists f1, sinv f1 (e_tab e1) q1 /\ forall r, In r res1 -> res_ok f1 (e_tab e1) r.
Proof.
  intros cf e q c e1 q1 res1 nrec1 lastrev1 f S E1. pose proof S as [W [U [T I]]]. set (snap := e_tab e) in *.
  destruct (phase1_uw (hook_keys e) _ _ _ _ _ _ _ _ _ _ E1 (hooks_in_keys e)) as [UW1 HF1].
  destruct (phase1_q _ _ _ _ _ _ _ _ _ _ U E1) as [QS1 QU1].
  destruct (sinv_move f snap q (e_tab e1) q1 S (user_writes_ustep _ _ _ UW1) QS1 QU1) as [f1 [X1 S1]].
  split; [exact UW1|]. split; [exact HF1|]. exists f1. split; [exact S1|]. intros r Hr.
  destruct (from_change_slot snap _ r W (phase1_res _ _ _ _ _ _ _ _ _ _ E1 r Hr)) as [Hs [_ [F G]]].
  destruct (wstep_snap_rel snap snap _ (ustep_wstep _ _ (user_writes_ustep _ _ _ UW1) W) W (snap_rel_refl _)) as [SR1 [SR2 _]].
  destruct W as [_ [W2 _]]. destruct (W2 _ _ Hs) as [_ [_ Hle]]. cbn in Hle.
  split; [exact G|]. split; [apply (okobj_ext _ _ _ _ _ X1); apply (T _ _ Hs)|]. split.
  - split; [lia|]. intros cur Hl. apply t_live_slot in Hl.
    pose proof (SR2 _ _ Hl Hle) as Hsn. rewrite Hs in Hsn. injection Hsn as Hsn. subst cur. split; reflexivity.
  - intro Hn. exfalso. apply Hn. symmetry. exact F.
Qed.

(* so does the retry phase: a result is an update item of the queue it started with *)
Lemma process_retries_sinv : forall (K : N -> Prop) fuel rs snap e q nrec e3 q3 res2 nrec3 f, sinv f (e_tab e) q -> hooks_in K e ->
  process_retries fuel rs snap e q [] nrec = (e3, q3, res2, nrec3) ->
  user_writes_in K (e_tab e) (e_tab e3) /\
  exists f3, sinv f3 (e_tab e3) q3 /\ forall r, In r res2 -> res_ok f3 (e_tab e3) r.
Proof.
  intros K fuel rs snap e q nrec e3 q3 res2 nrec3 f S HK R1. pose proof S as [W [U [T I]]].
  destruct (process_retries_uw K _ _ _ _ _ _ _ _ _ _ _ R1 HK _ (uw_refl _ _)) as [UW3 _].
  destruct (process_retries_q _ _ _ _ _ _ _ _ _ _ _ U R1) as [QS3 QU3].
  pose proof (user_writes_ustep _ _ _ UW3) as US.
  destruct (sinv_move f (e_tab e) q (e_tab e3) q3 S US QS3 QU3) as [f3 [X3 S3]].
  split; [exact UW3|]. exists f3. split; [exact S3|]. intros r Hr.
  destruct (process_retries_res _ _ _ _ _ _ _ _ _ _ _ U R1 r Hr) as [[]|[pk [it [A [B [C [D F]]]]]]].
  destruct (I pk it A B) as [Y1 [Y2 Y3]]. unfold res_ok. rewrite C, D.
  split; [exact F|]. split; [exact (okobj_ext _ _ _ _ _ X3 Y1)|]. split; [exact (ustep_J1 _ _ US _ _ W Y2)|].
  intros _. exact (ustep_J2 _ _ US _ W Y3).
Qed.

(* the round keeps the state invariant, and every committed result knows its version *)
Lemma round_sinv : forall cf e s f, round_inv e s -> sinv f (e_tab e) (k_ret s) ->
  let tr := round_trace cf e s in
  (exists f1, sinv f1 (e_tab (tr_e1 tr)) (tr_q1 tr) /\ NoDup (res_pks (tr_res1 tr)) /\
     forall r, In r (tr_res1 tr) -> res_ok f1 (e_tab (tr_e1 tr)) r) /\
  (exists f3, sinv f3 (e_tab (tr_e3 tr)) (tr_q3 tr) /\ NoDup (res_pks (tr_res2 tr)) /\
     forall r, In r (tr_res2 tr) -> res_ok f3 (e_tab (tr_e3 tr)) r) /\
  (exists f4, sinv f4 (tr_t2 tr) (tr_q4 tr)) /\
  user_writes_in (hook_keys e) (e_tab e) (e_tab (tr_e1 tr)) /\ user_writes_in (hook_keys e) (tr_t1 tr) (e_tab (tr_e3 tr)).
Proof.
  intros cf e s f RI S. destruct (round_trace_spec cf e s) as [[nrec1 [lastrev1 [nrec3 [E1 R1]]]] [C1 [C2 _]]].
  cbv zeta. generalize dependent (round_trace cf e s). intros [e1 q1 res1 t1 q2 e3 q3 res2 t2 q4].
  cbn [tr_e1 tr_q1 tr_res1 tr_t1 tr_q2 tr_e3 tr_q3 tr_res2 tr_t2 tr_q4]. intros E1 R1 C1 C2.
  destruct (round_stages _ _ _ _ _ _ _ _ _ _ _ _ _ _ _ _ RI E1 C1 R1 C2) as [_ [[chs' PI] [_ [_ [RT _]]]]].
  assert (ND1 : NoDup (res_pks res1)) by (destruct PI; assumption).
  assert (ND3 : NoDup (res_pks res2)) by (destruct RT; assumption).
  destruct (phase1_sinv _ _ _ _ _ _ _ _ _ _ S E1) as [UW1 [HF1 [f1 [S1 RO1]]]].
  unfold commit_status in C1, C2.
  destruct (commit_status_sinv _ _ _ _ _ _ _ _ _ S1 ND1 RO1 C1) as [f2 [_ [S2 _]]].
  destruct (process_retries_sinv (hook_keys e) _ _ _ (set_tab e1 t1) _ _ _ _ _ _ f2 S2 (hooks_in_eq _ e _ HF1 (hooks_in_keys e)) R1)
    as [UW3 [f3 [S3 RO3]]].
  destruct (commit_status_sinv _ _ _ _ _ _ _ _ _ S3 ND3 RO3 C2) as [f4 [_ [S4 _]]].
  split; [exists f1; split; [exact S1|split; [exact ND1|exact RO1]]|].
  split; [exists f3; split; [exact S3|split; [exact ND3|exact RO3]]|].
  split; [exists f4; exact S4|]. split; [exact UW1|exact UW3].
Qed.

Definition c15_inv (e : env) (s : rstate) : Prop :=
  full_inv e s /\ exists f, sinv f (e_tab e) (k_ret s).

Lemma c15_inv_init : forall cf, c15_inv (env0 cf) (rstate0 cf).
Proof.
  intro cf. split; [apply full_inv_init|]. exists (fun _ => 0).
  split; [apply twf_empty|]. split; [apply uniq_new|]. split.
  - intros k sl H. discriminate.
  - intros pk it H. discriminate.
Qed.

Lemma c15_inv_estep : forall st st', estep st st' -> c15_inv (fst st) (snd st) -> c15_inv (fst st') (snd st').
Proof.
  intros st st' H [FI [f S]]. split; [apply (estep_keeps_full st st' H FI)|].
  destruct H; cbn [fst snd] in *; try (exists f; exact S).
  pose proof S as [_ [U _]].
    destruct (sinv_move f (e_tab e) (k_ret s) (e_tab (do_write e kind k)) (k_ret s) S (do_write_ustep e kind k) (usub_refl _) U) as [f' [_ S']].
    exists f'. exact S'.
Qed.

Lemma c15_inv_round : forall cf e s, c15_inv e s -> c15_inv (fst (round cf e s)) (snd (round cf e s)).
Proof.
  intros cf e s [FI [f S]]. split.
  - destruct (round cf e s) as [e' s'] eqn:E. apply (round_keeps_full cf e s e' s' FI E).
  - destruct (round_sinv cf e s f (proj1 FI) S) as [_ [_ [[f4 S4] _]]].
    destruct (round_trace_spec cf e s) as [_ [_ [_ [T2 Q4]]]]. exists f4. rewrite T2, Q4. exact S4.
Qed.

Theorem c15_inv_reach : forall cf st, reach cf st -> c15_inv (fst st) (snd st).
Proof.
  intros cf st H. induction H.
  - apply c15_inv_init.
  - apply (c15_inv_estep st st'); assumption.
  - apply (c15_inv_round cf e s IHreach).
Qed.

Lemma res_consistent_of_ok : forall f t res, NoDup (res_pks res) -> (forall r, In r res -> res_ok f t r) -> res_consistent t res.
Proof. intros f t res N R. split; [exact N|]. intros r Hr. apply (res_ok_identifies f). apply R. exact Hr. Qed.

(* the table with our statuses (and revisions) erased: per slot, in slot order, the key and (payload version,
   data of the other writers) of the live object, None for a deleted one *)
Definition ers (sl : slot) : option (N * N) := match sl with Live o _ => Some (o_ver o, o_aux o) | Dead _ _ => None end.
Definition erase (t : table) : list (N * option (N * N)) := map (fun kv => (fst kv, ers (snd kv))) (t_slots t).

Lemma erase_aset : forall k sl sl' (l : list (N * slot)), aget k l = Some sl -> ers sl' = ers sl ->
  map (fun kv => (fst kv, ers (snd kv))) (aset k sl' l) = map (fun kv => (fst kv, ers (snd kv))) l.
Proof.
  intros k sl sl' l. induction l as [|[k0 s0] r IH]; intros H E; cbn [aget] in H; [discriminate|].
  cbn [aset]. destruct (k0 =? k) eqn:Ek.
  - injection H as H. subst s0. apply N.eqb_eq in Ek. subst k0. cbn [map fst snd]. rewrite E. reflexivity.
  - cbn [map fst snd]. rewrite (IH H E). reflexivity.
Qed.

Lemma erase_fresh : forall t, erase (fst (t_fresh_id t)) = erase t.
Proof. reflexivity. Qed.

(* writing an object with the payload and the foreign data of the live object of its key changes nothing
   but status/revision *)
Lemma erase_insert : forall t o cur rv, t_live t (o_pk o) = Some (cur, rv) -> o_ver o = o_ver cur -> o_aux o = o_aux cur ->
  erase (t_insert t o) = erase t.
Proof.
  intros t o cur rv H E E2. unfold erase, t_insert. cbn [t_slots]. apply t_live_slot in H.
  apply (erase_aset _ (Live cur rv)); [exact H|cbn; rewrite E, E2; reflexivity].
Qed.

Lemma aget_erase : forall k t, aget k (erase t) = option_map ers (slot_of t k).
Proof.
  intros k t. unfold erase, slot_of. induction (t_slots t) as [|[k0 s0] r IH]; cbn [map aget fst snd]; [reflexivity|].
  destruct (k0 =? k); [reflexivity|exact IH].
Qed.

Lemma payload_erase : forall t k, payload t k = match aget k (erase t) with Some (Some (v, _)) => Some v | _ => None end.
Proof. intros t k. rewrite aget_erase. unfold payload. destruct (slot_of t k) as [[o r|o r]|]; reflexivity. Qed.

Lemma erase_payload : forall t t', erase t' = erase t -> forall k, payload t' k = payload t k.
Proof. intros t t' H k. rewrite !payload_erase, H. reflexivity. Qed.

Lemma commit_one_erase : forall fixed efb now t q r t' q', keyed t -> rev_identifies t r ->
  commit_one fixed efb now (t, q) r = (t', q') -> erase t' = erase t.
Proof.
  intros fixed efb now t q r t' q' K R H.
  destruct (commit_one_outcomes _ _ _ _ _ _ _ _ H) as [[A _]|[[cur [A [B _]]]|[cur [rv [A [_ [_ [B _]]]]]]]]; subst t'.
  - apply erase_fresh.
  - destruct (R cur A) as [R1 R2].
    rewrite (erase_insert _ _ cur (r_rev r)); [apply erase_fresh|exact A|cbn; symmetry; exact R1|cbn; symmetry; exact R2].
  - assert (Kc : o_pk cur = o_pk (r_obj r)) by (apply (K _ cur rv); apply t_live_slot; exact A).
    rewrite (erase_insert _ _ cur rv); [apply erase_fresh|cbn [with_status o_pk]; rewrite Kc; exact A|reflexivity|reflexivity].
Qed.

(* a whole commitStatus on identified results leaves the statuses-erased table exactly as it was *)
Theorem commit_status_erase : forall fixed efb now res t q t' q', keyed t -> res_consistent t res ->
  commit_status_gen fixed efb now t q res = (t', q') -> erase t' = erase t.
Proof.
  intros fixed efb now res. unfold commit_status_gen. induction res as [|r rest IH]; intros t q t' q' Hk [Hnd Hri] H.
  - cbn in H. injection H as H1 H2. subst. reflexivity.
  - cbn [fold_left] in H. destruct (commit_one fixed efb now (t, q) r) as [t1 q1] eqn:E1.
    pose proof (commit_one_keyed _ _ _ _ _ _ _ _ Hk E1) as Hk1.
    destruct (commit_one_spec _ _ _ _ _ _ _ _ Hk E1) as [Ho _].
    pose proof (commit_one_erase _ _ _ _ _ _ _ _ Hk (Hri r (or_introl eq_refl)) E1) as P1.
    cbn [map] in Hnd. inversion Hnd as [|x xs Hx Hr]; subst.
    assert (C1 : res_consistent t1 rest).
    { split; [exact Hr|]. intros r2 Hin cur Hl. apply (Hri r2 (or_intror Hin) cur).
      assert (Hne : o_pk (r_obj r2) <> o_pk (r_obj r)).
      { intro Heq. apply Hx. rewrite <- Heq. apply (in_map (fun r => o_pk (r_obj r))). exact Hin. }
      apply t_live_slot. rewrite <- (Ho _ Hne). apply t_live_slot. exact Hl. }
    rewrite (IH t1 q1 t' q' Hk1 C1 H). exact P1.
Qed.

(* t' differs from t in statuses (and revisions of rewritten objects) only: same keys in the same order,
   same payload versions, deleted objects untouched *)
Definition status_only (t t' : table) : Prop :=
  erase t' = erase t /\ (forall k, not_live t k -> slot_of t' k = slot_of t k).

Lemma status_only_payload : forall t t', status_only t t' -> forall k, payload t' k = payload t k.
Proof. intros t t' [A _]. apply erase_payload. exact A. Qed.
Lemma status_only_live : forall t t' k, status_only t t' ->
  (exists o r, slot_of t' k = Some (Live o r)) <-> (exists o r, slot_of t k = Some (Live o r)).
Proof.
  intros t t' k [A _]. pose proof (aget_erase k t) as P. pose proof (aget_erase k t') as P'. rewrite A in P'. rewrite P in P'.
  destruct (slot_of t k) as [[o r|o r]|]; destruct (slot_of t' k) as [[o' r'|o' r']|]; cbn in P'; try discriminate;
    split; intros [x [y H]]; try discriminate; eexists; eexists; reflexivity.
Qed.

Lemma commit_status_only : forall fixed efb now res t q t' q', keyed t -> res_consistent t res ->
  commit_status_gen fixed efb now t q res = (t', q') -> status_only t t'.
Proof.
  intros fixed efb now res t q t' q' K R H. split; [apply (commit_status_erase _ _ _ _ _ _ _ _ K R H)|].
  destruct (commit_status_status_only _ _ _ _ _ _ _ _ K R H) as [_ [_ A]]. exact A.
Qed.

Lemma do_write_other : forall e kind k k', keyed (e_tab e) -> k' <> k ->
  slot_of (e_tab (do_write e kind k)) k' = slot_of (e_tab e) k'.
Proof.
  intros e kind k k' K Hn.
  apply (do_write_closed_at (fun t => keyed t /\ slot_of t k' = slot_of (e_tab e) k') e kind k); [| | |split; [exact K|reflexivity]].
  - intros t o Hk _ _ [Kt E]. split; [apply keyed_insert; apply (keyed_ext t); [reflexivity|exact Kt]|].
    rewrite slot_insert_other by (rewrite (Hk Kt); exact Hn). exact E.
  - intros t o r Hl [Kt E]. split; [apply keyed_insert; exact Kt|]. rewrite slot_insert_other; [exact E|].
    change (o_pk (bump_aux o)) with (o_pk o). apply t_live_slot in Hl. rewrite (Kt k o r Hl). exact Hn.
  - intros t [Kt E]. split; [apply keyed_delete; exact Kt|]. rewrite slot_delete_other by exact Hn. exact E.
Qed.
Lemma user_writes_in_other : forall K t t', user_writes_in K t t' -> twf t ->
  forall pk, ~ K pk -> slot_of t' pk = slot_of t pk.
Proof.
  intros K t t' H W pk Hn. induction H; [reflexivity|].
  rewrite <- (IHuser_writes_in W). apply do_write_other.
  - apply twf_keyed. apply (ustep_twf t); [apply (user_writes_ustep K); assumption|exact W].
  - intro E. subst pk. contradiction.
Qed.

Lemma status_only_trans : forall a b c, status_only a b -> status_only b c -> status_only a c.
Proof.
  intros a b c [A1 A2] [B1 B2]. split; [congruence|]. intros k Hn.
  rewrite B2; [apply A2; exact Hn|]. unfold not_live. rewrite (A2 k Hn). exact Hn.
Qed.

(* in every reachable state, for the round executed from it (K = the keys the registered hooks write
   to): the table moves
     - by user writes of hooks on keys in K during the change-stream phase,
     - by a status-only change at the first commitStatus,
     - by user writes of hooks on keys in K during the retry phase,
     - by a status-only change at the second commitStatus,
   and the result is the table of the state after the round.  Every payload change in a round is a
   do_write; the reconciler itself writes statuses only and never re-creates a deleted object. *)
Theorem round_commits_change_only_statuses : forall cf st, reach cf st ->
  forall e' s', round cf (fst st) (snd st) = (e', s') ->
  let tr := round_trace cf (fst st) (snd st) in
  let K := hook_keys (fst st) in
  user_writes_in K (e_tab (fst st)) (e_tab (tr_e1 tr)) /\
  status_only (e_tab (tr_e1 tr)) (tr_t1 tr) /\
  user_writes_in K (tr_t1 tr) (e_tab (tr_e3 tr)) /\
  status_only (e_tab (tr_e3 tr)) (e_tab e').
Proof.
  intros cf st H e' s' HR. destruct (c15_inv_reach cf _ H) as [[RI _] [f S]].
  destruct (round_sinv cf _ _ f RI S) as [[f1 [S1 [N1 O1]]] [[f3 [S3 [N3 O3]]] [_ [U1 U3]]]].
  destruct (round_trace_spec cf (fst st) (snd st)) as [_ [C1 [C2 [T2 _]]]]. rewrite HR in T2. cbn [fst] in T2.
  cbv zeta. rewrite T2. split; [exact U1|]. split; [|split; [exact U3|]].
  - apply (commit_status_only true true _ _ _ _ _ _ (twf_keyed _ (proj1 S1)) (res_consistent_of_ok f1 _ _ N1 O1) C1).
  - apply (commit_status_only true true _ _ _ _ _ _ (twf_keyed _ (proj1 S3)) (res_consistent_of_ok f3 _ _ N3 O3) C2).
Qed.

(* consequences over the whole round, per key: a key no registered hook writes to keeps its payload
   version through the round; if it was deleted or absent it stays exactly as it was *)
Theorem round_keeps_unhooked_payloads : forall cf st, reach cf st ->
  forall e' s', round cf (fst st) (snd st) = (e', s') ->
  forall pk, ~ hook_keys (fst st) pk ->
    payload (e_tab e') pk = payload (e_tab (fst st)) pk /\
    (not_live (e_tab (fst st)) pk -> slot_of (e_tab e') pk = slot_of (e_tab (fst st)) pk).
Proof.
  intros cf st H e' s' HR pk Hn.
  destruct (round_commits_change_only_statuses cf st H e' s' HR) as [U1 [O1 [U3 O3]]]. cbv zeta in *.
  set (tr := round_trace cf (fst st) (snd st)) in *.
  destruct (c15_inv_reach cf _ H) as [[RI _] [f [W _]]].
  pose proof (user_writes_in_other _ _ _ U1 W pk Hn) as A1.
  assert (W1 : twf (tr_t1 tr)).
  { destruct (round_trace_spec cf (fst st) (snd st)) as [[nrec1 [lastrev1 [nrec3 [E1 R1]]]] [C1 [C2 _]]].
    destruct (round_stages _ _ _ _ _ _ _ _ _ _ _ _ _ _ _ _ RI E1 C1 R1 C2) as [_ [_ [_ [[X _ _ _ _ _ _ _] _]]]]. exact X. }
  pose proof (user_writes_in_other _ _ _ U3 W1 pk Hn) as A3.
  split.
  - rewrite (status_only_payload _ _ O3). unfold payload at 1. rewrite A3. fold (payload (tr_t1 tr) pk).
    rewrite (status_only_payload _ _ O1). unfold payload. rewrite A1. reflexivity.
  - intro Hd. destruct O1 as [_ D1]. destruct O3 as [_ D3].
    assert (N1 : not_live (e_tab (tr_e1 tr)) pk) by (unfold not_live; rewrite A1; exact Hd).
    assert (N3 : not_live (e_tab (tr_e3 tr)) pk) by (unfold not_live; rewrite A3, (D1 pk N1), A1; exact Hd).
    rewrite (D3 pk N3), A3, (D1 pk N1), A1. reflexivity.
Qed.

Definition ex_cf : cfg := mkCfg false 10 1 8 0 false.
(* put 1, put 2; Update(1) fails at its first attempt; a hook puts a new version of key 2 from inside the
   first Update of key 1 *)
Definition ex_e0 : env := add_hook (add_fault (do_write (do_write (env0 ex_cf) 0 1) 0 2) 1 0) 2 0 0 2.
Definition ex_st0 : env * rstate := (ex_e0, rstate0 ex_cf).
(* one round and 100 time units later: the retry of key 1 is due *)
Definition ex_st1 : env * rstate := let '(e, s) := round ex_cf ex_e0 (rstate0 ex_cf) in (set_now e 100, s).

Lemma ex_reach0 : reach ex_cf ex_st0.
Proof.
  unfold ex_st0, ex_e0.
  eapply reach_env; [|apply es_hook]. eapply reach_env; [|apply es_fault].
  eapply reach_env; [|apply es_write]. eapply reach_env; [|apply es_write]. apply reach_init.
Qed.
Lemma reach_round_time : forall cf e s t, reach cf (e, s) -> reach cf (let '(e', s') := round cf e s in (set_now e' t, s')).
Proof.
  intros cf e s t H. pose proof (reach_round cf e s H) as R. destruct (round cf e s) as [e' s'].
  eapply reach_env; [exact R|apply es_time].
Qed.
Lemma ex_reach1 : reach ex_cf ex_st1.
Proof. unfold ex_st1. exact (reach_round_time ex_cf ex_e0 (rstate0 ex_cf) 100 ex_reach0). Qed.

(* round 1 commits two results of the change stream (the one of key 2 is dropped: a hook put a new
   version meanwhile — the payload of key 2 changes 2 -> 3 by that user write, not by the commit);
   round 2 commits one change-stream result and one retry result *)
Example ex_traces :
  reach ex_cf ex_st0 /\ reach ex_cf ex_st1 /\
  (let tr := round_trace ex_cf (fst ex_st0) (snd ex_st0) in
   map (fun r => (o_pk (r_obj r), o_ver (r_obj r), r_rev r, r_ok r)) (tr_res1 tr) = [(1, 1, 1, false); (2, 2, 2, true)] /\
   tr_res2 tr = [] /\
   erase (e_tab (fst ex_st0)) = [(1, Some (1, 0)); (2, Some (2, 0))] /\
   erase (e_tab (tr_e1 tr)) = [(1, Some (1, 0)); (2, Some (3, 0))] /\
   erase (tr_t1 tr) = [(1, Some (1, 0)); (2, Some (3, 0))] /\
   live_objs (tr_t2 tr) = [(1, 1, 3); (2, 3, 0)]) /\
  (let tr := round_trace ex_cf (fst ex_st1) (snd ex_st1) in
   map (fun r => (o_pk (r_obj r), o_ver (r_obj r), r_rev r, r_ok r)) (tr_res1 tr) = [(2, 3, 3, true)] /\
   map (fun r => (o_pk (r_obj r), o_ver (r_obj r), r_rev r, r_ok r)) (tr_res2 tr) = [(1, 1, 4, true)] /\
   erase (tr_t2 tr) = [(1, Some (1, 0)); (2, Some (3, 0))] /\
   live_objs (tr_t2 tr) = [(1, 1, 2); (2, 3, 2)]) /\
  hook_keys (fst ex_st0) 2 /\ ~ hook_keys (fst ex_st0) 1.
Proof.
  split; [exact ex_reach0|]. split; [exact ex_reach1|].
  split; [vm_compute; repeat split; reflexivity|]. split; [vm_compute; repeat split; reflexivity|].
  split.
  - exists 2, 0, 0. vm_compute. left. reflexivity.
  - intros [k [n [wk Hin]]]. vm_compute in Hin. destruct Hin as [Hin|[]]. discriminate.
Qed.

Lemma reach_settle : forall fuel cf e s, reach cf (e, s) -> reach cf (settle fuel cf e s).
Proof.
  unfold settle. induction fuel as [|f IH]; intros cf e s H; cbn [settle_gen]; [exact H|].
  destruct (trigger_ready cf e s); [|exact H].
  pose proof (reach_round cf e s H) as R. unfold round in R. destruct (round_gen true true cf e s) as [e' s']. apply IH. exact R.
Qed.

(* put 1 (Update fails twice), another reconciler's status write (statx: o_aux 0 -> 1) after the first
   failure, then the retry is due *)
Definition d15_cf : cfg := mkCfg false 2 10 40 0 false.
Definition d15_st1 : env * rstate :=
  settle 50 d15_cf (do_write (add_fault (add_fault (env0 d15_cf) 1 0) 1 1) 0 1) (rstate0 d15_cf).
Definition d15_st2 : env * rstate := settle 50 d15_cf (do_write (fst d15_st1) 4 1) (snd d15_st1).
Definition d15_st3 : env * rstate := (set_now (fst d15_st2) 20, snd d15_st2).

Lemma d15_reach : reach d15_cf d15_st3.
Proof.
  unfold d15_st3. eapply reach_env; [|apply es_time].
  assert (R1 : reach d15_cf d15_st1).
  { unfold d15_st1. apply reach_settle. eapply reach_env; [|apply es_write].
    eapply reach_env; [|apply es_fault]. eapply reach_env; [|apply es_fault]. apply reach_init. }
  assert (R2 : reach d15_cf d15_st2).
  { unfold d15_st2. apply reach_settle. eapply reach_env; [|apply es_write]. destruct d15_st1 as [e s]. exact R1. }
  destruct d15_st2 as [e s]. exact R2.
Qed.

(* the round from that state retries key 1 (the result carries the object as reconciled: aux 0, revision
   2), the Update fails again, the status commit goes through the fallback (the table holds aux 1 at
   revision 3): the erased table — payload 1, aux 1 — is untouched, and the retry is queued with the
   written object (aux 1) at the written revision 4 *)
Example d15_trace :
  reach d15_cf d15_st3 /\
  (let tr := round_trace d15_cf (fst d15_st3) (snd d15_st3) in
   tr_res1 tr = [] /\
   map (fun r => (o_pk (r_obj r), o_ver (r_obj r), o_aux (r_obj r), r_rev r, r_orig r, r_ok r)) (tr_res2 tr) = [(1, 1, 0, 2, 1, false)] /\
   t_live (e_tab (tr_e3 tr)) 1 = Some (mkObj 1 1 Error 2 1, 3) /\
   erase (e_tab (tr_e3 tr)) = [(1, Some (1, 1))] /\
   erase (tr_t2 tr) = [(1, Some (1, 1))] /\
   t_live (tr_t2 tr) 1 = Some (mkObj 1 1 Error 3 1, 4) /\
   map (fun it => (ri_obj it, ri_rev it, ri_orig it)) (q_items (tr_q4 tr)) = [(mkObj 1 1 Error 3 1, 4, 1)]).
Proof. split; [exact d15_reach|]. vm_compute. repeat split; reflexivity. Qed.
