(* Reconciler/CoverProofs.v — user writes placed anywhere keep the cover invariant (C14), including the
   foreign status-only write over an Error status (write kind 4, `statx`): since fix 8844901 the retry's
   result is applied to the re-stamped object (before the fix that write lost the object: Refuted.v). *)
From Coq Require Import List NArith Bool Lia ZifyN ZifyBool.
From SV Require Import Reconciler.Retries Reconciler.Model Reconciler.RetriesProofs Reconciler.CommitProofs Reconciler.RoundProofs.
Import ListNotations.
Open Scope N_scope.

Lemma keyed_ext : forall t t', (forall k, slot_of t' k = slot_of t k) -> keyed t -> keyed t'.
Proof. intros t t' H Hk k o r Hs. rewrite H in Hs. apply (Hk k o r Hs). Qed.

Lemma slot_delete_same : forall t k o r, slot_of t k = Some (Live o r) -> slot_of (t_delete t k) k = Some (Dead o (t_rev t + 1)).
Proof.
  intros t k o r H. unfold t_delete. unfold slot_of in H. rewrite H. unfold slot_of. cbn [t_slots]. apply aget_aset_same.
Qed.
Lemma slot_delete_other : forall t k k', k' <> k -> slot_of (t_delete t k) k' = slot_of t k'.
Proof.
  intros t k k' Hn. unfold t_delete. destruct (aget k (t_slots t)) as [[o r|o r]|]; try reflexivity.
  unfold slot_of. cbn [t_slots]. apply aget_aset_other. exact Hn.
Qed.
Lemma t_delete_not_live : forall t k, (forall o r, slot_of t k <> Some (Live o r)) -> t_delete t k = t.
Proof. intros t k H. unfold t_delete. unfold slot_of in H. destruct (aget k (t_slots t)) as [[o r|o r]|]; try reflexivity. destruct (H o r eq_refl). Qed.
Lemma t_rev_delete : forall t k, t_rev t <= t_rev (t_delete t k).
Proof. intros t k. unfold t_delete. destruct (aget k (t_slots t)) as [[o r|o r]|]; cbn; lia. Qed.

Lemma keyed_delete : forall t k, keyed t -> keyed (t_delete t k).
Proof.
  intros t k Hk k' o r Hs. destruct (N.eq_dec k' k) as [->|E].
  - destruct (slot_of t k) as [[o0 r0|o0 r0]|] eqn:Es.
    + rewrite (slot_delete_same t k o0 r0 Es) in Hs. discriminate.
    + rewrite t_delete_not_live in Hs by (intros; congruence). apply (Hk k o r Hs).
    + rewrite t_delete_not_live in Hs by (intros; congruence). apply (Hk k o r Hs).
  - rewrite slot_delete_other in Hs by exact E. apply (Hk k' o r Hs).
Qed.

(* Every write kind of the harness (put, del, reins, stat, statx, ref, pend) is made of four moves: a fresh
   status id, the insert of a Pending/Refreshing object, the re-insert of a live object with the other
   writers' data changed, a delete. A property of tables closed under the four survives every user write,
   hence every hook and every scripted operation. *)
Definition wclosed (Q : table -> Prop) : Prop :=
  (forall t, Q t -> Q (fst (t_fresh_id t))) /\
  (forall t o, is_pending o = true -> Q t -> Q (t_insert t o)) /\
  (forall t k o r, t_live t k = Some (o, r) -> Q t -> Q (t_insert t (bump_aux o))) /\
  (forall t k, Q t -> Q (t_delete t k)).

Lemma do_write_closed : forall Q e kind k, wclosed Q -> Q (e_tab e) -> Q (e_tab (do_write e kind k)).
Proof.
  intros Q e kind k [Hf [Hi [Hs Hd]]].
  assert (Del : forall e, Q (e_tab e) -> Q (e_tab (w_del e k))).
  { intros e0 H. unfold w_del. destruct (t_live (e_tab e0) k); [apply Hd|]; exact H. }
  assert (Put : forall e, Q (e_tab e) -> Q (e_tab (w_put e k))).
  { intros e0 H. apply Hi; [reflexivity|]. apply Hf. exact H. }
  assert (Stat : forall g, Q (e_tab e) -> Q (e_tab (w_stat g e k))).
  { intros g H. unfold w_stat. destruct (t_live (e_tab e) k) as [[o r]|] eqn:El; [|exact H].
    destruct (g && _); [exact H|]. apply (Hs _ k o r El H). }
  assert (Pend : Q (e_tab e) -> Q (e_tab (w_pend e k))).
  { intro H. unfold w_pend. destruct (t_live (e_tab e) k) as [[o r]|]; [|exact H]. apply Hi; [reflexivity|]. apply Hf. exact H. }
  assert (Ref : Q (e_tab e) -> Q (e_tab (w_ref e k))).
  { intro H. unfold w_ref. destruct (t_live (e_tab e) k) as [[o r]|]; [|exact H].
    destruct (o_kind o); try exact H. apply Hi; [reflexivity|]. apply Hf. exact H. }
  intro H. unfold do_write. destruct kind as [|[[p|[p|p|]|]|[p|[p|p|]|]|]]; auto.
Qed.

Lemma run_hooks_closed : forall Q hs k n e, wclosed Q -> Q (e_tab e) -> Q (e_tab (run_hooks hs k n e)).
Proof.
  intros Q hs k n e C. revert e. induction hs as [|[[k' n'] [wk k2]] r IH]; intros e H; cbn [run_hooks]; [exact H|].
  apply IH. destruct ((k' =? k) && (n' =? n)); [apply do_write_closed; assumption|exact H].
Qed.

(* the parts of env a user write does not touch *)
Definition frame (e : env) := (e_calls e, e_now e, e_hooks e, e_faults e, e_foff e, e_attempts e, e_target e).

Lemma do_write_frame_eq : forall e kind k, frame (do_write e kind k) = frame e.
Proof.
  intros e kind k.
  assert (Del : forall e, frame (w_del e k) = frame e) by (intro e0; unfold w_del; destruct (t_live (e_tab e0) k); reflexivity).
  assert (Pend : frame (w_pend e k) = frame e) by (unfold w_pend; destruct (t_live (e_tab e) k) as [[o r]|]; reflexivity).
  unfold do_write. destruct kind as [|[[p|[p|p|]|]|[p|[p|p|]|]|]]; try apply Del; try apply Pend; try reflexivity.
  - unfold w_ref. destruct (t_live (e_tab e) k) as [[o r]|]; [destruct (o_kind o)|]; reflexivity.
  - unfold w_stat. destruct (t_live (e_tab e) k) as [[o r]|]; [destruct (true && _)|]; reflexivity.
  - unfold w_stat. destruct (t_live (e_tab e) k) as [[o r]|]; reflexivity.
Qed.

Lemma do_write_frame : forall e kind k,
  e_calls (do_write e kind k) = e_calls e /\ e_now (do_write e kind k) = e_now e /\
  e_hooks (do_write e kind k) = e_hooks e /\ e_faults (do_write e kind k) = e_faults e /\
  e_foff (do_write e kind k) = e_foff e /\ e_attempts (do_write e kind k) = e_attempts e /\
  e_target (do_write e kind k) = e_target e.
Proof. intros e kind k. pose proof (do_write_frame_eq e kind k) as H. injection H. auto 8. Qed.

Lemma run_hooks_frame : forall hs k n e, frame (run_hooks hs k n e) = frame e.
Proof.
  induction hs as [|[[k' n'] [wk k2]] r IH]; intros k n e; cbn [run_hooks]; [reflexivity|].
  rewrite IH. destruct ((k' =? k) && (n' =? n)); [apply do_write_frame_eq|reflexivity].
Qed.

(* do_call bumps the attempt counters of the key, runs the hooks registered for this attempt (user writes),
   and logs the call with the outcome the fault oracle gives for the attempt *)
Definition hooked (e : env) (fresh : bool) (k : N) : env :=
  let n := match aget (2 * k) (e_attempts e) with Some n => n | None => 0 end in
  let fn := match aget (2 * k + 1) (e_attempts e) with Some n => n | None => 0 end in
  let a := aset (2 * k) (n + 1) (e_attempts e) in
  let e1 := mkEnv (e_tab e) (e_now e) (if fresh then aset (2 * k + 1) (fn + 1) a else a) (e_faults e) (e_hooks e)
                  (e_foff e) (e_ver e) (e_urevs e) (e_calls e) (e_target e) in
  let e2 := run_hooks (e_hooks e1) (2 * k) n e1 in
  if fresh then run_hooks (e_hooks e2) (2 * k + 1) fn e2 else e2.

Definition log_call (h : env) (c : call) (tg : list (N * N)) : env :=
  mkEnv (e_tab h) (e_now h) (e_attempts h) (e_faults h) (e_hooks h) (e_foff h) (e_ver h) (e_urevs h) (e_calls h ++ [c]) tg.

Lemma hooked_frame : forall e fresh k,
  e_calls (hooked e fresh k) = e_calls e /\ e_now (hooked e fresh k) = e_now e /\ e_hooks (hooked e fresh k) = e_hooks e /\
  e_faults (hooked e fresh k) = e_faults e /\ e_foff (hooked e fresh k) = e_foff e /\ e_target (hooked e fresh k) = e_target e.
Proof.
  intros e fresh k. assert (H : forall a b c, frame (hooked e fresh k) = (a, b, c) -> exists a', frame e = (a, a', c)).
  { intros a b c. unfold hooked. destruct fresh; rewrite ?run_hooks_frame; intro H; injection H as <- <- <-; eexists; reflexivity. }
  destruct (H _ _ _ eq_refl) as [a' E]. injection E. auto 8.
Qed.

Lemma hooked_closed : forall Q e fresh k, wclosed Q -> Q (e_tab e) -> Q (e_tab (hooked e fresh k)).
Proof. intros Q e fresh k C H. unfold hooked. destruct fresh; repeat apply run_hooks_closed; assumption. Qed.

Lemma do_call_hooked : forall e snap fresh op o rev, exists c tg,
  do_call e snap fresh op o rev = (log_call (hooked e fresh (o_pk o)) c tg, cl_ok c) /\
  cl_op c = op /\ cl_pk c = o_pk o /\ cl_rev c = rev /\ (e_foff e = true -> cl_ok c = true).
Proof.
  intros e snap fresh op o rev. set (h := hooked e fresh (o_pk o)).
  set (ok := negb (mem_pair (o_pk o) (match aget (2 * o_pk o) (e_attempts e) with Some n => n | None => 0 end) (e_faults h)
                   && negb (e_foff h))).
  exists (mkCall (e_now h) op (o_pk o) (o_ver o) rev (mem_n rev (e_urevs e))
                 (match t_live snap (o_pk o) with Some (_, r) => r =? rev | None => false end) ok []),
         (if ok then (if (op =? 0) || (op =? 2) then aset (o_pk o) (o_ver o) (e_target h) else adel (o_pk o) (e_target h))
          else e_target h).
  split; [reflexivity|]. cbn [cl_op cl_pk cl_rev cl_ok]. repeat split.
  destruct (hooked_frame e fresh (o_pk o)) as [_ [_ [_ [_ [F _]]]]]. unfold ok, h. rewrite F.
  intros ->. apply negb_true_iff, andb_false_r.
Qed.

(* clock, fault oracle and hooks stay; with the oracle switched off the operation succeeds; one call is logged *)
Lemma do_call_env : forall e snap fresh op o rev e' ok, do_call e snap fresh op o rev = (e', ok) ->
  e_now e' = e_now e /\ e_hooks e' = e_hooks e /\ e_faults e' = e_faults e /\ e_foff e' = e_foff e /\
  (e_foff e = true -> ok = true).
Proof.
  intros e snap fresh op o rev e' ok H. destruct (do_call_hooked e snap fresh op o rev) as [c [tg [E [_ [_ [_ F]]]]]].
  rewrite H in E. injection E as -> ->. destruct (hooked_frame e fresh (o_pk o)) as [_ [A [B [C [D _]]]]]. auto.
Qed.

Lemma do_call_log : forall e snap fresh op o rev e' ok, do_call e snap fresh op o rev = (e', ok) ->
  exists c, e_calls e' = e_calls e ++ [c] /\ cl_op c = op /\ cl_pk c = o_pk o /\ cl_rev c = rev /\ cl_ok c = ok.
Proof.
  intros e snap fresh op o rev e' ok H. destruct (do_call_hooked e snap fresh op o rev) as [c [tg [E [C1 [C2 [C3 _]]]]]].
  rewrite H in E. injection E as -> ->. destruct (hooked_frame e fresh (o_pk o)) as [L _].
  exists c. cbn [log_call e_calls]. rewrite L. auto.
Qed.

Lemma do_call_closed : forall Q e snap fresh op o rev, wclosed Q -> Q (e_tab e) ->
  Q (e_tab (fst (do_call e snap fresh op o rev))).
Proof.
  intros Q e snap fresh op o rev C H. destruct (do_call_hooked e snap fresh op o rev) as [c [tg [-> _]]].
  cbn [fst log_call e_tab]. apply hooked_closed; assumption.
Qed.

(* the state a user write may see: every live object stored under its key, cursor not beyond the table *)
Definition wstate D (t : table) (c : N) (res : list opres) (q : retries) : Prop :=
  keyed t /\ c <= t_rev t /\ forall pk, covered D t c res q pk.

(* an insert over key k keeps k covered when the new object is Pending/Refreshing (it is ahead of the cursor)
   or carries the status kind of the object it replaces (a status-only write by another writer; for an Error
   object the retry's result is applied whatever the revision, since fix 8844901) *)
Lemma insert_wstate : forall D t c res q o, wstate D t c res q ->
  is_pending o = true \/ (exists o0 r0, slot_of t (o_pk o) = Some (Live o0 r0) /\ o_kind o = o_kind o0) ->
  wstate D (t_insert t o) c res q.
Proof.
  intros D t c res q o [A [B C]] Ho. split; [apply keyed_insert; exact A|]. split; [cbn; lia|].
  intro pk. destruct (N.eq_dec pk (o_pk o)) as [->|E]; [|apply (covered_ext D t); [apply slot_insert_other; exact E|apply C]].
  specialize (C (o_pk o)). unfold covered in *. rewrite slot_insert_same.
  destruct Ho as [Ho|[o0 [r0 [Hs Hk]]]].
  - unfold is_pending in Ho. destruct (o_kind o); try discriminate; left; lia.
  - rewrite Hs, <- Hk in C. destruct (o_kind o); try exact C; left; lia.
Qed.

Lemma wstate_closed : forall D c res q, wclosed (fun t => wstate D t c res q).
Proof.
  intros D c res q. split; [|split; [|split]].
  - intros t W. exact W.
  - intros t o Ho W. apply insert_wstate; auto.
  - intros t k o r Hl W. apply t_live_slot in Hl. pose proof W as [K _]. rewrite <- (K k o r Hl) in Hl.
    apply insert_wstate; [exact W|right]. exists o, r. split; [exact Hl|reflexivity].
  - intros t k [A [B C]]. split; [apply keyed_delete; exact A|]. split; [pose proof (t_rev_delete t k); lia|].
    intro pk. destruct (N.eq_dec pk k) as [->|E]; [|apply (covered_ext D t); [apply slot_delete_other; exact E|apply C]].
    destruct (slot_of t k) as [[o r|o r]|] eqn:Es.
    + unfold covered. rewrite (slot_delete_same t k o r Es). left. lia.
    + rewrite t_delete_not_live by (intros; congruence). apply C.
    + rewrite t_delete_not_live by (intros; congruence). apply C.
Qed.

Theorem do_write_covers : forall D e kind k c res q,
  keyed (e_tab e) -> c <= t_rev (e_tab e) ->
  (forall pk, covered D (e_tab e) c res q pk) ->
  keyed (e_tab (do_write e kind k)) /\ c <= t_rev (e_tab (do_write e kind k)) /\
  forall pk, covered D (e_tab (do_write e kind k)) c res q pk.
Proof.
  intros D e kind k c res q A B C. apply (do_write_closed _ e kind k (wstate_closed D c res q)). repeat split; assumption.
Qed.

