(* Reconciler/Runs.v — the cover invariant in every reachable state (C14 nothing_forgotten, either mode),
   and the WaitUntilReconciled contract (C16): the reported revision never runs ahead of the attempts. *)
From Coq Require Import List NArith Bool Lia ZifyN ZifyBool.
From SV Require Import Reconciler.Retries Reconciler.Model Reconciler.RetriesProofs Reconciler.CommitProofs
  Reconciler.RoundProofs Reconciler.CoverProofs Reconciler.StepProofs Reconciler.TableWf Reconciler.StreamProofs
  Reconciler.PhaseProofs Reconciler.BatchProofs Reconciler.RoundInv.
Import ListNotations.
Open Scope N_scope.

(* a Delete (single or batch) of (pk, rev) was called, whatever its outcome *)
Definition Acall (e : env) (pk rev : N) : Prop :=
  exists c, In c (e_calls e) /\ is_del_op (cl_op c) = true /\ cl_pk c = pk /\ cl_rev c = rev.
Definition del_logged (e : env) (q : retries) : Prop :=
  forall it, In it (q_items q) -> ri_del it = true -> Acall e (ri_pk it) (ri_rev it).

Lemma Acall_mono : forall e e' l, e_calls e' = e_calls e ++ l -> forall p r, Acall e p r -> Acall e' p r.
Proof. intros e e' l H p r [c [A B]]. exists c. split; [rewrite H; apply in_or_app; left; exact A|exact B]. Qed.

Lemma del_logged_mono : forall e e' l q, e_calls e' = e_calls e ++ l -> del_logged e q -> del_logged e' q.
Proof. intros e e' l q H D it Hin Hd. apply (Acall_mono e e' l H). apply D; assumption. Qed.

Lemma del_logged_clear : forall e q k, del_logged e q -> del_logged e (r_clear q k).
Proof. intros e q k D it Hin. apply D. apply in_clear_items in Hin. exact Hin. Qed.

Lemma del_logged_pop : forall e q, del_logged e q -> del_logged e (r_pop q).
Proof.
  intros e q D it Hin Hd. rewrite pop_items in Hin. destruct (top_of (q_items q)) as [t|] eqn:Et; [|apply D; assumption].
  apply in_put_item in Hin. destruct Hin as [Hin|Hin]; [|apply D; assumption].
  subst it. destruct (top_of_spec _ _ Et) as [A _]. apply (D t A). exact Hd.
Qed.

Lemma del_logged_add : forall e q o rev orig del now, del_logged e q -> (del = true -> Acall e (o_pk o) rev) ->
  del_logged e (r_add q o rev orig del now).
Proof.
  intros e q o rev orig del now D H it Hin Hd. rewrite add_items in Hin. apply in_put_item in Hin.
  destruct Hin as [Hin|Hin]; [|apply D; assumption]. subst it. cbn in *. apply H. exact Hd.
Qed.

(* the two phases of a round keep del_logged: every scripted call only lengthens the log, and a Delete retry is
   added right after the failed Delete call it stands for *)
Lemma del_logged_call : forall e q snap fresh op o rev e' ok, op < 4 -> del_logged e q ->
  do_call e snap fresh op o rev = (e', ok) -> del_logged e' q.
Proof.
  intros e q snap fresh op o rev e' ok _ D Ec. destruct (do_call_log _ _ _ _ _ _ _ _ Ec) as [c [LC _]].
  exact (del_logged_mono e e' [c] q LC D).
Qed.

Lemma del_logged_failed : forall e q snap fresh op o rev orig e', is_del_op op = true -> del_logged e q ->
  do_call e snap fresh op o rev = (e', false) -> del_logged e' (r_add q o rev orig true (e_now e')).
Proof.
  intros e q snap fresh op o rev orig e' Hd D Ec. destruct (do_call_log _ _ _ _ _ _ _ _ Ec) as [c [LC [L1 [L2 [L3 _]]]]].
  apply del_logged_add; [exact (del_logged_mono e e' [c] q LC D)|]. intros _. exists c.
  split; [rewrite LC; apply in_or_app; right; left; reflexivity|]. rewrite L1, L2, L3. auto.
Qed.

Lemma phase1_dl : forall cf snap chs e q e1 q1 res1 nrec1 lastrev1,
  del_logged e q -> phase1 cf snap chs e q = (e1, q1, res1, nrec1, lastrev1) -> del_logged e1 q1.
Proof. exact (phase1_gen del_logged del_logged_call del_logged_clear del_logged_failed). Qed.

Lemma process_retries_dl : forall fuel rs snap e q res nrec e' q' res' nrec',
  del_logged e q -> process_retries fuel rs snap e q res nrec = (e', q', res', nrec') -> del_logged e' q'.
Proof. exact (process_retries_gen del_logged del_logged_call del_logged_clear del_logged_failed del_logged_pop). Qed.

Lemma commit_status_dl : forall fixed efb now res e t q t' q', del_logged e q ->
  commit_status_gen fixed efb now t q res = (t', q') -> del_logged e q'.
Proof.
  intros fixed efb now res e t q t' q' D H.
  apply (commit_status_ind fixed efb now (fun _ q _ => del_logged e q)) in H; [exact H| |exact D].
  intros t0 q0 r rest t1 q1 D0 E. destruct (commit_one_queue _ _ _ _ _ _ _ _ E) as [->|[_ [o [rv [og ->]]]]]; [exact D0|].
  apply del_logged_add; [exact D0|discriminate].
Qed.

Definition full_inv (e : env) (s : rstate) : Prop :=
  round_inv e s /\ k_prev s <= k_cursor s /\ del_logged e (k_ret s).

Theorem round_keeps_full : forall cf e s e' s', full_inv e s -> round cf e s = (e', s') -> full_inv e' s'.
Proof.
  intros cf e s e' s' [RI [HP DL]] H.
  destruct (round_keeps_inv cf e s e' s' RI H) as [RI' _].
  split; [exact RI'|].
  destruct (round_parts _ _ _ _ _ H) as [e1 [q1 [res1 [nrec1 [lastrev1 [t1 [q2 [e3 [q3 [res2 [nrec3 [t2 [q4
    [E1 [C1 [R1 [C2 [_ [_ [_ [_ [_ [Tc [Tq [Tp [lg TL]]]]]]]]]]]]]]]]]]]]]]]]]].
  destruct (round_stages _ _ _ _ _ _ _ _ _ _ _ _ _ _ _ _ RI E1 C1 R1 C2) as [_ [_ [LR _]]].
  pose proof (commit_status_dl _ _ _ _ e1 _ _ _ _ (phase1_dl _ _ _ _ _ _ _ _ _ _ DL E1) C1) as D2.
  assert (D2' : del_logged (set_tab e1 t1) q2) by exact D2.
  pose proof (process_retries_dl _ _ _ _ _ _ _ _ _ _ _ D2' R1) as D3.
  pose proof (commit_status_dl _ _ _ _ e3 _ _ _ _ D3 C2) as D4.
  rewrite Tp, Tc, Tq. split.
  - unfold curs. destruct (N.ltb_spec (k_prev s) lastrev1) as [A|A]; destruct (N.eqb_spec lastrev1 0) as [B|B]; lia.
  - exact (del_logged_mono e3 e' lg q4 TL D4).
Qed.

(* what the environment (users, the fault oracle, time) may do between rounds *)
Inductive estep : env * rstate -> env * rstate -> Prop :=
| es_write : forall e s kind k, estep (e, s) (do_write e kind k, s)
| es_time : forall e s t, estep (e, s) (set_now e t, s)
| es_fault : forall e s k n, estep (e, s) (add_fault e k n, s)
| es_hook : forall e s k n wk k2, estep (e, s) (add_hook e k n wk k2, s)
| es_foff : forall e s, estep (e, s) (faults_off e, s)
| es_prune : forall e s, estep (e, s) (e, ext_prune s)
| es_init : forall e s, estep (e, s) (mark_init e, s).

Lemma estep_keeps_full : forall st st', estep st st' -> full_inv (fst st) (snd st) -> full_inv (fst st') (snd st').
Proof.
  intros st st' H. destruct H; cbn [fst snd]; intros [[[W [U P]] [Hc Hcov]] [HP DL]]; try (split; [split; [split; [exact W|split; [exact U|exact P]]|split; [exact Hc|exact Hcov]]|split; [exact HP|exact DL]]).
  (* only the user write remains *)
  pose proof (do_write_wstep e kind k (twf_keyed _ W)) as WS. pose proof (wstep_rev _ _ WS) as M.
  destruct (do_write_frame e kind k) as [F1 _].
  destruct (do_write_covers (Dlog e) e kind k (k_cursor s) [] (k_ret s) (twf_keyed _ W) Hc Hcov) as [_ [A B]].
  split; [|split; [exact HP|]].
  - split; [split; [apply (wstep_twf _ _ WS W)|split; [exact U|]]|split; [exact A|]].
    + intros it Hin. destruct (P it Hin). split; lia.
    + intro pk. apply (covered_D_mono (Dlog e)); [|apply B]. intros p r [c [X Y]]. exists c. rewrite F1. split; assumption.
  - intros it Hin Hd. destruct (DL it Hin Hd) as [c [X Y]]. exists c. rewrite F1. split; assumption.
Qed.

Inductive reach (cf : cfg) : env * rstate -> Prop :=
| reach_init : reach cf (env0 cf, rstate0 cf)
| reach_env : forall st st', reach cf st -> estep st st' -> reach cf st'
| reach_round : forall e s, reach cf (e, s) -> reach cf (round cf e s).

Lemma full_inv_init : forall cf, full_inv (env0 cf) (rstate0 cf).
Proof.
  intro cf. split; [|split].
  - split; [split; [apply twf_empty|split; [apply uniq_new|intros it []]]|split; [cbn; lia|]].
    intro pk. unfold covered. cbn. exact I.
  - cbn. lia.
  - intros it [].
Qed.

(* nothing_forgotten: in every reachable state of the reconciler — single or batch mode, any round size, any
   backoff, any fault oracle, any user writes placed between rounds or from inside any operation (hooks),
   any timing — every key is covered *)
Theorem nothing_forgotten : forall cf st, reach cf st -> full_inv (fst st) (snd st).
Proof.
  intros cf st H. induction H.
  - apply full_inv_init.
  - apply (estep_keeps_full st st'); assumption.
  - destruct (round cf e s) as [e' s'] eqn:E. apply (round_keeps_full cf e s e' s' IHreach E).
Qed.

(* every change with revision <= the reported revision has been attempted: a live object at such a
   revision is no longer Pending/Refreshing (its status was written by a status commit, i.e. after an
   Update of that version), a deletion at such a revision has been handed to Delete at least once *)
Definition attempted_upto (e : env) (s : rstate) : Prop :=
  forall pk sl, slot_of (e_tab e) pk = Some sl -> slot_rev sl <= k_prev s ->
    match sl with
    | Live o _ => is_pending o = false
    | Dead _ r => Acall e pk r
    end.

Theorem wur_only_after_attempted : forall cf st, reach cf st ->
  k_prev (snd st) <= k_cursor (snd st) /\ attempted_upto (fst st) (snd st) /\
  forall req, snd (wur (snd st) req) = true -> forall pk sl, slot_of (e_tab (fst st)) pk = Some sl -> slot_rev sl <= req ->
    match sl with Live o _ => is_pending o = false | Dead _ r => Acall (fst st) pk r end.
Proof.
  intros cf st H. destruct (nothing_forgotten cf st H) as [[_ [_ Hcov]] [HP DL]].
  assert (AU : attempted_upto (fst st) (snd st)).
  { intros pk sl Hs Hle. specialize (Hcov pk). unfold covered in Hcov. rewrite Hs in Hcov.
    destruct sl as [o r|o r]; cbn in Hle.
    - unfold is_pending. destruct (o_kind o); try reflexivity.
      + destruct Hcov as [A|[x [[] _]]]. lia.
      + destruct Hcov as [A|[x [[] _]]]. lia.
    - destruct Hcov as [A|[[it [A [B [C _]]]]|[c [A [B [C [D _]]]]]]]; [lia| |].
      + destruct (find_item_in _ _ _ A) as [Hin Hk]. rewrite <- Hk, <- C. apply DL; assumption.
      + exists c. repeat split; assumption. }
  split; [exact HP|]. split; [exact AU|].
  intros req Hw pk sl Hs Hle. apply (AU pk sl Hs). unfold wur in Hw. cbn in Hw. apply N.leb_le in Hw. lia.
Qed.

(* the reconciler is quiescent: no retry item is left and no object is ahead of the change cursor
   (then no trigger but a timer/prune can fire: trigger_ready's change clause is false) *)
Definition quiescent (e : env) (s : rstate) : Prop :=
  q_items (k_ret s) = [] /\ changes_of (e_tab e) (k_cursor s) = [].

(* the table is fully reconciled: every live object is Done, every deletion was Delete()d successfully *)
Definition reconciled (e : env) : Prop :=
  forall pk sl, slot_of (e_tab e) pk = Some sl ->
    match sl with Live o _ => o_kind o = Done | Dead _ r => Dlog e pk r end.

Lemma no_changes_all_behind : forall t c, twf t -> changes_of t c = [] ->
  forall pk sl, slot_of t pk = Some sl -> slot_rev sl <= c.
Proof.
  intros t c W H pk sl Hs. destruct (changes_stream_ok t c W) as [_ [_ [_ [S4 _]]]]. rewrite H in S4.
  destruct (N.lt_ge_cases c (slot_rev sl)) as [L|L]; [destruct (S4 pk sl Hs L)|exact L].
Qed.

Theorem quiescent_is_reconciled : forall e s, full_inv e s -> quiescent e s -> reconciled e.
Proof.
  intros e s [[[W _] [_ Hcov]] _] [Q1 Q2] pk sl Hs.
  pose proof (no_changes_all_behind _ _ W Q2 pk sl Hs) as L.
  specialize (Hcov pk). unfold covered in Hcov. rewrite Hs in Hcov.
  destruct sl as [o r|o r]; cbn in L.
  - destruct (o_kind o); try reflexivity.
    + destruct Hcov as [A|[x [[] _]]]. lia.
    + destruct Hcov as [A|[x [[] _]]]. lia.
    + destruct Hcov as [[it [A _]]|[x [[] _]]]. rewrite Q1 in A. discriminate.
  - destruct Hcov as [A|[[it [A _]]|A]]; [lia|rewrite Q1 in A; discriminate|exact A].
Qed.

(* converges_partial: in every reachable quiescent state of the reconciler (either mode) the table is
   reconciled — whatever history of writes, faults and timings led there *)
Theorem converges_partial : forall cf st, reach cf st ->
  quiescent (fst st) (snd st) -> reconciled (fst st).
Proof.
  intros cf st H Q. apply (quiescent_is_reconciled (fst st) (snd st)); [apply (nothing_forgotten cf st H)|exact Q].
Qed.
