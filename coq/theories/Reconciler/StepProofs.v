(* Reconciler/StepProofs.v — the retry phase keeps the cover invariant (C14): writes performed by hooks
   from inside a scripted operation, and one processRetries step on an update item. *)
From Coq Require Import List NArith Bool Lia ZifyN ZifyBool.
From SV Require Import Reconciler.Retries Reconciler.Model Reconciler.RetriesProofs Reconciler.CommitProofs
  Reconciler.RoundProofs Reconciler.CoverProofs.
Import ListNotations.
Open Scope N_scope.

(* a scripted operation changes the table only through user writes (of ANY kind): the cover is kept *)
Lemma do_call_wstate : forall D e snap fresh op o rev c res q,
  wstate D (e_tab e) c res q ->
  wstate D (e_tab (fst (do_call e snap fresh op o rev))) c res q.
Proof. intros D e snap fresh op o rev c res q. exact (do_call_closed _ e snap fresh op o rev (wstate_closed D c res q)). Qed.

Lemma find_pop_other : forall q pk, uniq q -> (forall t, r_top q = Some t -> ri_pk t <> pk) ->
  find_item pk (q_items (r_pop q)) = find_item pk (q_items q).
Proof.
  intros q pk Hu Hn. rewrite pop_items. unfold r_top in Hn. destruct (top_of (q_items q)) as [t|]; [|reflexivity].
  apply find_item_put_other. cbn. intro E. apply (Hn t eq_refl). symmetry. exact E.
Qed.

Lemma find_clear_other : forall q pk pk', pk' <> pk -> find_item pk' (q_items (r_clear q pk)) = find_item pk' (q_items q).
Proof. intros q pk pk' Hn. rewrite clear_items. apply find_item_remove_other. exact Hn. Qed.

Lemma popped_find : forall q it, uniq q -> r_top q = Some it ->
  find_item (ri_pk it) (q_items (r_pop q)) = Some (set_inq false it).
Proof.
  intros q it Hu Ht. rewrite pop_items. unfold r_top in Ht. rewrite Ht.
  change (ri_pk it) with (ri_pk (set_inq false it)). apply find_item_put_same.
Qed.

(* Pop takes the head `it` out of the retryAt queue: what the item stood for must be covered otherwise —
   an update retry by a retry result in res', a delete retry by the ghost D' *)
Lemma cov_pop : forall (D D' : N -> N -> Prop) t c res res' q it pk, uniq q -> r_top q = Some it ->
  (forall r, In r res -> In r res') ->
  (ri_del it = false -> ri_rev it <> ri_orig it -> res_retry res' (ri_pk it)) ->
  (forall rv, D pk rv -> D' pk rv) -> (ri_del it = true -> D' (ri_pk it) (ri_rev it)) ->
  covered D t c res q pk -> covered D' t c res' (r_pop q) pk.
Proof.
  intros D D' t c res res' q it pk Hu Ht Hr Hupd HD Hdel Hcov.
  destruct (N.eq_dec pk (ri_pk it)) as [->|E].
  2:{ revert Hcov. apply covered_weaken; auto using N.le_refl.
      - apply item_upd_ext, find_pop_other; [exact Hu|]. intros t0 Ht0. rewrite Ht in Ht0. injection Ht0 as <-. auto.
      - intro rv. apply item_covers_ext, find_pop_other; [exact Hu|]. intros t0 Ht0. rewrite Ht in Ht0. injection Ht0 as <-. auto. }
  assert (Hf : find_item (ri_pk it) (q_items q) = Some it).
  { apply find_item_uniq; [exact Hu|]. apply (top_of_spec _ _ Ht). }
  assert (RR : res_retry res (ri_pk it) -> res_retry res' (ri_pk it)) by (intros [r [A B]]; exists r; auto).
  unfold covered in *. destruct (slot_of t (ri_pk it)) as [[o rev|o rev]|]; [destruct (o_kind o)|..]; try exact Hcov.
  1,2: destruct Hcov as [A|[r [A B]]]; [left; exact A|right; exists r; auto].
  - right. destruct Hcov as [[i [A [B [_ C]]]]|A]; [|auto]. rewrite Hf in A. injection A as <-. auto.
  - destruct Hcov as [A|[[i [A [B [C _]]]]|A]]; [left; exact A| |right; right; auto].
    rewrite Hf in A. injection A as <-. right. right. rewrite <- C. auto.
Qed.

(* Clear of an item that is not in the retryAt queue (absent, or popped) uncovers nothing *)
Lemma cov_clear_unqueued : forall D T c res q k pk,
  (forall it, find_item k (q_items q) = Some it -> ri_inq it = false) ->
  covered D T c res q pk -> covered D T c res (r_clear q k) pk.
Proof.
  intros D T c res q k pk Hno. destruct (N.eq_dec pk k) as [->|E].
  - apply covered_weaken; auto using N.le_refl.
    + intros [i [A [_ [B _]]]]. rewrite (Hno i A) in B. discriminate.
    + intros rv [i [A [_ [_ B]]]]. rewrite (Hno i A) in B. discriminate.
  - apply covered_q_other, find_clear_other, E.
Qed.

(* one iteration of processRetries on a due UPDATE item: pop, run the operation (its hooks may write
   anything), record the result, Clear on success — every key stays covered *)
Theorem retry_update_step_covers : forall D c e snap q res it e' q' res',
  uniq q -> r_top q = Some it -> ri_del it = false ->
  wstate D (e_tab e) c res q ->
  process_single e snap false (r_pop q) res (ri_obj it) (ri_rev it) (ri_orig it) false = (e', q', res') ->
  wstate D (e_tab e') c res' q' /\ uniq q'.
Proof.
  intros D c e snap q res it e' q' res' Hu Ht Hd [K [B C]] H.
  unfold process_single in H.
  destruct (do_call e snap false 0 (ri_obj it) (ri_rev it)) as [e1 ok] eqn:Ec.
  injection H as <- <- <-.
  set (r := mkRes (ri_obj it) (ri_rev it) (ri_orig it) (o_sid (ri_obj it)) ok) in *.
  assert (W1 : wstate D (e_tab e1) c (res ++ [r]) (r_pop q)).
  { replace e1 with (fst (do_call e snap false 0 (ri_obj it) (ri_rev it))) by (rewrite Ec; reflexivity).
    apply do_call_wstate. split; [exact K|split; [exact B|]]. intro pk.
    apply (cov_pop D D _ _ res _ q it); auto using in_or_app; [|congruence].
    intros _ Hne. exists r. split; [apply in_or_app; right; left; reflexivity|split; [reflexivity|exact Hne]]. }
  destruct ok; [|split; [exact W1|apply uniq_pop, Hu]].
  split; [|apply uniq_clear, uniq_pop, Hu]. destruct W1 as [K1 [B1 C1]]. split; [exact K1|split; [exact B1|]].
  intro pk. apply cov_clear_unqueued; [|apply C1]. intros i Hi. change (o_pk (ri_obj it)) with (ri_pk it) in Hi.
  rewrite (popped_find q it Hu Ht) in Hi. injection Hi as <-. reflexivity.
Qed.
