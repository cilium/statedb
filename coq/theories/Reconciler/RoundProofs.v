(* Reconciler/RoundProofs.v — the "nothing is forgotten" cover invariant (C14/C15) across a status
   commit. *)
From Coq Require Import List NArith Bool Lia ZifyN ZifyBool.
From SV Require Import Reconciler.Retries Reconciler.Model Reconciler.RetriesProofs Reconciler.CommitProofs.
Import ListNotations.
Open Scope N_scope.

Section Cover.
(* D pk rev: a Delete of key pk for its deletion at revision rev has succeeded (ghost) *)
Variable D : N -> N -> Prop.

Definition res_covers (res : list opres) (pk : N) (o : obj) (rev : N) : Prop :=
  exists r, In r res /\ o_pk (r_obj r) = pk /\ (r_rev r = rev \/ (o_kind o = Pending /\ r_id r = o_sid o)).
(* a RETRY result (rev <> origRev) for the key awaits its status commit *)
Definition res_retry (res : list opres) (pk : N) : Prop :=
  exists r, In r res /\ o_pk (r_obj r) = pk /\ r_rev r <> r_orig r.
Definition item_covers (q : retries) (pk : N) (del : bool) (rev : N) : Prop :=
  exists it, find_item pk (q_items q) = Some it /\ ri_del it = del /\ ri_rev it = rev /\ ri_inq it = true.
(* an update retry is queued for the key (its rev is the revision of an Error write, never its origRev: commit_one adds
   it with rev = t_rev t + 1 and the origRev of the result, which lies in the past - the hypothesis r_orig r <= t_rev t of
   commit_one_covers and commit_status_covers) *)
Definition item_upd (q : retries) (pk : N) : Prop :=
  exists it, find_item pk (q_items q) = Some it /\ ri_del it = false /\ ri_inq it = true /\ ri_rev it <> ri_orig it.

(* key pk is not forgotten in state (table t, change cursor c, pending results res, retry queue q):
   - live and Pending/Refreshing: ahead of the cursor, or an operation result for exactly this version
     (same revision, or same pending id) awaits its status commit;
   - live and Error: an update retry is queued for the key, or a retry result awaits commit — whatever
     the object's revision: since fix 8844901 a retry result is applied to an object that still carries
     the Error status even if a foreign status-only write changed its revision;
   - deleted: ahead of the cursor, or a delete retry for this deletion is queued, or it was Delete()d. *)
Definition covered (t : table) (c : N) (res : list opres) (q : retries) (pk : N) : Prop :=
  match slot_of t pk with
  | Some (Live o rev) =>
    match o_kind o with
    | Pending | Refreshing => c < rev \/ res_covers res pk o rev
    | Error => item_upd q pk \/ res_retry res pk
    | Done => True
    end
  | Some (Dead o rev) => c < rev \/ item_covers q pk true rev \/ D pk rev
  | None => True
  end.

End Cover.

(* `covered` for a key grows with the ghost D, the pending results and the key's retry item, and when the
   cursor moves back *)
Lemma covered_weaken : forall (D D' : N -> N -> Prop) t c c' res res' q q' pk,
  c' <= c -> (forall r, In r res -> o_pk (r_obj r) = pk -> In r res') ->
  (item_upd q pk -> item_upd q' pk) -> (forall rv, item_covers q pk true rv -> item_covers q' pk true rv) ->
  (forall rv, D pk rv -> D' pk rv) ->
  covered D t c res q pk -> covered D' t c' res' q' pk.
Proof.
  intros D D' t c c' res res' q q' pk Hc Hr Hu Hi Hd H. unfold covered in *.
  assert (RC : forall o rv, res_covers res pk o rv -> res_covers res' pk o rv) by (intros o rv [r [A [B C]]]; exists r; auto).
  assert (RR : res_retry res pk -> res_retry res' pk) by (intros [r [A [B C]]]; exists r; auto).
  destruct (slot_of t pk) as [[o rv|o rv]|]; [destruct (o_kind o)|..]; try exact H.
  1,2: destruct H as [A|A]; [left; lia|right; auto].
  - destruct H as [A|A]; [left|right]; auto.
  - destruct H as [A|[A|A]]; [left; lia|right; left; auto|right; right; auto].
Qed.

(* an item of another key is not affected by Add / Clear *)
Lemma item_upd_ext : forall q q' pk, find_item pk (q_items q') = find_item pk (q_items q) -> item_upd q pk -> item_upd q' pk.
Proof. intros q q' pk E [it [A B]]. exists it. rewrite E. split; assumption. Qed.
Lemma item_covers_ext : forall q q' pk d rv, find_item pk (q_items q') = find_item pk (q_items q) ->
  item_covers q pk d rv -> item_covers q' pk d rv.
Proof. intros q q' pk d rv E [it [A B]]. exists it. rewrite E. split; assumption. Qed.

Lemma covered_q_other : forall D t c res q q' pk, find_item pk (q_items q') = find_item pk (q_items q) ->
  covered D t c res q pk -> covered D t c res q' pk.
Proof.
  intros D t c res q q' pk E. apply covered_weaken; eauto using N.le_refl, item_upd_ext, item_covers_ext.
Qed.

Lemma covered_ext : forall D t t' c res q pk, slot_of t' pk = slot_of t pk ->
  covered D t c res q pk -> covered D t' c res q pk.
Proof. intros D t t' c res q pk H Hc. unfold covered in *. rewrite H. exact Hc. Qed.

Lemma commit_one_covers : forall D c now t q r rest t1 q1, keyed t ->
  ~ In (o_pk (r_obj r)) (map (fun r => o_pk (r_obj r)) rest) ->
  r_orig r <= t_rev t ->
  (forall pk, covered D t c (r :: rest) q pk) ->
  commit_one true true now (t, q) r = (t1, q1) ->
  forall pk, covered D t1 c rest q1 pk.
Proof.
  intros D c now t q r rest t1 q1 Hk Hnin Hpast Hcov H pk. specialize (Hcov pk).
  assert (Tail : forall (P : opres -> Prop), (exists r', In r' (r :: rest) /\ o_pk (r_obj r') = pk /\ P r') ->
            (o_pk (r_obj r) = pk -> P r -> False) -> exists r', In r' rest /\ o_pk (r_obj r') = pk /\ P r').
  { intros P [r' [[<-|A] [B C]]] N; [destruct (N B C)|exists r'; auto]. }
  pose proof (queued_pk t r Hk) as Qk.
  destruct (commit_one_cases _ _ _ _ _ _ _ _ Hk H) as [[-> [-> NW]]|[cur [rv [o' [EL [_ [Eo [Hpk [-> ->]]]]]]]]].
  - (* nothing written: the result did not cover the object the table holds now *)
    unfold covered in *. change (slot_of (fst (t_fresh_id t)) pk) with (slot_of t pk).
    destruct (slot_of t pk) as [[o rev|o rev]|] eqn:Es; [|exact Hcov|exact I].
    assert (NF : o_pk (r_obj r) = pk -> rev <> r_rev r /\ fallback_ok true o r = false).
    { intros <-. apply NW, t_live_slot, Es. }
    destruct (o_kind o) eqn:Eo; [| |exact I|]; (destruct Hcov as [X|X]; [left; exact X|right; apply (Tail _ X)]);
      intros E P; destruct (NF E) as [N1 N2]; rewrite (proj2 (fallback_ok_spec true o r)) in N2; try discriminate.
    + destruct P as [P|[_ P]]; [congruence|left; auto].
    + destruct P as [P|[P _]]; congruence.
    + right. auto.
  - (* written: Done, or Error with the retry queued *)
    destruct (N.eq_dec pk (o_pk o')) as [->|E].
    + unfold covered. rewrite (slot_insert_same (fst (t_fresh_id t)) o').
      replace (o_kind o') with (if r_ok r then Done else Error) by (rewrite Eo; reflexivity).
      destruct (r_ok r); [exact I|left].
      destruct (add_item_spec q (queued t r) (t_rev t + 1) (r_orig r) false now) as [it [I1 [_ [I3 [I4 [I5 [I6 _]]]]]]].
      rewrite Qk, <- Hpk in I1. exists it. repeat split; try assumption. lia.
    + apply (covered_ext D t); [exact (slot_insert_other (fst (t_fresh_id t)) o' pk E)|].
      assert (Q : covered D t c (r :: rest) (if r_ok r then q else r_add q (queued t r) (t_rev t + 1) (r_orig r) false now) pk).
      { destruct (r_ok r); [exact Hcov|]. apply (covered_q_other D t c _ q); [|exact Hcov]. apply add_other. congruence. }
      revert Q. apply covered_weaken; auto using N.le_refl. intros r' [<-|A] B; [congruence|exact A].
Qed.

Theorem commit_status_covers : forall D c now res t q t' q',
  keyed t -> uniq q -> NoDup (map (fun r => o_pk (r_obj r)) res) ->
  (forall r, In r res -> r_orig r <= t_rev t) ->
  (forall pk, covered D t c res q pk) -> commit_status now t q res = (t', q') ->
  forall pk, covered D t' c [] q' pk.
Proof.
  intros D c now res t q t' q' Hk _ Hnd Hpast Hcov H.
  apply (commit_status_ind true true now (fun t q res => keyed t /\ NoDup (map (fun r => o_pk (r_obj r)) res) /\
           (forall r, In r res -> r_orig r <= t_rev t) /\ forall pk, covered D t c res q pk) ) in H; [apply H|..|auto].
  clear. intros t q r rest t1 q1 [Hk [Hnd [Hpast Hcov]]] E. inversion Hnd as [|x xs Hx Hr]; subst.
  pose proof (commit_one_rev _ _ _ _ _ _ _ _ Hk E) as M.
  split; [exact (commit_one_keyed _ _ _ _ _ _ _ _ Hk E)|]. split; [exact Hr|]. split.
  - intros r2 Hin. specialize (Hpast r2 (or_intror Hin)). lia.
  - exact (commit_one_covers D c now t q r rest t1 q1 Hk Hx (Hpast r (or_introl eq_refl)) Hcov E).
Qed.

