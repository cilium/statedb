(* Reconciler/HeapInv.v — the retry queue as a whole (model: Heap.v): the invariant HInv of `retries` (one item
   per key, index bookkeeping and heap order of queue and revQueue, every item of the map is in revQueue),
   its preservation by Add / Pop / Clear / LowWatermark, and what Top / Pop / Clear / LowWatermark return. *)
From Coq Require Import List NArith ZArith Bool Lia ZifyN ZifyNat ZifyBool Wf_nat.
From SV Require Import Reconciler.Retries Reconciler.Heap Reconciler.HeapProofs.
Import ListNotations.
Open Scope N_scope.

(* Heap w reads of the item of a key its index field and its ordering key only, and an absent item is as good as
   one that is not in the array.  So writes that leave these alone leave the heap alone: the other heap's
   operations, delete(rq.items, key) of an item that is in no array, the new item of Add. *)
Lemma idx_ok_ixv : forall w st st' arr, (forall pk, ixv w st' pk = ixv w st pk) -> idx_ok w (st, arr) -> idx_ok w (st', arr).
Proof.
  intros w st st' arr Hx. rewrite !idx_ok_iff. intros [H1 H2]. split.
  - intros i Hi. rewrite Hx. apply H1, Hi.
  - intros pk. rewrite Hx. apply H2.
Qed.

Lemma K_get : forall w st st' arr k, st_get (nth k arr 0) st' = st_get (nth k arr 0) st -> K w (st', arr) k = K w (st, arr) k.
Proof. intros w st st' arr k H. unfold K, st_getd. cbn [fst snd]. rewrite H. reflexivity. Qed.

(* the store changes at one key, whose index field stays: the heap keeps its bookkeeping and its members, and
   its order up to the key at that position *)
Lemma heap_change_at : forall w st st' arr pk, heap_inv w (st, arr) ->
  (forall pk', pk' <> pk -> st_get pk' st' = st_get pk' st) -> ixv w st' pk = ixv w st pk ->
  idx_ok w (st', arr) /\ (forall pk', queued w st' pk' <-> queued w st pk') /\
  (forall i, (i < length arr)%nat -> nth i arr 0 = pk -> hole (K w (st', arr)) (length arr) i) /\
  ((forall i, (i < length arr)%nat -> nth i arr 0 <> pk) -> hp (K w (st', arr)) (length arr)).
Proof.
  intros w st st' arr pk [Hok Hhp] Hoth Hpk. cbn [snd] in Hhp.
  assert (Hx : forall pk', ixv w st' pk' = ixv w st pk').
  { intro pk'. destruct (N.eq_dec pk' pk) as [->|E]; [exact Hpk|]. unfold ixv. rewrite (Hoth pk' E). reflexivity. }
  assert (HK : forall k, nth k arr 0 <> pk -> K w (st', arr) k = K w (st, arr) k) by (intros k Hk; apply K_get, Hoth, Hk).
  split; [apply (idx_ok_ixv w st); assumption|]. split; [intro pk'; rewrite !queued_ixv, Hx; reflexivity|]. split.
  - intros i Hi Hn. apply (hp_hole (K w (st, arr))); [exact Hhp|].
    intros k Hk Hne. apply HK. intro E. apply Hne.
    apply (idx_ok_inj w (st, arr) k i Hok); cbn [snd]; [exact Hk|exact Hi|congruence].
  - intro Hn. apply (hp_ext _ _ _ Hhp). intros k Hk. apply HK, Hn, Hk.
Qed.

Lemma qsel_other : forall w w' : qsel, w <> w' -> w' <> w.
Proof. intros w w' H E. apply H. symmetry. exact E. Qed.

Lemma ixv_other : forall w w' st st' pk, w <> w' -> map (erase w) st' = map (erase w) st -> ixv w' st' pk = ixv w' st pk.
Proof.
  intros w w' st st' pk Hw He. unfold ixv. pose proof (frame_get w st st' He pk) as A.
  destruct (st_get pk st') as [a'|], (st_get pk st) as [a|]; cbn in A; try discriminate; [|reflexivity].
  apply (erase_get_other w w' a' a Hw). congruence.
Qed.

Lemma K_other : forall w w' st st' arr k, map (erase w) st' = map (erase w) st -> K w' (st', arr) k = K w' (st, arr) k.
Proof. intros w w' st st' arr k He. unfold K. cbn [fst snd]. apply (frame_getd_kf w). exact He. Qed.

Lemma heap_inv_other : forall w w' st st' arr, w <> w' -> map (erase w) st' = map (erase w) st ->
  heap_inv w' (st, arr) -> heap_inv w' (st', arr).
Proof.
  intros w w' st st' arr Hw He [A B]. split; [apply (idx_ok_ixv w' st); [intro; apply (ixv_other w)|]; assumption|].
  cbn [snd] in *. apply (hp_ext _ _ _ B). intros k _. apply (K_other w). exact He.
Qed.

Lemma queued_other : forall w w' st st' pk, w <> w' -> map (erase w) st' = map (erase w) st ->
  (queued w' st' pk <-> queued w' st pk).
Proof. intros w w' st st' pk Hw He. rewrite !queued_ixv, (ixv_other w w' st st' pk Hw He). reflexivity. Qed.

(* delete(rq.items, key) *)
Lemma st_get_del : forall pk pk' st, st_get pk' (st_del pk st) = if pk =? pk' then None else st_get pk' st.
Proof.
  intros pk pk' st. induction st as [|a r IH]; cbn [st_del st_get]; [destruct (pk =? pk'); reflexivity|].
  destruct (N.eqb_spec (hi_pk a) pk) as [E1|E1].
  - rewrite IH, E1. destruct (pk =? pk'); reflexivity.
  - cbn [st_get]. rewrite IH. destruct (N.eqb_spec (hi_pk a) pk') as [E2|E2]; [|reflexivity].
    rewrite <- E2. apply N.eqb_neq in E1. rewrite N.eqb_sym, E1. reflexivity.
Qed.

Lemma st_del_pks : forall pk st, map hi_pk (st_del pk st) = filter (fun k => negb (k =? pk)) (map hi_pk st).
Proof.
  intros pk st. induction st as [|a r IH]; cbn [st_del map filter]; [reflexivity|].
  destruct (hi_pk a =? pk); cbn [negb map]; rewrite IH; reflexivity.
Qed.

(* an item that is in no array may go *)
Lemma heap_inv_del : forall w st arr pk, heap_inv w (st, arr) -> ~ queued w st pk ->
  heap_inv w (st_del pk st, arr) /\ forall k, (k < length arr)%nat -> K w (st_del pk st, arr) k = K w (st, arr) k.
Proof.
  intros w st arr pk Hinv Hnq.
  assert (Hoth : forall pk', pk' <> pk -> st_get pk' (st_del pk st) = st_get pk' st).
  { intros pk' Hne. rewrite st_get_del. apply N.eqb_neq in Hne. rewrite N.eqb_sym, Hne. reflexivity. }
  assert (Hne : forall i, (i < length arr)%nat -> nth i arr 0 <> pk).
  { intros i Hi E. apply Hnq, (queued_in w (st, arr) pk (proj1 Hinv)). rewrite <- E. apply nth_In, Hi. }
  destruct (heap_change_at w st (st_del pk st) arr pk Hinv Hoth) as [A [_ [_ B]]].
  - rewrite queued_ixv in Hnq. unfold ixv at 1. rewrite st_get_del, N.eqb_refl. lia.
  - split; [split; [exact A|exact (B Hne)]|]. intros k Hk. apply K_get, Hoth, Hne, Hk.
Qed.

Lemma idx_cases : forall w st arr pk it, idx_ok w (st, arr) -> st_get pk st = Some it ->
  get_idx w it = (-1)%Z \/ exists i, get_idx w it = Z.of_nat i /\ (i < length arr)%nat /\ nth i arr 0 = pk.
Proof.
  intros w st arr pk it [_ H2] Hg. cbn [fst snd] in H2.
  destruct (Z.eq_dec (get_idx w it) (-1)) as [E|E]; [left; exact E|right; apply H2; assumption].
Qed.

(* the guard of retries.Clear is true exactly when the item is in the heap: it never protects anything *)
Lemma clear_guard_spec : forall w st arr pk it, idx_ok w (st, arr) -> st_get pk st = Some it ->
  clear_guard (get_idx w it) arr pk = negb (get_idx w it =? -1)%Z.
Proof.
  intros w st arr pk it Hok Hg. unfold clear_guard.
  destruct (idx_cases w st arr pk it Hok Hg) as [E|[i [E [Hi Hn]]]]; rewrite E.
  - reflexivity.
  - rewrite Nat2Z.id, Hn, N.eqb_refl.
    replace (0 <=? Z.of_nat i)%Z with true by (symmetry; apply Z.leb_le; lia).
    replace (Z.of_nat i <? Z.of_nat (length arr))%Z with true by (symmetry; apply Z.ltb_lt; lia).
    replace (Z.of_nat i =? -1)%Z with false by (symmetry; apply Z.eqb_neq; lia). reflexivity.
Qed.

(* "item.index == 0" is "the array starts with this item" *)
Lemma index_zero_root : forall w st arr pk, idx_ok w (st, arr) -> queued w st pk ->
  (get_idx w (st_getd pk st) =? 0)%Z = (nth 0 arr 0 =? pk).
Proof.
  intros w st arr pk Hok [it [Hg X]]. unfold st_getd. rewrite Hg.
  destruct (idx_cases w st arr pk it Hok Hg) as [E|[i [E [Hi Hn]]]]; [contradiction|].
  rewrite E. destruct i as [|i]; [rewrite Hn, N.eqb_refl; reflexivity|].
  destruct (N.eqb_spec (nth 0 arr 0) pk) as [E0|E0]; [|reflexivity].
  pose proof (idx_ok_inj w (st, arr) (S i) 0 Hok) as I. cbn [snd] in I. specialize (I Hi ltac:(lia) ltac:(congruence)). lia.
Qed.

Record HInv (hs : hstate) : Prop := mkHInv {
  (* one item object per key *)
  hv_uniq : NoDup (map hi_pk (hs_store hs));
  (* queue: index bookkeeping and heap order by retryAt *)
  hv_q : heap_inv QT (hs_store hs, hs_q hs);
  (* revQueue: index bookkeeping and heap order by origRev *)
  hv_r : heap_inv QR (hs_store hs, hs_r hs);
  (* every item of the map is in revQueue (Pop only takes it out of queue) *)
  hv_allrev : forall pk it, st_get pk (hs_store hs) = Some it -> queued QR (hs_store hs) pk
}.

Lemma heap_inv_nil : forall w, heap_inv w ([], []).
Proof. intro w. split; [split; cbn; [intros i Hi; lia|intros pk it H; discriminate]|intros j Hj; cbn in Hj; lia]. Qed.

Lemma HInv_new : forall a b, HInv (hq_new a b).
Proof. intros a b. split; cbn; [constructor|apply heap_inv_nil|apply heap_inv_nil|intros pk it H; discriminate]. Qed.

(* the invariant with the map given by its keys *)
Lemma in_pks_queued : forall hs pk, HInv hs -> In pk (map hi_pk (hs_store hs)) -> queued QR (hs_store hs) pk.
Proof.
  intros hs pk H Hin. destruct (st_get pk (hs_store hs)) as [it|] eqn:E; [exact (hv_allrev _ H pk it E)|].
  apply st_get_none in E. contradiction.
Qed.
Lemma HInv_intro : forall st q r t a b, heap_inv QT (st, q) -> heap_inv QR (st, r) -> NoDup (map hi_pk st) ->
  (forall pk, In pk (map hi_pk st) -> queued QR st pk) -> HInv (mkHS st q r t a b).
Proof.
  intros st q r t a b Hq Hr Hu Ha. split; cbn [hs_store hs_q hs_r]; [exact Hu|exact Hq|exact Hr|].
  intros pk it Hg. apply Ha. rewrite <- (st_get_pk _ _ _ Hg). apply in_map, (st_get_in _ _ _ Hg).
Qed.

Lemma idx_ok_nodup : forall w h, idx_ok w h -> NoDup (snd h).
Proof.
  intros w h Hok. apply (NoDup_nth (snd h) 0). intros i j Hi Hj E. apply (idx_ok_inj w h i j Hok Hi Hj E).
Qed.
Lemma idx_ok_present : forall w h pk, idx_ok w h -> In pk (snd h) -> exists it, st_get pk (fst h) = Some it.
Proof.
  intros w h pk Hok Hin. apply (queued_in w h pk Hok) in Hin. destruct Hin as [it [A _]]. exists it. exact A.
Qed.

(* the invariant does not speak of the timer; "if <at the head> { rq.resetTimer() }" *)
Lemma HInv_ext : forall hs hs', hs_store hs' = hs_store hs -> hs_q hs' = hs_q hs -> hs_r hs' = hs_r hs -> HInv hs -> HInv hs'.
Proof. intros [st q r t a b] [st' q' r' t' a' b']. cbn. intros -> -> -> [A B C D]. split; assumption. Qed.

Lemma reset_if : forall (c : bool) hs, let hs' := if c then hq_reset_timer hs else hs in
  hs_store hs' = hs_store hs /\ hs_q hs' = hs_q hs /\ hs_r hs' = hs_r hs /\ hs_min hs' = hs_min hs /\ hs_max hs' = hs_max hs /\
  hs_timer hs' = if c then option_map hi_at (hq_top hs') else hs_timer hs.
Proof. intros [|] hs; repeat split. Qed.

Lemma hq_pop_spec : forall hs, HInv hs -> hs_q hs <> [] ->
  exists hs', hq_pop hs = Some hs' /\ HInv hs' /\
    removed QT (hs_store hs, hs_q hs) (hs_store hs', hs_q hs') (nth 0 (hs_q hs) 0) /\
    hs_r hs' = hs_r hs /\ hs_min hs' = hs_min hs /\ hs_max hs' = hs_max hs /\
    hs_timer hs' = option_map hi_at (hq_top hs').
Proof.
  intros hs [Hu Hq Hr Ha] Hne. unfold hq_pop.
  destruct (hs_q hs) as [|p q0] eqn:Eq; [congruence|]. rewrite <- Eq in *.
  assert (Hpos : (0 < length (snd (hs_store hs, hs_q hs)))%nat) by (cbn [snd]; rewrite Eq; cbn; lia).
  pose proof (h_pop_spec QT (hs_store hs, hs_q hs) Hq Hpos) as Hrem.
  destruct (h_pop QT (hs_store hs, hs_q hs)) as [st q] eqn:Ep. cbn [snd] in Hrem.
  eexists. split; [reflexivity|]. split; [|split; [exact Hrem|repeat split]].
  destruct Hrem as [Hinv [_ [Her _]]]. cbn [fst snd] in *. split; cbn [hq_reset_timer hs_store hs_q hs_r].
  - rewrite (frame_pks QT _ _ Her). exact Hu.
  - exact Hinv.
  - apply (heap_inv_other QT QR (hs_store hs)); [discriminate|exact Her|exact Hr].
  - intros pk it A. destruct (frame_get_some QT _ _ pk it (eq_sym Her) A) as [it0 [A0 _]].
    apply (queued_other QT QR (hs_store hs) st pk); [discriminate|exact Her|]. apply (Ha pk it0 A0).
Qed.

Definition erase2 (it : hitem) : hitem := erase QT (erase QR it).

Lemma erase_to_erase2 : forall w a b, erase w a = erase w b -> erase2 a = erase2 b.
Proof.
  intros w [o1 r1 g1 d1 i1 ri1 a1 n1] [o2 r2 g2 d2 i2 ri2 a2 n2] H.
  destruct w; cbn in H; injection H as <- <- <- <- <- <- <-; reflexivity.
Qed.
Lemma erase_erase2 : forall w l l', map (erase w) l' = map (erase w) l -> map erase2 l' = map erase2 l.
Proof.
  intros w l. induction l as [|a r IH]; intros [|a' r'] H; cbn [map] in *; try discriminate; [reflexivity|].
  injection H as Ha Hr. rewrite (erase_to_erase2 w a' a Ha), (IH r' Hr). reflexivity.
Qed.

Lemma st_del_map : forall (f : hitem -> hitem) pk st, (forall it, hi_pk (f it) = hi_pk it) ->
  st_del pk (map f st) = map f (st_del pk st).
Proof.
  intros f pk st Hf. induction st as [|a r IH]; cbn [map st_del]; [reflexivity|].
  rewrite Hf. destruct (hi_pk a =? pk); [exact IH|cbn [map]; rewrite IH; reflexivity].
Qed.
Lemma pk_erase2 : forall it, hi_pk (erase2 it) = hi_pk it.
Proof. intros [o r g d i ri a n]. reflexivity. Qed.

(* the deadline resetTimer arms: the key at the root of queue *)
Definition top_at (st : list hitem) (q : list N) : option N :=
  match q with [] => None | _ :: _ => Some (K QT (st, q) 0) end.
Lemma top_at_top : forall hs, option_map hi_at (hq_top hs) = top_at (hs_store hs) (hs_q hs).
Proof. intros hs. unfold hq_top, top_at. destruct (hs_q hs); reflexivity. Qed.
Lemma top_at_ext : forall st st' q, (forall k, (k < length q)%nat -> K QT (st', q) k = K QT (st, q) k) -> top_at st' q = top_at st q.
Proof. intros st st' q H. unfold top_at. destruct q as [|p q0]; [reflexivity|]. rewrite H by (cbn; lia). reflexivity. Qed.

Lemma hq_clear_absent : forall hs pk, st_get pk (hs_store hs) = None -> hq_clear hs pk = hs.
Proof. intros hs pk H. unfold hq_clear. rewrite H. reflexivity. Qed.

(* "if <guard> { q.Remove(idx) }" for either queue *)
Definition unplace (w : qsel) (h : hq) (pk : N) (idx : Z) : hq :=
  if clear_guard idx (snd h) pk then h_remove w h (Z.to_nat idx) else h.

Lemma unplace_spec : forall w st arr pk it, heap_inv w (st, arr) -> st_get pk st = Some it ->
  heap_inv w (unplace w (st, arr) pk (get_idx w it)) /\
  map (erase w) (fst (unplace w (st, arr) pk (get_idx w it))) = map (erase w) st /\
  (forall pk', queued w (fst (unplace w (st, arr) pk (get_idx w it))) pk' <-> pk' <> pk /\ queued w st pk').
Proof.
  intros w st arr pk it Hinv Hg. unfold unplace. cbn [snd]. rewrite (clear_guard_spec w st arr pk it (proj1 Hinv) Hg).
  destruct (idx_cases w st arr pk it (proj1 Hinv) Hg) as [E|[i [E [Hi Hn]]]]; rewrite E.
  - (* not in the array: nothing happens, and pk was not queued *)
    change (-1 =? -1)%Z with true. cbn [negb fst]. split; [exact Hinv|]. split; [reflexivity|].
    intro pk'. split; [intro A; split; [|exact A]|intros [_ A]; exact A].
    intros ->. apply queued_ixv in A. unfold ixv in A. rewrite Hg in A. exact (A E).
  - replace (Z.of_nat i =? -1)%Z with false by (symmetry; apply Z.eqb_neq; lia). cbn [negb]. rewrite Nat2Z.id.
    destruct (h_remove_spec w (st, arr) i Hinv Hi) as [A [_ [B C]]]. cbn [fst snd] in B, C. rewrite Hn in C.
    split; [exact A|]. split; [exact B|exact C].
Qed.

(* Clear takes the item out of queue, out of revQueue and out of the map; the timer is re-armed when the item
   left position 0 of queue *)
Lemma hq_clear_eq : forall hs pk it, st_get pk (hs_store hs) = Some it ->
  hq_clear hs pk =
  let h1 := unplace QT (hs_store hs, hs_q hs) pk (hi_index it) in
  let h2 := unplace QR (fst h1, hs_r hs) pk (hi_revIndex (st_getd pk (fst h1))) in
  mkHS (st_del pk (fst h2)) (snd h1) (snd h2)
       (if clear_guard (hi_index it) (hs_q hs) pk && (hi_index it =? 0)%Z then top_at (fst h1) (snd h1) else hs_timer hs)
       (hs_min hs) (hs_max hs).
Proof.
  intros [st q r t a b] pk it Hg. unfold hq_clear, unplace. cbn [hs_store hs_q hs_r hs_timer hs_min hs_max snd] in *. rewrite Hg.
  destruct (clear_guard (hi_index it) q pk); cbn [andb];
    [destruct (h_remove QT (st, q) (Z.to_nat (hi_index it))) as [st1 q1]; destruct (hi_index it =? 0)%Z|];
    unfold hq_reset_timer; cbn [hs_store hs_q hs_r hs_timer hs_min hs_max fst snd]; rewrite ?top_at_top; cbn [hs_store hs_q];
    (destruct (clear_guard _ r pk); [destruct (h_remove QR _ _)|]; reflexivity).
Qed.

Lemma hq_clear_spec : forall hs pk it, HInv hs -> st_get pk (hs_store hs) = Some it ->
  (* both guards of Clear hold whenever the item is in the respective heap *)
  clear_guard (hi_index it) (hs_q hs) pk = negb (hi_index it =? -1)%Z /\
  clear_guard (hi_revIndex it) (hs_r hs) pk = true /\
  HInv (hq_clear hs pk) /\
  map erase2 (hs_store (hq_clear hs pk)) = map erase2 (st_del pk (hs_store hs)) /\
  (forall w pk', queued w (hs_store (hq_clear hs pk)) pk' <-> pk' <> pk /\ queued w (hs_store hs) pk') /\
  hs_min (hq_clear hs pk) = hs_min hs /\ hs_max (hq_clear hs pk) = hs_max hs /\
  (* "if index == 0 { rq.resetTimer() }" *)
  hs_timer (hq_clear hs pk) = if (hi_index it =? 0)%Z then option_map hi_at (hq_top (hq_clear hs pk)) else hs_timer hs.
Proof.
  intros hs pk it [Hu Hq Hr Ha] Hg.
  pose proof (clear_guard_spec QT _ _ pk it (proj1 Hq) Hg) as G1. pose proof (clear_guard_spec QR _ _ pk it (proj1 Hr) Hg) as G2.
  assert (Hri : get_idx QR it <> (-1)%Z).
  { pose proof (Ha pk it Hg) as X. apply queued_ixv in X. unfold ixv in X. rewrite Hg in X. exact X. }
  apply Z.eqb_neq in Hri. rewrite Hri in G2. cbn [get_idx negb] in G1, G2.
  split; [exact G1|]. split; [exact G2|]. rewrite (hq_clear_eq hs pk it Hg). cbv zeta. rewrite G1.
  (* queue, with revQueue carried along *)
  destruct (unplace_spec QT _ _ pk it Hq Hg) as [Hq1 [He1 Hqd1]]. cbn [get_idx] in Hq1, He1, Hqd1.
  destruct (unplace QT (hs_store hs, hs_q hs) pk (hi_index it)) as [st1 q1]. cbn [fst snd] in *.
  assert (Hr1 : heap_inv QR (st1, hs_r hs)) by (apply (heap_inv_other QT QR (hs_store hs)); [discriminate|exact He1|exact Hr]).
  destruct (frame_get_some QT _ _ pk it He1 Hg) as [it1 [Hg1 Eit1]].
  replace (hi_revIndex (st_getd pk st1)) with (get_idx QR it1) by (unfold st_getd; rewrite Hg1; reflexivity).
  (* revQueue, with queue carried along *)
  destruct (unplace_spec QR _ _ pk it1 Hr1 Hg1) as [Hr2 [He2 Hqd2]].
  destruct (unplace QR (st1, hs_r hs) pk (get_idx QR it1)) as [st2 r2]. cbn [fst snd] in *.
  assert (Hq2 : heap_inv QT (st2, q1)) by (apply (heap_inv_other QR QT st1); [discriminate|exact He2|exact Hq1]).
  assert (Hqd : forall w pk', queued w st2 pk' <-> pk' <> pk /\ queued w (hs_store hs) pk').
  { intros [|] pk'.
    - rewrite (queued_other QR QT st1 st2 pk') by (try discriminate; exact He2). apply Hqd1.
    - rewrite Hqd2, (queued_other QT QR (hs_store hs) st1 pk') by (try discriminate; exact He1). reflexivity. }
  (* delete(rq.items, key): the item is in no array any more *)
  assert (Hnq : forall w, ~ queued w st2 pk) by (intros w X; apply Hqd in X; destruct X as [X _]; congruence).
  destruct (heap_inv_del QT st2 q1 pk Hq2 (Hnq QT)) as [Hq3 HK3].
  destruct (heap_inv_del QR st2 r2 pk Hr2 (Hnq QR)) as [Hr3 _].
  assert (Her : map erase2 (st_del pk st2) = map erase2 (st_del pk (hs_store hs))).
  { rewrite <- !(st_del_map erase2) by apply pk_erase2. f_equal.
    rewrite (erase_erase2 QR _ _ He2). apply (erase_erase2 QT _ _ He1). }
  assert (Hqd' : forall w pk', queued w (st_del pk st2) pk' <-> pk' <> pk /\ queued w (hs_store hs) pk').
  { intros w pk'. rewrite <- Hqd, !queued_ixv. unfold ixv. rewrite st_get_del.
    destruct (N.eqb_spec pk pk') as [E|E]; [subst pk'|reflexivity].
    split; [congruence|intro X; exfalso; apply (Hnq w), queued_ixv; exact X]. }
  split; [|split; [exact Her|split; [exact Hqd'|repeat split]]].
  - apply HInv_intro; [exact Hq3|exact Hr3| |].
    + rewrite (map_pks erase2 pk_erase2 _ _ Her), st_del_pks. apply NoDup_filter, Hu.
    + intros pk' Hin. rewrite (map_pks erase2 pk_erase2 _ _ Her), st_del_pks in Hin. apply filter_In in Hin. destruct Hin as [Hin Hne].
      apply Hqd'. split; [intros ->; rewrite N.eqb_refl in Hne; discriminate|]. apply (in_pks_queued _ pk'); [split; assumption|exact Hin].
  - rewrite top_at_top. cbn [hs_store hs_q].
    destruct (hi_index it =? 0)%Z eqn:E0; [apply Z.eqb_eq in E0; rewrite E0|]; cbn [Z.eqb negb andb]; [|rewrite Bool.andb_false_r; reflexivity].
    symmetry. apply top_at_ext. intros k Hk. rewrite (HK3 k Hk). apply (K_other QR). exact He2.
Qed.

Lemma st_get_app : forall pk st a, st_get pk (st ++ [a]) =
  match st_get pk st with Some x => Some x | None => if hi_pk a =? pk then Some a else None end.
Proof.
  intros pk st a. induction st as [|x r IH]; cbn [app st_get]; [reflexivity|].
  destruct (hi_pk x =? pk); [reflexivity|exact IH].
Qed.

Lemma NoDup_snoc : forall (l : list N) x, NoDup l -> ~ In x l -> NoDup (l ++ [x]).
Proof.
  intros l x H Hx. induction H as [|y l Hy Hl IH]; cbn [app]; [constructor; [intros []|constructor]|].
  constructor.
  - intro A. apply in_app_or in A. destruct A as [A|[A|[]]]; [contradiction|]. apply Hx. left. symmetry. exact A.
  - apply IH. intro A. apply Hx. right. exact A.
Qed.

(* "if item.index >= 0 { Fix(item.index) } else { PushItem(item) }" for either queue *)
Lemma place_spec : forall w st arr pk it,
  idx_ok w (st, arr) -> st_get pk st = Some it ->
  (forall i, (i < length arr)%nat -> nth i arr 0 = pk -> hole (K w (st, arr)) (length arr) i) ->
  ((forall i, (i < length arr)%nat -> nth i arr 0 <> pk) -> hp (K w (st, arr)) (length arr)) ->
  forall h', h' = (if (0 <=? get_idx w it)%Z then h_fix w (st, arr) (Z.to_nat (get_idx w it)) else h_push w (st, arr) pk) ->
  heap_inv w h' /\ map (erase w) (fst h') = map (erase w) st /\
  (forall pk', queued w (fst h') pk' <-> pk' = pk \/ queued w st pk').
Proof.
  intros w st arr pk it Hok Hg Hhole Hhp h' Eh'.
  destruct (idx_cases w st arr pk it Hok Hg) as [E|[i [E [Hi Hn]]]]; rewrite E in Eh'.
  - cbn in Eh'. subst h'.
    assert (Hnot : forall i, (i < length arr)%nat -> nth i arr 0 <> pk).
    { intros i Hi En. assert (X : queued w st pk) by (apply (queued_in w (st, arr) pk Hok); rewrite <- En; apply nth_In, Hi).
      apply queued_ixv in X. unfold ixv in X. rewrite Hg in X. exact (X E). }
    destruct (h_push_spec w (st, arr) pk it (conj Hok (Hhp Hnot)) Hg E) as [A [_ [B C]]].
    split; [exact A|]. split; [exact B|exact C].
  - replace (0 <=? Z.of_nat i)%Z with true in Eh' by (symmetry; apply Z.leb_le; lia). rewrite Nat2Z.id in Eh'. subst h'.
    destruct (h_fix_spec w (st, arr) i Hi Hok (Hhole i Hi Hn)) as [A B].
    split; [exact A|]. split; [destruct B as [B _]; exact B|].
    intro pk'. rewrite (frame_queued w _ _ _ pk' B). cbn [fst]. split; [intro X; right; exact X|].
    intros [X|X]; [|exact X]. subst pk'. apply queued_ixv. unfold ixv. rewrite Hg. lia.
Qed.

(* the item as written by Add before it is (re)placed in the heaps, and the map with that item *)
Definition add_item (hs : hstate) (o : obj) (rev orig : N) (del : bool) (now : N) (it : hitem) : hitem :=
  mkH o rev orig del (hi_index it) (hi_revIndex it) (now + duration (hs_min hs) (hs_max hs) (hi_n it + 1)) (hi_n it + 1).
Definition fresh_item (o : obj) : hitem := mkH o 0 0 false (-1)%Z (-1)%Z 0 0.
Definition add_store (hs : hstate) (o : obj) (rev orig : N) (del : bool) (now : N) : list hitem :=
  st_upd (o_pk o) (add_item hs o rev orig del now)
    (match st_get (o_pk o) (hs_store hs) with Some _ => hs_store hs | None => hs_store hs ++ [fresh_item o] end).

Lemma add_store_get : forall hs o rev orig del now pk',
  st_get pk' (add_store hs o rev orig del now) =
  if o_pk o =? pk'
  then Some (add_item hs o rev orig del now (match st_get (o_pk o) (hs_store hs) with Some it => it | None => fresh_item o end))
  else st_get pk' (hs_store hs).
Proof.
  intros. unfold add_store. rewrite st_get_upd by (intros; reflexivity).
  change (hi_pk (fresh_item o)) with (o_pk o). destruct (N.eqb_spec (o_pk o) pk') as [<-|E].
  - destruct (st_get (o_pk o) (hs_store hs)) as [a|] eqn:Ea; [rewrite Ea; reflexivity|].
    rewrite st_get_app, Ea. change (hi_pk (fresh_item o)) with (o_pk o). rewrite N.eqb_refl. reflexivity.
  - destruct (st_get (o_pk o) (hs_store hs)); [reflexivity|]. rewrite st_get_app.
    change (hi_pk (fresh_item o)) with (o_pk o). apply N.eqb_neq in E. rewrite E. destruct (st_get pk' (hs_store hs)); reflexivity.
Qed.

Lemma add_store_pks : forall hs o rev orig del now,
  map hi_pk (add_store hs o rev orig del now) =
  match st_get (o_pk o) (hs_store hs) with Some _ => map hi_pk (hs_store hs) | None => map hi_pk (hs_store hs) ++ [o_pk o] end.
Proof.
  intros. unfold add_store. rewrite st_upd_pks_at by (intros; reflexivity).
  destruct (st_get (o_pk o) (hs_store hs)); [reflexivity|]. rewrite map_app. reflexivity.
Qed.

Lemma hq_add_spec : forall hs o rev orig del now, HInv hs ->
  let pk := o_pk o in
  let hs' := hq_add hs o rev orig del now in
  HInv hs' /\
  map erase2 (hs_store hs') = map erase2 (add_store hs o rev orig del now) /\
  (forall w pk', queued w (hs_store hs') pk' <-> pk' = pk \/ queued w (hs_store hs) pk') /\
  hs_min hs' = hs_min hs /\ hs_max hs' = hs_max hs /\
  (* "if item.index == 0 { rq.resetTimer() }" *)
  hs_timer hs' = if nth 0 (hs_q hs') 0 =? pk then option_map hi_at (hq_top hs') else hs_timer hs.
Proof.
  intros hs o rev orig del now H pk hs'. pose proof H as [Hu Hq Hr Ha]. subst hs'.
  pose proof (add_store_get hs o rev orig del now) as Hg1. pose proof (add_store_pks hs o rev orig del now) as Hpks1.
  unfold hq_add. cbv zeta. fold pk in Hg1, Hpks1 |- *. fold (fresh_item o).
  change (fun it : hitem => mkH o rev orig del (hi_index it) (hi_revIndex it)
            (now + duration (hs_min hs) (hs_max hs) (hi_n it + 1)) (hi_n it + 1)) with (add_item hs o rev orig del now).
  change (st_upd pk (add_item hs o rev orig del now)
            (match st_get pk (hs_store hs) with Some _ => hs_store hs | None => hs_store hs ++ [fresh_item o] end))
    with (add_store hs o rev orig del now).
  set (st1 := add_store hs o rev orig del now) in *.
  set (it1 := add_item hs o rev orig del now (match st_get pk (hs_store hs) with Some it => it | None => fresh_item o end)) in *.
  (* either heap sees the store with the written item as the old store with another key at pk *)
  assert (Hg1pk : st_get pk st1 = Some it1) by (rewrite Hg1, N.eqb_refl; reflexivity).
  assert (Hoth1 : forall pk', pk' <> pk -> st_get pk' st1 = st_get pk' (hs_store hs)).
  { intros pk' Hne. rewrite Hg1. apply N.eqb_neq in Hne. rewrite N.eqb_sym, Hne. reflexivity. }
  assert (Hix1 : forall w, ixv w st1 pk = ixv w (hs_store hs) pk).
  { intro w. unfold ixv. rewrite Hg1pk. subst it1. destruct (st_get pk (hs_store hs)); destruct w; reflexivity. }
  destruct (heap_change_at QR _ st1 _ pk Hr Hoth1 (Hix1 QR)) as [Hokr1 [Hqdr1 [Hholer1 Hhpr1]]].
  destruct (heap_change_at QT _ st1 _ pk Hq Hoth1 (Hix1 QT)) as [Hokq1 [Hqdq1 [Hholeq1 Hhpq1]]].
  (* revQueue *)
  assert (Eri : hi_revIndex (st_getd pk st1) = get_idx QR it1) by (unfold st_getd; rewrite Hg1pk; reflexivity).
  rewrite Eri.
  destruct (place_spec QR st1 (hs_r hs) pk it1 Hokr1 Hg1pk Hholer1 Hhpr1 _ eq_refl) as [Hr2 [Her2 Hqd2]].
  destruct (if (0 <=? get_idx QR it1)%Z then h_fix QR (st1, hs_r hs) (Z.to_nat (get_idx QR it1))
            else h_push QR (st1, hs_r hs) pk) as [st2 r2]. cbn [fst snd] in Hr2, Her2, Hqd2.
  (* queue *)
  destruct (frame_get_some QR _ _ pk it1 Her2 Hg1pk) as [it2 [Hg2pk Eit2]].
  assert (Eqi : hi_index (st_getd pk st2) = get_idx QT it2) by (unfold st_getd; rewrite Hg2pk; reflexivity).
  rewrite Eqi.
  (* queue sees st2 as it saw st1: the placement in revQueue wrote revIndex fields only *)
  assert (Hokq2 : idx_ok QT (st2, hs_q hs)).
  { apply (idx_ok_ixv QT st1); [intro; apply (ixv_other QR); [discriminate|exact Her2]|exact Hokq1]. }
  assert (HKq : forall k, (k < length (hs_q hs))%nat -> K QT (st2, hs_q hs) k = K QT (st1, hs_q hs) k)
    by (intros k _; apply (K_other QR); exact Her2).
  destruct (place_spec QT st2 (hs_q hs) pk it2 Hokq2 Hg2pk
              (fun i Hi Hn => hole_ext _ _ _ _ (Hholeq1 i Hi Hn) HKq) (fun Hn => hp_ext _ _ _ (Hhpq1 Hn) HKq) _ eq_refl)
    as [Hq3 [Her3 Hqd3]].
  destruct (if (0 <=? get_idx QT it2)%Z then h_fix QT (st2, hs_q hs) (Z.to_nat (get_idx QT it2))
            else h_push QT (st2, hs_q hs) pk) as [st3 q3]. cbn [fst snd] in Hq3, Her3, Hqd3.
  assert (Hr3 : heap_inv QR (st3, r2)) by (apply (heap_inv_other QT QR st2); [discriminate|exact Her3|exact Hr2]).
  (* membership in either heap *)
  assert (Hqd : forall w pk', queued w st3 pk' <-> pk' = pk \/ queued w (hs_store hs) pk').
  { intros [|] pk'.
    - rewrite Hqd3. rewrite (queued_other QR QT st1 st2 pk') by (try discriminate; exact Her2). rewrite Hqdq1. reflexivity.
    - rewrite (queued_other QT QR st2 st3 pk') by (try discriminate; exact Her3). rewrite Hqd2, Hqdr1. reflexivity. }
  assert (Her13 : map erase2 st3 = map erase2 st1).
  { rewrite (erase_erase2 QT _ _ Her3). apply (erase_erase2 QR _ _ Her2). }
  set (hsx := mkHS st3 q3 r2 (hs_timer hs) (hs_min hs) (hs_max hs)).
  assert (Hinv : HInv hsx).
  { apply HInv_intro; [exact Hq3|exact Hr3| |]; rewrite (map_pks erase2 pk_erase2 _ _ Her13), Hpks1.
    - destruct (st_get pk (hs_store hs)) eqn:Ea; [exact Hu|]. apply NoDup_snoc; [exact Hu|]. apply st_get_none. exact Ea.
    - intros pk' Hin. apply Hqd. destruct (N.eq_dec pk' pk) as [E|E]; [left; exact E|right].
      destruct (st_get pk (hs_store hs)); [|apply in_app_or in Hin; destruct Hin as [Hin|[Hin|[]]]; [|congruence]];
        apply (in_pks_queued hs pk' H Hin). }
  pose proof (index_zero_root QT st3 q3 pk (proj1 Hq3) (proj2 (Hqd QT pk) (or_introl eq_refl))) as Hhead. cbn [get_idx] in Hhead.
  destruct (reset_if (hi_index (st_getd pk st3) =? 0)%Z hsx) as [Es [Eq [Er [Emin [Emax Et]]]]].
  split; [exact (HInv_ext _ _ Es Eq Er Hinv)|]. rewrite Es, Eq, Emin, Emax, Et, Hhead.
  split; [exact Her13|]. split; [exact Hqd|]. repeat split.
Qed.

Lemma st_get_uniq : forall st it, NoDup (map hi_pk st) -> In it st -> st_get (hi_pk it) st = Some it.
Proof.
  induction st as [|a r IH]; intros it Hn Hin; [destruct Hin|].
  cbn [st_get]. cbn [map] in Hn. inversion Hn as [|x xs Hx Hr]; subst.
  destruct Hin as [Hin|Hin].
  - subst a. rewrite N.eqb_refl. reflexivity.
  - destruct (hi_pk a =? hi_pk it) eqn:E.
    + apply N.eqb_eq in E. exfalso. apply Hx. rewrite E. apply in_map. exact Hin.
    + apply IH; assumption.
Qed.

Lemma K_at : forall w st arr i pk it, nth i arr 0 = pk -> st_get pk st = Some it -> K w (st, arr) i = kf w it.
Proof. intros w st arr i pk it Hn Hg. unfold K, st_getd. cbn [fst snd]. rewrite Hn, Hg. reflexivity. Qed.

Lemma root_min : forall w st arr, heap_inv w (st, arr) -> arr <> [] ->
  exists t, st_get (nth 0 arr 0) st = Some t /\ get_idx w t = 0%Z /\
    forall pk it, st_get pk st = Some it -> get_idx w it <> (-1)%Z -> kf w t <= kf w it.
Proof.
  intros w st arr [Hok Hhp] Hne. pose proof Hok as [H1 H2]. cbn [fst snd] in *.
  assert (Hpos : (0 < length arr)%nat) by (destruct arr; [congruence|cbn; lia]).
  destruct (H1 0%nat Hpos) as [t [A B]]. exists t. split; [exact A|]. split; [exact B|].
  intros pk it Hg Hq. destruct (H2 pk it Hg Hq) as [i [_ [Hi Hn]]].
  pose proof (hp_root_min _ _ Hhp i Hi) as M.
  rewrite (K_at w st arr 0 _ t eq_refl A), (K_at w st arr i pk it Hn Hg) in M. exact M.
Qed.

Lemma hq_top_none : forall hs, HInv hs -> (hq_top hs = None <-> forall pk, ~ queued QT (hs_store hs) pk).
Proof.
  intros hs [Hu Hq Hr Ha]. unfold hq_top.
  assert (Hin : forall pk, queued QT (hs_store hs) pk <-> In pk (hs_q hs)) by (intro pk; apply (queued_in QT (hs_store hs, hs_q hs) pk (proj1 Hq))).
  clear Hq. destruct (hs_q hs) as [|p q0].
  - split; [|reflexivity]. intros _ pk X. apply Hin in X. destruct X.
  - split; [discriminate|]. intro X. exfalso. apply (X p). apply Hin. left. reflexivity.
Qed.

Lemma hq_top_min : forall hs t, HInv hs -> hq_top hs = Some t ->
  st_get (hi_pk t) (hs_store hs) = Some t /\ hi_index t = 0%Z /\ nth 0 (hs_q hs) 0 = hi_pk t /\
  forall pk it, st_get pk (hs_store hs) = Some it -> hi_index it <> (-1)%Z -> hi_at t <= hi_at it.
Proof.
  intros hs t [Hu Hq Hr Ha] Ht. unfold hq_top in Ht.
  pose proof (root_min QT (hs_store hs) (hs_q hs) Hq) as RM. clear Hq.
  destruct (hs_q hs) as [|p q0]; [discriminate|]. injection Ht as Ht.
  destruct (RM ltac:(discriminate)) as [t' [A [B M]]].
  cbn [nth] in A. unfold st_getd in Ht. rewrite A in Ht. subst t'.
  pose proof (st_get_pk _ _ _ A) as Hp. split; [rewrite Hp; exact A|]. split; [exact B|].
  split; [cbn [nth]; symmetry; exact Hp|exact M].
Qed.

Lemma hq_lwm_spec : forall hs, HInv hs ->
  exists v, hq_low_watermark hs = (v, hs, 0%nat) /\
    (hs_store hs = [] -> v = 0) /\
    (hs_store hs <> [] -> (exists it, In it (hs_store hs) /\ hi_orig it = v) /\
                          forall it, In it (hs_store hs) -> v <= hi_orig it).
Proof.
  intros hs [Hu Hq Hr Ha]. unfold hq_low_watermark. cbn [hq_lwm_loop].
  pose proof (root_min QR (hs_store hs) (hs_r hs) Hr) as RM.
  assert (Hin : forall pk, queued QR (hs_store hs) pk <-> In pk (hs_r hs)) by (intro pk; apply (queued_in QR (hs_store hs, hs_r hs) pk (proj1 Hr))).
  clear Hr. destruct (hs_r hs) as [|top r0].
  - exists 0. split; [reflexivity|]. split; [reflexivity|]. intro Hne. exfalso.
    destruct (hs_store hs) as [|a st] eqn:Es; [congruence|].
    assert (X : queued QR (a :: st) (hi_pk a)).
    { apply (Ha (hi_pk a) a). cbn [st_get]. rewrite N.eqb_refl. reflexivity. }
    apply Hin in X. destruct X.
  - destruct (RM ltac:(discriminate)) as [t [A [B M]]].
    cbn [nth] in A. rewrite A. exists (hi_orig t). split; [reflexivity|]. split.
    + intro Es. rewrite Es in A. discriminate.
    + intros _. split; [exists t; split; [apply (st_get_in _ _ _ A)|reflexivity]|].
      intros it Hin'. pose proof (st_get_uniq _ _ Hu Hin') as G.
      destruct (Ha _ _ G) as [x [X Y]]. rewrite G in X. injection X as X. subst x. apply (M _ _ G Y).
Qed.

Inductive hop :=
  | HAdd (o : obj) (rev orig : N) (del : bool) (now : N)
  | HPop
  | HClear (pk : N)
  | HLwm.

Definition apply_hop (hs : hstate) (op : hop) : hstate :=
  match op with
  | HAdd o rev orig del now => hq_add hs o rev orig del now
  | HPop => match hq_pop hs with Some hs' => hs' | None => hs end
  | HClear pk => hq_clear hs pk
  | HLwm => snd (fst (hq_low_watermark hs))
  end.

Lemma HInv_apply : forall hs op, HInv hs -> HInv (apply_hop hs op).
Proof.
  intros hs [o rev orig del now| |pk|] H; cbn [apply_hop].
  - apply (hq_add_spec hs o rev orig del now H).
  - destruct (hs_q hs) as [|p q0] eqn:Eq.
    + unfold hq_pop. rewrite Eq. exact H.
    + destruct (hq_pop_spec hs H ltac:(rewrite Eq; discriminate)) as [hs' [A [B _]]]. rewrite A. exact B.
  - destruct (st_get pk (hs_store hs)) as [it|] eqn:Eg.
    + apply (hq_clear_spec hs pk it H Eg).
    + rewrite (hq_clear_absent hs pk Eg). exact H.
  - destruct (hq_lwm_spec hs H) as [v [A _]]. rewrite A. exact H.
Qed.

(* every state reachable from newRetries by Add / Pop / Clear / LowWatermark *)
Definition hreach (hs : hstate) : Prop := exists a b ops, hs = fold_left apply_hop ops (hq_new a b).

Lemma HInv_reach : forall hs, hreach hs -> HInv hs.
Proof.
  intros hs [a [b [ops E]]]. subst hs. generalize (HInv_new a b). generalize (hq_new a b).
  induction ops as [|op ops IH]; intros hs H; cbn [fold_left]; [exact H|]. apply IH. apply HInv_apply. exact H.
Qed.

(* (b) of the invariant in the words of retries.go: item.index is the item's position in queue.items
   when it is there and -1 otherwise; the same for revIndex and revQueue.items *)
Lemma HInv_index : forall hs pk it, HInv hs -> st_get pk (hs_store hs) = Some it ->
  (forall i, (i < length (hs_q hs))%nat -> (nth i (hs_q hs) 0 = pk <-> hi_index it = Z.of_nat i)) /\
  (~ In pk (hs_q hs) <-> hi_index it = (-1)%Z) /\
  (forall i, (i < length (hs_r hs))%nat -> (nth i (hs_r hs) 0 = pk <-> hi_revIndex it = Z.of_nat i)) /\
  In pk (hs_r hs) /\ hi_revIndex it <> (-1)%Z.
Proof.
  intros hs pk it [Hu Hq Hr Ha] Hg.
  assert (G : forall w arr, idx_ok w (hs_store hs, arr) ->
            (forall i, (i < length arr)%nat -> (nth i arr 0 = pk <-> get_idx w it = Z.of_nat i)) /\
            (~ In pk arr <-> get_idx w it = (-1)%Z)).
  { intros w arr Hok. split.
    - intros i Hi. split.
      + intro Hn. destruct Hok as [H1 _]. cbn [fst snd] in H1. destruct (H1 i Hi) as [a [A B]].
        rewrite Hn, Hg in A. injection A as A. subst a. exact B.
      + intro Hx. destruct (idx_cases w _ _ pk it Hok Hg) as [E|[j [E [Hj Hn]]]]; [lia|].
        assert (i = j) by lia. subst j. exact Hn.
    - rewrite <- (queued_in w (hs_store hs, arr) pk Hok), queued_ixv. cbn [fst]. unfold ixv. rewrite Hg. lia. }
  destruct (G QT (hs_q hs) (proj1 Hq)) as [G1 G2]. destruct (G QR (hs_r hs) (proj1 Hr)) as [G3 G4]. cbn [get_idx] in *.
  split; [exact G1|]. split; [exact G2|]. split; [exact G3|].
  pose proof (Ha pk it Hg) as X. split.
  - apply (queued_in QR (hs_store hs, hs_r hs) pk (proj1 Hr)). exact X.
  - apply queued_ixv in X. unfold ixv in X. rewrite Hg in X. exact X.
Qed.

Lemma HInv_queued_q : forall hs pk, HInv hs -> (queued QT (hs_store hs) pk <-> In pk (hs_q hs)).
Proof. intros hs pk H. apply (queued_in QT (hs_store hs, hs_q hs) pk (proj1 (hv_q _ H))). Qed.
Lemma HInv_queued_r : forall hs pk, HInv hs -> (queued QR (hs_store hs) pk <-> In pk (hs_r hs)).
Proof. intros hs pk H. apply (queued_in QR (hs_store hs, hs_r hs) pk (proj1 (hv_r _ H))). Qed.

(* revisions of changes are positive: LowWatermark = 0 exactly when no item awaits a retry *)
Lemma hq_lwm_zero_iff : forall hs, HInv hs -> (forall it, In it (hs_store hs) -> 0 < hi_orig it) ->
  (fst (fst (hq_low_watermark hs)) = 0 <-> hs_store hs = []).
Proof.
  intros hs H Hpos. destruct (hq_lwm_spec hs H) as [v [A [B C]]]. rewrite A. cbn [fst]. split; [|exact B].
  intro Ev. destruct (hs_store hs) as [|a st] eqn:Es; [reflexivity|]. exfalso.
  destruct (C ltac:(discriminate)) as [[it [Iin Io]] _]. specialize (Hpos it Iin). lia.
Qed.
