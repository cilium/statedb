(* Reconciler/TableWf.v — well-formed tables and the effect of user writes and scripted operations as `wstep`
   (C14 nothing_forgotten for a whole round). *)
From Coq Require Import List NArith Bool Lia ZifyN ZifyBool.
From SV Require Import Reconciler.Retries Reconciler.Model Reconciler.RetriesProofs Reconciler.CommitProofs
  Reconciler.RoundProofs Reconciler.CoverProofs.
Import ListNotations.
Open Scope N_scope.

Definition slot_rev (s : slot) : N := match s with Live _ r | Dead _ r => r end.
Definition slot_obj (s : slot) : obj := match s with Live o _ | Dead o _ => o end.

(* keys are unique, every slot is stored under its object's key, revisions are positive, bounded by the
   table revision and pairwise distinct *)
Definition twf (t : table) : Prop :=
  NoDup (map fst (t_slots t)) /\
  (forall k sl, slot_of t k = Some sl -> o_pk (slot_obj sl) = k /\ 0 < slot_rev sl /\ slot_rev sl <= t_rev t) /\
  (forall k1 k2 s1 s2, slot_of t k1 = Some s1 -> slot_of t k2 = Some s2 -> slot_rev s1 = slot_rev s2 -> k1 = k2).

Lemma twf_keyed : forall t, twf t -> keyed t.
Proof. intros t [_ [H _]] k o r Hs. destruct (H k _ Hs) as [A _]. exact A. Qed.

Lemma twf_empty : forall b, twf (t_empty b).
Proof.
  intro b. split; [constructor|]. split.
  - intros k sl H. discriminate.
  - intros k1 k2 s1 s2 H. discriminate.
Qed.

Lemma aset_keys : forall V k (v : V) l k', In k' (map fst (aset k v l)) <-> k' = k \/ In k' (map fst l).
Proof.
  intros V k v l k'. induction l as [|[k0 v0] r IH]; cbn [aset map fst In].
  - split; [intros [H|[]]; left; symmetry; exact H|intros [H|[]]; left; symmetry; exact H].
  - destruct (k0 =? k) eqn:E; cbn [map fst In].
    + apply N.eqb_eq in E. subst k0. split; [intros [H|H]; [left; symmetry; exact H|right; right; exact H]|].
      intros [H|[H|H]]; [left; symmetry; exact H|left; exact H|right; exact H].
    + rewrite IH. split; [intros [H|[H|H]]; auto|intros [H|[H|H]]; auto].
Qed.

Lemma aset_nodup : forall V k (v : V) l, NoDup (map fst l) -> NoDup (map fst (aset k v l)).
Proof.
  intros V k v l. induction l as [|[k0 v0] r IH]; intro H; cbn [aset map fst].
  - constructor; [intros []|constructor].
  - cbn [map fst] in H. inversion H as [|x xs Hx Hr]; subst.
    destruct (k0 =? k) eqn:E; cbn [map fst].
    + apply N.eqb_eq in E. subst k0. constructor; assumption.
    + constructor; [|apply IH; exact Hr]. intro Hin. apply aset_keys in Hin. destruct Hin as [Hin|Hin].
      * apply N.eqb_neq in E. congruence.
      * contradiction.
Qed.

(* writing slot sl under key k at the next revision *)
Definition tset (t : table) (k : N) (sl : slot) : table :=
  mkTable (aset k sl (t_slots t)) (t_rev t + 1) (t_nextid t) (t_pendinit t).

Lemma slot_tset_same : forall t k sl, slot_of (tset t k sl) k = Some sl.
Proof. intros. unfold slot_of, tset. cbn [t_slots]. apply aget_aset_same. Qed.
Lemma slot_tset_other : forall t k sl k', k' <> k -> slot_of (tset t k sl) k' = slot_of t k'.
Proof. intros. unfold slot_of, tset. cbn [t_slots]. apply aget_aset_other. exact H. Qed.

Lemma twf_tset : forall t k sl, twf t -> o_pk (slot_obj sl) = k -> slot_rev sl = t_rev t + 1 -> twf (tset t k sl).
Proof.
  intros t k sl [A [B C]] Hk Hr. split; [apply aset_nodup; exact A|]. split.
  - intros k' sl' Hs. destruct (N.eq_dec k' k) as [E|E].
    + subst k'. rewrite slot_tset_same in Hs. injection Hs as Hs. subst sl'. cbn [tset t_rev]. repeat split; [exact Hk|lia|lia].
    + rewrite slot_tset_other in Hs by exact E. destruct (B k' sl' Hs) as [B1 [B2 B3]]. cbn [tset t_rev]. repeat split; [exact B1|exact B2|lia].
  - intros k1 k2 s1 s2 H1 H2 He.
    destruct (N.eq_dec k1 k) as [E1|E1]; destruct (N.eq_dec k2 k) as [E2|E2]; try congruence.
    + subst k1. rewrite slot_tset_same in H1. injection H1 as H1. subst s1.
      rewrite slot_tset_other in H2 by exact E2. destruct (B k2 s2 H2) as [_ [_ B3]]. lia.
    + subst k2. rewrite slot_tset_same in H2. injection H2 as H2. subst s2.
      rewrite slot_tset_other in H1 by exact E1. destruct (B k1 s1 H1) as [_ [_ B3]]. lia.
    + rewrite slot_tset_other in H1 by exact E1. rewrite slot_tset_other in H2 by exact E2. apply (C k1 k2 s1 s2); assumption.
Qed.

Lemma twf_ext : forall t t', t_slots t' = t_slots t -> t_rev t' = t_rev t -> twf t -> twf t'.
Proof.
  intros t t' Hs Hr [A [B C]]. unfold twf, slot_of in *. rewrite Hs, Hr. split; [exact A|split; [exact B|exact C]].
Qed.

Lemma t_insert_tset : forall t o, t_insert t o = tset t (o_pk o) (Live o (t_rev t + 1)).
Proof. reflexivity. Qed.

Lemma t_delete_cases : forall t k,
  (exists o r, slot_of t k = Some (Live o r) /\ t_delete t k = tset t k (Dead o (t_rev t + 1))) \/
  ((forall o r, slot_of t k <> Some (Live o r)) /\ t_delete t k = t).
Proof.
  intros t k. unfold t_delete, slot_of. destruct (aget k (t_slots t)) as [[o r|o r]|].
  - left. exists o, r. split; reflexivity.
  - right. split; [intros; discriminate|reflexivity].
  - right. split; [intros; discriminate|reflexivity].
Qed.

Inductive wstep : table -> table -> Prop :=
| ws_refl : forall t, wstep t t
| ws_id : forall t, wstep t (fst (t_fresh_id t))
| ws_ins : forall t o, (o_kind o = Error -> exists o0 r0, slot_of t (o_pk o) = Some (Live o0 r0) /\ o_kind o0 = Error) -> wstep t (t_insert t o)
| ws_del : forall t k, wstep t (t_delete t k)
| ws_trans : forall t1 t2 t3, wstep t1 t2 -> wstep t2 t3 -> wstep t1 t3.

Lemma wstep_twf : forall t t', wstep t t' -> twf t -> twf t'.
Proof.
  intros t t' H. induction H; intro W.
  - exact W.
  - apply (twf_ext t); [reflexivity|reflexivity|exact W].
  - rewrite t_insert_tset. apply twf_tset; [exact W|reflexivity|reflexivity].
  - destruct (t_delete_cases t k) as [[o [r [A B]]]|[_ B]]; rewrite B; [|exact W].
    apply twf_tset; [exact W| |reflexivity]. destruct W as [_ [W2 _]]. destruct (W2 k _ A) as [X _]. exact X.
  - auto.
Qed.

Lemma wstep_rev : forall t t', wstep t t' -> t_rev t <= t_rev t'.
Proof.
  intros t t' H. induction H; try (cbn; lia).
  pose proof (t_rev_delete t k). lia.
Qed.

(* a user write moves the table by wstep (a status-only write of another writer keeps the status kind) *)
Lemma wstep_closed : forall t0, wclosed (fun t => keyed t /\ wstep t0 t).
Proof.
  intro t0. split; [|split; [|split]].
  - intros t [K S]. split; [exact K|]. exact (ws_trans _ _ _ S (ws_id t)).
  - intros t o Ho [K S]. split; [apply keyed_insert; exact K|]. apply (ws_trans _ _ _ S), ws_ins.
    intro He. unfold is_pending in Ho. rewrite He in Ho. discriminate.
  - intros t k o r Hl [K S]. split; [apply keyed_insert; exact K|]. apply (ws_trans _ _ _ S), ws_ins.
    intro He. exists o, r. apply t_live_slot in Hl. change (o_pk (bump_aux o)) with (o_pk o). rewrite (K k o r Hl). auto.
  - intros t k [K S]. split; [apply keyed_delete; exact K|]. exact (ws_trans _ _ _ S (ws_del t k)).
Qed.

Lemma do_write_wstep : forall e kind k, keyed (e_tab e) -> wstep (e_tab e) (e_tab (do_write e kind k)).
Proof. intros e kind k Hk. apply (do_write_closed _ e kind k (wstep_closed (e_tab e))). split; [exact Hk|apply ws_refl]. Qed.

(* a scripted operation moves the table by user-write steps only *)
Lemma do_call_wstep : forall e snap fresh op o rev e' ok, keyed (e_tab e) ->
  do_call e snap fresh op o rev = (e', ok) -> wstep (e_tab e) (e_tab e').
Proof.
  intros e snap fresh op o rev e' ok K H. replace e' with (fst (do_call e snap fresh op o rev)) by (rewrite H; reflexivity).
  apply (do_call_closed _ e snap fresh op o rev (wstep_closed (e_tab e))). split; [exact K|apply ws_refl].
Qed.
