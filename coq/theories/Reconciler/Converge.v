(* Reconciler/Converge.v — BOUNDED CONVERGENCE of the reconciler model (C14, second half).
   Once the fault oracle only answers ok (e_foff), no user write is pending in a hook (hooks_inert) and
   every retry item is due (or will be replaced by a change that is still ahead of the cursor), each
   `round` decreases the measure
       (#changes ahead of the cursor that are deletions or Pending/Refreshing objects) + (#retry items)
   by at least min(roundSize, measure); when the measure is 0 one more round moves the cursor over the
   Done objects written by the status commits and the reconciler is quiescent (and stays so).
   Hence quiescence — and with it `reconciled` — is reached after at most
       ceil(measure / roundSize) + 1   rounds. *)
From Coq Require Import List NArith Bool Lia ZifyN ZifyNat ZifyBool Arith.
From SV Require Import Reconciler.Retries Reconciler.Model Reconciler.RetriesProofs Reconciler.CommitProofs
  Reconciler.RoundProofs Reconciler.CoverProofs Reconciler.StepProofs Reconciler.TableWf Reconciler.StreamProofs
  Reconciler.PhaseProofs Reconciler.BatchProofs Reconciler.RoundInv Reconciler.Runs Reconciler.Progress.
Import ListNotations.
Open Scope N_scope.

(* number of attempts recorded under an attempt-counter key (2*pk: all attempts, 2*pk+1: fresh attempts) *)
Definition att (e : env) (k : N) : N := match aget k (e_attempts e) with Some n => n | None => 0 end.

(* no user write is pending inside a future operation: every registered hook is keyed by an attempt
   number that is already in the past (in particular: e_hooks e = []) *)
Definition hooks_inert (e : env) : Prop := forall k n w, In (k, n, w) (e_hooks e) -> n < att e k.

(* operations have stopped failing and the table has stopped changing *)
Definition calm (e : env) : Prop := e_foff e = true /\ hooks_inert e.

Lemma no_hooks_inert : forall e, e_hooks e = [] -> hooks_inert e.
Proof. intros e H k n w Hin. rewrite H in Hin. destruct Hin. Qed.

Lemma run_hooks_inert : forall hs k n e, (forall n' w, In (k, n', w) hs -> n' <> n) -> run_hooks hs k n e = e.
Proof.
  induction hs as [|[[k' n'] [wk k2]] r IH]; intros k n e H; cbn [run_hooks]; [reflexivity|].
  destruct ((k' =? k) && (n' =? n)) eqn:E.
  - apply andb_prop in E. destruct E as [E1 E2]. apply N.eqb_eq in E1. apply N.eqb_eq in E2. subst k' n'.
    exfalso. apply (H n (wk, k2)); [left; reflexivity|reflexivity].
  - apply IH. intros n0 w Hin. apply (H n0 w). right. exact Hin.
Qed.

Lemma att_aset : forall e k v k',
  match aget k' (aset k v (e_attempts e)) with Some n => n | None => 0 end = if k' =? k then v else att e k'.
Proof.
  intros e k v k'. destruct (k' =? k) eqn:E.
  - apply N.eqb_eq in E. subst k'. rewrite aget_aset_same. reflexivity.
  - apply N.eqb_neq in E. rewrite aget_aset_other by exact E. reflexivity.
Qed.

(* in a calm environment a scripted operation succeeds, leaves the table and the clock alone, and the
   environment stays calm *)
Lemma do_call_calm : forall e snap fresh op o rev e' ok, calm e -> do_call e snap fresh op o rev = (e', ok) ->
  ok = true /\ calm e' /\ e_tab e' = e_tab e /\ e_now e' = e_now e.
Proof.
  intros e snap fresh op o rev e' ok [F HI] H. unfold do_call in H. cbv zeta in H. cbn [e_hooks] in H.
  remember (2 * o_pk o) as ka eqn:Eka. remember (ka + 1) as kb eqn:Ekb.
  assert (I1 : forall E0, run_hooks (e_hooks e) ka (att e ka) E0 = E0).
  { intro E0. apply run_hooks_inert. intros n' w Hin. specialize (HI _ _ _ Hin). lia. }
  assert (I2 : forall E0, run_hooks (e_hooks e) kb (att e kb) E0 = E0).
  { intro E0. apply run_hooks_inert. intros n' w Hin. specialize (HI _ _ _ Hin). lia. }
  fold (att e ka) in H. fold (att e kb) in H.
  destruct fresh.
  - rewrite I1 in H. cbn [e_hooks] in H. rewrite I2 in H. cbn [e_tab e_now e_attempts e_faults e_hooks e_foff e_ver e_urevs e_calls e_target] in H.
    rewrite F in H. cbn [negb] in H. rewrite andb_false_r in H. cbn [negb] in H.
    injection H as H1 H2. subst e' ok. split; [reflexivity|]. split; [|split; reflexivity].
    split; [reflexivity|]. intros k n w Hin. cbn [e_hooks] in Hin. specialize (HI _ _ _ Hin). unfold att at 1. cbn [e_attempts].
    destruct (N.eq_dec k kb) as [E1|E1].
    + subst k. rewrite aget_aset_same. lia.
    + rewrite aget_aset_other by exact E1. destruct (N.eq_dec k ka) as [E2|E2].
      * subst k. rewrite aget_aset_same. lia.
      * rewrite aget_aset_other by exact E2. exact HI.
  - rewrite I1 in H. cbn [e_tab e_now e_attempts e_faults e_hooks e_foff e_ver e_urevs e_calls e_target] in H.
    rewrite F in H. cbn [negb] in H. rewrite andb_false_r in H. cbn [negb] in H.
    injection H as H1 H2. subst e' ok. split; [reflexivity|]. split; [|split; reflexivity].
    split; [reflexivity|]. intros k n w Hin. cbn [e_hooks] in Hin. specialize (HI _ _ _ Hin). unfold att at 1. cbn [e_attempts].
    destruct (N.eq_dec k ka) as [E2|E2].
    + subst k. rewrite aget_aset_same. lia.
    + rewrite aget_aset_other by exact E2. exact HI.
Qed.

(* a change the reconciler has to act on: a deletion or a Pending/Refreshing object *)
Definition ch_act (c : change) : bool := c_del c || is_pending (c_obj c).
Definition slot_act (sl : slot) : bool := match sl with Live o _ => is_pending o | Dead _ _ => true end.

Lemma ch_act_slot : forall sl, ch_act (slot_change sl) = slot_act sl.
Proof. intros [o r|o r]; reflexivity. Qed.

Lemma skip_is_not_act : forall c, negb (c_del c) && negb (is_pending (c_obj c)) = negb (ch_act c).
Proof. intro c. unfold ch_act. destruct (c_del c), (is_pending (c_obj c)); reflexivity. Qed.

(* number of changes ahead of the cursor the reconciler has to act on *)
Definition pending_ahead (t : table) (c : N) : nat := length (filter ch_act (changes_of t c)).

(* the convergence measure *)
Definition measure (e : env) (s : rstate) : nat :=
  (pending_ahead (e_tab e) (k_cursor s) + length (q_items (k_ret s)))%nat.

Definition cnt (f : slot -> bool) (l : list (N * slot)) : nat := length (filter (fun kv => f (snd kv)) l).

Lemma cnt_ext : forall f g l, (forall kv, In kv l -> f (snd kv) = g (snd kv)) -> cnt f l = cnt g l.
Proof.
  intros f g l. unfold cnt. induction l as [|kv r IH]; intro H; cbn [filter]; [reflexivity|].
  rewrite (H kv (or_introl eq_refl)). destruct (g (snd kv)); cbn [length]; rewrite IH; try reflexivity;
    intros x Hx; apply H; right; exact Hx.
Qed.

Lemma cnt_aset_le : forall f k v l, f v = false -> (cnt f (aset k v l) <= cnt f l)%nat.
Proof.
  intros f k v l Hf. unfold cnt. induction l as [|[k0 v0] r IH]; cbn [aset filter snd].
  - rewrite Hf. cbn. lia.
  - destruct (k0 =? k); cbn [filter snd].
    + rewrite Hf. destruct (f v0); cbn [length]; lia.
    + destruct (f v0); cbn [length]; lia.
Qed.

Lemma filter_insert_len : forall (g : change -> bool) x l,
  length (filter g (insert_by_rev x l)) = length (filter g (x :: l)).
Proof.
  intros g x l. induction l as [|d r IH]; cbn [insert_by_rev]; [reflexivity|].
  destruct (c_rev x <=? c_rev d); [reflexivity|].
  cbn [filter] in *. destruct (g d); destruct (g x); cbn [length] in *; lia.
Qed.

Lemma filter_sort_len : forall (g : change -> bool) l,
  length (filter g (fold_right insert_by_rev [] l)) = length (filter g l).
Proof.
  intros g l. induction l as [|x r IH]; cbn [fold_right]; [reflexivity|].
  rewrite filter_insert_len. cbn [filter]. destruct (g x); cbn [length]; rewrite IH; reflexivity.
Qed.

(* the bridge between the change stream and the slots of the table *)
Lemma changes_count : forall (g : change -> bool) t c,
  length (filter g (changes_of t c)) = cnt (fun sl => (c <? slot_rev sl) && g (slot_change sl)) (t_slots t).
Proof.
  intros g t c. unfold changes_of. rewrite filter_sort_len. unfold cnt.
  induction (t_slots t) as [|[k sl] r IH]; cbn [map filter snd]; [reflexivity|].
  rewrite slot_change_rev. destruct (c <? slot_rev sl); cbn [andb filter]; [|exact IH].
  destruct (g (slot_change sl)); cbn [length]; rewrite IH; reflexivity.
Qed.

Definition ahead (c : N) (sl : slot) : bool := (c <? slot_rev sl) && slot_act sl.

Lemma pending_ahead_cnt : forall t c, pending_ahead t c = cnt (ahead c) (t_slots t).
Proof.
  intros t c. unfold pending_ahead. rewrite changes_count. apply cnt_ext. intros kv _. unfold ahead.
  rewrite ch_act_slot. reflexivity.
Qed.

(* the work ahead of a later cursor c', counted on the stream of an earlier cursor c *)
Lemma pending_ahead_later : forall t c c', c <= c' ->
  pending_ahead t c' = length (filter (fun ch => (c' <? c_rev ch) && ch_act ch) (changes_of t c)).
Proof.
  intros t c c' H. rewrite pending_ahead_cnt, changes_count. apply cnt_ext. intros kv _. unfold ahead.
  rewrite ch_act_slot, slot_change_rev.
  destruct (N.ltb_spec c' (slot_rev (snd kv))) as [A|A]; destruct (N.ltb_spec c (slot_rev (snd kv))) as [B|B];
    cbn [andb]; try reflexivity. lia.
Qed.

(* the revision of the last visited change (d when none was visited): incremental.go lastRev *)
Fixpoint last_rev (l : list change) (d : N) : N :=
  match l with [] => d | c :: r => last_rev r (c_rev c) end.

Lemma last_rev_cases : forall l d, (l = [] /\ last_rev l d = d) \/ (exists x, In x l /\ last_rev l d = c_rev x).
Proof.
  induction l as [|c r IH]; intro d; cbn [last_rev]; [left; split; reflexivity|right].
  destruct (IH (c_rev c)) as [[A B]|[x [A B]]].
  - exists c. split; [left; reflexivity|exact B].
  - exists x. split; [right; exact A|exact B].
Qed.

Lemma last_rev_app : forall l1 l2 d, last_rev (l1 ++ l2) d = last_rev l2 (last_rev l1 d).
Proof. induction l1 as [|c r IH]; intros l2 d; cbn [app last_rev]; [reflexivity|apply IH]. Qed.

Lemma last_rev_default : forall l d d', l <> [] -> last_rev l d = last_rev l d'.
Proof. intros [|c r] d d' H; [congruence|reflexivity]. Qed.

Lemma stream_split : forall snap vis rem c, twf snap -> stream_ok snap c (vis ++ rem) ->
  stream_ok snap (last_rev vis c) rem.
Proof.
  intros snap vis. induction vis as [|v vs IH]; intros rem c W S; cbn [last_rev app] in *; [exact S|].
  apply IH; [exact W|]. apply (stream_tail snap c v (vs ++ rem) W S).
Qed.

Lemma sorted_app_l : forall l1 l2, sorted_rev (l1 ++ l2) -> sorted_rev l1.
Proof.
  induction l1 as [|c r IH]; intros l2 H; cbn [app sorted_rev] in *; [exact I|].
  destruct H as [A B]. split; [|apply (IH l2 B)]. intros d Hd. apply A. apply in_or_app. left. exact Hd.
Qed.

Lemma sorted_le_last : forall l d, sorted_rev l -> forall x, In x l -> c_rev x <= last_rev l d.
Proof.
  induction l as [|c r IH]; intros d H x Hx; [destruct Hx|].
  cbn [last_rev sorted_rev] in *. destruct H as [A B]. destruct Hx as [Hx|Hx].
  - subst x. destruct (last_rev_cases r (c_rev c)) as [[_ E]|[y [Y1 Y2]]]; [lia|]. rewrite Y2. apply A. exact Y1.
  - apply IH; assumption.
Qed.

(* the cursor after the change phase: reconciler.go `if lastRev != 0 { cursor = lastRev }` *)
Lemma curs_last : forall c vis, (forall ch, In ch vis -> c < c_rev ch) -> curs c (last_rev vis 0) = last_rev vis c.
Proof.
  intros c vis H. unfold curs. destruct (last_rev_cases vis 0) as [[A B]|[x [A B]]].
  - subst vis. cbn. reflexivity.
  - rewrite B. specialize (H x A). destruct (N.eqb_spec (c_rev x) 0) as [E|E]; [lia|].
    rewrite <- B. apply last_rev_default. intro X. subst vis. destruct A.
Qed.

Lemma cursor_monotone : forall c vis, (forall ch, In ch vis -> c < c_rev ch) -> c <= last_rev vis c.
Proof.
  intros c vis H. destruct (last_rev_cases vis c) as [[A B]|[x [A B]]]; [lia|]. rewrite B. specialize (H x A). lia.
Qed.

Lemma remove_item_length : forall pk l, (length (remove_item pk l) <= length l)%nat.
Proof.
  intros pk l. induction l as [|i r IH]; cbn [remove_item]; [lia|].
  destruct (ri_pk i =? pk); cbn [length]; lia.
Qed.

Lemma remove_item_length_lt : forall pk l it, In it l -> ri_pk it = pk -> (length (remove_item pk l) < length l)%nat.
Proof.
  intros pk l it. induction l as [|i r IH]; intros Hin Hk; [destruct Hin|].
  cbn [remove_item]. destruct Hin as [Hin|Hin].
  - subst i. rewrite Hk, N.eqb_refl. pose proof (remove_item_length pk r). cbn [length]. lia.
  - specialize (IH Hin Hk). destruct (ri_pk i =? pk); cbn [length]; lia.
Qed.

Lemma remove_put_same : forall it l, remove_item (ri_pk it) (put_item it l) = remove_item (ri_pk it) l.
Proof.
  intros it l. induction l as [|i r IH]; cbn [put_item remove_item].
  - rewrite N.eqb_refl. reflexivity.
  - destruct (ri_pk i =? ri_pk it) eqn:E; cbn [remove_item].
    + rewrite N.eqb_refl. reflexivity.
    + rewrite E, IH. reflexivity.
Qed.


Lemma clear_len : forall q k, (length (q_items (r_clear q k)) <= length (q_items q))%nat.
Proof. intros q k. rewrite clear_items. apply remove_item_length. Qed.

Lemma process_single_calm : forall e snap fresh q res o rev orig del e' q' res', calm e ->
  process_single e snap fresh q res o rev orig del = (e', q', res') ->
  calm e' /\ e_tab e' = e_tab e /\ e_now e' = e_now e /\ q' = r_clear q (o_pk o) /\
  res' = (if del then res else res ++ [mkRes o rev orig (o_sid o) true]).
Proof.
  intros e snap fresh q res o rev orig del e' q' res' C H. unfold process_single in H. destruct del.
  - destruct (do_call e snap fresh 1 o rev) as [e1 ok] eqn:Ec.
    destruct (do_call_calm _ _ _ _ _ _ _ _ C Ec) as [X [C1 [T1 N1]]]. subst ok.
    injection H as H1 H2 H3. subst e' q' res'. split; [exact C1|]. split; [exact T1|]. split; [exact N1|]. split; reflexivity.
  - destruct (do_call e snap fresh 0 o rev) as [e1 ok] eqn:Ec.
    destruct (do_call_calm _ _ _ _ _ _ _ _ C Ec) as [X [C1 [T1 N1]]]. subst ok.
    injection H as H1 H2 H3. subst e' q' res'. split; [exact C1|]. split; [exact T1|]. split; [exact N1|]. split; reflexivity.
Qed.

(* the prefix of the stream a round visits: the skipped changes and those acted on, up to and including the one that
   reaches the round size - so the revision of its last element is the new cursor *)
Fixpoint visited (rs : N) (chs : list change) (nrec : N) : list change :=
  match chs with
  | [] => []
  | c :: r => c :: (if ch_act c then (if rs <=? nrec + 1 then [] else visited rs r (nrec + 1)) else visited rs r nrec)
  end.

Definition act_keys (vis : list change) : list N := map ch_pk (filter ch_act vis).
Definition updates (vis : list change) : list change := filter (fun c => negb (c_del c)) (filter ch_act vis).
Definition clears (q : retries) (ks : list N) : retries := fold_left r_clear ks q.

Lemma visited_spec : forall chs rs nrec, exists rem, chs = visited rs chs nrec ++ rem /\
  (rem = [] \/ rs <= nrec + N.of_nat (length (filter ch_act (visited rs chs nrec)))) /\
  (nrec < rs -> nrec + N.of_nat (length (filter ch_act (visited rs chs nrec))) <= rs).
Proof.
  induction chs as [|c r IH]; intros rs nrec; cbn [visited filter].
  - exists []. cbn. repeat split; [left; reflexivity|lia].
  - destruct (ch_act c) eqn:Ea; [destruct (N.leb_spec rs (nrec + 1)) as [L|L]|].
    + exists r. cbn. repeat split; [right|]; lia.
    + destruct (IH rs (nrec + 1)) as [rem [E [A B]]]. exists rem. cbn [app length]. rewrite <- E.
      repeat split; [destruct A as [A|A]; [left; exact A|right; lia]|lia].
    + destruct (IH rs nrec) as [rem [E [A B]]]. exists rem. cbn [app]. rewrite <- E. repeat split; assumption.
Qed.

Lemma clears_in : forall ks q it, In it (q_items (clears q ks)) -> In it (q_items q) /\ ~ In (ri_pk it) ks.
Proof.
  induction ks as [|k r IH]; intros q it H; cbn [clears fold_left] in H; [split; [exact H|intros []]|].
  destruct (IH _ _ H) as [A B]. apply clear_in in A. split; [apply A|]. intros [X|X]; [destruct A; congruence|exact (B X)].
Qed.

Lemma clears_len : forall ks q, (length (q_items (clears q ks)) <= length (q_items q))%nat.
Proof.
  induction ks as [|k r IH]; intro q; cbn [clears fold_left]; [lia|].
  pose proof (IH (r_clear q k)). pose proof (clear_len q k). unfold clears in *. lia.
Qed.

Lemma clears_absent : forall ks q k, In k ks -> find_item k (q_items (clears q ks)) = None.
Proof.
  intros ks q k Hk. destruct (find_item k (q_items (clears q ks))) as [it|] eqn:E; [|reflexivity].
  destruct (find_item_in _ _ _ E) as [A B]. destruct (clears_in _ _ _ A) as [_ C]. rewrite B in C. contradiction.
Qed.

(* what the walk leaves behind is a function of the visited prefix: batch mode ... *)
Lemma batch_collect_visited : forall chs rs q dels upds nrec lastrev,
  batch_collect rs chs q dels upds nrec lastrev =
  (clears q (act_keys (visited rs chs nrec)), dels ++ filter c_del (filter ch_act (visited rs chs nrec)),
   upds ++ updates (visited rs chs nrec), nrec + N.of_nat (length (filter ch_act (visited rs chs nrec))),
   last_rev (visited rs chs nrec) lastrev).
Proof.
  induction chs as [|ch rest IH]; intros rs q dels upds nrec lastrev; cbn [batch_collect visited].
  - cbn. rewrite !app_nil_r, N.add_0_r. reflexivity.
  - rewrite skip_is_not_act. unfold act_keys, updates. cbn [filter last_rev]. destruct (ch_act ch) eqn:Ea; cbn [negb]; [|apply IH].
    cbn [filter map length]. destruct (rs <=? nrec + 1).
    + cbn [filter map length clears fold_left last_rev]. destruct (c_del ch); cbn [negb app]; rewrite ?app_nil_r; reflexivity.
    + rewrite IH. unfold act_keys, updates. cbn [clears fold_left]. rewrite Nat2N.inj_succ, <- N.add_1_l, N.add_assoc.
      destruct (c_del ch); cbn [negb]; rewrite <- ?app_assoc; reflexivity.
Qed.

(* ... and single mode in a calm environment, where every operation succeeds *)
Lemma single_calm : forall chs rs snap e q res nrec lastrev e' q' res' nrec' lastrev', calm e ->
  single rs snap chs e q res nrec lastrev = (e', q', res', nrec', lastrev') ->
  calm e' /\ e_tab e' = e_tab e /\ e_now e' = e_now e /\
  q' = clears q (act_keys (visited rs chs nrec)) /\
  res' = res ++ map (fun c => mk_res (c, true)) (updates (visited rs chs nrec)) /\
  nrec' = nrec + N.of_nat (length (filter ch_act (visited rs chs nrec))) /\ lastrev' = last_rev (visited rs chs nrec) lastrev.
Proof.
  induction chs as [|ch rest IH]; intros rs snap e q res nrec lastrev e' q' res' nrec' lastrev' C H; cbn [single visited] in *.
  - injection H as <- <- <- <- <-. cbn. rewrite app_nil_r, N.add_0_r. auto 8.
  - rewrite skip_is_not_act in H. unfold act_keys, updates. cbn [filter last_rev]. destruct (ch_act ch) eqn:Ea; cbn [negb] in H; [|exact (IH _ _ _ _ _ _ _ _ _ _ _ _ C H)].
    destruct (process_single e snap true (r_clear q (o_pk (c_obj ch))) res (c_obj ch) (c_rev ch) (c_rev ch) (c_del ch))
      as [[e1 q1] res1] eqn:Ep.
    destruct (process_single_calm _ _ _ _ _ _ _ _ _ _ _ _ C Ep) as [C1 [T1 [N1 [-> ->]]]]. rewrite clear_idem in H.
    cbn [filter map length]. destruct (rs <=? nrec + 1).
    + injection H as <- <- <- <- <-. split; [exact C1|]. split; [exact T1|]. split; [exact N1|].
      cbn [filter map length clears fold_left last_rev]. destruct (c_del ch); cbn [negb map]; rewrite ?app_nil_r; auto.
    + destruct (IH _ _ _ _ _ _ _ _ _ _ _ _ C1 H) as [C2 [T2 [N2 [-> [-> [-> ->]]]]]].
      split; [exact C2|]. split; [congruence|]. split; [congruence|]. unfold act_keys, updates. cbn [clears fold_left].
      rewrite Nat2N.inj_succ, <- N.add_1_l, N.add_assoc. destruct (c_del ch); cbn [negb map]; rewrite <- ?app_assoc; auto.
Qed.

Lemma batch_deletes_calm : forall dl snap e q e' q', calm e -> batch_deletes snap dl e q = (e', q') ->
  calm e' /\ e_tab e' = e_tab e /\ e_now e' = e_now e /\ q' = q.
Proof.
  induction dl as [|d rest IH]; intros snap e q e' q' C H; cbn [batch_deletes] in H.
  - injection H as <- <-. auto.
  - destruct (do_call e snap true 3 (c_obj d) (c_rev d)) as [e1 ok] eqn:Ec.
    destruct (do_call_calm _ _ _ _ _ _ _ _ C Ec) as [-> [C1 [T1 N1]]].
    destruct (IH snap e1 q e' q' C1 H) as [C2 [T2 [N2 Q2]]]. split; [exact C2|repeat split; congruence].
Qed.

Lemma batch_update_calls_calm : forall upds snap e acc e' l, calm e -> batch_update_calls snap upds e acc = (e', l) ->
  calm e' /\ e_tab e' = e_tab e /\ e_now e' = e_now e /\ l = acc ++ map (fun c => (c, true)) upds.
Proof.
  induction upds as [|c rest IH]; intros snap e acc e' l C H; cbn [batch_update_calls] in H.
  - injection H as <- <-. rewrite app_nil_r. auto.
  - destruct (do_call e snap true 2 (c_obj c) (c_rev c)) as [e1 ok] eqn:Ec.
    destruct (do_call_calm _ _ _ _ _ _ _ _ C Ec) as [-> [C1 [T1 N1]]].
    destruct (IH snap e1 _ e' l C1 H) as [C2 [T2 [N2 ->]]]. rewrite <- app_assoc. split; [exact C2|repeat split; congruence].
Qed.

(* in a calm environment both modes leave the same queue, results, count and cursor *)
Lemma phase1_calm : forall cf snap chs e q e1 q1 res1 nrec1 lastrev1, calm e ->
  phase1 cf snap chs e q = (e1, q1, res1, nrec1, lastrev1) ->
  calm e1 /\ e_tab e1 = e_tab e /\ e_now e1 = e_now e /\
  q1 = clears q (act_keys (visited (cf_rs cf) chs 0)) /\
  res1 = map (fun c => mk_res (c, true)) (updates (visited (cf_rs cf) chs 0)) /\
  nrec1 = N.of_nat (length (filter ch_act (visited (cf_rs cf) chs 0))) /\ lastrev1 = last_rev (visited (cf_rs cf) chs 0) 0.
Proof.
  intros cf snap chs e q e1 q1 res1 nrec1 lastrev1 C H.
  destruct (phase1_cases _ _ _ _ _ _ _ _ _ _ H) as [HS|[qa [dels [upds [e2 [q2 [l [HC [HD [HU HR]]]]]]]]]].
  - exact (single_calm _ _ _ _ _ _ _ _ _ _ _ _ _ C HS).
  - rewrite batch_collect_visited in HC. injection HC as <- <- <- <- <-. set (vis := visited (cf_rs cf) chs 0) in *.
    destruct (batch_deletes_calm _ _ _ _ _ _ C HD) as [C2 [T2 [N2 ->]]].
    destruct (batch_update_calls_calm _ _ _ _ _ _ C2 HU) as [C3 [T3 [N3 ->]]]. cbn [app] in HR.
    rewrite batch_results_spec in HR.
    + injection HR as <- <-. rewrite map_map. split; [exact C3|repeat split; congruence].
    + intros x Hx. apply in_map_iff in Hx. destruct Hx as [c [<- Hc]]. apply clears_absent.
      unfold updates in Hc. apply filter_In in Hc. apply in_map. apply Hc.
Qed.

(* a counting predicate that does not see Done objects *)
Definition done_blind (f : slot -> bool) : Prop := forall o rv, o_kind o = Done -> f (Live o rv) = false.

Lemma ahead_done_blind : forall c, done_blind (ahead c).
Proof. intros c o rv H. unfold ahead, slot_act, is_pending. rewrite H. apply andb_false_r. Qed.

Lemma commit_one_cnt : forall fixed efb now t q r t' q' f, keyed t -> done_blind f -> r_ok r = true ->
  commit_one fixed efb now (t, q) r = (t', q') -> (cnt f (t_slots t') <= cnt f (t_slots t))%nat.
Proof.
  intros fixed efb now t q r t' q' f K DB Hok H.
  destruct (commit_one_cases _ _ _ _ _ _ _ _ K H) as [[-> _]|[cur [rv [o' [_ [_ [Eo [_ [-> _]]]]]]]]]; [apply Nat.le_refl|].
  apply cnt_aset_le, DB. rewrite Eo, Hok. reflexivity.
Qed.

Lemma commit_status_calm : forall now res t q t' q', keyed t -> all_ok res ->
  commit_status_gen true true now t q res = (t', q') ->
  q' = q /\ keyed t' /\
  (forall k, ~ In k (res_pks res) -> slot_of t' k = slot_of t k) /\
  (forall f, done_blind f -> (cnt f (t_slots t') <= cnt f (t_slots t))%nat).
Proof.
  intros now res. unfold commit_status_gen. induction res as [|r rest IH]; intros t q t' q' K A H.
  - cbn in H. injection H as H1 H2. subst. split; [reflexivity|]. split; [exact K|]. split; [reflexivity|]. intros; lia.
  - cbn [fold_left] in H. destruct (commit_one true true now (t, q) r) as [t1 q1] eqn:E1.
    assert (Hok : r_ok r = true) by (apply A; left; reflexivity).
    destruct (commit_one_spec _ _ _ _ _ _ _ _ K E1) as [Ho [_ Hq]]. rewrite Hok in Hq. cbn [negb andb] in Hq. subst q1.
    pose proof (commit_one_keyed _ _ _ _ _ _ _ _ K E1) as K1.
    destruct (IH t1 q t' q' K1 (fun x Hx => A x (or_intror Hx)) H) as [Q2 [K2 [O2 C2]]].
    split; [exact Q2|]. split; [exact K2|]. split.
    + intros k Hk. cbn [res_pks map] in Hk. rewrite O2 by (intro X; apply Hk; right; exact X).
      apply Ho. intro X. apply Hk. left. symmetry. exact X.
    + intros f DB. pose proof (C2 f DB). pose proof (commit_one_cnt _ _ _ _ _ _ _ _ f K DB Hok E1). lia.
Qed.

Lemma process_retries_full : forall fuel rs snap e q res nrec, rs <= nrec ->
  process_retries fuel rs snap e q res nrec = (e, q, res, nrec).
Proof.
  intros fuel rs snap e q res nrec H. destruct fuel; cbn [process_retries]; [reflexivity|].
  destruct (N.ltb_spec nrec rs) as [X|X]; [lia|reflexivity].
Qed.

Lemma process_retries_empty : forall fuel rs snap e q res nrec, q_items q = [] ->
  process_retries fuel rs snap e q res nrec = (e, q, res, nrec).
Proof.
  intros fuel rs snap e q res nrec H. destruct fuel; cbn [process_retries]; [reflexivity|].
  unfold r_top. rewrite H. cbn [top_of]. destruct (nrec <? rs); reflexivity.
Qed.

Lemma process_retries_calm : forall fuel rs snap e q res nrec e' q' res' nrec', calm e -> all_ok res ->
  (forall it, In it (q_items q) -> ri_inq it = true /\ ri_at it <= e_now e) ->
  rs <= N.of_nat fuel + nrec ->
  process_retries fuel rs snap e q res nrec = (e', q', res', nrec') ->
  calm e' /\ e_tab e' = e_tab e /\ e_now e' = e_now e /\ all_ok res' /\
  (forall it, In it (q_items q') -> In it (q_items q)) /\
  (q_items q' = [] \/ N.of_nat (length (q_items q')) + (rs - nrec) <= N.of_nat (length (q_items q))).
Proof.
  induction fuel as [|f IH]; intros rs snap e q res nrec e' q' res' nrec' C A R F H; cbn [process_retries] in H.
  - injection H as H1 H2 H3 H4. subst. split; [exact C|]. split; [reflexivity|]. split; [reflexivity|]. split; [exact A|].
    split; [intros it Hi; exact Hi|right; lia].
  - destruct (N.ltb_spec nrec rs) as [Lt|Ge].
    2:{ injection H as H1 H2 H3 H4. subst. split; [exact C|]. split; [reflexivity|]. split; [reflexivity|]. split; [exact A|].
        split; [intros it Hi; exact Hi|right; lia]. }
    destruct (r_top q) as [it|] eqn:Et.
    2:{ injection H as H1 H2 H3 H4. subst. split; [exact C|]. split; [reflexivity|]. split; [reflexivity|]. split; [exact A|].
        split; [intros it Hi; exact Hi|left].
        destruct (q_items q') as [|i r] eqn:Eq; [reflexivity|]. exfalso.
        unfold r_top in Et. rewrite Eq in Et. pose proof (top_of_none _ Et i (or_introl eq_refl)) as X.
        destruct (R i (or_introl eq_refl)) as [Y _]. congruence. }
    unfold r_top in Et. destruct (top_of_spec _ _ Et) as [Hin _]. destruct (R it Hin) as [_ Due].
    destruct (N.ltb_spec (e_now e) (ri_at it)) as [X|_]; [lia|].
    destruct (process_single e snap false (r_pop q) res (ri_obj it) (ri_rev it) (ri_orig it) (ri_del it)) as [[e1 q1] res1] eqn:Ep.
    destruct (process_single_calm _ _ _ _ _ _ _ _ _ _ _ _ C Ep) as [C1 [T1 [N1 [Q1 R1]]]].
    assert (Items1 : q_items q1 = remove_item (ri_pk it) (q_items q)).
    { subst q1. rewrite clear_items, pop_items, Et. apply (remove_put_same (set_inq false it)). }
    assert (A1 : all_ok res1).
    { subst res1. destruct (ri_del it); [exact A|]. intros r Hr. apply in_app_or in Hr.
      destruct Hr as [Hr|[Hr|[]]]; [apply A; exact Hr|subst r; reflexivity]. }
    assert (Sub1 : forall i, In i (q_items q1) -> In i (q_items q)).
    { intros i Hi. rewrite Items1 in Hi. apply in_remove_item in Hi. apply Hi. }
    assert (Len1 : (length (q_items q1) < length (q_items q))%nat).
    { rewrite Items1. apply (remove_item_length_lt _ _ it Hin eq_refl). }
    destruct (IH rs snap e1 q1 res1 (nrec + 1) e' q' res' nrec' C1 A1) as [C2 [T2 [N2 [A2 [S2 L2]]]]].
    + intros i Hi. rewrite N1. apply R. apply Sub1. exact Hi.
    + lia.
    + exact H.
    + split; [exact C2|]. split; [congruence|]. split; [congruence|]. split; [exact A2|].
      split; [intros i Hi; apply Sub1; apply S2; exact Hi|].
      destruct L2 as [L2|L2]; [left; exact L2|right; lia].
Qed.

Lemma filter_none : forall A (g : A -> bool) l, (forall x, In x l -> g x = false) -> filter g l = [].
Proof.
  intros A g l. induction l as [|x r IH]; intro H; cbn [filter]; [reflexivity|].
  rewrite (H x (or_introl eq_refl)). apply IH. intros y Hy. apply H. right. exact Hy.
Qed.

Lemma filter_and_le : forall A (p g : A -> bool) l,
  (length (filter (fun x => p x && g x) l) <= length (filter g l))%nat.
Proof.
  intros A p g l. induction l as [|x r IH]; cbn [filter]; [lia|].
  destruct (p x), (g x); cbn [andb length]; lia.
Qed.

Lemma ahead_after_walk : forall snap c vis rem t2, twf snap -> changes_of snap c = vis ++ rem ->
  (cnt (ahead (last_rev vis c)) (t_slots t2) <= cnt (ahead (last_rev vis c)) (t_slots snap))%nat ->
  (pending_ahead t2 (last_rev vis c) <= length (filter ch_act rem))%nat /\
  pending_ahead snap c = (length (filter ch_act vis) + length (filter ch_act rem))%nat.
Proof.
  intros snap c vis rem t2 W E H.
  pose proof (changes_stream_ok snap c W) as [_ [S2 [_ [_ S5]]]]. rewrite E in S2, S5.
  assert (Hvis : forall ch, In ch vis -> c < c_rev ch) by (intros ch Hc; apply S5; apply in_or_app; left; exact Hc).
  pose proof (cursor_monotone c vis Hvis) as CM.
  split.
  - rewrite (pending_ahead_cnt t2). eapply Nat.le_trans; [exact H|].
    rewrite <- pending_ahead_cnt, (pending_ahead_later snap c _ CM), E, filter_app, app_length.
    rewrite (filter_none _ _ vis).
    + cbn [length]. apply filter_and_le.
    + intros x Hx. pose proof (sorted_le_last vis c (sorted_app_l _ _ S2) x Hx) as L.
      destruct (N.ltb_spec (last_rev vis c) (c_rev x)) as [X|X]; [lia|reflexivity].
  - unfold pending_ahead. rewrite E, filter_app, app_length. reflexivity.
Qed.

Lemma calm_ext : forall e e', e_foff e' = e_foff e -> e_hooks e' = e_hooks e -> e_attempts e' = e_attempts e ->
  calm e -> calm e'.
Proof.
  intros e e' F H A [C1 C2]. split; [congruence|]. intros k n w Hin. unfold att. rewrite A. rewrite H in Hin. apply (C2 k n w Hin).
Qed.

(* every retry item is either queued and due (the clock does not go backwards: rounds do not move it), or
   its key has a deletion / a Pending or Refreshing object ahead of the cursor — the change phase will then
   Clear the item before the retry phase can look at it (this is the only way an item that was popped but
   not re-queued, ri_inq = false, is ever removed) *)
Definition items_ready (e : env) (s : rstate) : Prop :=
  forall it, In it (q_items (k_ret s)) ->
    (ri_inq it = true /\ ri_at it <= e_now e) \/
    (exists sl, slot_of (e_tab e) (ri_pk it) = Some sl /\ k_cursor s < slot_rev sl /\ slot_act sl = true).

(* an item that survived the walk and whose key has work ahead: that work is in the unvisited rest *)
Lemma survivor_in_rest : forall snap c vis rem k sl, twf snap -> changes_of snap c = vis ++ rem ->
  slot_of snap k = Some sl -> c < slot_rev sl -> slot_act sl = true -> ~ In k (act_keys vis) ->
  In (slot_change sl) rem.
Proof.
  intros snap c vis rem k sl W E Hs Hlt Ha Hn.
  pose proof (changes_stream_ok snap c W) as [_ [_ [_ [S4 _]]]]. specialize (S4 k sl Hs Hlt). rewrite E in S4.
  apply in_app_or in S4. destruct S4 as [X|X]; [|exact X]. exfalso. apply Hn.
  destruct W as [_ [W2 _]]. destruct (W2 k sl Hs) as [K _].
  replace k with (ch_pk (slot_change sl)) by (unfold ch_pk; rewrite slot_change_obj; exact K).
  unfold act_keys. apply in_map. apply filter_In. split; [exact X|]. rewrite ch_act_slot. exact Ha.
Qed.

Lemma calm_set_tab : forall e t, calm e -> calm (set_tab e t).
Proof. intros e t C. apply (calm_ext e); try reflexivity. exact C. Qed.

Lemma round_progress : forall cf e s e' s', twf (e_tab e) -> 0 < cf_rs cf -> calm e -> items_ready e s ->
  round cf e s = (e', s') ->
  calm e' /\ e_now e' = e_now e /\ items_ready e' s' /\
  (measure e' s' + Nat.min (N.to_nat (cf_rs cf)) (measure e s) <= measure e s)%nat.
Proof.
  intros cf e s e' s' W RS C IR H.
  destruct (round_decompose _ _ _ _ _ H) as [e1 [q1 [res1 [nrec1 [lastrev1 [t1 [q2 [e3 [q3 [res2 [nrec3 [t2 [q4
    [P1 [Cm1 [PR [Cm2 [Tt [Tn [Tf [Th [Ta [Tc Tq]]]]]]]]]]]]]]]]]]]]]]].
  destruct (phase1_calm _ _ _ _ _ _ _ _ _ _ C P1) as [C1 [T1 [N1 [Eq [Er [W2 W5]]]]]].
  destruct (visited_spec (changes_of (e_tab e) (k_cursor s)) (cf_rs cf) 0) as [rem [W1 [W3 W4]]].
  set (vis := visited (cf_rs cf) (changes_of (e_tab e) (k_cursor s)) 0) in *. cbn [N.add] in W3, W4. rewrite <- W2 in W3, W4.
  assert (W7 : forall it, In it (q_items q1) -> In it (q_items (k_ret s)) /\ ~ In (ri_pk it) (act_keys vis)) by (rewrite Eq; apply clears_in).
  pose proof (clears_len (act_keys vis) (k_ret s)) as W6. rewrite <- Eq in W6.
  assert (A1 : all_ok res1) by (rewrite Er; intros r Hr; apply in_map_iff in Hr; destruct Hr as [c [<- _]]; reflexivity).
  assert (RK : forall r, In r res1 -> In (o_pk (r_obj r)) (act_keys vis)).
  { rewrite Er. intros r Hr. apply in_map_iff in Hr. destruct Hr as [c [<- Hc]]. apply filter_In in Hc. apply (in_map ch_pk), Hc. }
  pose proof (changes_stream_ok (e_tab e) (k_cursor s) W) as SOK.
  assert (Hvis : forall ch, In ch vis -> k_cursor s < c_rev ch).
  { destruct SOK as [_ [_ [_ [_ S5]]]]. intros ch Hc. apply S5. rewrite W1. apply in_or_app. left. exact Hc. }
  assert (Ec : curs (k_cursor s) lastrev1 = last_rev vis (k_cursor s)) by (rewrite W5; apply curs_last; exact Hvis).
  rewrite Ec in Tc.
  pose proof SOK as SOK'. rewrite W1 in SOK'. apply (stream_split _ _ _ _ W) in SOK'.
  rewrite T1 in Cm1.
  destruct (commit_status_calm _ _ _ _ _ _ (twf_keyed _ W) A1 Cm1) as [Q2 [K1 [O1 Cn1]]]. subst q2.
  assert (Untouched : forall it, In it (q_items q1) -> slot_of t1 (ri_pk it) = slot_of (e_tab e) (ri_pk it)).
  { intros it Hi. apply O1. intro X. unfold res_pks in X. apply in_map_iff in X. destruct X as [r [X1 X2]].
    destruct (W7 it Hi) as [_ Y]. apply Y. rewrite <- X1. apply RK. exact X2. }
  set (a := length (filter ch_act vis)) in *.
  destruct (N.ltb_spec nrec1 (cf_rs cf)) as [Lt|Ge].
  - (* the stream was exhausted: the retry phase runs *)
    assert (Rem : rem = []) by (destruct W3 as [X|X]; [exact X|lia]). subst rem.
    assert (R1 : forall it, In it (q_items q1) -> ri_inq it = true /\ ri_at it <= e_now (set_tab e1 t1)).
    { intros it Hi. destruct (W7 it Hi) as [Hq Hnk]. destruct (IR it Hq) as [[A B]|[sl [A [B D]]]].
      - split; [exact A|]. cbn [set_tab e_now]. rewrite N1. exact B.
      - destruct (survivor_in_rest _ _ _ _ _ _ W W1 A B D Hnk). }
    assert (Fuel : cf_rs cf <= N.of_nat (N.to_nat (cf_rs cf)) + nrec1) by lia.
    destruct (process_retries_calm _ _ _ _ _ _ _ _ _ _ _ (calm_set_tab _ t1 C1) (fun r (Hr : In r []) => match Hr with end) R1
                Fuel PR) as [C3 [T3 [N3 [A3 [S3 L3]]]]].
    cbn [set_tab e_tab e_now] in T3, N3. rewrite T3 in Cm2.
    destruct (commit_status_calm _ _ _ _ _ _ K1 A3 Cm2) as [Q4 [K2 [O2 Cn2]]]. rewrite Q4 in Tq.
    split; [apply (calm_ext e3); assumption|]. split; [congruence|]. split.
    + intros it Hi. rewrite Tq in Hi. left. destruct (R1 it (S3 it Hi)) as [X Y]. split; [exact X|]. cbn [set_tab e_now] in Y. congruence.
    + unfold measure. rewrite Tt, Tc, Tq.
      destruct (ahead_after_walk (e_tab e) (k_cursor s) vis [] t2 W W1) as [PA PB].
      { pose proof (Cn1 _ (ahead_done_blind (last_rev vis (k_cursor s)))). pose proof (Cn2 _ (ahead_done_blind (last_rev vis (k_cursor s)))). lia. }
      cbn [filter length] in PA, PB. fold a in PB. rewrite PB.
      destruct L3 as [L3|L3]; [rewrite L3; cbn [length]; lia|lia].
  - (* the round-size limit stopped the walk: no retry is processed in this round *)
    rewrite process_retries_full in PR by exact Ge. injection PR as X1 X2 X3 X4. subst e3 q3 res2 nrec3.
    unfold commit_status_gen in Cm2. cbn [fold_left set_tab e_tab] in Cm2. injection Cm2 as Y1 Y2. rewrite <- Y1 in Tt. rewrite <- Y2 in Tq.
    split; [apply (calm_ext (set_tab e1 t1)); try assumption; apply calm_set_tab; exact C1|].
    split; [rewrite Tn; cbn [set_tab e_now]; exact N1|]. split.
    + intros it Hi. rewrite Tq in Hi. destruct (W7 it Hi) as [Hq Hnk]. destruct (IR it Hq) as [[A B]|[sl [A [B D]]]].
      * left. split; [exact A|]. rewrite Tn. cbn [set_tab e_now]. rewrite N1. exact B.
      * right. exists sl. pose proof (survivor_in_rest _ _ _ _ _ _ W W1 A B D Hnk) as X.
        split; [rewrite Tt, (Untouched it Hi); exact A|]. split; [|exact D].
        rewrite Tc. destruct SOK' as [_ [_ [_ [_ S5]]]]. specialize (S5 _ X). rewrite slot_change_rev in S5. exact S5.
    + unfold measure. rewrite Tt, Tc, Tq.
      destruct (ahead_after_walk (e_tab e) (k_cursor s) vis rem t1 W W1 (Cn1 _ (ahead_done_blind _))) as [PA PB].
      fold a in PB. rewrite PB. lia.
Qed.

Lemma single_idle : forall chs rs snap e q res nrec lastrev, (forall ch, In ch chs -> ch_act ch = false) ->
  single rs snap chs e q res nrec lastrev = (e, q, res, nrec, last_rev chs lastrev).
Proof.
  induction chs as [|ch rest IH]; intros rs snap e q res nrec lastrev H; cbn [single last_rev]; [reflexivity|].
  rewrite skip_is_not_act, (H ch (or_introl eq_refl)). cbn [negb]. apply IH. intros x Hx. apply H. right. exact Hx.
Qed.

Lemma batch_collect_idle : forall chs rs q dels upds nrec lastrev, (forall ch, In ch chs -> ch_act ch = false) ->
  batch_collect rs chs q dels upds nrec lastrev = (q, dels, upds, nrec, last_rev chs lastrev).
Proof.
  induction chs as [|ch rest IH]; intros rs q dels upds nrec lastrev H; cbn [batch_collect last_rev]; [reflexivity|].
  rewrite skip_is_not_act, (H ch (or_introl eq_refl)). cbn [negb]. apply IH. intros x Hx. apply H. right. exact Hx.
Qed.

Lemma phase1_idle : forall cf snap chs e q, (forall ch, In ch chs -> ch_act ch = false) ->
  phase1 cf snap chs e q = (e, q, [], 0, last_rev chs 0).
Proof.
  intros cf snap chs e q H. unfold phase1. destruct (cf_batch cf).
  - rewrite (batch_collect_idle _ _ _ _ _ _ _ H). reflexivity.
  - apply single_idle. exact H.
Qed.

Lemma filter_nil_all : forall A (g : A -> bool) l, filter g l = [] -> forall x, In x l -> g x = false.
Proof.
  intros A g l. induction l as [|y r IH]; intros H x Hx; [destruct Hx|]. cbn [filter] in H.
  destruct (g y) eqn:E; [discriminate|]. destruct Hx as [Hx|Hx]; [subst x; exact E|apply IH; assumption].
Qed.

Lemma stream_exhausted : forall snap c, twf snap -> stream_ok snap c [] -> changes_of snap c = [].
Proof.
  intros snap c W [_ [_ [_ [S4 _]]]]. destruct (changes_of snap c) as [|ch l] eqn:E; [reflexivity|exfalso].
  destruct (changes_stream_ok snap c W) as [_ [_ [T3 [_ T5]]]]. rewrite E in T3, T5.
  destruct (T3 ch (or_introl eq_refl)) as [sl [A B]]. specialize (T5 ch (or_introl eq_refl)).
  rewrite <- B, slot_change_rev in T5. apply (S4 _ _ A T5).
Qed.

(* a round that finds no retry item and no deletion / Pending / Refreshing object ahead of the cursor calls no
   operation, writes nothing, and leaves the cursor at the end of the stream: the reconciler is quiescent.
   No hypothesis on faults, hooks or the clock is needed. *)
Lemma idle_round : forall cf e s e' s', twf (e_tab e) -> q_items (k_ret s) = [] ->
  pending_ahead (e_tab e) (k_cursor s) = 0%nat -> round cf e s = (e', s') ->
  e_tab e' = e_tab e /\ e_now e' = e_now e /\ e_foff e' = e_foff e /\ e_hooks e' = e_hooks e /\
  e_attempts e' = e_attempts e /\ k_ret s' = k_ret s /\ k_cursor s <= k_cursor s' /\ quiescent e' s'.
Proof.
  intros cf e s e' s' W QE PZ H.
  destruct (round_decompose _ _ _ _ _ H) as [e1 [q1 [res1 [nrec1 [lastrev1 [t1 [q2 [e3 [q3 [res2 [nrec3 [t2 [q4
    [P1 [Cm1 [PR [Cm2 [Tt [Tn [Tf [Th [Ta [Tc Tq]]]]]]]]]]]]]]]]]]]]]]].
  unfold pending_ahead in PZ. apply length_zero_iff_nil in PZ. pose proof (filter_nil_all _ _ _ PZ) as NA.
  rewrite (phase1_idle _ _ _ _ _ NA) in P1. injection P1 as X1 X2 X3 X4 X5. subst e1 q1 res1 nrec1 lastrev1.
  unfold commit_status_gen in Cm1. cbn [fold_left] in Cm1. injection Cm1 as Y1 Y2. subst t1 q2.
  rewrite process_retries_empty in PR by exact QE. injection PR as Z1 Z2 Z3 Z4. subst e3 q3 res2 nrec3.
  unfold commit_status_gen in Cm2. cbn [fold_left set_tab e_tab] in Cm2. injection Cm2 as V1 V2. subst t2 q4.
  pose proof (changes_stream_ok (e_tab e) (k_cursor s) W) as SOK.
  assert (Hvis : forall ch, In ch (changes_of (e_tab e) (k_cursor s)) -> k_cursor s < c_rev ch).
  { destruct SOK as [_ [_ [_ [_ S5]]]]. exact S5. }
  rewrite (curs_last _ _ Hvis) in Tc.
  split; [exact Tt|]. split; [exact Tn|]. split; [exact Tf|]. split; [exact Th|]. split; [exact Ta|]. split; [exact Tq|].
  split; [rewrite Tc; apply cursor_monotone; exact Hvis|].
  split; [rewrite Tq; exact QE|]. rewrite Tt, Tc. apply (stream_exhausted _ _ W).
  apply (stream_split _ _ [] _ W). rewrite app_nil_r. exact SOK.
Qed.

Fixpoint iter_round (cf : cfg) (n : nat) (st : env * rstate) : env * rstate :=
  match n with O => st | S m => iter_round cf m (round cf (fst st) (snd st)) end.

Lemma iter_round_add : forall cf n m st, iter_round cf (n + m) st = iter_round cf m (iter_round cf n st).
Proof. intros cf n. induction n as [|n IH]; intros m st; cbn [Nat.add iter_round]; [reflexivity|apply IH]. Qed.

Lemma full_inv_twf : forall e s, full_inv e s -> twf (e_tab e).
Proof. intros e s [[[W _] _] _]. exact W. Qed.

Lemma quiescent_no_work : forall e s, quiescent e s -> q_items (k_ret s) = [] /\ pending_ahead (e_tab e) (k_cursor s) = 0%nat.
Proof. intros e s [Q1 Q2]. split; [exact Q1|]. unfold pending_ahead. rewrite Q2. reflexivity. Qed.

(* idempotence: a quiescent reconciler stays quiescent under further rounds (whatever the fault oracle, the
   hooks and the clock do — no operation is called): table, retry queue and cursor do not move; only a due
   prune tick adds a Prune call to the log *)
Theorem quiescent_stable : forall cf e s e' s', full_inv e s -> quiescent e s -> round cf e s = (e', s') ->
  quiescent e' s' /\ e_tab e' = e_tab e /\ k_ret s' = k_ret s /\ k_cursor s' = k_cursor s.
Proof.
  intros cf e s e' s' FI Q H. destruct (quiescent_no_work e s Q) as [QE PZ].
  pose proof (full_inv_twf _ _ FI) as W.
  destruct (idle_round cf e s e' s' W QE PZ H) as [T [_ [_ [_ [_ [R [_ Q']]]]]]].
  split; [exact Q'|]. split; [exact T|]. split; [exact R|].
  (* the cursor does not move: the stream is empty *)
  destruct (round_decompose _ _ _ _ _ H) as [e1 [q1 [res1 [nrec1 [lastrev1 [t1 [q2 [e3 [q3 [res2 [nrec3 [t2 [q4
    [P1 [_ [_ [_ [_ [_ [_ [_ [_ [Tc _]]]]]]]]]]]]]]]]]]]]]]].
  destruct Q as [_ Q2]. rewrite Q2 in P1. rewrite phase1_idle in P1 by (intros ch []).
  injection P1 as X1 X2 X3 X4 X5. subst lastrev1. exact Tc.
Qed.

Theorem quiescent_forever : forall cf m e s, full_inv e s -> quiescent e s ->
  quiescent (fst (iter_round cf m (e, s))) (snd (iter_round cf m (e, s))) /\
  full_inv (fst (iter_round cf m (e, s))) (snd (iter_round cf m (e, s))) /\
  e_tab (fst (iter_round cf m (e, s))) = e_tab e /\
  k_ret (snd (iter_round cf m (e, s))) = k_ret s /\ k_cursor (snd (iter_round cf m (e, s))) = k_cursor s.
Proof.
  intros cf m. induction m as [|m IH]; intros e s FI Q; cbn [iter_round fst snd].
  - split; [exact Q|]. split; [exact FI|]. split; [reflexivity|]. split; reflexivity.
  - destruct (round cf e s) as [e1 s1] eqn:E.
    destruct (quiescent_stable cf e s e1 s1 FI Q E) as [Q1 [T1 [R1 C1]]].
    pose proof (round_keeps_full cf e s e1 s1 FI E) as FI1.
    destruct (IH e1 s1 FI1 Q1) as [Q2 [F2 [T2 [R2 C2]]]].
    split; [exact Q2|]. split; [exact F2|]. split; [congruence|]. split; congruence.
Qed.

Lemma converges_in : forall cf k e s, full_inv e s -> 0 < cf_rs cf -> calm e -> items_ready e s ->
  N.of_nat (measure e s) <= N.of_nat k * cf_rs cf ->
  exists n, (n <= k + 1)%nat /\
    quiescent (fst (iter_round cf n (e, s))) (snd (iter_round cf n (e, s))) /\
    full_inv (fst (iter_round cf n (e, s))) (snd (iter_round cf n (e, s))) /\
    calm (fst (iter_round cf n (e, s))) /\ e_now (fst (iter_round cf n (e, s))) = e_now e.
Proof.
  intros cf k. induction k as [|k IH]; intros e s FI RS C IR M.
  - exists 1%nat. split; [lia|]. cbn [iter_round fst snd]. destruct (round cf e s) as [e1 s1] eqn:E. cbn [fst snd].
    assert (MZ : measure e s = 0%nat) by lia. unfold measure in MZ.
    assert (QE : q_items (k_ret s) = []) by (apply length_zero_iff_nil; lia).
    assert (PZ : pending_ahead (e_tab e) (k_cursor s) = 0%nat) by lia.
    destruct (idle_round cf e s e1 s1 (full_inv_twf _ _ FI) QE PZ E) as [T [Nw [Ff [Hh [Aa [R [_ Q']]]]]]].
    split; [exact Q'|]. split; [apply (round_keeps_full cf e s e1 s1 FI E)|]. split; [apply (calm_ext e); assumption|exact Nw].
  - destruct (round cf e s) as [e1 s1] eqn:E.
    destruct (round_progress cf e s e1 s1 (full_inv_twf _ _ FI) RS C IR E) as [C1 [N1 [IR1 M1]]].
    pose proof (round_keeps_full cf e s e1 s1 FI E) as FI1.
    destruct (IH e1 s1 FI1 RS C1 IR1) as [n [Hn [Q [F2 [C2 N2]]]]]; [lia|].
    exists (S n). split; [lia|]. cbn [iter_round fst snd]. rewrite E.
    split; [exact Q|]. split; [exact F2|]. split; [exact C2|congruence].
Qed.

(* the explicit bound: ceil((#pending changes ahead + #retry items) / roundSize) + 1 rounds *)
Definition bound (cf : cfg) (e : env) (s : rstate) : nat :=
  (N.to_nat ((N.of_nat (measure e s) + cf_rs cf - 1) / cf_rs cf) + 1)%nat.

Lemma ceil_div_covers : forall m r, 0 < r -> m <= ((m + r - 1) / r) * r.
Proof.
  intros m r H. assert (Hr : r <> 0) by lia. pose proof (N.mul_succ_div_gt (m + r - 1) r Hr) as X.
  rewrite N.mul_succ_r in X. lia.
Qed.

Theorem converges_bounded : forall cf e s, full_inv e s -> 0 < cf_rs cf -> calm e -> items_ready e s ->
  exists n, (n <= bound cf e s)%nat /\
    quiescent (fst (iter_round cf n (e, s))) (snd (iter_round cf n (e, s))) /\
    reconciled (fst (iter_round cf n (e, s))).
Proof.
  intros cf e s FI RS C IR.
  destruct (converges_in cf (N.to_nat ((N.of_nat (measure e s) + cf_rs cf - 1) / cf_rs cf)) e s FI RS C IR) as [n [Hn [Q [F2 _]]]].
  - rewrite N2Nat.id. apply ceil_div_covers. exact RS.
  - exists n. split; [exact Hn|]. split; [exact Q|]. apply (quiescent_is_reconciled _ _ F2 Q).
Qed.

(* ... and it stays there: from some round n <= bound on, EVERY later state is quiescent and reconciled, and
   the table is the table reached at round n *)
Theorem converges_and_stays : forall cf e s, full_inv e s -> 0 < cf_rs cf -> calm e -> items_ready e s ->
  exists n, (n <= bound cf e s)%nat /\
    forall m, (n <= m)%nat ->
      quiescent (fst (iter_round cf m (e, s))) (snd (iter_round cf m (e, s))) /\
      reconciled (fst (iter_round cf m (e, s))) /\
      e_tab (fst (iter_round cf m (e, s))) = e_tab (fst (iter_round cf n (e, s))).
Proof.
  intros cf e s FI RS C IR.
  destruct (converges_in cf (N.to_nat ((N.of_nat (measure e s) + cf_rs cf - 1) / cf_rs cf)) e s FI RS C IR) as [n [Hn [Q [F2 _]]]].
  - rewrite N2Nat.id. apply ceil_div_covers. exact RS.
  - exists n. split; [exact Hn|]. intros m Hm. replace m with (n + (m - n))%nat by lia. rewrite iter_round_add.
    destruct (iter_round cf n (e, s)) as [en sn] eqn:En. cbn [fst snd] in *.
    destruct (quiescent_forever cf (m - n) en sn F2 Q) as [Q' [F' [T' _]]].
    split; [exact Q'|]. split; [apply (quiescent_is_reconciled _ _ F' Q')|exact T'].
Qed.

(* no hook registered at all, every retry item queued and due *)
Corollary converges_bounded_simple : forall cf e s, full_inv e s -> 0 < cf_rs cf ->
  e_foff e = true -> e_hooks e = [] ->
  (forall it, In it (q_items (k_ret s)) -> ri_inq it = true /\ ri_at it <= e_now e) ->
  exists n, (n <= bound cf e s)%nat /\
    forall m, (n <= m)%nat ->
      quiescent (fst (iter_round cf m (e, s))) (snd (iter_round cf m (e, s))) /\
      reconciled (fst (iter_round cf m (e, s))).
Proof.
  intros cf e s FI RS F Hh R.
  destruct (converges_and_stays cf e s FI RS (conj F (no_hooks_inert e Hh))) as [n [Hn S]].
  - intros it Hi. left. apply R. exact Hi.
  - exists n. split; [exact Hn|]. intros m Hm. destruct (S m Hm) as [A [B _]]. split; assumption.
Qed.

Definition all_due_b (e : env) (s : rstate) : bool :=
  forallb (fun it => ri_inq it && (ri_at it <=? e_now e)) (q_items (k_ret s)).

Lemma all_due_ready : forall e s, all_due_b e s = true -> items_ready e s.
Proof.
  intros e s H it Hi. left. unfold all_due_b in H. rewrite forallb_forall in H. specialize (H it Hi).
  apply andb_prop in H. destruct H as [A B]. apply N.leb_le in B. split; assumption.
Qed.

Lemma reach_full_inv : forall cf e s, reach cf (e, s) -> full_inv e s.
Proof. intros cf e s H. exact (nothing_forgotten cf (e, s) H). Qed.

Lemma iter_round_fix : forall cf e s, round cf e s = (e, s) -> forall n, iter_round cf n (e, s) = (e, s).
Proof. intros cf e s H n. induction n as [|n IH]; [reflexivity|]. cbn [iter_round fst snd]. rewrite H. exact IH. Qed.

(* single mode, round size 2; key 1 fails its first Update (-> Error + retry item), key 2 is reconciled and
   then deleted, keys 3 and 4 are pending; then faults stop and the clock passes every retryAt.
   measure = 3 changes ahead + 1 retry item = 4, bound = ceil(4/2) + 1 = 3 rounds — and exactly 3 are needed *)
Definition ex_cf : cfg := mkCfg false 2 10 40 0 false.
Definition ex_e1 : env := do_write (do_write (do_write (add_fault (env0 ex_cf) 1 0) 0 1) 0 2) 0 3.
Definition ex_e2 : env := fst (round ex_cf ex_e1 (rstate0 ex_cf)).
Definition ex_s : rstate := snd (round ex_cf ex_e1 (rstate0 ex_cf)).
Definition ex_e : env := faults_off (set_now (do_write (do_write ex_e2 1 2) 0 4) 1000).

Lemma ex_reach : reach ex_cf (ex_e, ex_s).
Proof.
  unfold ex_e. eapply reach_env; [|apply es_foff]. eapply reach_env; [|apply es_time].
  eapply reach_env; [|apply es_write]. eapply reach_env; [|apply es_write].
  unfold ex_e2, ex_s. rewrite <- surjective_pairing. apply reach_round.
  unfold ex_e1. eapply reach_env; [|apply es_write]. eapply reach_env; [|apply es_write]. eapply reach_env; [|apply es_write].
  eapply reach_env; [|apply es_fault]. apply reach_init.
Qed.

Example converges_bounded_nonvacuous :
  reach ex_cf (ex_e, ex_s) /\ full_inv ex_e ex_s /\ 0 < cf_rs ex_cf /\ calm ex_e /\ items_ready ex_e ex_s /\
  measure ex_e ex_s = 4%nat /\ length (q_items (k_ret ex_s)) = 1%nat /\ bound ex_cf ex_e ex_s = 3%nat /\
  ~ quiescent (fst (iter_round ex_cf 2 (ex_e, ex_s))) (snd (iter_round ex_cf 2 (ex_e, ex_s))) /\
  quiescent (fst (iter_round ex_cf 3 (ex_e, ex_s))) (snd (iter_round ex_cf 3 (ex_e, ex_s))) /\
  live_objs (e_tab (fst (iter_round ex_cf 3 (ex_e, ex_s)))) = [(1, 1, 2); (3, 3, 2); (4, 4, 2)] /\
  e_target (fst (iter_round ex_cf 3 (ex_e, ex_s))) = [(3, 3); (4, 4); (1, 1)].
Proof.
  split; [exact ex_reach|]. split; [apply (reach_full_inv ex_cf); exact ex_reach|]. split; [reflexivity|].
  split; [split; [vm_compute; reflexivity|apply no_hooks_inert; vm_compute; reflexivity]|].
  split; [apply all_due_ready; vm_compute; reflexivity|].
  split; [vm_compute; reflexivity|]. split; [vm_compute; reflexivity|]. split; [vm_compute; reflexivity|].
  split.
  { assert (X : changes_of (e_tab (fst (iter_round ex_cf 2 (ex_e, ex_s)))) (k_cursor (snd (iter_round ex_cf 2 (ex_e, ex_s)))) <> [])
      by (vm_compute; discriminate).
    intros [_ Q]. exact (X Q). }
  split; [split; vm_compute; reflexivity|]. split; vm_compute; reflexivity.
Qed.

(* (a) full_inv alone is not enough: it does not say that an item that was popped and not re-queued
   (ri_inq = false) has work ahead of the cursor. Such an item is removed only by retries.Clear in the
   change phase; in the state below (a Done object behind the cursor + a stale item for its key) every
   further round is the identity and the queue never drains. items_ready excludes the state; in reachable
   states the clause holds (ItemsInv.v). *)
Definition stale_cf : cfg := mkCfg false 2 10 40 0 false.
Definition stale_obj : obj := mkObj 1 1 Done 2 0.
Definition stale_e : env :=
  mkEnv (mkTable [(1, Live stale_obj 2)] 2 3 false) 100 [] [] [] true 1 [1] [] [(1, 1)].
Definition stale_s : rstate :=
  mkR 2 (mkRet [mkItem (mkObj 1 1 Pending 1 0) 1 1 false 20 1 false] None 10 40) 2 1 true false false 0.

Lemma stale_full_inv : full_inv stale_e stale_s.
Proof.
  assert (S1 : forall k, slot_of (e_tab stale_e) k = if 1 =? k then Some (Live stale_obj 2) else None) by reflexivity.
  split; [|split; [cbn; lia|intros it [Hi|[]] Hd; subst it; discriminate]].
  split; [|split; [cbn; lia|]].
  - split; [|split].
    + split; [constructor; [intros []|constructor]|]. split.
      * intros k sl Hs. rewrite S1 in Hs. destruct (N.eqb_spec 1 k) as [E|E]; [|discriminate].
        injection Hs as Hs. subst sl k. cbn. repeat split; lia.
      * intros k1 k2 s1 s2 H1 H2 _. rewrite S1 in H1, H2.
        destruct (N.eqb_spec 1 k1) as [E1|E1]; [|discriminate]. destruct (N.eqb_spec 1 k2) as [E2|E2]; [|discriminate]. congruence.
    + unfold uniq. cbn. constructor; [intros []|constructor].
    + intros it [Hi|[]]. subst it. cbn. lia.
  - intro pk. unfold covered. rewrite S1. destruct (1 =? pk); exact I.
Qed.

Theorem converges_needs_items_ready_refuted :
  full_inv stale_e stale_s /\ 0 < cf_rs stale_cf /\ calm stale_e /\
  (forall it, In it (q_items (k_ret stale_s)) -> ri_at it <= e_now stale_e) /\
  forall n, ~ quiescent (fst (iter_round stale_cf n (stale_e, stale_s))) (snd (iter_round stale_cf n (stale_e, stale_s))).
Proof.
  split; [exact stale_full_inv|]. split; [reflexivity|]. split; [split; [reflexivity|apply no_hooks_inert; reflexivity]|].
  split; [intros it [Hi|[]]; subst it; vm_compute; discriminate|].
  assert (Fix : forall n, iter_round stale_cf n (stale_e, stale_s) = (stale_e, stale_s))
    by (apply iter_round_fix; vm_compute; reflexivity).
  intros n. rewrite Fix. cbn [fst snd]. intros [Q _]. discriminate.
Qed.

(* (b) the round size must be positive (reconciler/config.go rejects IncrementalRoundSize <= 0): with round
   size 0 the retry phase never runs and a retry item stays for ever — in a reachable state *)
Definition rs0_cf : cfg := mkCfg false 0 10 40 0 false.
Definition rs0_r := round rs0_cf (do_write (add_fault (env0 rs0_cf) 1 0) 0 1) (rstate0 rs0_cf).
Definition rs0_r2 := round rs0_cf (faults_off (set_now (fst rs0_r) 1000)) (snd rs0_r).
Definition rs0_e : env := fst rs0_r2.
Definition rs0_s : rstate := snd rs0_r2.

Theorem converges_needs_positive_round_size_refuted :
  reach rs0_cf (rs0_e, rs0_s) /\ cf_rs rs0_cf = 0 /\ calm rs0_e /\ items_ready rs0_e rs0_s /\
  forall n, ~ quiescent (fst (iter_round rs0_cf n (rs0_e, rs0_s))) (snd (iter_round rs0_cf n (rs0_e, rs0_s))).
Proof.
  split.
  { unfold rs0_e, rs0_s, rs0_r2. rewrite <- surjective_pairing. apply reach_round.
    eapply reach_env; [|apply es_foff]. eapply reach_env; [|apply es_time].
    unfold rs0_r. rewrite <- surjective_pairing. apply reach_round.
    eapply reach_env; [|apply es_write]. eapply reach_env; [|apply es_fault]. apply reach_init. }
  split; [reflexivity|]. split; [split; [vm_compute; reflexivity|apply no_hooks_inert; vm_compute; reflexivity]|]. split.
  { apply all_due_ready. vm_compute. reflexivity. }
  assert (Fix : forall n, iter_round rs0_cf n (rs0_e, rs0_s) = (rs0_e, rs0_s))
    by (apply iter_round_fix; vm_compute; reflexivity).
  assert (X : q_items (k_ret rs0_s) <> []) by (vm_compute; discriminate).
  intros n. rewrite Fix. cbn [fst snd]. intros [Q _]. exact (X Q).
Qed.

Print Assumptions converges_bounded.
Print Assumptions converges_and_stays.
Print Assumptions quiescent_forever.
Print Assumptions converges_bounded_nonvacuous.
Print Assumptions converges_needs_items_ready_refuted.
Print Assumptions converges_needs_positive_round_size_refuted.
