(* Reconciler/Progress.v — once the fault oracle only answers ok (e_foff = true), a round never queues a
   retry: the set of keys with retry items only shrinks (one half of the progress argument of C14
   bounded convergence; the counting of processed changes per round is in Converge.v). *)
From Coq Require Import List NArith Bool Lia ZifyN ZifyBool.
From SV Require Import Reconciler.Retries Reconciler.Model Reconciler.RetriesProofs Reconciler.CommitProofs
  Reconciler.RoundProofs Reconciler.CoverProofs Reconciler.StepProofs Reconciler.TableWf Reconciler.StreamProofs
  Reconciler.PhaseProofs Reconciler.BatchProofs Reconciler.RoundInv Reconciler.Runs.
Import ListNotations.
Open Scope N_scope.

Definition qsub (q' q : retries) : Prop :=
  forall it', In it' (q_items q') -> exists it, In it (q_items q) /\ ri_pk it = ri_pk it'.

Lemma qsub_refl : forall q, qsub q q.
Proof. intros q it H. exists it. split; [exact H|reflexivity]. Qed.
Lemma qsub_trans : forall a b c, qsub a b -> qsub b c -> qsub a c.
Proof. intros a b c H1 H2 it Hin. destruct (H1 it Hin) as [i1 [A B]]. destruct (H2 i1 A) as [i2 [C D]]. exists i2. split; [exact C|congruence]. Qed.
Lemma qsub_clear : forall q k, qsub (r_clear q k) q.
Proof. intros q k it H. apply in_clear_items in H. exists it. split; [exact H|reflexivity]. Qed.
Lemma qsub_pop : forall q, qsub (r_pop q) q.
Proof.
  intros q it H. rewrite pop_items in H. destruct (top_of (q_items q)) as [t|] eqn:Et; [|exists it; split; [exact H|reflexivity]].
  apply in_put_item in H. destruct H as [H|H]; [|exists it; split; [exact H|reflexivity]].
  subst it. destruct (top_of_spec _ _ Et) as [A _]. exists t. split; [exact A|reflexivity].
Qed.

(* with faults switched off every scripted operation succeeds *)
Lemma do_call_foff : forall e snap fresh op o rev e' ok, e_foff e = true ->
  do_call e snap fresh op o rev = (e', ok) -> ok = true /\ e_foff e' = true.
Proof.
  intros e snap fresh op o rev e' ok F H. destruct (do_call_env _ _ _ _ _ _ _ _ H) as [_ [_ [_ [F' Ok]]]].
  split; [exact (Ok F)|congruence].
Qed.

Definition all_ok (res : list opres) : Prop := forall r, In r res -> r_ok r = true.

Lemma process_single_foff : forall e snap fresh q res o rev orig del e' q' res', e_foff e = true -> all_ok res ->
  process_single e snap fresh q res o rev orig del = (e', q', res') ->
  e_foff e' = true /\ all_ok res' /\ qsub q' q.
Proof.
  intros e snap fresh q res o rev orig del e' q' res' F A H. unfold process_single in H. destruct del.
  - destruct (do_call e snap fresh 1 o rev) as [e1 ok] eqn:Ec. destruct (do_call_foff _ _ _ _ _ _ _ _ F Ec) as [X Y]. subst ok.
    injection H as H1 H2 H3. subst e' q' res'. split; [exact Y|split; [exact A|apply qsub_clear]].
  - destruct (do_call e snap fresh 0 o rev) as [e1 ok] eqn:Ec. destruct (do_call_foff _ _ _ _ _ _ _ _ F Ec) as [X Y]. subst ok.
    injection H as H1 H2 H3. subst e' q' res'. split; [exact Y|split; [|apply qsub_clear]].
    intros r Hr. apply in_app_or in Hr. destruct Hr as [Hr|[Hr|[]]]; [apply A; exact Hr|subst r; reflexivity].
Qed.

Lemma single_foff : forall chs rs snap e q res nrec lastrev e' q' res' nrec' lastrev', e_foff e = true -> all_ok res ->
  single rs snap chs e q res nrec lastrev = (e', q', res', nrec', lastrev') ->
  e_foff e' = true /\ all_ok res' /\ qsub q' q.
Proof.
  intros chs rs snap e q res nrec lastrev e' q' res' nrec' lastrev' F A.
  apply (single_ind (fun e1 q1 res1 => e_foff e1 = true /\ all_ok res1 /\ qsub q1 q)); [|split; [exact F|split; [exact A|apply qsub_refl]]].
  intros e0 q0 res0 ch e1 q1 res1 [F0 [A0 S0]] Ep.
  destruct (process_single_foff _ _ _ _ _ _ _ _ _ _ _ _ F0 A0 Ep) as [F1 [A1 S1]].
  split; [exact F1|split; [exact A1|]]. apply (qsub_trans _ _ _ S1), (qsub_trans _ _ _ (qsub_clear _ _) S0).
Qed.

Lemma process_retries_foff : forall fuel rs snap e q res nrec e' q' res' nrec', e_foff e = true -> all_ok res ->
  process_retries fuel rs snap e q res nrec = (e', q', res', nrec') ->
  e_foff e' = true /\ all_ok res' /\ qsub q' q.
Proof.
  intros fuel rs snap e q res nrec e' q' res' nrec' F A.
  apply (process_retries_ind (fun e1 q1 res1 => e_foff e1 = true /\ all_ok res1 /\ qsub q1 q)); [|split; [exact F|split; [exact A|apply qsub_refl]]].
  intros e0 q0 res0 it e1 q1 res1 [F0 [A0 S0]] _ Ep.
  destruct (process_single_foff _ _ _ _ _ _ _ _ _ _ _ _ F0 A0 Ep) as [F1 [A1 S1]].
  split; [exact F1|split; [exact A1|]]. apply (qsub_trans _ _ _ S1), (qsub_trans _ _ _ (qsub_pop _) S0).
Qed.

Lemma commit_status_all_ok : forall fixed efb now res t q t' q', all_ok res ->
  commit_status_gen fixed efb now t q res = (t', q') -> q' = q.
Proof.
  intros fixed efb now res t q t' q' A H.
  apply (commit_status_ind fixed efb now (fun _ q0 res => q0 = q /\ all_ok res)) in H; [apply H| |auto].
  intros t0 q0 r rest t1 q1 [-> A0] E. split; [|intros x Hx; apply A0; right; exact Hx].
  destruct (commit_one_queue _ _ _ _ _ _ _ _ E) as [X|[X _]]; [exact X|]. rewrite (A0 r (or_introl eq_refl)) in X. discriminate.
Qed.

Lemma batch_collect_sub : forall chs rs q dels upds nrec lastrev q' dels' upds' nrec' lastrev',
  batch_collect rs chs q dels upds nrec lastrev = (q', dels', upds', nrec', lastrev') -> qsub q' q.
Proof.
  induction chs as [|ch rest IH]; intros rs q dels upds nrec lastrev q' dels' upds' nrec' lastrev' H; cbn [batch_collect] in H.
  - injection H as H1 H2 H3 H4 H5. subst. apply qsub_refl.
  - destruct (negb (c_del ch) && negb (is_pending (c_obj ch))); [apply (IH _ _ _ _ _ _ _ _ _ _ _ H)|].
    destruct (rs <=? nrec + 1).
    + injection H as H1 H2 H3 H4 H5. subst q'. apply qsub_clear.
    + apply (qsub_trans _ (r_clear q (o_pk (c_obj ch)))); [apply (IH _ _ _ _ _ _ _ _ _ _ _ H)|apply qsub_clear].
Qed.

Lemma batch_deletes_foff : forall dl snap e q e' q', e_foff e = true -> batch_deletes snap dl e q = (e', q') ->
  e_foff e' = true /\ q' = q.
Proof.
  induction dl as [|d rest IH]; intros snap e q e' q' F H; cbn [batch_deletes] in H.
  - injection H as H1 H2. subst. split; [exact F|reflexivity].
  - destruct (do_call e snap true 3 (c_obj d) (c_rev d)) as [e1 ok] eqn:Ec.
    destruct (do_call_foff _ _ _ _ _ _ _ _ F Ec) as [X Y]. subst ok. apply (IH snap e1 q e' q' Y H).
Qed.

Lemma batch_update_calls_foff : forall upds snap e acc e' l, e_foff e = true -> (forall x, In x acc -> snd x = true) ->
  batch_update_calls snap upds e acc = (e', l) -> e_foff e' = true /\ forall x, In x l -> snd x = true.
Proof.
  induction upds as [|c rest IH]; intros snap e acc e' l F A H; cbn [batch_update_calls] in H.
  - injection H as H1 H2. subst. split; [exact F|exact A].
  - destruct (do_call e snap true 2 (c_obj c) (c_rev c)) as [e1 ok] eqn:Ec.
    destruct (do_call_foff _ _ _ _ _ _ _ _ F Ec) as [X Y]. subst ok.
    apply (IH snap e1 (acc ++ [(c, true)]) e' l Y); [|exact H].
    intros x Hx. apply in_app_or in Hx. destruct Hx as [Hx|[Hx|[]]]; [apply A; exact Hx|subst x; reflexivity].
Qed.

Lemma batch_results_ok : forall l q res0 q' res', all_ok res0 -> (forall x, In x l -> snd x = true) ->
  batch_results l q res0 = (q', res') -> all_ok res' /\ qsub q' q.
Proof.
  induction l as [|[c ok] rest IH]; intros q res0 q' res' A L H; cbn [batch_results] in H.
  - injection H as H1 H2. subst. split; [exact A|apply qsub_refl].
  - assert (Ok : ok = true) by (apply (L (c, ok)); left; reflexivity). subst ok.
    destruct (IH (r_clear q (o_pk (c_obj c))) (res0 ++ [mkRes (c_obj c) (c_rev c) (c_rev c) (o_sid (c_obj c)) true]) q' res') as [A2 S2].
    + intros r Hr. apply in_app_or in Hr. destruct Hr as [Hr|[Hr|[]]]; [apply A; exact Hr|subst r; reflexivity].
    + intros x Hx. apply L. right. exact Hx.
    + exact H.
    + split; [exact A2|apply (qsub_trans _ _ _ S2); apply qsub_clear].
Qed.

Lemma phase1_foff : forall cf snap chs e q e1 q1 res1 nrec1 lastrev1, e_foff e = true ->
  phase1 cf snap chs e q = (e1, q1, res1, nrec1, lastrev1) -> e_foff e1 = true /\ all_ok res1 /\ qsub q1 q.
Proof.
  intros cf snap chs e q e1 q1 res1 nrec1 lastrev1 F H.
  destruct (phase1_cases _ _ _ _ _ _ _ _ _ _ H) as [HS|[qa [dels [upds [e2 [q2 [l [HC [HD [HU HR]]]]]]]]]].
  - apply (single_foff _ _ _ _ _ _ _ _ _ _ _ _ _ F (fun r (Hr : In r []) => match Hr with end) HS).
  - destruct (batch_deletes_foff _ _ _ _ _ _ F HD) as [F2 ->].
    destruct (batch_update_calls_foff _ _ _ _ _ _ F2 (fun x (Hx : In x []) => match Hx with end) HU) as [F3 L3].
    destruct (batch_results_ok _ _ _ _ _ (fun r (Hr : In r []) => match Hr with end) L3 HR) as [A4 S4].
    split; [exact F3|split; [exact A4|apply (qsub_trans _ _ _ S4), (batch_collect_sub _ _ _ _ _ _ _ _ _ _ _ _ HC)]].
Qed.

