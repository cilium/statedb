(* Reconciler/Target.v — TARGET = TABLE (C14, part 2).
   e_target is the simulated target of the harness: a successful Update / UpdateBatch entry of (pk, version)
   sets target[pk] := version, a successful Delete / DeleteBatch entry removes pk (Model.do_call); it is the
   "last successful operation per key" of the call log (reach_logged, last_operation_matches_table).
   Invariant of every reachable state (`tinv`): a key that has no work left — no deletion or Pending/Refreshing
   object of it ahead of the change cursor, no retry item, no result awaiting its status commit — has
   target[pk] = the payload version of its live object, and no target entry if it is deleted.
   In a quiescent state no key has work left: target = table (target_equals_table). *)
From Coq Require Import List NArith Bool Lia ZifyN ZifyNat ZifyBool.
From SV Require Import Reconciler.Retries Reconciler.Model Reconciler.RetriesProofs Reconciler.CommitProofs
  Reconciler.RoundProofs Reconciler.CoverProofs Reconciler.StepProofs Reconciler.TableWf Reconciler.StreamProofs
  Reconciler.PhaseProofs Reconciler.BatchProofs Reconciler.RoundInv Reconciler.Runs Reconciler.Progress
  Reconciler.StatusOnly Reconciler.Converge Reconciler.ItemsInv.
Import ListNotations.
Open Scope N_scope.

(* work ahead of cursor c, on the slot of a key *)
Definition wa (c : N) (s : option slot) : Prop := exists sl, s = Some sl /\ c < slot_rev sl /\ slot_act sl = true.

Lemma work_ahead_wa : forall t c k, work_ahead t c k <-> wa c (slot_of t k).
Proof. intros. reflexivity. Qed.

(* the slot of a key under any number of user writes made while the table revision was >= c0:
   unchanged | a deletion or a Pending/Refreshing object at a revision above c0 | the live object
   re-stamped at a revision above c0 with only the other writers' data changed (status write of another
   reconciler) *)
Definition same_ours (o o' : obj) : Prop :=
  o_pk o' = o_pk o /\ o_ver o' = o_ver o /\ o_kind o' = o_kind o /\ o_sid o' = o_sid o.
Lemma same_ours_refl : forall o, same_ours o o.
Proof. intro o. repeat split. Qed.
Lemma same_ours_trans : forall a b c, same_ours a b -> same_ours b c -> same_ours a c.
Proof. intros a b c [A1 [A2 [A3 A4]]] [B1 [B2 [B3 B4]]]. repeat split; congruence. Qed.
Lemma same_ours_pending : forall o o', same_ours o o' -> is_pending o' = is_pending o.
Proof. intros o o' [_ [_ [A _]]]. unfold is_pending. rewrite A. reflexivity. Qed.

Inductive kstep (c0 : N) : option slot -> option slot -> Prop :=
| ks_same : forall s, kstep c0 s s
| ks_new : forall s sl, c0 < slot_rev sl -> slot_act sl = true -> kstep c0 s (Some sl)
| ks_re : forall o o' r r', c0 < r' -> same_ours o o' -> kstep c0 (Some (Live o r)) (Some (Live o' r')).

Lemma kstep_trans : forall c0 a b c, kstep c0 a b -> kstep c0 b c -> kstep c0 a c.
Proof.
  intros c0 a b c H1 H2. destruct H2 as [s|s sl A B|o o' r r' A SO].
  - exact H1.
  - apply ks_new; assumption.
  - inversion H1 as [s E1 E2|s sl A1 B1 E1 E2|o0 o1 r0 r1 A1 SO1 E1 E2]; subst.
    + apply ks_re; assumption.
    + apply ks_new; [cbn; exact A|]. cbn in *. rewrite (same_ours_pending _ _ SO). exact B1.
    + apply ks_re; [exact A|apply (same_ours_trans _ _ _ SO1 SO)].
Qed.

Lemma kstep_mono : forall c0 c1 a b, c0 <= c1 -> kstep c1 a b -> kstep c0 a b.
Proof.
  intros c0 c1 a b H K. destruct K as [s|s sl A B|o o' r r' A SO]; [apply ks_same|apply ks_new; [lia|exact B]|apply ks_re; [lia|exact SO]].
Qed.

Lemma kstep_inv : forall c0 s s', kstep c0 s s' ->
  s' = s \/ (exists sl, s' = Some sl /\ c0 < slot_rev sl /\ slot_act sl = true) \/
  (exists o o' r r', s = Some (Live o r) /\ s' = Some (Live o' r') /\ c0 < r' /\ same_ours o o').
Proof.
  intros c0 s s' K. destruct K as [s|s sl A B|o o' r r' A SO].
  - left. reflexivity.
  - right. left. exists sl. repeat split; assumption.
  - right. right. exists o, o', r, r'. split; [reflexivity|]. split; [reflexivity|]. split; assumption.
Qed.

(* t comes from t0 by user writes only, seen per key and relative to the revision of t0 (kstep); this is what the target
   invariant needs.  StatusOnly.ustep / user_writes_in say which writes were made, TableWf.wstep that the table stays
   well formed, StreamProofs.snap_rel what a snapshot still tells about the table; tstep_closed ties tstep to the
   primitive writes *)
Definition tstep (t0 t : table) : Prop :=
  keyed t /\ t_rev t0 <= t_rev t /\ forall k, kstep (t_rev t0) (slot_of t0 k) (slot_of t k).

Lemma tstep_refl : forall t, keyed t -> tstep t t.
Proof. intros t K. split; [exact K|]. split; [lia|]. intro k. apply ks_same. Qed.

Lemma tstep_trans : forall t0 t1 t2, tstep t0 t1 -> tstep t1 t2 -> tstep t0 t2.
Proof.
  intros t0 t1 t2 [K1 [R1 S1]] [K2 [R2 S2]]. split; [exact K2|]. split; [lia|]. intro k.
  apply (kstep_trans _ _ (slot_of t1 k)); [apply S1|apply (kstep_mono _ (t_rev t1)); [exact R1|apply S2]].
Qed.

Lemma tstep_fresh : forall t0 t, tstep t0 t -> tstep t0 (fst (t_fresh_id t)).
Proof. intros t0 t [K [R S]]. split; [apply (keyed_ext t); [reflexivity|exact K]|]. split; [exact R|exact S]. Qed.

Lemma tstep_ins_pending : forall t0 t o, is_pending o = true -> tstep t0 t -> tstep t0 (t_insert t o).
Proof.
  intros t0 t o Hp [K [R S]]. split; [apply keyed_insert; exact K|]. split; [cbn; lia|]. intro k.
  destruct (N.eq_dec k (o_pk o)) as [E|E].
  - subst k. rewrite slot_insert_same. apply ks_new; [cbn; lia|exact Hp].
  - rewrite slot_insert_other by exact E. apply S.
Qed.

Lemma tstep_restamp : forall t0 t o r, slot_of t (o_pk o) = Some (Live o r) -> tstep t0 t -> tstep t0 (t_insert t (bump_aux o)).
Proof.
  intros t0 t o r Hs [K [R S]]. split; [apply keyed_insert; exact K|]. split; [cbn; lia|]. intro k.
  destruct (N.eq_dec k (o_pk (bump_aux o))) as [E|E].
  - subst k. rewrite slot_insert_same. apply (kstep_trans _ _ (slot_of t (o_pk o))); [apply S|].
    rewrite Hs. apply ks_re; [lia|repeat split].
  - rewrite slot_insert_other by exact E. apply S.
Qed.

Lemma tstep_delete : forall t0 t k, tstep t0 t -> tstep t0 (t_delete t k).
Proof.
  intros t0 t k [K [R S]]. split; [apply keyed_delete; exact K|]. split; [pose proof (t_rev_delete t k); lia|]. intro k'.
  destruct (N.eq_dec k' k) as [E|E].
  - subst k'. destruct (slot_of t k) as [[o r|o r]|] eqn:Es.
    + rewrite (slot_delete_same t k o r Es). apply ks_new; [cbn; lia|reflexivity].
    + assert (X : t_delete t k = t) by (unfold t_delete; unfold slot_of in Es; rewrite Es; reflexivity). rewrite X, Es. rewrite <- Es. apply S.
    + assert (X : t_delete t k = t) by (unfold t_delete; unfold slot_of in Es; rewrite Es; reflexivity). rewrite X, Es. rewrite <- Es. apply S.
  - rewrite slot_delete_other by exact E. apply S.
Qed.

Lemma tstep_closed : forall t0, wclosed (tstep t0).
Proof.
  intro t0. split; [|split; [|split]].
  - intros t H. exact (tstep_fresh _ _ H).
  - intros t o Hp H. exact (tstep_ins_pending _ _ _ Hp H).
  - intros t k o r Hl H. pose proof H as [K _]. apply t_live_slot in Hl.
    apply (tstep_restamp _ _ o r); [rewrite (K k o r Hl); exact Hl|exact H].
  - intros t k H. exact (tstep_delete _ _ _ H).
Qed.

Lemma do_write_tstep : forall t0 e kind k, tstep t0 (e_tab e) -> tstep t0 (e_tab (do_write e kind k)).
Proof. intros t0 e kind k. exact (do_write_closed _ e kind k (tstep_closed t0)). Qed.

Lemma do_call_tstep : forall t0 e snap fresh op o rev,
  tstep t0 (e_tab e) -> tstep t0 (e_tab (fst (do_call e snap fresh op o rev))).
Proof. intros t0 e snap fresh op o rev. exact (do_call_closed _ e snap fresh op o rev (tstep_closed t0)). Qed.

Definition is_upd_op (op : N) : bool := (op =? 0) || (op =? 2).

Definition apply_op (ok : bool) (op pk ver : N) (tg : list (N * N)) : list (N * N) :=
  if ok then (if is_upd_op op then aset pk ver tg else adel pk tg) else tg.

(* the logged call carries key and payload version of the object; the target moves by it if it succeeded *)
Lemma do_call_out : forall e snap fresh op o rev, exists c,
  do_call e snap fresh op o rev =
    (log_call (hooked e fresh (o_pk o)) c (apply_op (cl_ok c) op (o_pk o) (o_ver o) (e_target e)), cl_ok c) /\
  cl_op c = op /\ cl_pk c = o_pk o /\ cl_ver c = o_ver o.
Proof.
  intros e snap fresh op o rev. destruct (hooked_frame e fresh (o_pk o)) as [_ [_ [_ [_ [_ F]]]]]. rewrite <- F.
  set (h := hooked e fresh (o_pk o)).
  exists (mkCall (e_now h) op (o_pk o) (o_ver o) rev (mem_n rev (e_urevs e))
                 (match t_live snap (o_pk o) with Some (_, r) => r =? rev | None => false end)
                 (negb (mem_pair (o_pk o) (match aget (2 * o_pk o) (e_attempts e) with Some n => n | None => 0 end) (e_faults h)
                        && negb (e_foff h))) []).
  split; [reflexivity|]. repeat split.
Qed.

Lemma do_call_target : forall e snap fresh op o rev e' ok, do_call e snap fresh op o rev = (e', ok) ->
  e_target e' = apply_op ok op (o_pk o) (o_ver o) (e_target e).
Proof.
  intros e snap fresh op o rev e' ok H. destruct (do_call_out e snap fresh op o rev) as [c [E _]].
  rewrite H in E. injection E as -> ->. reflexivity.
Qed.

Lemma aget_adel_same : forall V k (l : list (N * V)), aget k (adel k l) = None.
Proof.
  intros V k l. induction l as [|[k0 v0] r IH]; cbn [adel aget]; [reflexivity|].
  destruct (k0 =? k) eqn:E; [exact IH|]. cbn [aget]. rewrite E. exact IH.
Qed.
Lemma aget_adel_other : forall V k k' (l : list (N * V)), k' <> k -> aget k' (adel k l) = aget k' l.
Proof.
  intros V k k' l Hn. induction l as [|[k0 v0] r IH]; cbn [adel aget]; [reflexivity|].
  destruct (k0 =? k) eqn:E.
  - apply N.eqb_eq in E. subst k0. destruct (k =? k') eqn:E2; [apply N.eqb_eq in E2; congruence|exact IH].
  - cbn [aget]. destruct (k0 =? k'); [reflexivity|exact IH].
Qed.

Lemma apply_op_other : forall ok op pk ver tg k, k <> pk -> aget k (apply_op ok op pk ver tg) = aget k tg.
Proof.
  intros ok op pk ver tg k H. unfold apply_op. destruct ok; [|reflexivity].
  destruct (is_upd_op op); [apply aget_aset_other; exact H|apply aget_adel_other; exact H].
Qed.

Definition pay (sl : slot) : option N := match sl with Live o _ => Some (o_ver o) | Dead _ _ => None end.
Definition dead_at (t : table) (k r : N) : Prop := exists o, slot_of t k = Some (Dead o r).

Lemma kstep_wa : forall c0 c s s', kstep c0 s s' -> c <= c0 -> wa c s -> wa c s'.
Proof.
  intros c0 c s s' K Hc W. destruct K as [s|s sl A B|o o' r r' A SO].
  - exact W.
  - exists sl. split; [reflexivity|]. split; [lia|exact B].
  - destruct W as [sl [E [L Ac]]]. injection E as E. subst sl. exists (Live o' r'). split; [reflexivity|]. split; [cbn; lia|].
    cbn in *. rewrite (same_ours_pending _ _ SO). exact Ac.
Qed.

(* a key that has no work ahead after the writes had none before, kept its payload, and existed *)
Lemma kstep_settled : forall c0 c s s' sl', kstep c0 s s' -> c <= c0 -> s' = Some sl' -> ~ wa c s' ->
  ~ wa c s /\ exists sl, s = Some sl /\ pay sl = pay sl'.
Proof.
  intros c0 c s s' sl' K Hc E NW. destruct K as [s|s sl A B|o o' r r' A SO].
  - split; [exact NW|]. exists sl'. split; [exact E|reflexivity].
  - exfalso. apply NW. exists sl. split; [reflexivity|]. split; [lia|exact B].
  - injection E as E. subst sl'. split.
    + intros [sl [E1 [L Ac]]]. injection E1 as E1. subst sl. apply NW. exists (Live o' r'). split; [reflexivity|]. split; [cbn; lia|].
      cbn in *. rewrite (same_ours_pending _ _ SO). exact Ac.
    + exists (Live o r). split; [reflexivity|]. destruct SO as [_ [V _]]. cbn. rewrite V. reflexivity.
Qed.

Lemma tstep_work_ahead : forall t t' c k, tstep t t' -> c <= t_rev t -> work_ahead t c k -> work_ahead t' c k.
Proof. intros t t' c k [_ [_ S]] Hc W. apply (kstep_wa _ _ _ _ (S k) Hc W). Qed.

Lemma tstep_err_live : forall t t' c k, tstep t t' -> c <= t_rev t -> err_live t k -> err_live t' k \/ work_ahead t' c k.
Proof.
  intros t t' c k [_ [_ S]] Hc [o [r [A B]]].
  destruct (kstep_inv _ _ _ (S k)) as [E|[[sl [E [X Y]]]|[o0 [o1 [r0 [r1 [E1 [E2 [X SO]]]]]]]]].
  - left. exists o, r. rewrite E. split; assumption.
  - right. exists sl. split; [exact E|]. split; [lia|exact Y].
  - rewrite A in E1. injection E1 as E1 E3. subst o0 r0. left. exists o1, r1. split; [exact E2|].
    destruct SO as [_ [_ [Kd _]]]. rewrite Kd. exact B.
Qed.

Lemma tstep_dead_at : forall t t' c k r, tstep t t' -> c <= t_rev t -> dead_at t k r -> dead_at t' k r \/ work_ahead t' c k.
Proof.
  intros t t' c k r [_ [_ S]] Hc [o A].
  destruct (kstep_inv _ _ _ (S k)) as [E|[[sl [E [X Y]]]|[o0 [o1 [r0 [r1 [E1 [E2 [X SO]]]]]]]]].
  - left. exists o. rewrite E. exact A.
  - right. exists sl. split; [exact E|]. split; [lia|exact Y].
  - rewrite A in E1. discriminate.
Qed.

(* the snapshot's work is still there: a snapshot slot that is a deletion or a Pending/Refreshing object is
   still the current slot, or the key has (newer) work ahead of the snapshot revision *)
Lemma tstep_act_rel : forall snap t k sl, tstep snap t -> slot_of snap k = Some sl -> slot_act sl = true ->
  slot_of t k = Some sl \/ work_ahead t (t_rev snap) k.
Proof.
  intros snap t k sl [_ [_ S]] A B.
  destruct (kstep_inv _ _ _ (S k)) as [E|[[sl' [E [X Y]]]|[o0 [o1 [r0 [r1 [E1 [E2 [X SO]]]]]]]]].
  - left. rewrite E. exact A.
  - right. exists sl'. split; [exact E|]. split; [exact X|exact Y].
  - right. rewrite A in E1. injection E1 as E1. subst sl. exists (Live o1 r1). split; [exact E2|]. split; [exact X|].
    cbn in *. rewrite (same_ours_pending _ _ SO). exact B.
Qed.

Lemma work_ahead_lower : forall t c c' k, c' <= c -> work_ahead t c k -> work_ahead t c' k.
Proof. intros t c c' k H [sl [A [B C]]]. exists sl. split; [exact A|]. split; [lia|exact C]. Qed.

Definition no_item (q : retries) (k : N) : Prop := forall it, In it (q_items q) -> ri_pk it <> k.

(* target = table for every key without work left. P: keys of results awaiting their status commit (and, in
   batch mode, of the collected batches) *)
Definition tinv (t : table) (c : N) (P : list N) (q : retries) (tg : list (N * N)) : Prop :=
  forall k sl, slot_of t k = Some sl -> ~ work_ahead t c k -> no_item q k -> ~ In k P -> aget k tg = pay sl.

(* a successful result carries the target entry of its key *)
Definition res_target (res : list opres) (tg : list (N * N)) : Prop :=
  forall r, In r res -> r_ok r = true -> aget (o_pk (r_obj r)) tg = Some (o_ver (r_obj r)).

(* a result will be committed, or its key has work ahead (and will be reconciled again) *)
Definition good (t : table) (c : N) (r : opres) : Prop :=
  work_ahead t c (o_pk (r_obj r)) \/
  exists cur rv, slot_of t (o_pk (r_obj r)) = Some (Live cur rv) /\
    ((is_pending cur = true /\ rv = r_rev r) \/ (o_kind cur = Pending /\ o_sid cur = r_id r) \/
     (o_kind cur = Error /\ r_rev r <> r_orig r)).
Definition res_good (t : table) (c : N) (res : list opres) : Prop := forall r, In r res -> good t c r.

(* a delete retry belongs to the current deletion of its key, or the key has work ahead *)
Definition del_items (t : table) (c : N) (q : retries) : Prop :=
  forall it, In it (q_items q) -> ri_del it = true -> work_ahead t c (ri_pk it) \/ dead_at t (ri_pk it) (ri_rev it).

(* an item of the key of a result awaiting commit is the popped update item *)
Definition res_del (res : list opres) (q : retries) : Prop :=
  forall r it, In r res -> In it (q_items q) -> ri_pk it = o_pk (r_obj r) -> ri_del it = false.

Lemma tinv_P_mono : forall t c P P' q tg, (forall k, In k P -> In k P') -> tinv t c P q tg -> tinv t c P' q tg.
Proof. intros t c P P' q tg H T k sl A B C D. apply (T k sl A B C). intro X. apply D. apply H. exact X. Qed.

Lemma tinv_q_change : forall t c P q q' tg, (forall k, ~ In k P -> no_item q' k -> no_item q k) ->
  tinv t c P q tg -> tinv t c P q' tg.
Proof. intros t c P q q' tg H T k sl A B C D. apply (T k sl A B); [apply H; assumption|exact D]. Qed.

Lemma tinv_tstep : forall t t' c P q tg, tstep t t' -> c <= t_rev t -> tinv t c P q tg -> tinv t' c P q tg.
Proof.
  intros t t' c P q tg [_ [_ S]] Hc T k sl' A B C D.
  destruct (kstep_settled _ _ _ _ _ (S k) Hc A B) as [NW [sl [E1 E2]]].
  rewrite <- E2. apply (T k sl E1 NW C D).
Qed.

Lemma good_tstep : forall t t' c r, tstep t t' -> c <= t_rev t -> good t c r -> good t' c r.
Proof.
  intros t t' c r TS Hc [W|[cur [rv [A B]]]]; [left; apply (tstep_work_ahead _ _ _ _ TS Hc W)|].
  pose proof TS as [_ [_ S]].
  destruct (kstep_inv _ _ _ (S (o_pk (r_obj r)))) as [E|[[sl [E [X Y]]]|[o0 [o1 [r0 [r1 [E1 [E2 [X SO]]]]]]]]].
  - right. exists cur, rv. rewrite E. split; [exact A|exact B].
  - left. exists sl. split; [exact E|]. split; [lia|exact Y].
  - rewrite A in E1. injection E1 as E1 E3. subst o0 r0. pose proof (same_ours_pending _ _ SO) as SP.
    destruct SO as [_ [_ [Kd Sd]]]. destruct B as [[B1 B2]|[B|B]].
    + left. exists (Live o1 r1). split; [exact E2|]. split; [cbn; lia|cbn; rewrite SP; exact B1].
    + right. exists o1, r1. split; [exact E2|right; left; rewrite Kd, Sd; exact B].
    + right. exists o1, r1. split; [exact E2|right; right; rewrite Kd; exact B].
Qed.

(* the deletion of k at revision r is still the current slot, or k has work ahead *)
Lemma gone_tstep : forall t t' c k r, tstep t t' -> c <= t_rev t ->
  work_ahead t c k \/ dead_at t k r -> work_ahead t' c k \/ dead_at t' k r.
Proof.
  intros t t' c k r TS Hc [W|X]; [left; exact (tstep_work_ahead _ _ _ _ TS Hc W)|].
  destruct (tstep_dead_at _ _ c _ _ TS Hc X) as [Y|Y]; [right; exact Y|left; exact Y].
Qed.

Lemma snap_dead : forall snap t c k o r, tstep snap t -> c <= t_rev snap -> slot_of snap k = Some (Dead o r) ->
  work_ahead t c k \/ dead_at t k r.
Proof.
  intros snap t c k o r TS Hc Hs. destruct (tstep_act_rel snap t k _ TS Hs eq_refl) as [X|X]; [right; exists o; exact X|left].
  exact (work_ahead_lower _ _ _ _ Hc X).
Qed.

Lemma del_items_tstep : forall t t' c q, tstep t t' -> c <= t_rev t -> del_items t c q -> del_items t' c q.
Proof. intros t t' c q TS Hc D it Hi Hd. exact (gone_tstep _ _ _ _ _ TS Hc (D it Hi Hd)). Qed.

Section Advance.
Variables (snap t : table) (cur : N) (ch : change) (rest : list change).
Hypothesis W : twf snap.
Hypothesis SR : snap_rel snap t.
Hypothesis S : stream_ok snap cur (ch :: rest).

Lemma wa_advance : forall k, work_ahead t cur k -> k <> ch_pk ch \/ ch_act ch = false -> work_ahead t (c_rev ch) k.
Proof.
  intros k [sl [A [B C]]] H. exists sl. split; [exact A|]. split; [|exact C].
  destruct (N.lt_ge_cases (c_rev ch) (slot_rev sl)) as [L|L]; [exact L|exfalso].
  destruct (interval_head _ _ _ _ _ _ _ W SR S A B L) as [K SC]. destruct H as [H|H]; [exact (H K)|].
  rewrite <- SC, ch_act_slot in H. congruence.
Qed.

Lemma head_rev_gt : cur < c_rev ch.
Proof. destruct S as [_ [_ [_ [_ S5]]]]. apply S5. left. reflexivity. Qed.

Lemma no_item_clear_other : forall q k k', k' <> k -> no_item (r_clear q k) k' -> no_item q k'.
Proof.
  intros q k k' Hne H it Hi Hk. apply (H it); [|exact Hk]. rewrite clear_items. apply in_remove_item_intro; [exact Hi|congruence].
Qed.

Lemma tinv_advance_take : forall P q tg, tinv t cur P q tg -> tinv t (c_rev ch) (ch_pk ch :: P) (r_clear q (ch_pk ch)) tg.
Proof.
  intros P q tg T k sl A B C D.
  assert (Hne : k <> ch_pk ch) by (intro X; apply D; left; symmetry; exact X).
  apply (T k sl A).
  - intro X. apply B. apply wa_advance; [exact X|left; exact Hne].
  - apply (no_item_clear_other q (ch_pk ch)); assumption.
  - intro X. apply D. right. exact X.
Qed.

Lemma tinv_advance_skip : forall P q tg, ch_act ch = false -> tinv t cur P q tg -> tinv t (c_rev ch) P q tg.
Proof.
  intros P q tg Ha T k sl A B C D. apply (T k sl A); [|exact C|exact D].
  intro X. apply B. apply wa_advance; [exact X|right; exact Ha].
Qed.

Lemma good_advance : forall r, o_pk (r_obj r) <> ch_pk ch \/ ch_act ch = false -> good t cur r -> good t (c_rev ch) r.
Proof. intros r H [X|X]; [left; apply wa_advance; assumption|right; exact X]. Qed.

Lemma del_items_advance_take : forall q, del_items t cur q -> del_items t (c_rev ch) (r_clear q (ch_pk ch)).
Proof.
  intros q D it Hi Hd. apply clear_in in Hi. destruct Hi as [Hi Hne]. destruct (D it Hi Hd) as [X|X]; [left|right; exact X].
  apply wa_advance; [exact X|left; exact Hne].
Qed.

Lemma del_items_advance_skip : forall q, ch_act ch = false -> del_items t cur q -> del_items t (c_rev ch) q.
Proof.
  intros q Ha D it Hi Hd. destruct (D it Hi Hd) as [X|X]; [left|right; exact X]. apply wa_advance; [exact X|right; exact Ha].
Qed.
End Advance.

Lemma curs_pos : forall c0 r, 0 < r -> curs c0 r = r.
Proof. intros c0 r H. unfold curs. destruct (N.eqb_spec r 0); [lia|reflexivity]. Qed.

Lemma add_has_item : forall q o rev orig del now, exists it, In it (q_items (r_add q o rev orig del now)) /\ ri_pk it = o_pk o.
Proof.
  intros q o rev orig del now. destruct (add_item_spec q o rev orig del now) as [it [A _]].
  exists it. apply find_item_in. exact A.
Qed.

Lemma tinv_target_other : forall t c P q tg tg', (forall k, ~ In k P -> aget k tg' = aget k tg) ->
  tinv t c P q tg -> tinv t c P q tg'.
Proof. intros t c P q tg tg' H T k sl A B C D. rewrite (H k D). apply (T k sl A B C D). Qed.

Lemma res_pks_snoc : forall res r, res_pks (res ++ [r]) = res_pks res ++ [o_pk (r_obj r)].
Proof. intros. unfold res_pks. rewrite map_app. reflexivity. Qed.

Lemma slot_change_dead : forall sl ch, slot_change sl = ch -> c_del ch = true -> sl = Dead (c_obj ch) (c_rev ch).
Proof. intros [o r|o r] ch H Hd; subst ch; cbn in *; [discriminate|reflexivity]. Qed.
Lemma slot_change_live : forall sl ch, slot_change sl = ch -> c_del ch = false -> sl = Live (c_obj ch) (c_rev ch).
Proof. intros [o r|o r] ch H Hd; subst ch; cbn in *; [reflexivity|discriminate]. Qed.

(* q' has every item of q that is not of key k: Clear of k, Add for k *)
Definition keeps_off (k : N) (q q' : retries) : Prop :=
  forall it, In it (q_items q) -> ri_pk it <> k -> In it (q_items q').

Lemma keeps_off_clear : forall q k, keeps_off k q (r_clear q k).
Proof. intros q k it Hi Hk. rewrite clear_items. apply in_remove_item_intro; assumption. Qed.
Lemma keeps_off_add : forall q o rev orig del now, keeps_off (o_pk o) q (r_add q o rev orig del now).
Proof. intros q o rev orig del now it Hi Hk. rewrite add_items. apply in_put_item_other; assumption. Qed.

Lemma tinv_off : forall t c k P q q' tg, keeps_off k q q' -> tinv t c (k :: P) q tg -> tinv t c (k :: P) q' tg.
Proof.
  intros t c k P q q' tg H. apply tinv_q_change. intros k' Hk' N it Hi Hk. apply (N it); [|exact Hk].
  apply H; [exact Hi|]. intro X. apply Hk'. left. congruence.
Qed.

Lemma tinv_table_off : forall t t' c k P q tg, (forall k', k' <> k -> slot_of t' k' = slot_of t k') ->
  tinv t c (k :: P) q tg -> tinv t' c (k :: P) q tg.
Proof.
  intros t t' c k P q tg H T k' sl A B C D.
  assert (E : k' <> k) by (intro X; apply D; left; symmetry; exact X).
  rewrite (H k' E) in A. apply (T k' sl A); [|exact C|exact D].
  intro X. apply B. apply (work_ahead_ext t); [exact (H k' E)|exact X].
Qed.

(* a key whose result was awaited is settled, once target and table agree on it: its deletion went through, or a
   retry item is queued for it *)
Lemma tinv_settle : forall t c k P q tg,
  (forall sl, slot_of t k = Some sl -> ~ work_ahead t c k -> no_item q k -> aget k tg = pay sl) ->
  tinv t c (k :: P) q tg -> tinv t c P q tg.
Proof.
  intros t c k P q tg H T k' sl A B C D. destruct (N.eq_dec k' k) as [E|E]; [subst k'; exact (H sl A B C)|].
  apply (T k' sl A B C). intros [X|X]; [exact (E (eq_sym X))|exact (D X)].
Qed.

Lemma tinv_settle_dead : forall t c k r P q tg, aget k tg = None -> work_ahead t c k \/ dead_at t k r ->
  tinv t c (k :: P) q tg -> tinv t c P q tg.
Proof.
  intros t c k r P q tg Hg Hd. apply tinv_settle. intros sl A B _.
  destruct Hd as [X|[o X]]; [contradiction|]. rewrite X in A. injection A as A. subst sl. exact Hg.
Qed.

Lemma tinv_settle_item : forall t c k P q tg it, In it (q_items q) -> ri_pk it = k ->
  tinv t c (k :: P) q tg -> tinv t c P q tg.
Proof. intros t c k P q tg it Hi Hk. apply tinv_settle. intros sl _ _ C. exfalso. exact (C it Hi Hk). Qed.

Lemma del_items_sub : forall t c q q', (forall it, In it (q_items q') -> In it (q_items q)) -> del_items t c q -> del_items t c q'.
Proof. intros t c q q' H D it Hi. apply D. apply H. exact Hi. Qed.

Lemma del_items_add : forall t c q o rev orig del now,
  (del = true -> work_ahead t c (o_pk o) \/ dead_at t (o_pk o) rev) -> del_items t c q -> del_items t c (r_add q o rev orig del now).
Proof.
  intros t c q o rev orig del now H D it Hi Hd. apply in_add_items_weak in Hi.
  destruct Hi as [[J1 [J2 [_ [J4 _]]]]|J]; [|exact (D it J Hd)]. unfold ri_pk. rewrite J1, J2. apply H. congruence.
Qed.

Lemma res_target_snoc : forall res r tg, res_target res tg ->
  (r_ok r = true -> aget (o_pk (r_obj r)) tg = Some (o_ver (r_obj r))) -> res_target (res ++ [r]) tg.
Proof. intros res r tg RT H r' Hr. apply in_app_or in Hr. destruct Hr as [Hr|[Hr|[]]]; [exact (RT r' Hr)|subst r'; exact H]. Qed.

(* an operation on an object whose key is awaited (in P) and has no result yet keeps the invariant: the table
   moves by the writes of the hooks, the target at that key only *)
Lemma do_call_frame : forall e snap fresh op o rev e' ok c P res q, do_call e snap fresh op o rev = (e', ok) ->
  keyed (e_tab e) -> c <= t_rev (e_tab e) -> In (o_pk o) P -> ~ In (o_pk o) (res_pks res) ->
  tinv (e_tab e) c P q (e_target e) -> res_target res (e_target e) -> del_items (e_tab e) c q ->
  tstep (e_tab e) (e_tab e') /\ e_target e' = apply_op ok op (o_pk o) (o_ver o) (e_target e) /\
  tinv (e_tab e') c P q (e_target e') /\ res_target res (e_target e') /\ del_items (e_tab e') c q.
Proof.
  intros e snap fresh op o rev e' ok c P res q H K Hc HP Hres T RT DI.
  pose proof (do_call_tstep (e_tab e) e snap fresh op o rev (tstep_refl _ K)) as TS. rewrite H in TS. cbn [fst] in TS.
  pose proof (do_call_target _ _ _ _ _ _ _ _ H) as TG.
  split; [exact TS|]. split; [exact TG|]. split; [|split].
  - apply (tinv_target_other _ _ _ _ (e_target e)); [|apply (tinv_tstep (e_tab e)); assumption].
    intros k Hk. rewrite TG. apply apply_op_other. intro X. apply Hk. rewrite X. exact HP.
  - intros r Hr Hok. rewrite TG, apply_op_other; [apply RT; assumption|].
    intro X. apply Hres. rewrite <- X. apply (in_map (fun r => o_pk (r_obj r))). exact Hr.
  - apply (del_items_tstep (e_tab e)); assumption.
Qed.

Lemma process_single_items : forall e snap fresh q res o rev orig del e' q' res',
  process_single e snap fresh q res o rev orig del = (e', q', res') ->
  forall it, In it (q_items q') -> In it (q_items q) \/ (del = true /\ ri_pk it = o_pk o).
Proof.
  intros e snap fresh q res o rev orig del e' q' res' H it Hi. unfold process_single in H. destruct del.
  - destruct (do_call e snap fresh 1 o rev) as [e1 ok]. destruct ok; injection H as _ <- _.
    + left. exact (in_clear_items _ _ _ Hi).
    + apply in_add_items_weak in Hi. destruct Hi as [[J1 _]|J]; [right|left; exact J]. unfold ri_pk. rewrite J1. split; reflexivity.
  - destruct (do_call e snap fresh 0 o rev) as [e1 ok]. injection H as _ <- _. left.
    destruct ok; [exact (in_clear_items _ _ _ Hi)|exact Hi].
Qed.

(* processSingle on an object o whose key is awaited: a Delete of a deletion that is still current (or has
   newer work ahead) removes the target entry or queues a delete retry; an Update records its result *)
Lemma process_single_target : forall e snap fresh q res o rev orig del e' q' res' c,
  keyed (e_tab e) -> c <= t_rev (e_tab e) -> ~ In (o_pk o) (res_pks res) ->
  (del = true -> work_ahead (e_tab e) c (o_pk o) \/ dead_at (e_tab e) (o_pk o) rev) ->
  tinv (e_tab e) c (o_pk o :: res_pks res) q (e_target e) -> res_target res (e_target e) -> del_items (e_tab e) c q ->
  process_single e snap fresh q res o rev orig del = (e', q', res') ->
  tstep (e_tab e) (e_tab e') /\
  tinv (e_tab e') c (res_pks res') q' (e_target e') /\ res_target res' (e_target e') /\ del_items (e_tab e') c q'.
Proof.
  intros e snap fresh q res o rev orig del e' q' res' c K Hc Hnew Hdel T RT DI H. unfold process_single in H. destruct del.
  - destruct (do_call e snap fresh 1 o rev) as [e1 ok] eqn:Ec.
    destruct (do_call_frame _ _ _ _ _ _ _ _ c (o_pk o :: res_pks res) res q Ec K Hc (or_introl eq_refl) Hnew T RT DI) as [TS [TG [T1 [RT1 D1]]]].
    pose proof (gone_tstep _ _ _ _ _ TS Hc (Hdel eq_refl)) as A1.
    destruct ok; injection H as <- <- <-; (split; [exact TS|split; [|split; [exact RT1|]]]).
    + apply (tinv_settle_dead _ _ (o_pk o) rev); [rewrite TG; exact (aget_adel_same _ _ _)|exact A1|].
      apply (tinv_off _ _ _ _ q); [apply keeps_off_clear|exact T1].
    + apply (del_items_sub _ _ q); [apply in_clear_items|exact D1].
    + destruct (add_has_item q o rev orig true (e_now e1)) as [it [X1 X2]].
      apply (tinv_settle_item _ _ _ _ _ _ it X1 X2). apply (tinv_off _ _ _ _ q); [apply keeps_off_add|exact T1].
    + apply del_items_add; [intros _; exact A1|exact D1].
  - destruct (do_call e snap fresh 0 o rev) as [e1 ok] eqn:Ec.
    destruct (do_call_frame _ _ _ _ _ _ _ _ c (o_pk o :: res_pks res) res q Ec K Hc (or_introl eq_refl) Hnew T RT DI) as [TS [TG [T1 [RT1 D1]]]].
    injection H as <- <- <-. split; [exact TS|]. split; [|split].
    + rewrite res_pks_snoc. cbn [r_obj]. apply (tinv_P_mono _ _ (o_pk o :: res_pks res)).
      * intros x [X|X]; apply in_or_app; [right; left; exact X|left; exact X].
      * apply (tinv_off _ _ _ _ q); [|exact T1]. destruct ok; [apply keeps_off_clear|intros it Hi _; exact Hi].
    + apply res_target_snoc; [exact RT1|]. cbn [r_obj r_ok]. intro Hok. subst ok. rewrite TG. exact (aget_aset_same _ _ _ _).
    + apply (del_items_sub _ _ q); [|exact D1]. intros it Hi. destruct ok; [exact (in_clear_items _ _ _ Hi)|exact Hi].
Qed.

Record p1inv (snap : table) (e : env) (q : retries) (res : list opres) (cur : N) : Prop := {
  p1_ts : tstep snap (e_tab e);
  p1_t : tinv (e_tab e) cur (res_pks res) q (e_target e);
  p1_rt : res_target res (e_target e);
  p1_del : del_items (e_tab e) cur q;
  p1_noi : forall r, In r res -> no_item q (o_pk (r_obj r))
}.

Lemma single_step_target : forall snap e q res cur ch rest e1 q1 res1,
  phase_inv (Dlog e) snap e q res cur (ch :: rest) -> p1inv snap e q res cur ->
  process_single e snap true (r_clear q (ch_pk ch)) res (c_obj ch) (c_rev ch) (c_rev ch) (c_del ch) = (e1, q1, res1) ->
  p1inv snap e1 q1 res1 (c_rev ch).
Proof.
  intros snap e q res cur ch rest e1 q1 res1 INV [TS T RT DI NOI] H.
  destruct (step_head_slot _ _ _ _ _ _ _ _ INV) as [sl0 [S0 [S1 [P0 [P1 [P2 P3]]]]]].
  pose proof INV as [I1 I2 I3 I4 I5 I6 I7 I8 I9 I10 I11].
  set (k := ch_pk ch) in *. set (c' := c_rev ch) in *.
  assert (Hc' : c' <= t_rev (e_tab e)) by (destruct I3 as [R1 _]; lia).
  pose proof (I9 ch (or_introl eq_refl)) as Hnew. fold k in Hnew.
  assert (Hdel : c_del ch = true -> work_ahead (e_tab e) c' k \/ dead_at (e_tab e) k c').
  { intro Hd. rewrite (slot_change_dead _ _ S1 Hd) in S0. exact (snap_dead _ _ _ _ _ _ TS P1 S0). }
  destruct (process_single_target _ _ _ _ _ _ _ _ _ _ _ _ c' (twf_keyed _ I1) Hc' Hnew Hdel
              (tinv_advance_take snap (e_tab e) cur ch rest I2 I3 I4 _ _ _ T) RT
              (del_items_advance_take snap (e_tab e) cur ch rest I2 I3 I4 _ DI) H) as [TS1 [T1 [RT1 D1]]].
  constructor; [exact (tstep_trans _ _ _ TS TS1)|exact T1|exact RT1|exact D1|].
  intros r Hr it Hi Hk. destruct (process_single_items _ _ _ _ _ _ _ _ _ _ _ _ H it Hi) as [X|[Hd X]].
  - apply clear_in in X. destruct X as [X Hne].
    destruct (process_single_res _ _ _ _ _ _ _ _ _ _ _ _ H r Hr) as [Y|[_ [ok Y]]]; [exact (NOI r Y it X Hk)|].
    subst r. exact (Hne Hk).
  - destruct (process_single_res _ _ _ _ _ _ _ _ _ _ _ _ H r Hr) as [Y|[Y _]]; [|congruence].
    apply Hnew. change (ri_pk it = k) in X. rewrite <- X, Hk. apply (in_map (fun r => o_pk (r_obj r))). exact Y.
Qed.

Theorem single_target : forall chs rs snap c0 e q res nrec lastrev e' q' res' nrec' lastrev',
  phase_inv (Dlog e) snap e q res (curs c0 lastrev) chs -> p1inv snap e q res (curs c0 lastrev) ->
  single rs snap chs e q res nrec lastrev = (e', q', res', nrec', lastrev') ->
  p1inv snap e' q' res' (curs c0 lastrev').
Proof.
  induction chs as [|ch rest IH]; intros rs snap c0 e q res nrec lastrev e' q' res' nrec' lastrev' INV G H; cbn [single] in H.
  - injection H as H1 H2 H3 H4 H5. subst. exact G.
  - destruct (step_head_slot _ _ _ _ _ _ _ _ INV) as [sl0 [S0 [S1 [P0 [P1 [P2 P3]]]]]].
    pose proof (curs_pos c0 _ P0) as CU.
    pose proof INV as [I1 I2 I3 I4 I5 I6 I7 I8 I9 I10 I11].
    destruct (negb (c_del ch) && negb (is_pending (c_obj ch))) eqn:Esk.
    + pose proof Esk as Ea. rewrite skip_is_not_act in Ea. apply negb_true_iff in Ea.
      apply andb_prop in Esk. destruct Esk as [E1 E2]. apply negb_true_iff in E1. apply negb_true_iff in E2.
      apply (IH rs snap c0 e q res nrec (c_rev ch) e' q' res' nrec' lastrev'); [rewrite CU; apply (step_skip _ _ _ _ _ _ _ _ INV E1 E2)| |exact H].
      rewrite CU. destruct G as [TS T RT DI NOI]. constructor; try assumption.
      * apply (tinv_advance_skip snap (e_tab e) _ ch rest I2 I3 I4 _ _ _ Ea T).
      * apply (del_items_advance_skip snap (e_tab e) _ ch rest I2 I3 I4 _ Ea DI).
    + destruct (process_single e snap true (r_clear q (o_pk (c_obj ch))) res (c_obj ch) (c_rev ch) (c_rev ch) (c_del ch))
        as [[e1 q1] res1] eqn:Ep.
      assert (INV1 : phase_inv (Dlog e1) snap e1 q1 res1 (c_rev ch) rest).
      { destruct (c_del ch) eqn:Ed.
        - apply (step_delete _ _ _ _ _ _ _ _ _ _ INV Ed Ep).
        - cbn [negb andb] in Esk. apply negb_false_iff in Esk. apply (step_update _ _ _ _ _ _ _ _ _ _ INV Ed Esk Ep). }
      pose proof (single_step_target _ _ _ _ _ _ _ _ _ _ INV G Ep) as G1.
      destruct (rs <=? nrec + 1).
      * injection H as H1 H2 H3 H4 H5. subst. rewrite CU. exact G1.
      * apply (IH rs snap c0 e1 q1 res1 (nrec + 1) (c_rev ch) e' q' res' nrec' lastrev'); [rewrite CU; exact INV1|rewrite CU; exact G1|exact H].
Qed.

Lemma batch_collect_target : forall chs rs snap t c0 q dels upds nrec lastrev q' dels' upds' nrec' lastrev' tg,
  twf snap -> snap_rel snap t -> stream_ok snap (curs c0 lastrev) chs ->
  tinv t (curs c0 lastrev) (map ch_pk (dels ++ upds)) q tg -> del_items t (curs c0 lastrev) q ->
  batch_collect rs chs q dels upds nrec lastrev = (q', dels', upds', nrec', lastrev') ->
  tinv t (curs c0 lastrev') (map ch_pk (dels' ++ upds')) q' tg /\ del_items t (curs c0 lastrev') q'.
Proof.
  induction chs as [|ch rest IH]; intros rs snap t c0 q dels upds nrec lastrev q' dels' upds' nrec' lastrev' tg W SR S T DI H; cbn [batch_collect] in H.
  - injection H as <- <- <- _ <-. split; [exact T|exact DI].
  - assert (CU : curs c0 (c_rev ch) = c_rev ch) by (apply curs_pos; pose proof (head_rev_gt snap _ ch rest S); lia).
    pose proof (stream_tail snap _ ch rest W S) as ST.
    rewrite skip_is_not_act in H. destruct (ch_act ch) eqn:Ea; cbn [negb] in H.
    + set (dels1 := if c_del ch then dels ++ [ch] else dels) in *.
      set (upds1 := if c_del ch then upds else upds ++ [ch]) in *.
      assert (T1 : tinv t (c_rev ch) (map ch_pk (dels1 ++ upds1)) (r_clear q (o_pk (c_obj ch))) tg).
      { apply (tinv_P_mono _ _ (ch_pk ch :: map ch_pk (dels ++ upds))); [|exact (tinv_advance_take snap t _ ch rest W SR S _ _ _ T)].
        intros x X. cbn [In] in X. rewrite map_app, in_app_iff in X. unfold dels1, upds1.
        destruct (c_del ch); rewrite !map_app, !in_app_iff; cbn [map In]; tauto. }
      pose proof (del_items_advance_take snap t _ ch rest W SR S _ DI) as D1.
      destruct (rs <=? nrec + 1); [injection H as <- <- <- _ <-; rewrite CU; split; [exact T1|exact D1]|].
      apply (IH rs snap t c0 (r_clear q (o_pk (c_obj ch))) dels1 upds1 (nrec + 1) (c_rev ch) q' dels' upds' nrec' lastrev' tg W SR);
        [rewrite CU; exact ST|rewrite CU; exact T1|rewrite CU; exact D1|exact H].
    + apply (IH rs snap t c0 q dels upds nrec (c_rev ch) q' dels' upds' nrec' lastrev' tg W SR);
        [rewrite CU; exact ST|rewrite CU; exact (tinv_advance_skip snap t _ ch rest W SR S _ _ _ Ea T)
        |rewrite CU; exact (del_items_advance_skip snap t _ ch rest W SR S _ Ea DI)|exact H].
Qed.

Lemma batch_deletes_target : forall dl snap upds e q c e' q', c <= t_rev snap ->
  tstep snap (e_tab e) ->
  (forall d, In d dl -> slot_of snap (ch_pk d) = Some (Dead (c_obj d) (c_rev d))) ->
  NoDup (map ch_pk (dl ++ upds)) ->
  tinv (e_tab e) c (map ch_pk (dl ++ upds)) q (e_target e) -> del_items (e_tab e) c q ->
  (forall x, In x (dl ++ upds) -> no_item q (ch_pk x)) ->
  batch_deletes snap dl e q = (e', q') ->
  tstep snap (e_tab e') /\ tinv (e_tab e') c (map ch_pk upds) q' (e_target e') /\ del_items (e_tab e') c q' /\
  (forall x, In x upds -> no_item q' (ch_pk x)).
Proof.
  induction dl as [|d rest IH]; intros snap upds e q c e' q' Hc TS SD ND T DI NI H; cbn [batch_deletes] in H.
  - injection H as H1 H2. subst. split; [exact TS|]. split; [exact T|]. split; [exact DI|exact NI].
  - destruct (do_call e snap true 3 (c_obj d) (c_rev d)) as [e1 ok] eqn:Ec.
    set (k := ch_pk d) in *. pose proof TS as [K0 [R0 _]].
    assert (Hc' : c <= t_rev (e_tab e)) by lia.
    cbn [app map] in T, ND. fold k in T, ND. inversion ND as [|x xs Hx Hr]; subst x xs.
    assert (RT0 : res_target [] (e_target e)) by (intros r []).
    destruct (do_call_frame _ _ _ _ _ _ _ _ c (k :: map ch_pk (rest ++ upds)) [] q Ec K0 Hc' (or_introl eq_refl) (fun X => X) T RT0 DI)
      as [TS1 [TG [T1 [_ D1]]]].
    assert (A1 : work_ahead (e_tab e1) c k \/ dead_at (e_tab e1) k (c_rev d)).
    { apply (snap_dead snap _ _ _ (c_obj d)); [exact (tstep_trans _ _ _ TS TS1)|exact Hc|exact (SD d (or_introl eq_refl))]. }
    apply (IH snap upds e1 (if ok then q else r_add q (c_obj d) (c_rev d) (c_rev d) true (e_now e1)) c e' q' Hc (tstep_trans _ _ _ TS TS1)); [intros x Hx'; apply SD; right; exact Hx'|exact Hr| | | |exact H].
    + destruct ok.
      * apply (tinv_settle_dead _ _ k (c_rev d)); [rewrite TG; exact (aget_adel_same _ _ _)|exact A1|exact T1].
      * destruct (add_has_item q (c_obj d) (c_rev d) (c_rev d) true (e_now e1)) as [it [X1 X2]].
        apply (tinv_settle_item _ _ _ _ _ _ it X1 X2). apply (tinv_off _ _ _ _ q); [apply keeps_off_add|exact T1].
    + destruct ok; [exact D1|apply del_items_add; [intros _; exact A1|exact D1]].
    + intros x Hx' it Hi. destruct ok; [exact (NI x (or_intror Hx') it Hi)|].
      apply in_add_items_weak in Hi. destruct Hi as [[J1 _]|J1]; [|exact (NI x (or_intror Hx') it J1)].
      unfold ri_pk. rewrite J1. change (o_pk (c_obj d)) with k. intro X. apply Hx. rewrite X. apply in_map. exact Hx'.
Qed.

Lemma batch_update_calls_target : forall upds snap e acc P q c e' l, c <= t_rev snap ->
  tstep snap (e_tab e) -> (forall u, In u upds -> In (ch_pk u) P) ->
  NoDup (map ch_pk (map fst acc ++ upds)) ->
  tinv (e_tab e) c P q (e_target e) -> del_items (e_tab e) c q -> res_target (map mk_res acc) (e_target e) ->
  batch_update_calls snap upds e acc = (e', l) ->
  tstep snap (e_tab e') /\ tinv (e_tab e') c P q (e_target e') /\ del_items (e_tab e') c q /\
  res_target (map mk_res l) (e_target e') /\ map fst l = map fst acc ++ upds.
Proof.
  induction upds as [|u rest IH]; intros snap e acc P q c e' l Hc TS UP ND T DI RA H; cbn [batch_update_calls] in H.
  - injection H as H1 H2. subst. split; [exact TS|]. split; [exact T|]. split; [exact DI|]. split; [exact RA|rewrite app_nil_r; reflexivity].
  - destruct (do_call e snap true 2 (c_obj u) (c_rev u)) as [e1 ok] eqn:Ec.
    pose proof TS as [K0 [R0 _]].
    assert (Hc' : c <= t_rev (e_tab e)) by lia.
    assert (Hnew : ~ In (ch_pk u) (res_pks (map mk_res acc))).
    { rewrite (map_app ch_pk) in ND. apply NoDup_remove_2 in ND. intro X. apply ND. apply in_or_app. left.
      unfold res_pks in X. rewrite map_map in X. rewrite map_map. exact X. }
    destruct (do_call_frame _ _ _ _ _ _ _ _ c P _ q Ec K0 Hc' (UP u (or_introl eq_refl)) Hnew T RA DI) as [TS1 [TG [T1 [RT1 D1]]]].
    destruct (IH snap e1 (acc ++ [(u, ok)]) P q c e' l Hc (tstep_trans _ _ _ TS TS1)) as [R1 [R2 [R3 [R4 R5]]]];
      [intros x Hx; apply UP; right; exact Hx| |exact T1|exact D1| |exact H|].
    + rewrite (map_app fst), <- app_assoc. exact ND.
    + rewrite map_app. apply res_target_snoc; [exact RT1|]. cbn [mk_res fst snd r_ok r_obj]. intro Hok. subst ok.
      rewrite TG. exact (aget_aset_same _ _ _ _).
    + split; [exact R1|]. split; [exact R2|]. split; [exact R3|]. split; [exact R4|].
      rewrite R5, map_app, <- app_assoc. reflexivity.
Qed.

Lemma nodup_app_intro : forall (l1 l2 : list N), NoDup l1 -> NoDup l2 -> (forall x, In x l1 -> ~ In x l2) -> NoDup (l1 ++ l2).
Proof.
  induction l1 as [|a r IH]; intros l2 N1 N2 D; cbn [app]; [exact N2|].
  inversion N1 as [|x xs Hx Hr]; subst. constructor.
  - intro H. apply in_app_or in H. destruct H as [H|H]; [contradiction|]. apply (D a (or_introl eq_refl) H).
  - apply IH; [exact Hr|exact N2|]. intros x Hx'. apply D. right. exact Hx'.
Qed.

Lemma no_item_find_none : forall q k, no_item q k <-> find_item k (q_items q) = None.
Proof.
  intros q k. split.
  - intro H. destruct (find_item k (q_items q)) as [it|] eqn:E; [|reflexivity].
    destruct (find_item_in _ _ _ E) as [A B]. exfalso. exact (H it A B).
  - intros H it Hi Hk. induction (q_items q) as [|i r IH]; [destruct Hi|].
    cbn [find_item] in H. destruct (ri_pk i =? k) eqn:E; [discriminate|].
    destruct Hi as [Hi|Hi]; [subst i; apply N.eqb_neq in E; congruence|apply IH; assumption].
Qed.

(* the collected batches: the deletes are deletions of the snapshot, all keys are pairwise distinct, and Clear has left
   no retry item for any of them *)
Lemma batch_collected : forall rs snap c0 e q chs qa dels upds nrec lastrev,
  phase_inv (Dlog e) snap e q [] (curs c0 0) chs ->
  batch_collect rs chs q [] [] 0 0 = (qa, dels, upds, nrec, lastrev) ->
  (forall d, In d dels -> slot_of snap (ch_pk d) = Some (Dead (c_obj d) (c_rev d))) /\
  NoDup (map ch_pk upds) /\ NoDup (map ch_pk (dels ++ upds)) /\ (forall x, In x (dels ++ upds) -> no_item qa (ch_pk x)).
Proof.
  intros rs snap c0 e q chs qa dels upds nrec lastrev PH HC.
  assert (B0 : binv (Dlog e) snap e q [] [] (curs c0 0) chs).
  { constructor; [apply (phase_inv_D_mono (Dlog e)); [intros p r X; left; exact X|exact PH]|intros c []|constructor
                 |intros d []|intros d ch []|intros d []]. }
  destruct (batch_collect_inv _ _ _ _ _ _ _ _ _ _ _ _ _ _ _ _ B0 HC) as [chs' [B1 B2 B3 B4 B5 B6]].
  assert (NDu : NoDup (map ch_pk upds)) by (destruct B1 as [_ _ _ _ _ _ _ X _ _ _]; rewrite res_pks_pend in X; exact X).
  split; [|split; [exact NDu|split]].
  - intros d Hd. destruct (proj1 (batch_collect_parts _ _ _ _ _ _ _ _ _ _ _ _ HC d) Hd) as [[]|[X1 X2]].
    destruct PH as [_ _ _ [_ [_ [S3 _]]] _ _ _ _ _ _ _]. destruct (S3 d X1) as [sl [Y1 Y2]].
    rewrite Y1. f_equal. apply slot_change_dead; assumption.
  - rewrite map_app. apply nodup_app_intro; [exact B3|exact NDu|].
    intros x Hx Hx'. apply in_map_iff in Hx. destruct Hx as [d [X1 X2]]. apply (B4 d X2). rewrite res_pks_pend, X1. exact Hx'.
  - intros x Hx. apply no_item_find_none. apply B2. exact Hx.
Qed.

Theorem phase1_target : forall cf snap c0 chs e q e1 q1 res1 nrec1 lastrev1,
  phase_inv (Dlog e) snap e q [] (curs c0 0) chs -> p1inv snap e q [] (curs c0 0) ->
  curs c0 lastrev1 <= t_rev snap ->
  phase1 cf snap chs e q = (e1, q1, res1, nrec1, lastrev1) ->
  p1inv snap e1 q1 res1 (curs c0 lastrev1).
Proof.
  intros cf snap c0 chs e q e1 q1 res1 nrec1 lastrev1 PH G Hcur H.
  destruct (phase1_cases _ _ _ _ _ _ _ _ _ _ H) as [HS|[qa [dels [upds [e2 [q2 [l [HC [HD [HU HR]]]]]]]]]];
    [exact (single_target _ _ _ c0 _ _ _ _ _ _ _ _ _ _ PH G HS)|].
  pose proof PH as [I1 I2 I3 I4 I5 I6 I7 I8 I9 I10 I11]. destruct G as [TS T RT DI NOI].
  destruct (batch_collected _ _ _ _ _ _ _ _ _ _ _ PH HC) as [SD [NDu [ND NIa]]].
  destruct (batch_collect_target chs (cf_rs cf) snap (e_tab e) c0 q [] [] 0 0 qa dels upds nrec1 lastrev1 (e_target e) I2 I3 I4 T DI HC) as [Ta Da].
  destruct (batch_deletes_target dels snap upds e qa _ e2 q2 Hcur TS SD ND Ta Da NIa HD) as [TS2 [T2 [D2 NI2]]].
  destruct (batch_update_calls_target upds snap e2 [] (map ch_pk upds) q2 _ e1 l Hcur TS2) as [TS3 [T3 [D3 [RA3 M3]]]];
    [intros u Hu; apply in_map; exact Hu|exact NDu|exact T2|exact D2|intros r []|exact HU|].
  cbn [map app] in M3.
  rewrite batch_results_spec in HR by (intros x Hx; apply no_item_find_none, NI2; rewrite <- M3; apply in_map; exact Hx).
  injection HR as <- <-. cbn [app].
  assert (PK : res_pks (map mk_res l) = map ch_pk upds) by (rewrite <- M3; unfold res_pks; rewrite !map_map; reflexivity).
  constructor; [exact TS3|rewrite PK; exact T3|exact RA3|exact D3|].
  intros r Hr. apply in_map_iff in Hr. destruct Hr as [x [X1 X2]]. subst r. cbn [mk_res r_obj]. apply NI2. rewrite <- M3. apply in_map. exact X2.
Qed.

Record cinv (t : table) (c : N) (res : list opres) (q : retries) (tg : list (N * N)) : Prop := {
  ci_t : tinv t c (res_pks res) q tg;
  ci_rt : res_target res tg;
  ci_good : res_good t c res;
  ci_del : del_items t c q;
  ci_rd : res_del res q;
  ci_okc : okclear res q
}.

Lemma good_ext : forall t t' c r, slot_of t' (o_pk (r_obj r)) = slot_of t (o_pk (r_obj r)) -> good t c r -> good t' c r.
Proof.
  intros t t' c r H [X|[cur [rv [A B]]]]; [left; apply (work_ahead_ext t); assumption|right].
  exists cur, rv. rewrite H. split; assumption.
Qed.

Lemma dead_at_ext : forall t t' k r, slot_of t' k = slot_of t k -> dead_at t k r -> dead_at t' k r.
Proof. intros t t' k r H [o A]. exists o. rewrite H. exact A. Qed.

(* a status commit touches the retry items of its key only: it adds at most an update item of that key, and adds one
   when the status of a failed operation was written *)
Lemma commit_one_queue_at : forall fixed efb now t q r t1 q1, keyed t -> uniq q ->
  commit_one fixed efb now (t, q) r = (t1, q1) ->
  keeps_off (o_pk (r_obj r)) q q1 /\
  (forall it, In it (q_items q1) -> In it (q_items q) \/ (ri_pk it = o_pk (r_obj r) /\ ri_del it = false)) /\
  (r_ok r = false -> t_rev t1 = t_rev t + 1 -> exists it, In it (q_items q1) /\ ri_pk it = o_pk (r_obj r)).
Proof.
  intros fixed efb now t q r t1 q1 K U H. destruct (commit_one_spec _ _ _ _ _ _ _ _ K H) as [_ [_ Hq]].
  pose proof (queued_pk t r K) as Qk. rewrite Hq. unfold wrote.
  destruct (negb (r_ok r) && (t_rev t1 =? t_rev t + 1)) eqn:E.
  - split; [|split].
    + intros it Hi Hne. apply keeps_off_add; [exact Hi|rewrite Qk; exact Hne].
    + intros it Hi. apply (in_add_items _ _ _ _ _ _ _ U) in Hi. destruct Hi as [[I1 [_ [_ [I4 _]]]]|[I1 _]]; [right|left; exact I1].
      split; [unfold ri_pk; rewrite I1; exact Qk|exact I4].
    + intros _ _. destruct (add_has_item q (queued t r) (t_rev t1) (if fixed then r_orig r else r_rev r) false now) as [it [Y1 Y2]].
      exists it. split; [exact Y1|rewrite <- Qk; exact Y2].
  - split; [intros it Hi _; exact Hi|]. split; [intros it Hi; left; exact Hi|].
    intros Hok Hw. rewrite Hok, Hw, N.eqb_refl in E. discriminate.
Qed.

(* after the commit of a result that was good, target and table agree on its key unless the key has work ahead or a
   retry item: nothing written contradicts `good`; a written status sits on an object with the reconciled payload, which
   the target holds if the operation succeeded, and a failed one has its retry item *)
Lemma commit_one_agrees : forall f c now t q r t1 q1 tg, uniq q -> sinv f t q -> res_ok f t r -> good t c r ->
  (r_ok r = true -> aget (o_pk (r_obj r)) tg = Some (o_ver (r_obj r))) ->
  commit_one true true now (t, q) r = (t1, q1) ->
  forall sl, slot_of t1 (o_pk (r_obj r)) = Some sl -> ~ work_ahead t1 c (o_pk (r_obj r)) -> no_item q1 (o_pk (r_obj r)) ->
  aget (o_pk (r_obj r)) tg = pay sl.
Proof.
  intros f c now t q r t1 q1 tg U SI RO G RT H sl A B C.
  pose proof (twf_keyed _ (proj1 SI)) as K.
  destruct (commit_one_spec _ _ _ _ _ _ _ _ K H) as [_ [Hcs _]]. destruct (commit_one_queue_at _ _ _ _ _ _ _ _ K U H) as [_ [_ QN]].
  destruct Hcs as [[A1 [B1 C1]]|Hw].
  - exfalso. destruct G as [X|[cur [rv [X1 X2]]]]; [exact (B (work_ahead_ext t _ _ _ A1 X))|].
    apply t_live_slot in X1. destruct (C1 cur rv X1) as [Y1 Y2].
    assert (F : fallback_ok true cur r = true).
    { apply fallback_ok_spec. destruct X2 as [[X2 X3]|[[X2 X3]|[X2 X3]]]; [congruence|left; split; assumption|right; repeat split; assumption]. }
    congruence.
  - assert (W : exists x, slot_of t1 (o_pk (r_obj r)) = Some (Live x (t_rev t + 1)) /\ o_ver x = o_ver (r_obj r) /\ t_rev t1 = t_rev t + 1).
    { destruct Hw as [[cur [A1 [B1 C1]]]|[cur [rv0 [A1 [A2 [A3 [B1 C1]]]]]]]; eexists; (split; [exact B1|split; [|exact C1]]);
        [reflexivity|exact (fallback_same_ver f t q true r cur rv0 SI RO A1 A3)]. }
    destruct W as [x [B1 [V C1]]]. rewrite B1 in A. injection A as A. subst sl. cbn [pay]. rewrite V.
    destruct (r_ok r) eqn:Eok; [exact (RT eq_refl)|]. exfalso. destruct (QN eq_refl C1) as [it [Y1 Y2]]. exact (C it Y1 Y2).
Qed.

Lemma commit_one_target : forall f c now t q r rest t1 q1 tg, uniq q -> c <= t_rev t ->
  NoDup (res_pks (r :: rest)) -> sinv f t q -> res_ok f t r ->
  cinv t c (r :: rest) q tg -> commit_one true true now (t, q) r = (t1, q1) -> cinv t1 c rest q1 tg.
Proof.
  intros f c now t q r rest t1 q1 tg U Hc ND SI RO [T RT G DI RD OKC] H.
  pose proof (twf_keyed _ (proj1 SI)) as K.
  destruct (commit_one_spec _ _ _ _ _ _ _ _ K H) as [Ho _]. destruct (commit_one_queue_at _ _ _ _ _ _ _ _ K U H) as [QO [QI _]].
  set (pk := o_pk (r_obj r)) in *.
  cbn [res_pks map] in ND. fold pk in ND. inversion ND as [|x xs Hx Hr]; subst x xs.
  assert (NotRest : forall r', In r' rest -> o_pk (r_obj r') <> pk).
  { intros r' Hin Heq. apply Hx. rewrite <- Heq. apply (in_map (fun r => o_pk (r_obj r))). exact Hin. }
  constructor.
  - apply (tinv_settle _ _ pk); [|exact (tinv_off _ _ _ _ _ _ _ QO (tinv_table_off _ _ _ _ _ _ _ Ho T))].
    exact (commit_one_agrees f c now t q r t1 q1 tg U SI RO (G r (or_introl eq_refl)) (RT r (or_introl eq_refl)) H).
  - intros r' Hr' Hok. apply (RT r' (or_intror Hr') Hok).
  - intros r' Hr'. apply (good_ext t); [apply Ho; apply NotRest; exact Hr'|apply G; right; exact Hr'].
  - intros it Hi Hd. destruct (QI it Hi) as [X|[_ X]]; [|congruence].
    assert (Hne : ri_pk it <> pk).
    { intro E. pose proof (RD r it (or_introl eq_refl) X E). congruence. }
    destruct (DI it X Hd) as [Y|Y]; [left; apply (work_ahead_ext t); [apply Ho; exact Hne|exact Y]|right; apply (dead_at_ext t); [apply Ho; exact Hne|exact Y]].
  - intros r' it Hr' Hi Hk. destruct (QI it Hi) as [X|[X1 X2]]; [apply (RD r' it (or_intror Hr') X Hk)|exact X2].
  - intros r' Hr' Hok it Hi. destruct (QI it Hi) as [X|[X1 _]]; [apply (OKC r' (or_intror Hr') Hok it X)|].
    rewrite X1. intro E. apply (NotRest r' Hr'). symmetry. exact E.
Qed.

Theorem commit_status_target : forall now res f c t q t' q' tg, uniq q -> c <= t_rev t ->
  NoDup (res_pks res) -> sinv f t q -> (forall r, In r res -> res_ok f t r) ->
  cinv t c res q tg -> commit_status_gen true true now t q res = (t', q') -> cinv t' c [] q' tg.
Proof.
  intros now res. unfold commit_status_gen. induction res as [|r rest IH]; intros f c t q t' q' tg U Hc ND SI RO CI H.
  - cbn in H. injection H as H1 H2. subst. exact CI.
  - cbn [fold_left] in H. destruct (commit_one true true now (t, q) r) as [t1 q1] eqn:E1.
    destruct (commit_one_sinv _ _ _ _ _ _ _ _ _ SI (RO r (or_introl eq_refl)) E1) as [f1 [X1 [S1 [M1 L1]]]].
    pose proof (commit_one_target f c now t q r rest t1 q1 tg U Hc ND SI (RO r (or_introl eq_refl)) CI E1) as CI1.
    pose proof ND as ND'. cbn [res_pks map] in ND'. inversion ND' as [|x xs Hx Hrest]; subst.
    apply (IH f1 c t1 q1 t' q' tg); try assumption.
    + destruct S1 as [_ [X _]]. exact X.
    + lia.
    + intros r2 Hin. apply (res_ok_frame f t); [exact X1| |exact M1|apply RO; right; exact Hin].
      apply L1. intro Heq. apply Hx. rewrite <- Heq. apply (in_map (fun r => o_pk (r_obj r))). exact Hin.
Qed.

Lemma pop_keeps_keys : forall q it j, r_top q = Some it -> In j (q_items q) -> exists j', In j' (q_items (r_pop q)) /\ ri_pk j' = ri_pk j.
Proof.
  intros q it j Ht Hj. rewrite pop_items. unfold r_top in Ht. rewrite Ht.
  destruct (N.eq_dec (ri_pk j) (ri_pk it)) as [E|E].
  - exists (set_inq false it). split; [apply in_put_item_self|symmetry; exact E].
  - exists j. split; [apply in_put_item_other; [exact Hj|exact E]|reflexivity].
Qed.

(* Pop: the popped item stays in the queue (unqueued), its key joins the keys awaited *)
Lemma pop_target : forall t c P q tg it, uniq q -> r_top q = Some it -> tinv t c P q tg -> del_items t c q ->
  tinv t c (ri_pk it :: P) (r_pop q) tg /\ del_items t c (r_pop q).
Proof.
  intros t c P q tg it U Ht T DI. split.
  - apply (tinv_q_change _ _ _ q).
    + intros k' _ N j Hj Hk. destruct (pop_keeps_keys q it j Ht Hj) as [j' [X1 X2]]. apply (N j' X1). congruence.
    + apply (tinv_P_mono _ _ P); [intros x Hx; right; exact Hx|exact T].
  - intros j Hj Hd. destruct (in_pop_items_uniq q it j U Ht Hj) as [X|[X _]]; [subst j|exact (DI j X Hd)].
    exact (DI it (proj1 (top_of_spec _ _ Ht)) Hd).
Qed.

(* the retry of the popped item keeps: an item of the key of a result is an update item *)
Lemma res_del_retry : forall e snap q res it e' q' res', uniq q -> r_top q = Some it -> ~ In (ri_pk it) (res_pks res) ->
  res_del res q ->
  process_single e snap false (r_pop q) res (ri_obj it) (ri_rev it) (ri_orig it) (ri_del it) = (e', q', res') ->
  res_del res' q'.
Proof.
  intros e snap q res it e' q' res' U Ht Hnew RD H r j Hr Hj Hk.
  assert (Hr' : (In r res /\ o_pk (r_obj r) <> ri_pk it) \/ (ri_del it = false /\ o_pk (r_obj r) = ri_pk it)).
  { destruct (process_single_res _ _ _ _ _ _ _ _ _ _ _ _ H r Hr) as [Y|[Hd [ok Y]]]; [left; split; [exact Y|]|right; subst r; split; [exact Hd|reflexivity]].
    intro X. apply Hnew. rewrite <- X. apply (in_map (fun r => o_pk (r_obj r))). exact Y. }
  destruct (process_single_items _ _ _ _ _ _ _ _ _ _ _ _ H j Hj) as [X|[Hd X]].
  - destruct (in_pop_items_uniq q it j U Ht X) as [Z|[Z Zk]]; [subst j|].
    + destruct Hr' as [[_ Y]|[Y _]]; [exfalso; apply Y; symmetry; exact Hk|exact Y].
    + destruct Hr' as [[Y _]|[_ Y]]; [exact (RD r j Y Z Hk)|exfalso; apply Zk; congruence].
  - exfalso. destruct Hr' as [[_ Y]|[Y _]]; [apply Y; change (ri_pk j = ri_pk it) in X; congruence|congruence].
Qed.

Lemma retry_step_target : forall e snap q res c it e' q' res',
  retry_inv e q res c -> items_inv (e_tab e) c res q -> cinv (e_tab e) c res q (e_target e) -> r_top q = Some it ->
  process_single e snap false (r_pop q) res (ri_obj it) (ri_rev it) (ri_orig it) (ri_del it) = (e', q', res') ->
  okclear res' q' -> cinv (e_tab e') c res' q' (e_target e').
Proof.
  intros e snap q res c it e' q' res' [I1 I2 I3 I4 I5 I6 I7 I8] II [T RT G DI RD OKC] Ht H OKC'.
  destruct (top_of_spec _ _ Ht) as [Hin [Hq _]].
  assert (Hf : find_item (ri_pk it) (q_items q) = Some it) by (apply find_item_uniq; assumption).
  assert (Hnew : ~ In (ri_pk it) (res_pks res)) by (intro X; rewrite (I7 _ _ X Hf) in Hq; discriminate).
  destruct (pop_target _ _ _ _ _ _ I3 Ht T DI) as [T0 D0].
  destruct (process_single_target _ _ _ _ _ _ _ _ _ _ _ _ c (twf_keyed _ I1) I2 Hnew (DI it Hin) T0 RT D0 H) as [TS1 [T1 [RT1 D1]]].
  constructor; [exact T1|exact RT1| |exact D1|exact (res_del_retry _ _ _ _ _ _ _ _ I3 Ht Hnew RD H)|exact OKC'].
  (* the retried object still carries our Error status (it will be committed whatever its revision), or has work ahead *)
  intros r Hr. destruct (process_single_res _ _ _ _ _ _ _ _ _ _ _ _ H r Hr) as [Y|[Hd [ok Y]]]; [exact (good_tstep _ _ _ _ TS1 I2 (G r Y))|]. subst r.
  destruct (II it Hin) as [A|[[_ A]|[[A1 [A2 [A3 A4]]]|[A1 _]]]]; [|congruence| |congruence].
  - left. exact (tstep_work_ahead _ _ _ _ TS1 I2 A).
  - destruct (tstep_err_live _ _ c _ TS1 I2 A4) as [[o [rv [X1 X2]]]|X]; [right|left; exact X].
    exists o, rv. split; [exact X1|]. right. right. split; [exact X2|exact A3].
Qed.

Theorem process_retries_target : forall fuel rs snap e q res nrec c e' q' res' nrec',
  retry_inv e q res c -> items_inv (e_tab e) c res q -> cinv (e_tab e) c res q (e_target e) ->
  process_retries fuel rs snap e q res nrec = (e', q', res', nrec') ->
  cinv (e_tab e') c res' q' (e_target e').
Proof.
  induction fuel as [|f IH]; intros rs snap e q res nrec c e' q' res' nrec' INV I CI H; cbn [process_retries] in H.
  - injection H as H1 H2 H3 H4. subst. exact CI.
  - destruct (nrec <? rs); [|injection H as H1 H2 H3 H4; subst; exact CI].
    destruct (r_top q) as [it|] eqn:Et; [|injection H as H1 H2 H3 H4; subst; exact CI].
    destruct (e_now e <? ri_at it); [injection H as H1 H2 H3 H4; subst; exact CI|].
    destruct (process_single e snap false (r_pop q) res (ri_obj it) (ri_rev it) (ri_orig it) (ri_del it)) as [[e1 q1] res1] eqn:Ep.
    destruct (retry_step_items e snap q res c it e1 q1 res1 INV I (ci_okc _ _ _ _ _ CI) Et Ep) as [I1 O1].
    pose proof (retry_step_target e snap q res c it e1 q1 res1 INV I CI Et Ep O1) as CI1.
    apply (IH rs snap e1 q1 res1 (nrec + 1) c e' q' res' nrec'); [|exact I1|exact CI1|exact H].
    apply (retry_step e snap q res c it e1 q1 res1 INV Et Ep).
Qed.

Lemma good_of_snap : forall snap t c r, tstep snap t -> c <= t_rev snap ->
  slot_of snap (o_pk (r_obj r)) = Some (Live (r_obj r) (r_rev r)) -> is_pending (r_obj r) = true -> good t c r.
Proof.
  intros snap t c r TS Hc Hs Hp. destruct (tstep_act_rel snap t _ _ TS Hs Hp) as [X|X].
  - right. exists (r_obj r), (r_rev r). split; [exact X|left; split; [exact Hp|reflexivity]].
  - left. apply (work_ahead_lower _ (t_rev snap)); assumption.
Qed.

Definition ginv (e : env) (s : rstate) : Prop :=
  tinv (e_tab e) (k_cursor s) [] (k_ret s) (e_target e) /\ del_items (e_tab e) (k_cursor s) (k_ret s).

(* from a round boundary the change-stream phase leads to the invariant of the status commit: its results are the
   snapshot's Pending/Refreshing objects, so each will be committed or its key has newer work ahead *)
Lemma phase1_cinv : forall cf e c q e1 q1 res1 nrec1 lastrev1,
  phase_inv (Dlog e) (e_tab e) e q [] (curs c 0) (changes_of (e_tab e) c) ->
  tinv (e_tab e) c [] q (e_target e) -> del_items (e_tab e) c q ->
  curs c lastrev1 <= t_rev (e_tab e) -> okclear res1 q1 ->
  phase1 cf (e_tab e) (changes_of (e_tab e) c) e q = (e1, q1, res1, nrec1, lastrev1) ->
  cinv (e_tab e1) (curs c lastrev1) res1 q1 (e_target e1).
Proof.
  intros cf e c q e1 q1 res1 nrec1 lastrev1 INV0 T0 D0 Hcur O1 E1. pose proof INV0 as [_ W _ _ _ _ _ _ _ _ _].
  assert (G0 : p1inv (e_tab e) e q [] (curs c 0)).
  { constructor; [apply tstep_refl; apply twf_keyed; exact W|exact T0|intros r []|exact D0|intros r []]. }
  destruct (phase1_target cf _ c _ e q e1 q1 res1 nrec1 lastrev1 INV0 G0 Hcur E1) as [TS T RT DI NOI].
  constructor; [exact T|exact RT| |exact DI| |exact O1].
  - intros r Hr. destruct (from_change_slot _ _ r W (phase1_res _ _ _ _ _ _ _ _ _ _ E1 r Hr)) as [X1 [X2 _]].
    exact (good_of_snap _ _ _ r TS Hcur X1 X2).
  - intros r it Hr Hi Hk. exfalso. exact (NOI r Hr it Hi Hk).
Qed.

Theorem round_keeps_target : forall cf e s e' s', c15_inv e s ->
  items_inv (e_tab e) (k_cursor s) [] (k_ret s) -> ginv e s -> round cf e s = (e', s') -> ginv e' s'.
Proof.
  intros cf e s e' s' [[RI _] [f SI]] II [T0 D0] H.
  destruct (round_decompose _ _ _ _ _ H) as [e1 [q1 [res1 [nrec1 [lastrev1 [t1 [q2 [e3 [q3 [res2 [nrec3 [t2 [q4
    [E1 [C1 [R1 [C2 [Tt [_ [_ [_ [_ [Tc Tq]]]]]]]]]]]]]]]]]]]]]]].
  destruct (round_trace_eq _ _ _ _ _ _ _ _ _ _ _ _ _ _ _ _ E1 C1 R1 C2) as [TR [_ [_ [Ttg _]]]]. rewrite H in Ttg. cbn [fst] in Ttg.
  pose proof (round_sinv cf e s f RI SI) as X. cbv zeta in X. rewrite TR in X. cbn [tr_e1 tr_q1 tr_res1 tr_e3 tr_q3 tr_res2] in X.
  destruct X as [[f1 [S1 [N1 RO1]]] [[f3 [S3 [N3 RO3]]] _]].
  destruct (round_stages _ _ _ _ _ _ _ _ _ _ _ _ _ _ _ _ RI E1 C1 R1 C2)
    as [INV0 [[chs' [J1 J2 J3 J4 J5 J6 J7 J8 J9 J10 J11]] [_ [RI0 [[K1 K2 K3 K4 K5 K6 K7 K8] _]]]]].
  set (cur1 := curs (k_cursor s) lastrev1) in *. destruct J3 as [SR _].
  destruct (phase1_items cf _ (k_cursor s) _ e (k_ret s) e1 q1 res1 nrec1 lastrev1 INV0 II J5 E1) as [I1 O1].
  pose proof (phase1_cinv _ _ _ _ _ _ _ _ _ INV0 T0 D0 J5 O1 E1) as CI1. fold cur1 in CI1.
  assert (Hres1 : forall r, In r res1 -> r_orig r <= t_rev (e_tab e1) /\ r_rev r <= t_rev (e_tab e1)).
  { intros r Hr. destruct (J10 r Hr). split; lia. }
  assert (Hcur1 : cur1 <= t_rev (e_tab e1)) by lia.
  pose proof (commit_status_target (e_now e1) res1 f1 cur1 (e_tab e1) q1 t1 q2 (e_target e1) J6 Hcur1 J8 S1 RO1 CI1 C1) as CI2.
  assert (I2 : items_inv t1 cur1 [] q2).
  { apply (commit_status_items cur1 (e_now e1) res1 (e_tab e1) q1 t1 q2 (twf_keyed _ J1) J6); try assumption.
    - intros r Hr. apply Hres1. exact Hr.
    - apply (items_ok_res_mono _ _ []); [intros r []|exact I1]. }
  pose proof (process_retries_target _ _ _ _ _ _ _ _ _ _ _ _ RI0 I2 CI2 R1) as CI3.
  pose proof (commit_status_target (e_now e3) res2 f3 cur1 (e_tab e3) q3 t2 q4 (e_target e3) K3 K2 K5 S3 RO3 CI3 C2) as [X1 _ _ X4 _ _].
  unfold ginv. rewrite Tt, Tc, Tq, Ttg. split; assumption.
Qed.

Lemma estep_keeps_target : forall st st', estep st st' -> full_inv (fst st) (snd st) ->
  ginv (fst st) (snd st) -> ginv (fst st') (snd st').
Proof.
  intros st st' H. destruct H; cbn [fst snd]; intros [[[W _] [Hc _]] _] G; try exact G.
  destruct G as [T D].
  pose proof (do_write_tstep (e_tab e) e kind k (tstep_refl _ (twf_keyed _ W))) as TS.
  destruct (do_write_frame e kind k) as [_ [_ [_ [_ [_ [_ F]]]]]].
  split; [rewrite F; apply (tinv_tstep (e_tab e)); assumption|apply (del_items_tstep (e_tab e)); assumption].
Qed.

Theorem reach_target : forall cf st, reach cf st -> ginv (fst st) (snd st).
Proof.
  intros cf st H. induction H.
  - split; [intros k sl A; discriminate|intros it []].
  - apply (estep_keeps_target st st' H0); [apply (nothing_forgotten cf st H)|exact IHreach].
  - destruct (round cf e s) as [e' s'] eqn:E. cbn [fst snd] in *.
    apply (round_keeps_target cf e s e' s' (c15_inv_reach cf (e, s) H) (reach_items_inv cf (e, s) H) IHreach E).
Qed.

(* TARGET = TABLE: in every reachable quiescent state the simulated target holds, for every key of the table,
   exactly the payload version of the live object, and no entry for a deleted key *)
Theorem target_equals_table : forall cf st, reach cf st -> quiescent (fst st) (snd st) ->
  forall k sl, slot_of (e_tab (fst st)) k = Some sl -> aget k (e_target (fst st)) = pay sl.
Proof.
  intros cf [e s] H [Q1 Q2] k sl Hs. cbn [fst snd] in *.
  destruct (reach_target cf (e, s) H) as [T _]. cbn [fst snd] in T.
  pose proof (full_inv_twf _ _ (reach_full_inv cf e s H)) as W.
  apply (T k sl Hs).
  - intros [sl' [A [B _]]]. pose proof (no_changes_all_behind _ _ W Q2 k sl' A). lia.
  - intros it Hi. rewrite Q1 in Hi. destruct Hi.
  - intros [].
Qed.

Corollary target_equals_payload : forall cf st, reach cf st -> quiescent (fst st) (snd st) ->
  forall k, slot_of (e_tab (fst st)) k <> None -> aget k (e_target (fst st)) = payload (e_tab (fst st)) k.
Proof.
  intros cf st H Q k Hk. unfold payload. destruct (slot_of (e_tab (fst st)) k) as [sl|] eqn:Hs; [|congruence].
  rewrite (target_equals_table cf st H Q k sl Hs). destruct sl; reflexivity.
Qed.

Definition replay_call (tg : list (N * N)) (c : call) : list (N * N) :=
  if cl_ok c then
    (if is_upd_op (cl_op c) then aset (cl_pk c) (cl_ver c) tg
     else if is_del_op (cl_op c) then adel (cl_pk c) tg else tg)
  else tg.
Definition replay (l : list call) : list (N * N) := fold_left replay_call l [].
Definition logged (e : env) : Prop := e_target e = replay (e_calls e).

Lemma do_call_logged : forall e snap fresh op o rev, op < 4 -> logged e -> logged (fst (do_call e snap fresh op o rev)).
Proof.
  intros e snap fresh op o rev Hop L. destruct (do_call_out e snap fresh op o rev) as [c [E [C1 [C2 C3]]]]. rewrite E.
  destruct (hooked_frame e fresh (o_pk o)) as [LC _]. unfold logged in *. cbn [fst log_call e_target e_calls].
  rewrite LC. unfold replay. rewrite fold_left_app. cbn [fold_left].
  fold (replay (e_calls e)). rewrite <- L. unfold replay_call, apply_op. rewrite C1, C2, C3.
  destruct (cl_ok c); [|reflexivity]. destruct (is_upd_op op) eqn:U; [reflexivity|].
  replace (is_del_op op) with true; [reflexivity|]. unfold is_upd_op, is_del_op in *. lia.
Qed.

Lemma round_logged : forall cf e s e' s', logged e -> round cf e s = (e', s') -> logged e'.
Proof.
  intros cf e s e' s' L H.
  destruct (round_decompose _ _ _ _ _ H) as [e1 [q1 [res1 [nrec1 [lastrev1 [t1 [q2 [e3 [q3 [res2 [nrec3 [t2 [q4
    [E1 [C1 [R1 [C2 _]]]]]]]]]]]]]]]]].
  destruct (round_trace_eq _ _ _ _ _ _ _ _ _ _ _ _ _ _ _ _ E1 C1 R1 C2) as [_ [_ [_ [Ttg Tcl]]]]. rewrite H in Ttg, Tcl. cbn [fst] in Ttg, Tcl.
  pose proof (phase1_env logged do_call_logged _ _ _ _ _ _ _ _ _ _ L E1) as L1.
  pose proof (process_retries_env logged do_call_logged _ _ _ _ _ _ _ _ _ _ _ (L1 : logged (set_tab e1 t1)) R1) as L3.
  unfold logged in *. rewrite Ttg, L3. destruct Tcl as [X|[c [X1 [X2 X3]]]]; [rewrite X; reflexivity|].
  rewrite X1. unfold replay. rewrite fold_left_app. cbn [fold_left]. symmetry. unfold replay_call at 1. rewrite X3, X2. reflexivity.
Qed.

Theorem reach_logged : forall cf st, reach cf st -> logged (fst st).
Proof.
  intros cf st H. induction H.
  - reflexivity.
  - destruct H0; cbn [fst snd] in *; try exact IHreach.
    unfold logged in *. destruct (do_write_frame e kind k) as [F1 [_ [_ [_ [_ [_ F2]]]]]]. rewrite F1, F2. exact IHreach.
  - destruct (round cf e s) as [e' s'] eqn:E. apply (round_logged cf e s e' s' IHreach E).
Qed.

(* the last successful Update/Delete (single or batch entry) of a key in the log *)
Definition is_target_op (c : call) (k : N) : bool :=
  cl_ok c && (cl_pk c =? k) && (is_upd_op (cl_op c) || is_del_op (cl_op c)).
Fixpoint last_op (k : N) (l : list call) : option call :=
  match l with
  | [] => None
  | c :: r => match last_op k r with Some c' => Some c' | None => if is_target_op c k then Some c else None end
  end.

Lemma replay_last : forall k l tg0,
  aget k (fold_left replay_call l tg0) =
  match last_op k l with
  | Some c => if is_upd_op (cl_op c) then Some (cl_ver c) else None
  | None => aget k tg0
  end.
Proof.
  intros k l. induction l as [|c r IH]; intro tg0; cbn [fold_left last_op]; [reflexivity|].
  rewrite IH. destruct (last_op k r) as [c'|]; [reflexivity|].
  unfold is_target_op, replay_call. destruct (cl_ok c); cbn [andb]; [|reflexivity].
  destruct (N.eqb_spec (cl_pk c) k) as [E|E]; cbn [andb].
  - subst k. destruct (is_upd_op (cl_op c)) eqn:EU; cbn [orb]; [rewrite EU; apply aget_aset_same|].
    destruct (is_del_op (cl_op c)); [rewrite EU; apply aget_adel_same|reflexivity].
  - destruct (is_upd_op (cl_op c)); [apply aget_aset_other; congruence|].
    destruct (is_del_op (cl_op c)); [apply aget_adel_other; congruence|reflexivity].
Qed.

Lemma last_op_spec : forall k l c, last_op k l = Some c -> In c l /\ is_target_op c k = true.
Proof.
  intros k l. induction l as [|c0 r IH]; intros c H; cbn [last_op] in H; [discriminate|].
  destruct (last_op k r) as [c'|] eqn:E.
  - injection H as H. subst c'. destruct (IH c eq_refl) as [A B]. split; [right; exact A|exact B].
  - destruct (is_target_op c0 k) eqn:E2; [|discriminate]. injection H as H. subst c0. split; [left; reflexivity|exact E2].
Qed.

Lemma last_op_some : forall k l c, In c l -> is_target_op c k = true -> exists c', last_op k l = Some c'.
Proof.
  intros k l. induction l as [|c0 r IH]; intros c Hin Ht; [destruct Hin|]. cbn [last_op].
  destruct Hin as [Hin|Hin].
  - subst c0. destruct (last_op k r) as [c'|]; [exists c'; reflexivity|rewrite Ht; exists c; reflexivity].
  - destruct (IH c Hin Ht) as [c' E]. rewrite E. exists c'. reflexivity.
Qed.

(* in every reachable state the target entry of a key is what the last successful Update/Delete of the key in the log says *)
Lemma reach_target_last_op : forall cf st, reach cf st -> forall k,
  aget k (e_target (fst st)) =
  match last_op k (e_calls (fst st)) with Some c => if is_upd_op (cl_op c) then Some (cl_ver c) else None | None => None end.
Proof. intros cf st H k. rewrite (reach_logged cf st H). unfold replay. rewrite replay_last. reflexivity. Qed.

(* TARGET = TABLE, on the call log: in every reachable quiescent state, for every live object the LAST
   successful operation of its key is an Update (or UpdateBatch entry) carrying its current payload version,
   and for every deleted key the last successful operation is a Delete (or DeleteBatch entry) *)
Theorem last_operation_matches_table : forall cf st, reach cf st -> quiescent (fst st) (snd st) ->
  forall k sl, slot_of (e_tab (fst st)) k = Some sl ->
    exists c, last_op k (e_calls (fst st)) = Some c /\ cl_ok c = true /\ cl_pk c = k /\
      match sl with
      | Live o _ => is_upd_op (cl_op c) = true /\ cl_ver c = o_ver o
      | Dead _ _ => is_del_op (cl_op c) = true
      end.
Proof.
  intros cf st H Q k sl Hs.
  pose proof (target_equals_table cf st H Q k sl Hs) as TT.
  rewrite (reach_target_last_op cf st H) in TT.
  destruct sl as [o r|o r]; cbn [pay] in TT.
  - destruct (last_op k (e_calls (fst st))) as [c|] eqn:E; [|discriminate].
    destruct (last_op_spec _ _ _ E) as [_ B]. unfold is_target_op in B.
    apply andb_prop in B. destruct B as [B B3]. apply andb_prop in B. destruct B as [B1 B2]. apply N.eqb_eq in B2.
    exists c. split; [reflexivity|]. split; [exact B1|]. split; [exact B2|].
    destruct (is_upd_op (cl_op c)); [split; [reflexivity|congruence]|discriminate].
  - (* the deletion was Delete()d successfully (reconciled), so there is a last operation; it is not an Update *)
    pose proof (converges_partial cf st H Q k (Dead o r) Hs) as [c0 [A [B [C [D F]]]]].
    destruct (last_op_some k (e_calls (fst st)) c0 A) as [c E].
    { unfold is_target_op. rewrite F, C, N.eqb_refl, B. cbn. apply orb_true_r. }
    rewrite E in TT. destruct (last_op_spec _ _ _ E) as [_ X]. unfold is_target_op in X.
    apply andb_prop in X. destruct X as [X X3]. apply andb_prop in X. destruct X as [X1 X2]. apply N.eqb_eq in X2.
    exists c. split; [exact E|]. split; [exact X1|]. split; [exact X2|].
    destruct (is_upd_op (cl_op c)); [discriminate|]. cbn [orb] in X3. exact X3.
Qed.

Lemma reach_iter : forall cf n st, reach cf st -> reach cf (iter_round cf n st).
Proof.
  intros cf n. induction n as [|n IH]; intros st H; cbn [iter_round]; [exact H|].
  apply IH. destruct st as [e s]. cbn [fst snd]. apply reach_round. exact H.
Qed.

(* the whole property C14 for runs: from any reachable state, once operations stop failing (e_foff), no user
   write is pending (hooks_inert) and the queued retries are due, after n <= ceil((pending + items)/roundSize) + 1
   rounds — and for ever after — the reconciler is quiescent, every live object is Done, every deletion was
   Delete()d, and the target equals the table *)
Theorem converges_to_target : forall cf e s, reach cf (e, s) -> 0 < cf_rs cf -> calm e ->
  (forall it, In it (q_items (k_ret s)) -> ri_inq it = true -> ri_at it <= e_now e) ->
  exists n, (n <= bound cf e s)%nat /\
    forall m, (n <= m)%nat ->
      quiescent (fst (iter_round cf m (e, s))) (snd (iter_round cf m (e, s))) /\
      reconciled (fst (iter_round cf m (e, s))) /\
      (forall k sl, slot_of (e_tab (fst (iter_round cf m (e, s)))) k = Some sl ->
         aget k (e_target (fst (iter_round cf m (e, s)))) = pay sl).
Proof.
  intros cf e s H RS C Due. destruct (converges_from_reach cf e s H RS C Due) as [n [Hn S]].
  exists n. split; [exact Hn|]. intros m Hm. destruct (S m Hm) as [Q [R _]]. split; [exact Q|]. split; [exact R|].
  apply (target_equals_table cf (iter_round cf m (e, s)) (reach_iter cf m (e, s) H) Q).
Qed.

(* non-vacuity: the quiescent state reached by the example of Converge.v (3 rounds from a reachable state with
   a retry item, a deletion and two pending objects) — the hypotheses of target_equals_table hold there, the
   table has live and deleted keys, and the theorem yields their target entries *)
Definition ex_final : env * rstate := iter_round Converge.ex_cf 3 (ex_e, ex_s).

Lemma ex_final_reach : reach Converge.ex_cf ex_final.
Proof. apply reach_iter. exact ex_reach. Qed.

Lemma ex_final_quiescent : quiescent (fst ex_final) (snd ex_final).
Proof. split; vm_compute; reflexivity. Qed.

Example target_equals_table_nonvacuous :
  reach Converge.ex_cf ex_final /\ quiescent (fst ex_final) (snd ex_final) /\
  live_objs (e_tab (fst ex_final)) = [(1, 1, 2); (3, 3, 2); (4, 4, 2)] /\
  slot_of (e_tab (fst ex_final)) 2 = Some (Dead (mkObj 2 2 Done 5 0) 6) /\
  aget 1 (e_target (fst ex_final)) = Some 1 /\ aget 2 (e_target (fst ex_final)) = None /\
  aget 3 (e_target (fst ex_final)) = Some 3 /\ aget 4 (e_target (fst ex_final)) = Some 4.
Proof.
  split; [exact ex_final_reach|]. split; [exact ex_final_quiescent|].
  split; [vm_compute; reflexivity|].
  assert (S2 : slot_of (e_tab (fst ex_final)) 2 = Some (Dead (mkObj 2 2 Done 5 0) 6)) by (vm_compute; reflexivity).
  assert (S1 : slot_of (e_tab (fst ex_final)) 1 = Some (Live (mkObj 1 1 Done 9 0) 10)) by (vm_compute; reflexivity).
  assert (S3 : slot_of (e_tab (fst ex_final)) 3 = Some (Live (mkObj 3 3 Done 7 0) 8)) by (vm_compute; reflexivity).
  assert (S4 : slot_of (e_tab (fst ex_final)) 4 = Some (Live (mkObj 4 4 Done 8 0) 9)) by (vm_compute; reflexivity).
  split; [exact S2|].
  pose proof (target_equals_table _ _ ex_final_reach ex_final_quiescent) as T.
  split; [exact (T 1 _ S1)|]. split; [exact (T 2 _ S2)|]. split; [exact (T 3 _ S3)|exact (T 4 _ S4)].
Qed.

Print Assumptions target_equals_table.
Print Assumptions last_operation_matches_table.
Print Assumptions converges_to_target.
Print Assumptions target_equals_table_nonvacuous.
