(* Reconciler/HeapRefine.v — the heap-level model (Heap.v) refines the list model (Retries.v): the same items,
   low watermark and head retryAt always; the same head item when the minimal retryAt is unique; the same
   timer decisions up to ties (r_add_b / r_clear_b / r_pop_t: Retries.v's operations with the tie-dependent
   choice made explicit), hence exactly Retries.v's results on runs without ties (R_step). *)
From Coq Require Import List NArith ZArith Bool Lia ZifyN ZifyNat ZifyBool Wf_nat.
From SV Require Import Reconciler.Retries Reconciler.RetriesProofs Reconciler.Heap Reconciler.HeapProofs Reconciler.HeapInv.
Import ListNotations.
Open Scope N_scope.

(* ri_inq = "index >= 0: still in the retryAt queue" *)
Definition abs_item (it : hitem) : ritem :=
  mkItem (hi_obj it) (hi_rev it) (hi_orig it) (hi_del it) (hi_at it) (hi_n it) (0 <=? hi_index it)%Z.

(* forget the two arrays and the index fields *)
Definition abs (hs : hstate) : retries :=
  mkRet (map abs_item (hs_store hs)) (hs_timer hs) (hs_min hs) (hs_max hs).

Lemma pk_abs_item : forall it, ri_pk (abs_item it) = hi_pk it.
Proof. reflexivity. Qed.
Lemma find_abs : forall pk st, find_item pk (map abs_item st) = option_map abs_item (st_get pk st).
Proof.
  intros pk st. induction st as [|a r IH]; cbn [map find_item st_get]; [reflexivity|].
  rewrite pk_abs_item. destruct (hi_pk a =? pk); [reflexivity|exact IH].
Qed.
Lemma pks_abs : forall st, map ri_pk (map abs_item st) = map hi_pk st.
Proof. intro st. rewrite map_map. reflexivity. Qed.
Lemma abs_item_eq : forall a b, erase2 a = erase2 b -> (0 <=? hi_index a)%Z = (0 <=? hi_index b)%Z -> abs_item a = abs_item b.
Proof.
  intros [o1 r1 g1 d1 i1 ri1 a1 n1] [o2 r2 g2 d2 i2 ri2 a2 n2] H Hi. cbn in H. injection H as <- <- <- <- <- <-.
  unfold abs_item. cbn in *. rewrite Hi. reflexivity.
Qed.
Lemma inq_queued : forall st q pk it, idx_ok QT (st, q) -> st_get pk st = Some it ->
  ((0 <=? hi_index it)%Z = true <-> queued QT st pk).
Proof.
  intros st q pk it Hok Hg. destruct (idx_cases QT st q pk it Hok Hg) as [E|[i [E _]]]; cbn [get_idx] in E.
  - rewrite E. split; [discriminate|]. intros [a [A B]]. rewrite Hg in A. injection A as A. subst a. cbn in B. contradiction.
  - rewrite E. split; [intros _; exists it; split; [exact Hg|cbn; lia]|intros _; apply Z.leb_le; lia].
Qed.

(* lookups of the abstraction are determined by erase2 and by membership in queue *)
Lemma abs_lookup_eq : forall st q st' q' pk, idx_ok QT (st, q) -> idx_ok QT (st', q') ->
  option_map erase2 (st_get pk st') = option_map erase2 (st_get pk st) ->
  (queued QT st' pk <-> queued QT st pk) ->
  option_map abs_item (st_get pk st') = option_map abs_item (st_get pk st).
Proof.
  intros st q st' q' pk Hok Hok' He Hq.
  destruct (st_get pk st') as [a'|] eqn:Ea', (st_get pk st) as [a|] eqn:Ea; cbn [option_map] in *; try discriminate; [|reflexivity].
  f_equal. apply abs_item_eq; [congruence|].
  pose proof (inq_queued st q pk a Hok Ea) as I. pose proof (inq_queued st' q' pk a' Hok' Ea') as I'.
  destruct (0 <=? hi_index a')%Z, (0 <=? hi_index a)%Z; try reflexivity; exfalso.
  - assert (X : false = true) by (apply I; apply Hq; apply I'; reflexivity). discriminate.
  - assert (X : false = true) by (apply I'; apply Hq; apply I; reflexivity). discriminate.
Qed.

Lemma find_item_none : forall pk l, ~ In pk (map ri_pk l) -> find_item pk l = None.
Proof.
  intros pk l. induction l as [|a r IH]; cbn [map find_item]; intro H; [reflexivity|].
  destruct (ri_pk a =? pk) eqn:E; [apply N.eqb_eq in E; exfalso; apply H; left; exact E|]. apply IH. intro X. apply H. right. exact X.
Qed.

Lemma items_ext : forall l l', map ri_pk l = map ri_pk l' -> NoDup (map ri_pk l) ->
  (forall pk, find_item pk l = find_item pk l') -> l = l'.
Proof.
  induction l as [|a r IH]; intros l' Hk Hn Hf; destruct l' as [|a' r']; cbn [map] in Hk; try discriminate; [reflexivity|].
  injection Hk as Hka Hkr. cbn [map] in Hn. inversion Hn as [|x xs Hx Hr]; subst.
  pose proof (Hf (ri_pk a)) as Ha. cbn [find_item] in Ha. rewrite <- Hka, N.eqb_refl in Ha. injection Ha as Ha. subst a'.
  f_equal. apply IH; [exact Hkr|exact Hr|].
  intro pk. specialize (Hf pk). cbn [find_item] in Hf. destruct (ri_pk a =? pk) eqn:E; [|exact Hf].
  apply N.eqb_eq in E. subst pk. rewrite (find_item_none _ _ Hx). rewrite Hkr in Hx. rewrite (find_item_none _ _ Hx). reflexivity.
Qed.

Lemma put_item_pks : forall it l, map ri_pk (put_item it l) =
  match find_item (ri_pk it) l with Some _ => map ri_pk l | None => map ri_pk l ++ [ri_pk it] end.
Proof.
  intros it l. induction l as [|a r IH]; cbn [put_item find_item map app]; [reflexivity|].
  destruct (ri_pk a =? ri_pk it) eqn:E; cbn [map]; [apply N.eqb_eq in E; rewrite E; reflexivity|].
  rewrite IH. destruct (find_item (ri_pk it) r); reflexivity.
Qed.

Lemma abs_add_items : forall hs o rev orig del now, HInv hs ->
  q_items (abs (hq_add hs o rev orig del now)) = q_items (r_add (abs hs) o rev orig del now).
Proof.
  intros hs o rev orig del now H.
  destruct (hq_add_spec hs o rev orig del now H) as [Hinv [Her [Hqd _]]].
  rewrite add_items. cbn [abs q_items q_min q_max].
  set (hs' := hq_add hs o rev orig del now) in *.
  set (n := match find_item (o_pk o) (map abs_item (hs_store hs)) with Some i => ri_n i + 1 | None => 1 end).
  set (new := mkItem o rev orig del (now + duration (hs_min hs) (hs_max hs) n) n true).
  apply items_ext.
  - rewrite pks_abs, put_item_pks, pks_abs, (map_pks erase2 pk_erase2 _ _ Her), add_store_pks.
    change (ri_pk new) with (o_pk o). rewrite find_abs. destruct (st_get (o_pk o) (hs_store hs)); reflexivity.
  - rewrite pks_abs. apply (hv_uniq _ Hinv).
  - intro pk. rewrite find_abs. generalize (map_get erase2 pk_erase2 _ _ pk Her). rewrite add_store_get.
    destruct (N.eqb_spec (o_pk o) pk) as [<-|E]; intro Hget.
    + (* the item written by Add; it is in queue *)
      destruct (st_get (o_pk o) (hs_store hs')) as [[o1 r1 g1 d1 i1 ri1 a1 n1]|] eqn:Hg'; cbn in Hget; [|discriminate].
      injection Hget as -> -> -> -> -> ->.
      cbn [option_map]. transitivity (Some new); [f_equal|symmetry; apply (find_item_put_same new)].
      assert (Hq' : (0 <=? i1)%Z = true).
      { apply (inq_queued _ _ _ _ (proj1 (hv_q _ Hinv)) Hg'). apply Hqd. left. reflexivity. }
      subst new n. rewrite find_abs. unfold abs_item. cbn [hi_obj hi_rev hi_orig hi_del hi_at hi_n hi_index]. rewrite Hq'.
      destruct (st_get (o_pk o) (hs_store hs)) as [a|]; reflexivity.
    + rewrite find_item_put_other by (change (ri_pk new) with (o_pk o); congruence). rewrite find_abs.
      apply (abs_lookup_eq _ (hs_q hs) _ (hs_q hs')); [apply (hv_q _ H)|apply (hv_q _ Hinv)|exact Hget|].
      rewrite Hqd. split; [intros [X|X]; [congruence|exact X]|intro X; right; exact X].
Qed.

Lemma abs_clear_items : forall hs pk, HInv hs -> q_items (abs (hq_clear hs pk)) = q_items (r_clear (abs hs) pk).
Proof.
  intros hs pk H. rewrite clear_items. cbn [abs q_items].
  destruct (st_get pk (hs_store hs)) as [it|] eqn:Eg.
  - destruct (hq_clear_spec hs pk it H Eg) as [_ [_ [Hinv [Her [Hqd _]]]]].
    apply items_ext.
    + rewrite pks_abs, remove_item_pks, pks_abs, (map_pks erase2 pk_erase2 _ _ Her). apply st_del_pks.
    + rewrite pks_abs. apply (hv_uniq _ Hinv).
    + intro pk'. rewrite find_abs. destruct (N.eq_dec pk' pk) as [E|E].
      * subst pk'. rewrite find_item_remove_same.
        pose proof (map_get erase2 pk_erase2 _ _ pk Her) as X. rewrite st_get_del, N.eqb_refl in X.
        destruct (st_get pk (hs_store (hq_clear hs pk))); [discriminate|reflexivity].
      * rewrite find_item_remove_other by exact E. rewrite find_abs.
        apply (abs_lookup_eq _ (hs_q hs) _ (hs_q (hq_clear hs pk))); [apply (hv_q _ H)|apply (hv_q _ Hinv)| |].
        { rewrite (map_get erase2 pk_erase2 _ _ pk' Her), st_get_del.
          apply N.eqb_neq in E. rewrite N.eqb_sym, E. reflexivity. }
        { rewrite Hqd. split; [intros [_ X]; exact X|intro X; split; [exact E|exact X]]. }
  - rewrite (hq_clear_absent hs pk Eg). symmetry. apply remove_item_absent. rewrite find_abs, Eg. reflexivity.
Qed.

Lemma in_abs_store : forall hs j, HInv hs -> In j (map abs_item (hs_store hs)) ->
  exists it, st_get (ri_pk j) (hs_store hs) = Some it /\ j = abs_item it.
Proof.
  intros hs j H Hin. apply in_map_iff in Hin. destruct Hin as [it [A B]]. exists it. subst j. split; [|reflexivity].
  rewrite pk_abs_item. apply st_get_uniq; [apply (hv_uniq _ H)|exact B].
Qed.

Lemma abs_inq : forall hs pk it, HInv hs -> st_get pk (hs_store hs) = Some it ->
  (ri_inq (abs_item it) = true <-> hi_index it <> (-1)%Z).
Proof.
  intros hs pk it H Hg. cbn [abs_item ri_inq]. rewrite (inq_queued _ _ pk it (proj1 (hv_q _ H)) Hg), queued_ixv.
  unfold ixv. rewrite Hg. reflexivity.
Qed.

(* a head of the list model: queued, with minimal retryAt (under ties there are several) *)
Definition is_head (l : list ritem) (t : ritem) : Prop :=
  In t l /\ ri_inq t = true /\ forall j, In j l -> ri_inq j = true -> ri_at t <= ri_at j.

Lemma abs_queued_in : forall hs pk it, HInv hs -> st_get pk (hs_store hs) = Some it -> hi_index it <> (-1)%Z ->
  In (abs_item it) (q_items (abs hs)) /\ ri_inq (abs_item it) = true /\ ri_pk (abs_item it) = pk.
Proof.
  intros hs pk it H Hg Hi. split; [apply in_map; apply (st_get_in _ _ _ Hg)|].
  split; [apply (abs_inq hs pk it H Hg); exact Hi|apply (st_get_pk _ _ _ Hg)].
Qed.

Lemma abs_root_is_head : forall hs t, HInv hs -> hq_top hs = Some t -> is_head (q_items (abs hs)) (abs_item t).
Proof.
  intros hs t H Et. destruct (hq_top_min hs t H Et) as [Hg [Hi [_ Hmin]]].
  destruct (abs_queued_in hs _ t H Hg ltac:(lia)) as [A [B _]]. split; [exact A|]. split; [exact B|].
  intros j Jin Jq. destruct (in_abs_store hs j H Jin) as [x [Xg Xe]]. subst j.
  apply (Hmin _ x Xg). apply (abs_inq hs _ x H Xg). exact Jq.
Qed.

(* the head of the heap has the retryAt of the list model's head, whatever the ties *)
Lemma abs_top_at : forall hs, HInv hs -> option_map hi_at (hq_top hs) = option_map ri_at (r_top (abs hs)).
Proof.
  intros hs H. unfold r_top. destruct (hq_top hs) as [t|] eqn:Et; cbn [option_map].
  - destruct (abs_root_is_head hs t H Et) as [Tin [Tq Tmin]].
    destruct (top_of_some_if_queued _ _ Tin Tq) as [j Ej]. rewrite Ej. destruct (top_of_spec _ _ Ej) as [Jin [Jq Jmin]].
    cbn [option_map]. f_equal. apply N.le_antisymm; [apply (Tmin j Jin Jq)|apply (Jmin _ Tin Tq)].
  - destruct (top_of (q_items (abs hs))) as [j|] eqn:Ej; [exfalso|reflexivity].
    destruct (top_of_spec _ _ Ej) as [Jin [Jq _]]. destruct (in_abs_store hs j H Jin) as [x [Xg Xe]].
    apply (proj1 (hq_top_none hs H) Et (ri_pk j)). exists x. split; [exact Xg|]. subst j. apply (abs_inq hs _ x H Xg). exact Jq.
Qed.

(* ... and it is the same item when no other queued item has the same retryAt *)
Lemma abs_top_item : forall hs t, HInv hs -> hq_top hs = Some t ->
  (forall pk it, st_get pk (hs_store hs) = Some it -> hi_index it <> (-1)%Z -> pk <> hi_pk t -> hi_at it <> hi_at t) ->
  r_top (abs hs) = Some (abs_item t).
Proof.
  intros hs t H Et Huniq. pose proof (abs_top_at hs H) as A. rewrite Et in A. cbn [option_map] in A.
  unfold r_top in *. cbn [abs q_items] in *.
  destruct (top_of (map abs_item (hs_store hs))) as [j|] eqn:Ej; cbn [option_map] in A; [|discriminate]. injection A as A.
  destruct (top_of_spec _ _ Ej) as [Jin [Jq _]]. destruct (in_abs_store hs j H Jin) as [x [Xg Xe]].
  destruct (hq_top_min hs t H Et) as [Hg _].
  destruct (N.eq_dec (ri_pk j) (hi_pk t)) as [E|E].
  - rewrite E, Hg in Xg. injection Xg as Xg. subst x. subst j. reflexivity.
  - exfalso. apply (Huniq _ x Xg); [apply (abs_inq hs _ x H Xg); subst j; exact Jq|exact E|]. subst j. cbn in A. congruence.
Qed.

Lemma abs_low_watermark : forall hs, HInv hs -> fst (fst (hq_low_watermark hs)) = r_low_watermark (abs hs).
Proof.
  intros hs H. destruct (hq_lwm_spec hs H) as [v [A [B C]]]. rewrite A. cbn [fst].
  unfold r_low_watermark. cbn [abs q_items].
  destruct (min_orig (map abs_item (hs_store hs))) as [m|] eqn:Em.
  - destruct (min_orig_spec _ _ Em) as [[j [Jin Jo]] Jmin].
    assert (Hne : hs_store hs <> []) by (intro X; rewrite X in Jin; destruct Jin).
    destruct (C Hne) as [[it [Iin Io]] Imin].
    apply in_map_iff in Jin. destruct Jin as [x [Xe Xin]]. subst j. cbn in Jo.
    apply N.le_antisymm; [rewrite <- Jo; apply Imin; exact Xin|].
    rewrite <- Io. apply (Jmin (abs_item it)). apply in_map. exact Iin.
  - apply min_orig_none in Em. apply map_eq_nil in Em. apply B. exact Em.
Qed.

(* Retries.v decides by strict comparison of retryAt whether an added / cleared item "is the head"; the heap
   decides by position 0, which under ties may or may not be the item. r_add_b / r_clear_b / r_pop_t are
   Retries.v's operations with that choice made explicit; add_ok / clear_ok / is_head say which choices a
   heap may make. Retries.v's own functions are the instances with Retries.v's choice (r_add_is_b ...). *)
Definition new_item (q : retries) (o : obj) (rev orig : N) (del : bool) (now : N) : ritem :=
  let n := match find_item (o_pk o) (q_items q) with Some i => ri_n i + 1 | None => 1 end in
  mkItem o rev orig del (now + duration (q_min q) (q_max q) n) n true.

Definition r_add_b (b : bool) (q : retries) (o : obj) (rev orig : N) (del : bool) (now : N) : retries :=
  let q' := mkRet (put_item (new_item q o rev orig del now) (q_items q)) (q_timer q) (q_min q) (q_max q) in
  if b then r_reset_timer q' else q'.

(* re-arm only if the item is a head; keep the timer only if some other queued item is not later *)
Definition add_ok (b : bool) (q : retries) (o : obj) (rev orig : N) (del : bool) (now : N) : Prop :=
  (b = true -> is_head (put_item (new_item q o rev orig del now) (q_items q)) (new_item q o rev orig del now)) /\
  (b = false -> exists j, In j (q_items q) /\ ri_pk j <> o_pk o /\ ri_inq j = true /\
                          ri_at j <= ri_at (new_item q o rev orig del now)).

Definition r_clear_b (b : bool) (q : retries) (pk : N) : retries :=
  match find_item pk (q_items q) with
  | None => q
  | Some _ =>
    let q' := mkRet (remove_item pk (q_items q)) (q_timer q) (q_min q) (q_max q) in
    if b then r_reset_timer q' else q'
  end.

Definition clear_ok (b : bool) (q : retries) (pk : N) : Prop :=
  forall it, find_item pk (q_items q) = Some it ->
    (b = true -> is_head (q_items q) it) /\
    (b = false -> ri_inq it = false \/
                  exists j, In j (q_items q) /\ ri_pk j <> pk /\ ri_inq j = true /\ ri_at j <= ri_at it).

Definition r_pop_t (t : ritem) (q : retries) : retries :=
  r_reset_timer (mkRet (put_item (set_inq false t) (q_items q)) (q_timer q) (q_min q) (q_max q)).

Lemma r_add_is_b : forall q o rev orig del now,
  r_add q o rev orig del now =
  r_add_b (match others_min_at (o_pk o) (q_items q) with None => true | Some m => ri_at (new_item q o rev orig del now) <? m end)
          q o rev orig del now.
Proof. reflexivity. Qed.

Lemma r_clear_is_b : forall q pk,
  r_clear q pk =
  r_clear_b (match find_item pk (q_items q) with
             | Some it => ri_inq it && match others_min_at pk (q_items q) with None => true | Some m => ri_at it <=? m end
             | None => false end) q pk.
Proof. intros q pk. unfold r_clear, r_clear_b. destruct (find_item pk (q_items q)); reflexivity. Qed.

Lemma r_pop_is_t : forall q t, r_top q = Some t -> r_pop q = r_pop_t t q.
Proof. intros q t H. unfold r_pop, r_pop_t. unfold r_top in H. rewrite H. reflexivity. Qed.

Lemma retries_eq : forall a b, q_items a = q_items b -> q_timer a = q_timer b -> q_min a = q_min b -> q_max a = q_max b -> a = b.
Proof. intros [i1 t1 m1 x1] [i2 t2 m2 x2]; cbn; intros -> -> -> ->; reflexivity. Qed.

(* a heap state whose timer was re-armed exactly when c holds, seen from the list model *)
Lemma abs_timer_eq : forall hs' (c : bool) l t mn mx, HInv hs' -> q_items (abs hs') = l -> hs_min hs' = mn -> hs_max hs' = mx ->
  hs_timer hs' = (if c then option_map hi_at (hq_top hs') else t) ->
  abs hs' = if c then r_reset_timer (mkRet l t mn mx) else mkRet l t mn mx.
Proof.
  intros hs' c l t mn mx Hinv Hl Hmn Hmx Ht.
  destruct c; (apply retries_eq; [exact Hl| |exact Hmn|exact Hmx]); cbn [abs q_timer r_reset_timer q_items]; rewrite Ht;
    [rewrite <- Hl; apply (abs_top_at hs' Hinv)|reflexivity].
Qed.

Lemma top_of_is_head : forall l t, top_of l = Some t -> is_head l t.
Proof. intros l t H. apply top_of_spec. exact H. Qed.

Lemma add_b_timer_ok : forall b q o rev orig del now, timer_ok q -> add_ok b q o rev orig del now ->
  timer_ok (r_add_b b q o rev orig del now).
Proof.
  intros b q o rev orig del now Hok [_ Hf]. unfold r_add_b. destruct b; [apply reset_timer_ok|].
  destruct (Hf eq_refl) as [j [Jin [Jpk [Jq Jat]]]].
  apply (timer_ok_kept q); [exact Hok|reflexivity|]. intros t Ht. cbn [q_items] in Ht.
  destruct (top_of_spec _ _ Ht) as [Tin [Tq _]].
  destruct (in_put_item _ _ _ Tin) as [E|E]; [subst t; exists j|exists t]; (split; [assumption|split; [assumption|lia]]).
Qed.

Lemma clear_b_timer_ok : forall b q pk, timer_ok q -> timer_ok (r_clear_b b q pk).
Proof.
  intros b q pk Hok. unfold r_clear_b. destruct (find_item pk (q_items q)); [|exact Hok].
  destruct b; [apply reset_timer_ok|].
  apply (timer_ok_kept q); [exact Hok|reflexivity|]. intros t Ht. cbn [q_items] in Ht.
  destruct (top_of_spec _ _ Ht) as [Tin [Tq _]]. destruct (in_remove_item _ _ _ Tin) as [Tin' _].
  exists t. split; [exact Tin'|split; [exact Tq|lia]].
Qed.

(* no other queued item has the retryAt the added item gets *)
Definition add_no_tie (q : retries) (o : obj) (rev orig : N) (del : bool) (now : N) : Prop :=
  forall j, In j (q_items q) -> ri_pk j <> o_pk o -> ri_inq j = true -> ri_at j <> ri_at (new_item q o rev orig del now).
(* no other queued item has the retryAt of the cleared item *)
Definition clear_no_tie (q : retries) (pk : N) : Prop :=
  forall it j, find_item pk (q_items q) = Some it -> In j (q_items q) -> ri_pk j <> pk -> ri_inq j = true -> ri_at j <> ri_at it.

Lemma others_min_spec : forall pk l,
  match others_min_at pk l with
  | None => forall j, In j l -> ri_pk j <> pk -> ri_inq j = false
  | Some m => (exists j, In j l /\ ri_pk j <> pk /\ ri_inq j = true /\ ri_at j = m) /\
              forall j, In j l -> ri_pk j <> pk -> ri_inq j = true -> m <= ri_at j
  end.
Proof.
  intros pk l. unfold others_min_at. destruct (top_of (remove_item pk l)) as [t|] eqn:Et; cbn [option_map].
  - destruct (top_of_spec _ _ Et) as [Tin [Tq Tmin]]. destruct (in_remove_item _ _ _ Tin) as [Tin' Tpk]. split.
    + exists t. repeat split; assumption.
    + intros j Jin Jpk Jq. apply Tmin; [apply in_remove_item_intro; assumption|exact Jq].
  - intros j Jin Jpk. apply (top_of_none _ Et). apply in_remove_item_intro; assumption.
Qed.

Lemma add_b_exact : forall b q o rev orig del now, add_ok b q o rev orig del now -> add_no_tie q o rev orig del now ->
  r_add_b b q o rev orig del now = r_add q o rev orig del now.
Proof.
  intros b q o rev orig del now [Ht Hf] Hnt. rewrite r_add_is_b. f_equal.
  pose proof (others_min_spec (o_pk o) (q_items q)) as S.
  destruct (others_min_at (o_pk o) (q_items q)) as [m|].
  - destruct S as [[j [Jin [Jpk [Jq Jat]]]] Smin].
    destruct (ri_at (new_item q o rev orig del now) <? m) eqn:E.
    + apply N.ltb_lt in E. destruct b; [reflexivity|]. destruct (Hf eq_refl) as [j' [Jin' [Jpk' [Jq' Jat']]]].
      specialize (Smin j' Jin' Jpk' Jq'). lia.
    + apply N.ltb_ge in E. destruct b; [|reflexivity]. destruct (Ht eq_refl) as [_ [_ Hmin]].
      assert (X : ri_at (new_item q o rev orig del now) <= ri_at j).
      { apply Hmin; [apply in_put_item_other; [exact Jin|exact Jpk]|exact Jq]. }
      specialize (Hnt j Jin Jpk Jq). lia.
  - destruct b; [reflexivity|]. destruct (Hf eq_refl) as [j' [Jin' [Jpk' [Jq' _]]]]. rewrite (S j' Jin' Jpk') in Jq'. discriminate.
Qed.

Lemma clear_b_exact : forall b q pk, clear_ok b q pk -> clear_no_tie q pk -> r_clear_b b q pk = r_clear q pk.
Proof.
  intros b q pk Hok Hnt. rewrite r_clear_is_b. unfold r_clear_b. destruct (find_item pk (q_items q)) as [it|] eqn:Ef; [|reflexivity].
  destruct (Hok it Ef) as [Ht Hf].
  pose proof (others_min_spec pk (q_items q)) as S.
  assert (Eb : b = ri_inq it && match others_min_at pk (q_items q) with None => true | Some m => ri_at it <=? m end); [|rewrite <- Eb; reflexivity].
  destruct b.
  - destruct (Ht eq_refl) as [_ [Hq Hmin]]. rewrite Hq. cbn [andb].
    destruct (others_min_at pk (q_items q)) as [m|]; [|reflexivity].
    destruct S as [[j [Jin [Jpk [Jq Jat]]]] _]. symmetry. apply N.leb_le. rewrite <- Jat. apply Hmin; assumption.
  - destruct (Hf eq_refl) as [Hq|[j [Jin [Jpk [Jq Jat]]]]]; [rewrite Hq; reflexivity|].
    destruct (ri_inq it); [cbn [andb]|reflexivity].
    destruct (others_min_at pk (q_items q)) as [m|].
    + destruct S as [_ Smin]. specialize (Smin j Jin Jpk Jq). specialize (Hnt it j Ef Jin Jpk Jq).
      symmetry. apply N.leb_gt. lia.
    + rewrite (S j Jin Jpk) in Jq. discriminate.
Qed.

(* Retries.v's own choice is an allowed one *)
(* with one item per key, a queued item that is not later than the queued items of the other keys is a head *)
Lemma head_among_others : forall l t, NoDup (map ri_pk l) -> In t l -> ri_inq t = true ->
  (forall j, In j l -> ri_pk j <> ri_pk t -> ri_inq j = true -> ri_at t <= ri_at j) -> is_head l t.
Proof.
  intros l t Hn Tin Tq Hm. split; [exact Tin|]. split; [exact Tq|]. intros j Jin Jq.
  destruct (N.eq_dec (ri_pk j) (ri_pk t)) as [Ek|Ek]; [|apply Hm; assumption].
  pose proof (find_item_uniq _ j Hn Jin) as X. rewrite Ek, (find_item_uniq _ t Hn Tin) in X. injection X as <-. apply N.le_refl.
Qed.

Lemma r_add_ok : forall q o rev orig del now, uniq q ->
  add_ok (match others_min_at (o_pk o) (q_items q) with None => true | Some m => ri_at (new_item q o rev orig del now) <? m end)
         q o rev orig del now.
Proof.
  intros q o rev orig del now Hu. pose proof (others_min_spec (o_pk o) (q_items q)) as S.
  set (new := new_item q o rev orig del now) in *.
  assert (Hhead : (forall j, In j (q_items q) -> ri_pk j <> o_pk o -> ri_inq j = true -> ri_at new <= ri_at j) ->
                  is_head (put_item new (q_items q)) new).
  { intro Hm. apply head_among_others; [apply uniq_put_item; exact Hu|apply in_put_item_self|reflexivity|].
    intros j Jin Jk. destruct (in_put_item _ _ _ Jin) as [E|E]; [subst j; contradiction|]. apply Hm; assumption. }
  destruct (others_min_at (o_pk o) (q_items q)) as [m|].
  - destruct S as [[j [Jin [Jpk [Jq Jat]]]] Smin]. destruct (ri_at new <? m) eqn:E; split; intro X; try discriminate.
    + apply N.ltb_lt in E. apply Hhead. intros j' A B C. specialize (Smin j' A B C). lia.
    + apply N.ltb_ge in E. exists j. repeat split; try assumption. change (ri_at j <= ri_at new). lia.
  - split; intro X; [|discriminate]. apply Hhead. intros j A B C. rewrite (S j A B) in C. discriminate.
Qed.

Lemma r_clear_ok : forall q pk, uniq q ->
  clear_ok (match find_item pk (q_items q) with
            | Some it => ri_inq it && match others_min_at pk (q_items q) with None => true | Some m => ri_at it <=? m end
            | None => false end) q pk.
Proof.
  intros q pk Hu it Ef. rewrite Ef. pose proof (others_min_spec pk (q_items q)) as S.
  destruct (find_item_in _ _ _ Ef) as [Iin Ipk].
  destruct (ri_inq it) eqn:Eq; cbn [andb]; [|split; intro X; [discriminate|left; reflexivity]].
  assert (Hhead : (forall j, In j (q_items q) -> ri_pk j <> pk -> ri_inq j = true -> ri_at it <= ri_at j) -> is_head (q_items q) it).
  { intro Hm. apply head_among_others; [exact Hu|exact Iin|exact Eq|rewrite Ipk; exact Hm]. }
  destruct (others_min_at pk (q_items q)) as [m|].
  - destruct S as [[j [Jin [Jpk [Jq Jat]]]] Smin]. destruct (ri_at it <=? m) eqn:E; split; intro X; try discriminate.
    + apply N.leb_le in E. apply Hhead. intros j' A B C. specialize (Smin j' A B C). lia.
    + apply N.leb_gt in E. right. exists j. repeat split; try assumption. lia.
  - split; intro X; [|discriminate]. apply Hhead. intros j A B C. rewrite (S j A B) in C. discriminate.
Qed.

Lemma uniq_abs : forall hs, HInv hs -> uniq (abs hs).
Proof. intros hs H. unfold uniq. cbn [abs q_items]. rewrite pks_abs. apply (hv_uniq _ H). Qed.

(* the item.index == 0 test seen from the list model: a queued item at the root is a head; otherwise the root is a queued item
   of another key that is not later *)
Lemma root_choice : forall hs pk it, HInv hs -> st_get pk (hs_store hs) = Some it -> hi_index it <> (-1)%Z ->
  (nth 0 (hs_q hs) 0 = pk -> is_head (q_items (abs hs)) (abs_item it)) /\
  (nth 0 (hs_q hs) 0 <> pk ->
   exists t, In (abs_item t) (q_items (abs hs)) /\ hi_pk t <> pk /\ ri_inq (abs_item t) = true /\ hi_at t <= hi_at it).
Proof.
  intros hs pk it H Hg Hi. assert (Hq : queued QT (hs_store hs) pk) by (exists it; split; assumption).
  destruct (hq_top hs) as [t|] eqn:Et; [|exfalso; apply (proj1 (hq_top_none hs H) Et pk Hq)].
  destruct (hq_top_min hs t H Et) as [Tg [_ [Tn Tmin]]].
  pose proof (abs_root_is_head hs t H Et) as Thead. rewrite Tn. split; intro E.
  - rewrite E, Hg in Tg. injection Tg as <-. exact Thead.
  - exists t. destruct Thead as [Tin [Tq _]]. split; [exact Tin|]. split; [exact E|]. split; [exact Tq|apply (Tmin _ it Hg Hi)].
Qed.

Theorem abs_add : forall hs o rev orig del now, HInv hs ->
  exists b, abs (hq_add hs o rev orig del now) = r_add_b b (abs hs) o rev orig del now /\
            add_ok b (abs hs) o rev orig del now.
Proof.
  intros hs o rev orig del now H.
  pose proof (abs_add_items hs o rev orig del now H) as Hitems. rewrite add_items in Hitems.
  destruct (hq_add_spec hs o rev orig del now H) as [Hinv [_ [Hqd [Hmin [Hmax Ht]]]]].
  set (hs' := hq_add hs o rev orig del now) in *.
  change (mkItem o rev orig del _ _ true) with (new_item (abs hs) o rev orig del now) in Hitems.
  set (new := new_item (abs hs) o rev orig del now) in *.
  assert (Hq' : queued QT (hs_store hs') (o_pk o)) by (apply Hqd; left; reflexivity).
  pose proof Hq' as [it' [Hg' Hi']]. cbn [get_idx] in Hi'.
  assert (Hnew : abs_item it' = new).
  { pose proof (find_abs (o_pk o) (hs_store hs')) as X. rewrite Hg' in X. cbn [option_map] in X.
    change (map abs_item (hs_store hs')) with (q_items (abs hs')) in X. rewrite Hitems in X.
    rewrite (find_item_put_same new) in X. congruence. }
  destruct (root_choice hs' (o_pk o) it' Hinv Hg' Hi') as [R1 R2]. rewrite Hitems in R1, R2. rewrite Hnew in R1.
  exists (nth 0 (hs_q hs') 0 =? o_pk o). split; [apply (abs_timer_eq hs' _ _ _ _ _ Hinv Hitems Hmin Hmax Ht)|].
  split; intro Eb; [apply R1, N.eqb_eq, Eb|]. apply N.eqb_neq in Eb. destruct (R2 Eb) as [t [A [B [C D]]]].
  exists (abs_item t). split; [|split; [rewrite pk_abs_item; exact B|split; [exact C|]]].
  - destruct (in_put_item _ _ _ A) as [X|X]; [|exact X]. exfalso. apply B. rewrite <- pk_abs_item, X. reflexivity.
  - change (ri_at (abs_item t) <= ri_at new). rewrite <- Hnew. exact D.
Qed.

(* without a tie: exactly Retries.v's Add *)
Theorem abs_add_exact : forall hs o rev orig del now, HInv hs -> add_no_tie (abs hs) o rev orig del now ->
  abs (hq_add hs o rev orig del now) = r_add (abs hs) o rev orig del now.
Proof.
  intros hs o rev orig del now H Hnt. destruct (abs_add hs o rev orig del now H) as [b [A B]].
  rewrite A. apply add_b_exact; assumption.
Qed.

Theorem abs_clear : forall hs pk, HInv hs ->
  exists b, abs (hq_clear hs pk) = r_clear_b b (abs hs) pk /\ clear_ok b (abs hs) pk.
Proof.
  intros hs pk H. pose proof (abs_clear_items hs pk H) as Hitems. rewrite clear_items in Hitems.
  destruct (st_get pk (hs_store hs)) as [it|] eqn:Eg.
  - destruct (hq_clear_spec hs pk it H Eg) as [_ [_ [Hinv [_ [_ [Hmin [Hmax Ht]]]]]]].
    assert (Ef : find_item pk (q_items (abs hs)) = Some (abs_item it)) by (cbn [abs q_items]; rewrite find_abs, Eg; reflexivity).
    exists (hi_index it =? 0)%Z. split.
    + unfold r_clear_b. rewrite Ef. apply (abs_timer_eq _ _ _ _ _ _ Hinv Hitems Hmin Hmax Ht).
    + intros it1 Ef1. rewrite Ef in Ef1. injection Ef1 as <-.
      destruct (Z.eq_dec (hi_index it) (-1)) as [E1|E1].
      { rewrite E1. split; [discriminate|]. intros _. left. cbn [abs_item ri_inq]. rewrite E1. reflexivity. }
      destruct (root_choice hs pk it H Eg E1) as [R1 R2].
      pose proof (index_zero_root QT _ _ pk (proj1 (hv_q _ H)) (ex_intro _ it (conj Eg E1))) as Z0.
      unfold st_getd in Z0. rewrite Eg in Z0. cbn [get_idx] in Z0. rewrite Z0.
      split; intro Eb; [apply R1, N.eqb_eq, Eb|right]. apply N.eqb_neq in Eb. destruct (R2 Eb) as [t [A [B [C D]]]].
      exists (abs_item t). split; [exact A|]. split; [rewrite pk_abs_item; exact B|]. split; [exact C|exact D].
  - rewrite (hq_clear_absent hs pk Eg). exists false. split.
    + unfold r_clear_b. cbn [abs q_items]. rewrite find_abs, Eg. reflexivity.
    + intros it Ef. cbn [abs q_items] in Ef. rewrite find_abs, Eg in Ef. discriminate.
Qed.

Theorem abs_clear_exact : forall hs pk, HInv hs -> clear_no_tie (abs hs) pk -> abs (hq_clear hs pk) = r_clear (abs hs) pk.
Proof.
  intros hs pk H Hnt. destruct (abs_clear hs pk H) as [b [A B]]. rewrite A. apply clear_b_exact; assumption.
Qed.

Theorem abs_pop : forall hs, HInv hs -> hs_q hs <> [] ->
  exists hs' t, hq_pop hs = Some hs' /\ hq_top hs = Some t /\
    abs hs' = r_pop_t (abs_item t) (abs hs) /\ is_head (q_items (abs hs)) (abs_item t).
Proof.
  intros hs H Hne. destruct (hq_pop_spec hs H Hne) as [hs' [Ep [Hinv [[_ [_ [Her Hqd]]] [_ [Hmin [Hmax Htimer]]]]]]].
  cbn [fst snd] in Her, Hqd.
  assert (Ht : exists t, hq_top hs = Some t) by (unfold hq_top; destruct (hs_q hs); [congruence|eexists; reflexivity]).
  destruct Ht as [t Et]. destruct (hq_top_min hs t H Et) as [Tg [Ti [Tn _]]]. rewrite Tn in Hqd.
  exists hs', t. split; [exact Ep|]. split; [exact Et|]. split; [|apply (abs_root_is_head hs t H Et)].
  assert (Hitems : q_items (abs hs') = put_item (set_inq false (abs_item t)) (q_items (abs hs))).
  { cbn [abs q_items]. apply items_ext.
    - rewrite pks_abs, put_item_pks, pks_abs, (frame_pks QT _ _ Her).
      change (ri_pk (set_inq false (abs_item t))) with (hi_pk t). rewrite find_abs, Tg. reflexivity.
    - rewrite pks_abs. apply (hv_uniq _ Hinv).
    - intro pk. rewrite find_abs. destruct (N.eq_dec pk (hi_pk t)) as [E|E].
      + subst pk. change (hi_pk t) with (ri_pk (set_inq false (abs_item t))) at 2. rewrite find_item_put_same.
        destruct (frame_get_some QT _ _ _ t Her Tg) as [t' [Tg' Et']]. rewrite Tg'. cbn [option_map]. f_equal.
        assert (Hnq : (0 <=? hi_index t')%Z = false).
        { destruct (0 <=? hi_index t')%Z eqn:E0; [|reflexivity]. exfalso.
          apply (inq_queued _ _ _ _ (proj1 (hv_q _ Hinv)) Tg') in E0. apply Hqd in E0. destruct E0 as [E0 _]. congruence. }
        destruct t as [o1 r1 g1 d1 i1 ri1 a1 n1], t' as [o2 r2 g2 d2 i2 ri2 a2 n2]. cbn in Et'. injection Et' as -> -> -> -> -> -> ->.
        unfold abs_item, set_inq. cbn in *. rewrite Hnq. reflexivity.
      + rewrite find_item_put_other by exact E. rewrite find_abs.
        apply (abs_lookup_eq _ (hs_q hs) _ (hs_q hs')); [apply (hv_q _ H)|apply (hv_q _ Hinv)| |].
        * apply (map_get erase2 pk_erase2). apply (erase_erase2 QT). exact Her.
        * rewrite Hqd. split; [intros [_ X]; exact X|intro X; split; [exact E|exact X]]. }
  exact (abs_timer_eq hs' true _ (hs_timer hs) _ _ Hinv Hitems Hmin Hmax Htimer).
Qed.

(* when the minimal retryAt is unique: exactly Retries.v's Pop *)
Theorem abs_pop_exact : forall hs t, HInv hs -> hq_top hs = Some t ->
  (forall pk it, st_get pk (hs_store hs) = Some it -> hi_index it <> (-1)%Z -> pk <> hi_pk t -> hi_at it <> hi_at t) ->
  exists hs', hq_pop hs = Some hs' /\ abs hs' = r_pop (abs hs).
Proof.
  intros hs t H Et Hu.
  assert (Hne : hs_q hs <> []) by (unfold hq_top in Et; destruct (hs_q hs); [discriminate|discriminate]).
  destruct (abs_pop hs H Hne) as [hs' [t' [Ep [Et' [A _]]]]]. rewrite Et in Et'. injection Et' as <-.
  exists hs'. split; [exact Ep|]. rewrite A. symmetry. apply r_pop_is_t. apply (abs_top_item hs t H Et Hu).
Qed.

(* whenever an item is queued, the wait channel closes no later than the head's retryAt *)
Definition htimer_ok (hs : hstate) : Prop :=
  forall t, hq_top hs = Some t -> exists d, hs_timer hs = Some d /\ d <= hi_at t.

Lemma htimer_ok_abs : forall hs, HInv hs -> (htimer_ok hs <-> timer_ok (abs hs)).
Proof.
  intros hs H. pose proof (abs_top_at hs H) as A. unfold htimer_ok, timer_ok, r_top in *. cbn [abs q_items q_timer] in *. split.
  - intros X j Ej. rewrite Ej in A. destruct (hq_top hs) as [t|]; cbn in A; [|discriminate]. injection A as A.
    destruct (X t eq_refl) as [d [D1 D2]]. exists d. split; [exact D1|lia].
  - intros X t Et. rewrite Et in A. destruct (top_of (map abs_item (hs_store hs))) as [j|]; cbn in A; [|discriminate]. injection A as A.
    destruct (X j eq_refl) as [d [D1 D2]]. exists d. split; [exact D1|lia].
Qed.

Theorem htimer_due_head_fires : forall hs now t, htimer_ok hs -> hq_top hs = Some t -> hi_at t <= now ->
  hq_fired hs now = true.
Proof.
  intros hs now t Hok Et Hd. destruct (Hok t Et) as [d [D1 D2]]. unfold hq_fired. rewrite D1. apply N.leb_le. lia.
Qed.

(* R: the heap state is consistent and its abstraction is the list-model state *)
Definition R (hs : hstate) (q : retries) : Prop := HInv hs /\ abs hs = q.

Definition op_no_tie (q : retries) (op : hop) : Prop :=
  match op with
  | HAdd o rev orig del now => add_no_tie q o rev orig del now
  | HPop => forall t j, r_top q = Some t -> In j (q_items q) -> ri_inq j = true -> ri_pk j <> ri_pk t -> ri_at j <> ri_at t
  | HClear pk => clear_no_tie q pk
  | HLwm => True
  end.

(* Retries.v's operation for a heap operation (Pop on an empty queue: the heap model stays put) *)
Definition apply_rop (q : retries) (op : hop) : retries :=
  match op with
  | HAdd o rev orig del now => r_add q o rev orig del now
  | HPop => match r_top q with Some _ => r_pop q | None => q end
  | HClear pk => r_clear q pk
  | HLwm => q
  end.

Theorem R_step : forall hs q op, R hs q -> op_no_tie q op -> R (apply_hop hs op) (apply_rop q op).
Proof.
  intros hs q op [H E] Hnt. subst q. split; [apply HInv_apply; exact H|].
  destruct op as [o rev orig del now| |pk|]; cbn [apply_hop apply_rop op_no_tie] in *.
  - apply abs_add_exact; assumption.
  - destruct (hq_top hs) as [t|] eqn:Et.
    + assert (Hu : forall pk it, st_get pk (hs_store hs) = Some it -> hi_index it <> (-1)%Z -> pk <> hi_pk t -> hi_at it <> hi_at t).
      { intros pk it Hg Hi Hpk.
        pose proof (abs_top_at hs H) as A. rewrite Et in A. cbn [option_map] in A.
        destruct (r_top (abs hs)) as [j|] eqn:Ej; cbn [option_map] in A; [|discriminate]. injection A as A.
        destruct (abs_queued_in hs pk it H Hg Hi) as [X1 [X2 X3]].
        destruct (N.eq_dec (ri_pk j) pk) as [Ek|Ek].
        - (* the list model's head is this very item: then the root of the heap would be a second minimum *)
          destruct (hq_top_min hs t H Et) as [Tg [Ti _]].
          destruct (abs_queued_in hs _ t H Tg ltac:(lia)) as [Y1 [Y2 Y3]].
          pose proof (Hnt j (abs_item t) eq_refl Y1 Y2 ltac:(rewrite Y3, Ek; congruence)) as Z. cbn in Z. congruence.
        - pose proof (Hnt j (abs_item it) eq_refl X1 X2 ltac:(rewrite X3; congruence)) as Z. cbn in Z. congruence. }
      destruct (abs_pop_exact hs t H Et Hu) as [hs' [Ep A]]. rewrite Ep, A.
      rewrite (abs_top_item hs t H Et Hu). reflexivity.
    + pose proof (abs_top_at hs H) as A. rewrite Et in A. destruct (r_top (abs hs)); [discriminate|].
      unfold hq_pop. unfold hq_top in Et. destruct (hs_q hs); [reflexivity|discriminate].
  - apply abs_clear_exact; assumption.
  - destruct (hq_lwm_spec hs H) as [v [A _]]. rewrite A. reflexivity.
Qed.

Theorem abs_add_numretries_other : forall hs o rev orig del now pk, HInv hs -> pk <> o_pk o ->
  n_of (abs (hq_add hs o rev orig del now)) pk = n_of (abs hs) pk.
Proof.
  intros hs o rev orig del now pk H Hne. unfold n_of at 1. rewrite (abs_add_items hs o rev orig del now H).
  apply (n_of_add_other (abs hs) o rev orig del now pk Hne).
Qed.
