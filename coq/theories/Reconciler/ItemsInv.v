(* Reconciler/ItemsInv.v — every retry item of a REACHABLE state can still be processed: an item that was
   popped from the retryAt queue and not re-queued (ri_inq = false: its Update failed and the Error status
   could not be written because the object had changed or was deleted meanwhile) always has a deletion or a
   Pending/Refreshing object of its key ahead of the change cursor, so the change phase will Clear it.
   This is the hypothesis `items_ready` of Converge.converges_bounded (up to "queued items are due"), proved
   here as an invariant of `reach` — single and batch mode, any faults, any user writes from hooks. *)
From Coq Require Import List NArith Bool Lia ZifyN ZifyNat ZifyBool.
From SV Require Import Reconciler.Retries Reconciler.Model Reconciler.RetriesProofs Reconciler.CommitProofs
  Reconciler.RoundProofs Reconciler.CoverProofs Reconciler.StepProofs Reconciler.TableWf Reconciler.StreamProofs
  Reconciler.PhaseProofs Reconciler.BatchProofs Reconciler.RoundInv Reconciler.Runs Reconciler.Progress
  Reconciler.Converge.
Import ListNotations.
Open Scope N_scope.

(* key k has a deletion or a Pending/Refreshing object ahead of cursor c *)
Definition work_ahead (t : table) (c k : N) : Prop :=
  exists sl, slot_of t k = Some sl /\ c < slot_rev sl /\ slot_act sl = true.
(* key k is live with our Error status *)
Definition err_live (t : table) (k : N) : Prop :=
  exists o r, slot_of t k = Some (Live o r) /\ o_kind o = Error.

(* a retry item is accounted for:
   - its key has work ahead of the cursor (the change phase will Clear it), or
   - it is a queued delete retry, or
   - it is a queued update retry (rev <> origRev) and the object still carries our Error status, or
   - it was popped in this round, its RETRY result awaits the status commit, the object still carries Error
     (then fix 8844901 writes the result whatever the revision, and a failed one is re-queued) *)
Definition item_ok (t : table) (c : N) (res : list opres) (it : ritem) : Prop :=
  work_ahead t c (ri_pk it) \/
  (ri_inq it = true /\ ri_del it = true) \/
  (ri_inq it = true /\ ri_del it = false /\ ri_rev it <> ri_orig it /\ err_live t (ri_pk it)) \/
  (ri_inq it = false /\ err_live t (ri_pk it) /\
   exists r, In r res /\ o_pk (r_obj r) = ri_pk it /\ r_rev r <> r_orig r).

Definition items_ok (t : table) (c : N) (res : list opres) (l : list ritem) : Prop :=
  forall it, In it l -> item_ok t c res it.
Definition items_inv (t : table) (c : N) (res : list opres) (q : retries) : Prop := items_ok t c res (q_items q).

(* a successful result has cleared the item of its key *)
Definition okclear (res : list opres) (q : retries) : Prop :=
  forall r, In r res -> r_ok r = true -> forall it, In it (q_items q) -> ri_pk it <> o_pk (r_obj r).

Lemma item_ok_step : forall t t' c c' res res' it,
  (work_ahead t c (ri_pk it) -> work_ahead t' c' (ri_pk it)) ->
  (err_live t (ri_pk it) -> err_live t' (ri_pk it) \/ work_ahead t' c' (ri_pk it)) ->
  (forall r, In r res -> In r res') ->
  item_ok t c res it -> item_ok t' c' res' it.
Proof.
  intros t t' c c' res res' it HW HE HR [A|[A|[[A1 [A2 [A3 A4]]]|[A1 [A2 [r [R1 R2]]]]]]].
  - left. apply HW. exact A.
  - right. left. exact A.
  - destruct (HE A4) as [X|X]; [right; right; left; repeat split; assumption|left; exact X].
  - destruct (HE A2) as [X|X]; [|left; exact X]. right. right. right. split; [exact A1|]. split; [exact X|].
    exists r. split; [apply HR; exact R1|exact R2].
Qed.

Lemma items_ok_res_mono : forall t c res res' l, (forall r, In r res -> In r res') -> items_ok t c res l -> items_ok t c res' l.
Proof.
  intros t c res res' l H I it Hi. apply (item_ok_step t t c c res res'); [tauto|tauto|exact H|apply I; exact Hi].
Qed.

Lemma items_ok_sub : forall t c res l l', (forall it, In it l' -> In it l) -> items_ok t c res l -> items_ok t c res l'.
Proof. intros t c res l l' H I it Hi. apply I. apply H. exact Hi. Qed.

Definition istate (t : table) (c : N) (res : list opres) (l : list ritem) : Prop :=
  keyed t /\ c <= t_rev t /\ items_ok t c res l.

Lemma work_ahead_ext : forall t t' c k, slot_of t' k = slot_of t k -> work_ahead t c k -> work_ahead t' c k.
Proof. intros t t' c k H [sl [A B]]. exists sl. rewrite H. split; assumption. Qed.
Lemma err_live_ext : forall t t' k, slot_of t' k = slot_of t k -> err_live t k -> err_live t' k.
Proof. intros t t' k H [o [r [A B]]]. exists o, r. rewrite H. split; assumption. Qed.

Lemma items_ok_ext : forall t t' c res l, (forall k, slot_of t' k = slot_of t k) -> items_ok t c res l -> items_ok t' c res l.
Proof.
  intros t t' c res l H I it Hi. apply (item_ok_step t t' c c res res); [apply work_ahead_ext; apply H| |tauto|apply I; exact Hi].
  intro X. left. apply (err_live_ext t); [apply H|exact X].
Qed.

(* a Pending/Refreshing object is written *)
Lemma insert_pending_istate : forall t c res l o, is_pending o = true -> istate t c res l -> istate (t_insert t o) c res l.
Proof.
  intros t c res l o Hp [A [B C]]. split; [apply keyed_insert; exact A|]. split; [cbn; lia|].
  intros it Hi. specialize (C it Hi). destruct (N.eq_dec (ri_pk it) (o_pk o)) as [E|E].
  - left. exists (Live o (t_rev t + 1)). rewrite E, slot_insert_same. split; [reflexivity|]. split; [cbn; lia|exact Hp].
  - apply (item_ok_step t (t_insert t o) c c res res); [| |tauto|exact C].
    + apply work_ahead_ext. apply slot_insert_other. exact E.
    + intro X. left. apply (err_live_ext t); [apply slot_insert_other; exact E|exact X].
Qed.

(* a status-only write by another writer: the object is re-inserted at a new revision with the other
   writer's data changed *)
Lemma restamp_istate : forall t c res l o r, slot_of t (o_pk o) = Some (Live o r) -> istate t c res l -> istate (t_insert t (bump_aux o)) c res l.
Proof.
  intros t c res l o r Hs [A [B C]]. split; [apply keyed_insert; exact A|]. split; [cbn; lia|].
  set (o' := bump_aux o). assert (Hpk' : o_pk o' = o_pk o) by reflexivity.
  intros it Hi. specialize (C it Hi). destruct (N.eq_dec (ri_pk it) (o_pk o')) as [E|E].
  - apply (item_ok_step t (t_insert t o') c c res res); [| |tauto|exact C]; rewrite E.
    + intros [sl [X1 [X2 X3]]]. rewrite Hpk', Hs in X1. injection X1 as X1. subst sl. cbn in X2, X3.
      exists (Live o' (t_rev t + 1)). rewrite slot_insert_same. split; [reflexivity|]. split; [cbn; lia|exact X3].
    + intros [o2 [r' [X1 X2]]]. rewrite Hpk', Hs in X1. injection X1 as X1 X3. subst o2 r'. left.
      exists o', (t_rev t + 1). rewrite slot_insert_same. split; [reflexivity|exact X2].
  - apply (item_ok_step t (t_insert t o') c c res res); [| |tauto|exact C].
    + apply work_ahead_ext. apply slot_insert_other. exact E.
    + intro X. left. apply (err_live_ext t); [apply slot_insert_other; exact E|exact X].
Qed.

Lemma delete_istate : forall t c res l k, istate t c res l -> istate (t_delete t k) c res l.
Proof.
  intros t c res l k [A [B C]]. split; [apply keyed_delete; exact A|]. split; [pose proof (t_rev_delete t k); lia|].
  intros it Hi. specialize (C it Hi). destruct (N.eq_dec (ri_pk it) k) as [E|E].
  - destruct (slot_of t k) as [[o r|o r]|] eqn:Es.
    + left. exists (Dead o (t_rev t + 1)). rewrite E, (slot_delete_same t k o r Es). split; [reflexivity|]. split; [cbn; lia|reflexivity].
    + assert (X : t_delete t k = t) by (unfold t_delete; unfold slot_of in Es; rewrite Es; reflexivity). rewrite X. exact C.
    + assert (X : t_delete t k = t) by (unfold t_delete; unfold slot_of in Es; rewrite Es; reflexivity). rewrite X. exact C.
  - apply (item_ok_step t (t_delete t k) c c res res); [| |tauto|exact C].
    + apply work_ahead_ext. apply slot_delete_other. exact E.
    + intro X. left. apply (err_live_ext t); [apply slot_delete_other; exact E|exact X].
Qed.

Lemma istate_closed : forall c res l, wclosed (fun t => istate t c res l).
Proof.
  intros c res l. split; [|split; [|split]].
  - intros t [A [B C]]. split; [exact A|]. split; [exact B|]. apply (items_ok_ext t); [reflexivity|exact C].
  - intros t o. apply insert_pending_istate.
  - intros t k o r Hl W. apply t_live_slot in Hl. pose proof W as [K _]. rewrite <- (K k o r Hl) in Hl.
    apply (restamp_istate _ _ _ _ o r Hl W).
  - intros t k. apply delete_istate.
Qed.

Lemma do_write_istate : forall e kind k c res l, istate (e_tab e) c res l -> istate (e_tab (do_write e kind k)) c res l.
Proof. intros e kind k c res l. exact (do_write_closed _ e kind k (istate_closed c res l)). Qed.

Lemma do_call_istate : forall e snap fresh op o rev c res l,
  istate (e_tab e) c res l -> istate (e_tab (fst (do_call e snap fresh op o rev))) c res l.
Proof. intros e snap fresh op o rev c res l. exact (do_call_closed _ e snap fresh op o rev (istate_closed c res l)). Qed.

Lemma advance_clear_l : forall snap t cur ch rest resx l, twf snap -> snap_rel snap t -> stream_ok snap cur (ch :: rest) ->
  items_ok t cur resx l -> (forall it, In it l -> ri_pk it <> ch_pk ch) -> items_ok t (c_rev ch) resx l.
Proof.
  intros snap t cur ch rest resx l W SR S I Hk it Hi.
  apply (item_ok_step t t cur (c_rev ch) resx resx); [|tauto|tauto|apply I; exact Hi].
  intros [sl [A [B C]]]. exists sl. split; [exact A|]. split; [|exact C].
  destruct (N.lt_ge_cases (c_rev ch) (slot_rev sl)) as [L|L]; [exact L|exfalso].
  destruct (interval_head _ _ _ _ _ _ _ W SR S A B L) as [K _]. apply (Hk it Hi). exact K.
Qed.

Lemma advance_skip_l : forall snap t cur ch rest resx l, twf snap -> snap_rel snap t -> stream_ok snap cur (ch :: rest) ->
  ch_act ch = false -> items_ok t cur resx l -> items_ok t (c_rev ch) resx l.
Proof.
  intros snap t cur ch rest resx l W SR S Ha I it Hi.
  apply (item_ok_step t t cur (c_rev ch) resx resx); [|tauto|tauto|apply I; exact Hi].
  intros [sl [A [B C]]]. exists sl. split; [exact A|]. split; [|exact C].
  destruct (N.lt_ge_cases (c_rev ch) (slot_rev sl)) as [L|L]; [exact L|exfalso].
  destruct (interval_head _ _ _ _ _ _ _ W SR S A B L) as [_ SC].
  rewrite <- SC, ch_act_slot in Ha. congruence.
Qed.

Lemma in_put_item_uniq : forall it l j, NoDup (map ri_pk l) -> In j (put_item it l) ->
  j = it \/ (In j l /\ ri_pk j <> ri_pk it).
Proof.
  intros it l j. induction l as [|i r IH]; intros Hn H; cbn [put_item] in H.
  - destruct H as [H|[]]. left. symmetry. exact H.
  - cbn [map] in Hn. inversion Hn as [|x xs Hx Hr]; subst. destruct (ri_pk i =? ri_pk it) eqn:E.
    + apply N.eqb_eq in E. destruct H as [H|H]; [left; symmetry; exact H|right].
      split; [right; exact H|]. intro X. apply Hx. rewrite E, <- X. apply in_map. exact H.
    + apply N.eqb_neq in E. destruct H as [H|H]; [right; subst j; split; [left; reflexivity|exact E]|].
      destruct (IH Hr H) as [A|[A B]]; [left; exact A|right; split; [right; exact A|exact B]].
Qed.

Lemma in_add_items : forall q o rev orig del now j, uniq q -> In j (q_items (r_add q o rev orig del now)) ->
  (ri_obj j = o /\ ri_rev j = rev /\ ri_orig j = orig /\ ri_del j = del /\ ri_inq j = true) \/
  (In j (q_items q) /\ ri_pk j <> o_pk o).
Proof.
  intros q o rev orig del now j U H. rewrite add_items in H. apply (in_put_item_uniq _ _ _ U) in H.
  destruct H as [H|H]; [left; subst j; cbn; repeat split|right; exact H].
Qed.

Lemma in_pop_items : forall q it j, r_top q = Some it -> In j (q_items (r_pop q)) -> j = set_inq false it \/ In j (q_items q).
Proof.
  intros q it j Ht H. rewrite pop_items in H. unfold r_top in Ht. rewrite Ht in H. apply in_put_item in H. exact H.
Qed.

Lemma in_pop_items_uniq : forall q it j, uniq q -> r_top q = Some it -> In j (q_items (r_pop q)) ->
  j = set_inq false it \/ (In j (q_items q) /\ ri_pk j <> ri_pk it).
Proof.
  intros q it j U Ht H. rewrite pop_items in H. unfold r_top in Ht. rewrite Ht in H.
  apply (in_put_item_uniq _ _ _ U) in H. exact H.
Qed.

Lemma okclear_sub : forall res q q', qsub q' q -> okclear res q -> okclear res q'.
Proof.
  intros res q q' H O r Hr Hok it Hi. destruct (H it Hi) as [j [A B]]. rewrite <- B. apply (O r Hr Hok j A).
Qed.

Lemma okclear_clear : forall res q k, okclear res q -> okclear res (r_clear q k).
Proof. intros res q k O. apply (okclear_sub res q); [|exact O]. intros it Hi. apply in_clear_items in Hi. exists it. split; [exact Hi|reflexivity]. Qed.

Lemma commit_one_items : forall c now t q r rest t1 q1, keyed t -> uniq q -> c <= t_rev t ->
  ~ In (o_pk (r_obj r)) (res_pks rest) -> r_orig r <= t_rev t ->
  items_inv t c (r :: rest) q -> okclear (r :: rest) q ->
  commit_one true true now (t, q) r = (t1, q1) ->
  items_inv t1 c rest q1 /\ okclear rest q1.
Proof.
  intros c now t q r rest t1 q1 K U Hc Hnin Hpast I O H.
  destruct (commit_one_spec _ _ _ _ _ _ _ _ K H) as [Ho [Hcs Hq]].
  pose proof (queued_pk t r K) as Qk.
  set (pk := o_pk (r_obj r)) in *.
  assert (NotRest : forall r', In r' rest -> o_pk (r_obj r') <> pk).
  { intros r' Hin Heq. apply Hnin. rewrite <- Heq. unfold res_pks. apply (in_map (fun r => o_pk (r_obj r))). exact Hin. }
  (* an item of another key is untouched *)
  assert (Other : forall it, In it (q_items q) -> ri_pk it <> pk -> item_ok t1 c rest it).
  { intros it Hi Hne. specialize (I it Hi).
    destruct I as [A|[A|[[A1 [A2 [A3 A4]]]|[A1 [A2 [r' [[R1|R1] [R2 R3]]]]]]]].
    - left. apply (work_ahead_ext t); [apply Ho; exact Hne|exact A].
    - right. left. exact A.
    - right. right. left. repeat split; try assumption. apply (err_live_ext t); [apply Ho; exact Hne|exact A4].
    - subst r'. exfalso. apply Hne. unfold pk. symmetry. exact R2.
    - right. right. right. split; [exact A1|]. split; [apply (err_live_ext t); [apply Ho; exact Hne|exact A2]|].
      exists r'. repeat split; assumption. }
  destruct (commit_one_cases _ _ _ _ _ _ _ _ K H) as [[-> [-> NW]]|[cur [rv [o' [EL [_ [Eo [Hpk [-> ->]]]]]]]]].
  - (* nothing written *)
    split; [|intros r' Hr' Hok it Hi; apply (O r' (or_intror Hr') Hok it Hi)].
    intros it Hi. destruct (N.eq_dec (ri_pk it) pk) as [E|E]; [|apply Other; assumption].
    specialize (I it Hi). change (fst (t_fresh_id t)) with (mkTable (t_slots t) (t_rev t) (t_nextid t + 1) (t_pendinit t)).
    destruct I as [X|[X|[[X1 [X2 [X3 X4]]]|[X1 [X2 [r' [[R1|R1] [R2 R3]]]]]]]].
    + left. exact X.
    + right. left. exact X.
    + right. right. left. repeat split; assumption.
    + subst r'. exfalso. destruct X2 as [o [rv [Y1 Y2]]]. rewrite E in Y1. apply t_live_slot in Y1.
      destruct (NW o rv Y1) as [_ NF].
      assert (F : fallback_ok true o r = true) by (apply fallback_ok_spec; right; repeat split; assumption). congruence.
    + exfalso. apply (NotRest r' R1). rewrite R2. exact E.
  - (* written: Done, or Error with the retry queued *)
    destruct (r_ok r) eqn:Eok.
    + split.
      * intros it Hi. apply Other; [exact Hi|]. apply (O r (or_introl eq_refl) Eok it Hi).
      * intros r' Hr' Hok it Hi. apply (O r' (or_intror Hr') Hok it Hi).
    + split.
      * intros it Hi. apply (in_add_items _ _ _ _ _ _ _ U) in Hi.
        destruct Hi as [[I1 [I2 [I3 [I4 I5]]]]|[I1 I2]]; [|apply Other; first [assumption|rewrite <- Qk; assumption]].
        right. right. left. split; [exact I5|]. split; [exact I4|]. split; [rewrite I2, I3; lia|].
        unfold ri_pk. rewrite I1, Qk. exists o', (t_rev t + 1). replace pk with (o_pk o') by exact Hpk.
        split; [exact (slot_insert_same (fst (t_fresh_id t)) o')|rewrite Eo; reflexivity].
      * intros r' Hr' Hok it Hi. apply (in_add_items _ _ _ _ _ _ _ U) in Hi. destruct Hi as [[I1 _]|[I1 I2]].
        -- unfold ri_pk. rewrite I1, Qk. intro X. apply (NotRest r' Hr'). symmetry. exact X.
        -- apply (O r' (or_intror Hr') Hok it I1).
Qed.

Theorem commit_status_items : forall c now res t q t' q', keyed t -> uniq q -> c <= t_rev t ->
  NoDup (res_pks res) -> (forall r, In r res -> r_orig r <= t_rev t) ->
  items_inv t c res q -> okclear res q ->
  commit_status_gen true true now t q res = (t', q') -> items_inv t' c [] q'.
Proof.
  intros c now res. unfold commit_status_gen. induction res as [|r rest IH]; intros t q t' q' K U Hc Hnd Hpast I O H.
  - cbn in H. injection H as H1 H2. subst. exact I.
  - cbn [fold_left] in H. destruct (commit_one true true now (t, q) r) as [t1 q1] eqn:E1.
    cbn [res_pks map] in Hnd. inversion Hnd as [|x xs Hx Hr]; subst.
    destruct (commit_one_spec _ _ _ _ _ _ _ _ K E1) as [_ [Hcs Hq]].
    assert (Hmono : t_rev t <= t_rev t1).
    { destruct Hcs as [[_ [B _]]|[[cur [_ [_ C]]]|[cur [rv0 [_ [_ [_ [_ C]]]]]]]]; lia. }
    destruct (commit_one_items c now t q r rest t1 q1 K U Hc Hx (Hpast r (or_introl eq_refl)) I O E1) as [I1 O1].
    apply (IH t1 q1 t' q').
    + eapply commit_one_keyed; eassumption.
    + rewrite Hq. destruct (negb (r_ok r) && wrote t t1); [apply uniq_add|]; exact U.
    + lia.
    + exact Hr.
    + intros r2 Hin. specialize (Hpast r2 (or_intror Hin)). lia.
    + exact I1.
    + exact O1.
    + exact H.
Qed.

Lemma retry_step_items : forall e snap q res c it e' q' res',
  retry_inv e q res c -> items_inv (e_tab e) c res q -> okclear res q -> r_top q = Some it ->
  process_single e snap false (r_pop q) res (ri_obj it) (ri_rev it) (ri_orig it) (ri_del it) = (e', q', res') ->
  items_inv (e_tab e') c res' q' /\ okclear res' q'.
Proof.
  intros e snap q res c it e' q' res' [I1 I2 I3 I4 I5 I6 I7 I8] I O Ht H.
  assert (Hin : In it (q_items q)) by (destruct (top_of_spec _ _ Ht) as [A _]; exact A).
  assert (Hq : ri_inq it = true) by (destruct (top_of_spec _ _ Ht) as [_ [A _]]; exact A).
  assert (Hf : find_item (ri_pk it) (q_items q) = Some it) by (apply find_item_uniq; assumption).
  assert (Hnew : ~ In (ri_pk it) (res_pks res)).
  { intro X. rewrite (I7 _ _ X Hf) in Hq. discriminate. }
  assert (IS : istate (e_tab e) c res (q_items q)) by (split; [apply twf_keyed; exact I1|split; [exact I2|exact I]]).
  assert (PopKeys : forall j, In j (q_items (r_pop q)) -> exists i, In i (q_items q) /\ ri_pk i = ri_pk j).
  { intros j Hj. destruct (in_pop_items _ _ _ Ht Hj) as [X|X]; [subst j; exists it; split; [exact Hin|reflexivity]|exists j; split; [exact X|reflexivity]]. }
  assert (PopOther : forall j, In j (q_items (r_pop q)) -> ri_pk j <> ri_pk it -> In j (q_items q)).
  { intros j Hj Hne. destruct (in_pop_items _ _ _ Ht Hj) as [X|X]; [subst j; exfalso; apply Hne; reflexivity|exact X]. }
  unfold process_single in H. destruct (ri_del it) eqn:Hd.
  - destruct (do_call e snap false 1 (ri_obj it) (ri_rev it)) as [e1 ok] eqn:Ec.
    pose proof (do_call_istate e snap false 1 (ri_obj it) (ri_rev it) c res (q_items q) IS) as IS1.
    rewrite Ec in IS1. cbn [fst] in IS1. destruct IS1 as [_ [_ C1]].
    destruct ok; injection H as H1 H2 H3; subst e' q' res'.
    + split.
      * intros j Hj. apply clear_in in Hj. destruct Hj as [Hj Hne]. apply C1. apply (PopOther j Hj Hne).
      * apply (okclear_sub res q); [|exact O]. intros j Hj. apply clear_in in Hj. destruct Hj as [Hj _]. apply PopKeys. exact Hj.
    + split.
      * intros j Hj. apply (in_add_items _ _ _ _ _ _ _ (uniq_pop _ I3)) in Hj.
        destruct Hj as [[J1 [J2 [J3 [J4 J5]]]]|[J1 J2]]; [right; left; split; assumption|].
        apply C1. apply (PopOther j J1 J2).
      * intros r' Hr' Hok j Hj. apply (in_add_items _ _ _ _ _ _ _ (uniq_pop _ I3)) in Hj.
        destruct Hj as [[J1 _]|[J1 J2]].
        -- unfold ri_pk at 1. rewrite J1. intro X. apply Hnew. unfold ri_pk. rewrite X. unfold res_pks.
           apply (in_map (fun r => o_pk (r_obj r))). exact Hr'.
        -- apply (O r' Hr' Hok). apply (PopOther j J1 J2).
  - destruct (do_call e snap false 0 (ri_obj it) (ri_rev it)) as [e1 ok] eqn:Ec.
    pose proof (do_call_istate e snap false 0 (ri_obj it) (ri_rev it) c res (q_items q) IS) as IS1.
    rewrite Ec in IS1. cbn [fst] in IS1. destruct IS1 as [_ [_ C1]].
    injection H as H1 H2 H3. subst e' q' res'.
    set (r := mkRes (ri_obj it) (ri_rev it) (ri_orig it) (o_sid (ri_obj it)) ok) in *.
    assert (C1' : items_ok (e_tab e1) c (res ++ [r]) (q_items q)).
    { apply (items_ok_res_mono _ _ res); [intros x Hx; apply in_or_app; left; exact Hx|exact C1]. }
    destruct ok.
    + split.
      * intros j Hj. apply clear_in in Hj. destruct Hj as [Hj Hne]. apply C1'. apply (PopOther j Hj Hne).
      * intros r' Hr' Hok j Hj. apply clear_in in Hj. destruct Hj as [Hj Hne].
        apply in_app_or in Hr'. destruct Hr' as [Hr'|[Hr'|[]]].
        -- apply (O r' Hr' Hok). apply (PopOther j Hj Hne).
        -- subst r'. exact Hne.
    + split.
      * intros j Hj. destruct (in_pop_items _ _ _ Ht Hj) as [X|X]; [|apply C1'; exact X]. subst j.
        destruct (C1 it Hin) as [A|[[_ A]|[[A1 [A2 [A3 A4]]]|[A1 _]]]].
        -- left. exact A.
        -- congruence.
        -- right. right. right. split; [reflexivity|]. split; [exact A4|].
           exists r. split; [apply in_or_app; right; left; reflexivity|]. split; [reflexivity|exact A3].
        -- congruence.
      * intros r' Hr' Hok j Hj. apply in_app_or in Hr'. destruct Hr' as [Hr'|[Hr'|[]]]; [|subst r'; discriminate].
        destruct (PopKeys j Hj) as [i [X1 X2]]. rewrite <- X2. apply (O r' Hr' Hok i X1).
Qed.

Theorem process_retries_items : forall fuel rs snap e q res nrec c e' q' res' nrec',
  retry_inv e q res c -> items_inv (e_tab e) c res q -> okclear res q ->
  process_retries fuel rs snap e q res nrec = (e', q', res', nrec') ->
  items_inv (e_tab e') c res' q' /\ okclear res' q'.
Proof.
  intros fuel rs snap e q res nrec c e' q' res' nrec' INV I O H.
  apply (process_retries_ind (fun e q res => retry_inv e q res c /\ items_inv (e_tab e) c res q /\ okclear res q)) in H; [apply H| |auto].
  intros e0 q0 res0 it e1 q1 res1 [INV0 [I0 O0]] Et Ep.
  split; [exact (retry_step _ _ _ _ _ _ _ _ _ INV0 Et Ep)|exact (retry_step_items _ _ _ _ _ _ _ _ _ INV0 I0 O0 Et Ep)].
Qed.

Lemma single_step_items : forall snap e q res cur ch rest e1 q1 res1,
  phase_inv (Dlog e) snap e q res cur (ch :: rest) -> items_inv (e_tab e) cur [] q -> okclear res q ->
  process_single e snap true (r_clear q (ch_pk ch)) res (c_obj ch) (c_rev ch) (c_rev ch) (c_del ch) = (e1, q1, res1) ->
  items_inv (e_tab e1) (c_rev ch) [] q1 /\ okclear res1 q1.
Proof.
  intros snap e q res cur ch rest e1 q1 res1 INV I O H.
  destruct (step_head_slot _ _ _ _ _ _ _ _ INV) as [sl0 [S0 [S1 [P0 [P1 [P2 P3]]]]]].
  pose proof INV as [I1 I2 I3 I4 I5 I6 I7 I8 I9 I10 I11].
  set (k := ch_pk ch) in *. set (q0 := r_clear q k) in *.
  assert (Sub0 : forall it, In it (q_items q0) -> In it (q_items q) /\ ri_pk it <> k) by (intros it Hi; apply clear_in; exact Hi).
  assert (I0 : items_ok (e_tab e) (c_rev ch) [] (q_items q0)).
  { apply (advance_clear_l snap (e_tab e) cur ch rest _ _ I2 I3 I4).
    - apply (items_ok_sub _ _ _ (q_items q)); [intros it Hi; apply (Sub0 it Hi)|exact I].
    - intros it Hi. apply (Sub0 it Hi). }
  assert (IS : istate (e_tab e) (c_rev ch) [] (q_items q0)).
  { split; [apply twf_keyed; exact I1|]. split; [destruct I3 as [R1 _]; lia|exact I0]. }
  assert (O0 : okclear res q0) by (apply okclear_clear; exact O).
  assert (Knew : forall r', In r' res -> o_pk (r_obj r') <> k).
  { intros r' Hr' X. apply (I9 ch (or_introl eq_refl)). fold k. rewrite <- X. unfold res_pks. apply (in_map (fun r => o_pk (r_obj r))). exact Hr'. }
  unfold process_single in H. destruct (c_del ch) eqn:Hd.
  - destruct (do_call e snap true 1 (c_obj ch) (c_rev ch)) as [e2 ok] eqn:Ec.
    pose proof (do_call_istate e snap true 1 (c_obj ch) (c_rev ch) (c_rev ch) [] (q_items q0) IS) as IS1.
    rewrite Ec in IS1. cbn [fst] in IS1. destruct IS1 as [_ [_ C1]].
    destruct ok; injection H as H1 H2 H3; subst e1 q1 res1.
    + split.
      * intros j Hj. apply clear_in in Hj. apply C1. apply Hj.
      * apply okclear_clear. exact O0.
    + split.
      * intros j Hj. apply (in_add_items _ _ _ _ _ _ _ (uniq_clear _ k I6)) in Hj.
        destruct Hj as [[J1 [J2 [J3 [J4 J5]]]]|[J1 J2]]; [right; left; split; assumption|apply C1; exact J1].
      * intros r' Hr' Hok j Hj. apply (in_add_items _ _ _ _ _ _ _ (uniq_clear _ k I6)) in Hj.
        destruct Hj as [[J1 _]|[J1 J2]].
        -- unfold ri_pk. rewrite J1. intro X. apply (Knew r' Hr'). symmetry. exact X.
        -- apply (O0 r' Hr' Hok j J1).
  - destruct (do_call e snap true 0 (c_obj ch) (c_rev ch)) as [e2 ok] eqn:Ec.
    pose proof (do_call_istate e snap true 0 (c_obj ch) (c_rev ch) (c_rev ch) [] (q_items q0) IS) as IS1.
    rewrite Ec in IS1. cbn [fst] in IS1. destruct IS1 as [_ [_ C1]].
    injection H as H1 H2 H3. subst e1 q1 res1. split.
    + intros j Hj. apply C1. destruct ok; [apply clear_in in Hj; apply Hj|exact Hj].
    + intros r' Hr' Hok j Hj.
      assert (Hj0 : In j (q_items q0)) by (destruct ok; [apply clear_in in Hj; apply Hj|exact Hj]).
      apply in_app_or in Hr'. destruct Hr' as [Hr'|[Hr'|[]]]; [apply (O0 r' Hr' Hok j Hj0)|].
      subst r'. cbn [r_obj]. apply (Sub0 j Hj0).
Qed.

Theorem single_items : forall chs rs snap c0 e q res nrec lastrev e' q' res' nrec' lastrev',
  phase_inv (Dlog e) snap e q res (curs c0 lastrev) chs ->
  items_inv (e_tab e) (curs c0 lastrev) [] q -> okclear res q ->
  single rs snap chs e q res nrec lastrev = (e', q', res', nrec', lastrev') ->
  items_inv (e_tab e') (curs c0 lastrev') [] q' /\ okclear res' q'.
Proof.
  induction chs as [|ch rest IH]; intros rs snap c0 e q res nrec lastrev e' q' res' nrec' lastrev' INV I O H; cbn [single] in H.
  - injection H as H1 H2 H3 H4 H5. subst. split; assumption.
  - destruct (step_head_slot _ _ _ _ _ _ _ _ INV) as [sl0 [S0 [S1 [P0 [P1 [P2 P3]]]]]].
    assert (CU : curs c0 (c_rev ch) = c_rev ch).
    { unfold curs. destruct (c_rev ch =? 0) eqn:E; [apply N.eqb_eq in E; lia|reflexivity]. }
    destruct (negb (c_del ch) && negb (is_pending (c_obj ch))) eqn:Esk.
    + pose proof Esk as Ea. rewrite skip_is_not_act in Ea. apply negb_true_iff in Ea.
      apply andb_prop in Esk. destruct Esk as [E1 E2]. apply negb_true_iff in E1. apply negb_true_iff in E2.
      apply (IH rs snap c0 e q res nrec (c_rev ch) e' q' res' nrec' lastrev'); [rewrite CU; apply (step_skip _ _ _ _ _ _ _ _ INV E1 E2)| |exact O|exact H].
      rewrite CU. destruct INV as [_ I2 I3 I4 _ _ _ _ _ _ _]. apply (advance_skip_l snap (e_tab e) _ ch rest _ _ I2 I3 I4 Ea I).
    + destruct (process_single e snap true (r_clear q (o_pk (c_obj ch))) res (c_obj ch) (c_rev ch) (c_rev ch) (c_del ch))
        as [[e1 q1] res1] eqn:Ep.
      assert (INV1 : phase_inv (Dlog e1) snap e1 q1 res1 (c_rev ch) rest).
      { destruct (c_del ch) eqn:Ed.
        - apply (step_delete _ _ _ _ _ _ _ _ _ _ INV Ed Ep).
        - cbn [negb andb] in Esk. apply negb_false_iff in Esk. apply (step_update _ _ _ _ _ _ _ _ _ _ INV Ed Esk Ep). }
      destruct (single_step_items _ _ _ _ _ _ _ _ _ _ INV I O Ep) as [I1 O1].
      destruct (rs <=? nrec + 1).
      * injection H as H1 H2 H3 H4 H5. subst. rewrite CU. split; assumption.
      * apply (IH rs snap c0 e1 q1 res1 (nrec + 1) (c_rev ch) e' q' res' nrec' lastrev'); [rewrite CU; exact INV1|rewrite CU; exact I1|exact O1|exact H].
Qed.

Theorem batch_collect_items : forall chs rs snap t c0 q dels upds nrec lastrev q' dels' upds' nrec' lastrev',
  twf snap -> snap_rel snap t -> stream_ok snap (curs c0 lastrev) chs -> items_inv t (curs c0 lastrev) [] q ->
  batch_collect rs chs q dels upds nrec lastrev = (q', dels', upds', nrec', lastrev') ->
  items_inv t (curs c0 lastrev') [] q'.
Proof.
  induction chs as [|ch rest IH]; intros rs snap t c0 q dels upds nrec lastrev q' dels' upds' nrec' lastrev' W SR S I H; cbn [batch_collect] in H.
  - injection H as H1 H2 H3 H4 H5. subst. exact I.
  - assert (CU : curs c0 (c_rev ch) = c_rev ch).
    { destruct S as [_ [_ [_ [_ S5]]]]. specialize (S5 ch (or_introl eq_refl)).
      unfold curs. destruct (c_rev ch =? 0) eqn:E; [apply N.eqb_eq in E; lia|reflexivity]. }
    pose proof (stream_tail snap _ ch rest W S) as ST.
    rewrite skip_is_not_act in H. destruct (ch_act ch) eqn:Ea; cbn [negb] in H.
    + assert (I0 : items_inv t (c_rev ch) [] (r_clear q (o_pk (c_obj ch)))).
      { apply (advance_clear_l snap t (curs c0 lastrev) ch rest); try assumption.
        - apply (items_ok_sub _ _ _ (q_items q)); [intros it Hi; apply clear_in in Hi; apply Hi|exact I].
        - intros it Hi. apply clear_in in Hi. apply Hi. }
      destruct (rs <=? nrec + 1).
      * injection H as H1 H2 H3 H4 H5. subst q' dels' upds' nrec' lastrev'. rewrite CU. exact I0.
      * apply (IH rs snap t c0 (r_clear q (o_pk (c_obj ch))) (if c_del ch then dels ++ [ch] else dels)
                  (if c_del ch then upds else upds ++ [ch]) (nrec + 1) (c_rev ch) q' dels' upds' nrec' lastrev' W SR); [rewrite CU; exact ST|rewrite CU; exact I0|exact H].
    + apply (IH rs snap t c0 q dels upds nrec (c_rev ch) q' dels' upds' nrec' lastrev' W SR); [rewrite CU; exact ST| |exact H].
      rewrite CU. apply (advance_skip_l snap t (curs c0 lastrev) ch rest); assumption.
Qed.

Lemma in_add_items_weak : forall q o rev orig del now j, In j (q_items (r_add q o rev orig del now)) ->
  (ri_obj j = o /\ ri_rev j = rev /\ ri_orig j = orig /\ ri_del j = del /\ ri_inq j = true) \/ In j (q_items q).
Proof.
  intros q o rev orig del now j H. rewrite add_items in H. apply in_put_item in H.
  destruct H as [H|H]; [left; subst j; cbn; repeat split|right; exact H].
Qed.

(* the calls of the two batches: the table moves by user writes, a failed Delete is queued *)
Lemma istate_call : forall c l0 e snap fresh op o rev e' ok, istate (e_tab e) c [] l0 ->
  do_call e snap fresh op o rev = (e', ok) -> istate (e_tab e') c [] l0.
Proof.
  intros c l0 e snap fresh op o rev e' ok IS Ec.
  pose proof (do_call_istate e snap fresh op o rev c [] l0 IS) as X. rewrite Ec in X. exact X.
Qed.

Lemma batch_deletes_items : forall dl snap e q c e' q', istate (e_tab e) c [] (q_items q) ->
  batch_deletes snap dl e q = (e', q') -> istate (e_tab e') c [] (q_items q').
Proof.
  intros dl snap e q c e' q'. apply (batch_deletes_gen (fun e q => istate (e_tab e) c [] (q_items q))).
  - intros e0 q0 snap0 fresh op o rev e1 ok _. apply istate_call.
  - intros e0 q0 snap0 fresh op o rev orig e1 _ IS Ec. destruct (istate_call _ _ _ _ _ _ _ _ _ _ IS Ec) as [A [B C]].
    split; [exact A|]. split; [exact B|]. intros j Hj. apply in_add_items_weak in Hj.
    destruct Hj as [[J1 [J2 [J3 [J4 J5]]]]|J1]; [right; left; split; assumption|apply C; exact J1].
Qed.

Lemma batch_update_calls_items : forall upds snap e acc c l0 e' l, istate (e_tab e) c [] l0 ->
  batch_update_calls snap upds e acc = (e', l) -> istate (e_tab e') c [] l0.
Proof.
  intros upds snap e acc c l0 e' l. apply (batch_update_calls_gen (fun e _ => istate (e_tab e) c [] l0)
           (fun e0 _ s f op o r e1 ok _ => istate_call c l0 e0 s f op o r e1 ok) upds snap e (mkRet [] None 0 0)).
Qed.

Lemma batch_results_items : forall l q res0 q' res', okclear res0 q -> batch_results l q res0 = (q', res') ->
  (forall it, In it (q_items q') -> In it (q_items q)) /\ okclear res' q'.
Proof.
  induction l as [|[c ok] rest IH]; intros q res0 q' res' O H; cbn [batch_results] in H.
  - injection H as H1 H2. subst. split; [intros it Hi; exact Hi|exact O].
  - set (q1 := if ok then r_clear q (o_pk (c_obj c)) else q) in *.
    assert (Sub1 : forall it, In it (q_items q1) -> In it (q_items q)).
    { intros it Hi. unfold q1 in Hi. destruct ok; [apply clear_in in Hi; apply Hi|exact Hi]. }
    destruct (IH q1 (res0 ++ [mkRes (c_obj c) (c_rev c) (c_rev c) (o_sid (c_obj c)) ok]) q' res') as [S2 O2].
    + intros r Hr Hok it Hi. apply in_app_or in Hr. destruct Hr as [Hr|[Hr|[]]].
      * apply (O r Hr Hok it (Sub1 it Hi)).
      * subst r. cbn [r_ok r_obj] in *. subst ok. unfold q1 in Hi. apply clear_in in Hi. apply Hi.
    + exact H.
    + split; [intros it Hi; apply Sub1; apply S2; exact Hi|exact O2].
Qed.

Theorem phase1_items : forall cf snap c0 chs e q e1 q1 res1 nrec1 lastrev1,
  phase_inv (Dlog e) snap e q [] (curs c0 0) chs -> items_inv (e_tab e) (curs c0 0) [] q ->
  curs c0 lastrev1 <= t_rev snap ->
  phase1 cf snap chs e q = (e1, q1, res1, nrec1, lastrev1) ->
  items_inv (e_tab e1) (curs c0 lastrev1) [] q1 /\ okclear res1 q1.
Proof.
  intros cf snap c0 chs e q e1 q1 res1 nrec1 lastrev1 PH I Hcur H.
  destruct (phase1_cases _ _ _ _ _ _ _ _ _ _ H) as [HS|[qa [dels [upds [e2 [q2 [l [HC [HD [HU HR]]]]]]]]]].
  - apply (single_items _ _ _ c0 _ _ _ _ _ _ _ _ _ _ PH I (fun r (Hr : In r []) => match Hr with end) HS).
  - pose proof PH as [I1 I2 I3 I4 I5 I6 I7 I8 I9 I10 I11].
    pose proof (batch_collect_items _ _ _ _ _ _ _ _ _ _ _ _ _ _ _ I2 I3 I4 I HC) as Ia.
    assert (IS : istate (e_tab e) (curs c0 lastrev1) [] (q_items qa)).
    { split; [apply twf_keyed; exact I1|]. split; [destruct I3 as [R1 _]; lia|exact Ia]. }
    pose proof (batch_update_calls_items _ _ _ _ _ _ _ _ (batch_deletes_items _ _ _ _ _ _ _ IS HD) HU) as [_ [_ C3]].
    destruct (batch_results_items l q2 [] q1 res1 (fun r (Hr : In r []) => match Hr with end) HR) as [S4 O4].
    split; [apply (items_ok_sub _ _ _ (q_items q2)); [exact S4|exact C3]|exact O4].
Qed.

Theorem round_keeps_items : forall cf e s e' s', round_inv e s ->
  items_inv (e_tab e) (k_cursor s) [] (k_ret s) -> round cf e s = (e', s') ->
  items_inv (e_tab e') (k_cursor s') [] (k_ret s').
Proof.
  intros cf e s e' s' RI II H.
  destruct (round_decompose _ _ _ _ _ H) as [e1 [q1 [res1 [nrec1 [lastrev1 [t1 [q2 [e3 [q3 [res2 [nrec3 [t2 [q4
    [E1 [C1 [R1 [C2 [Tt [_ [_ [_ [_ [Tc Tq]]]]]]]]]]]]]]]]]]]]]]].
  destruct (round_stages _ _ _ _ _ _ _ _ _ _ _ _ _ _ _ _ RI E1 C1 R1 C2)
    as [INV0 [[chs' [J1 J2 J3 J4 J5 J6 J7 J8 J9 J10 J11]] [_ [RI0 [[K1 K2 K3 K4 K5 K6 K7 K8] _]]]]].
  set (cur1 := curs (k_cursor s) lastrev1) in *.
  destruct (phase1_items cf _ (k_cursor s) _ e (k_ret s) e1 q1 res1 nrec1 lastrev1 INV0 II J5 E1) as [I1 O1].
  assert (I2 : items_inv t1 cur1 [] q2).
  { apply (commit_status_items cur1 (e_now e1) res1 (e_tab e1) q1 t1 q2 (twf_keyed _ J1) J6); try assumption.
    - destruct J3 as [X _]. lia.
    - intros r Hr. destruct J3 as [X _]. destruct (J10 r Hr). lia.
    - apply (items_ok_res_mono _ _ []); [intros r []|exact I1]. }
  destruct (process_retries_items _ _ _ _ _ _ _ _ _ _ _ _ RI0 I2 (fun r (Hr : In r []) => match Hr with end) R1) as [I3 O3].
  rewrite Tt, Tc, Tq.
  apply (commit_status_items cur1 (e_now e3) res2 (e_tab e3) q3 t2 q4 (twf_keyed _ K1) K3 K2 K5); try assumption.
  intros r Hr. apply K6. exact Hr.
Qed.

Lemma estep_keeps_items : forall st st', estep st st' -> full_inv (fst st) (snd st) ->
  items_inv (e_tab (fst st)) (k_cursor (snd st)) [] (k_ret (snd st)) ->
  items_inv (e_tab (fst st')) (k_cursor (snd st')) [] (k_ret (snd st')).
Proof.
  intros st st' H. destruct H; cbn [fst snd]; intros [[[W _] [Hc _]] _] I; try exact I.
  (* only the user write remains (initializer completion changes the pendinit flag only) *)
  assert (IS : istate (e_tab e) (k_cursor s) [] (q_items (k_ret s))) by (split; [apply twf_keyed; exact W|split; [exact Hc|exact I]]).
  destruct (do_write_istate e kind k _ _ _ IS) as [_ [_ X]]. exact X.
Qed.

(* in every reachable state every retry item is accounted for *)
Theorem reach_items_inv : forall cf st, reach cf st ->
  items_inv (e_tab (fst st)) (k_cursor (snd st)) [] (k_ret (snd st)).
Proof.
  intros cf st H. induction H.
  - intros it [].
  - apply (estep_keeps_items st st' H0); [apply (nothing_forgotten cf st H)|exact IHreach].
  - destruct (round cf e s) as [e' s'] eqn:E. cbn [fst snd] in *.
    destruct (nothing_forgotten cf (e, s) H) as [RI _].
    apply (round_keeps_items cf e s e' s' RI IHreach E).
Qed.

(* hence: in a reachable state, if every QUEUED item is due, every item is ready *)
Theorem reach_items_ready : forall cf e s, reach cf (e, s) ->
  (forall it, In it (q_items (k_ret s)) -> ri_inq it = true -> ri_at it <= e_now e) -> items_ready e s.
Proof.
  intros cf e s H Due it Hi. pose proof (reach_items_inv cf (e, s) H it Hi) as X. cbn [fst snd] in X.
  destruct X as [A|[[A _]|[[A _]|[_ [_ [r [[] _]]]]]]].
  - right. exact A.
  - left. split; [exact A|apply Due; assumption].
  - left. split; [exact A|apply Due; assumption].
Qed.

(* From ANY reachable state of the reconciler — whatever history of inserts, updates, deletes, failing
   operations, user writes from inside operations and timings led there — : if operations have stopped
   failing (e_foff), no user write is pending in a hook (hooks_inert) and every queued retry item is due,
   then after n <= ceil((#pending changes + #retry items) / roundSize) + 1 rounds the reconciler is
   quiescent and everything is reconciled, and it stays so under all further rounds, with the same table. *)
Theorem converges_from_reach : forall cf e s, reach cf (e, s) -> 0 < cf_rs cf -> calm e ->
  (forall it, In it (q_items (k_ret s)) -> ri_inq it = true -> ri_at it <= e_now e) ->
  exists n, (n <= bound cf e s)%nat /\
    forall m, (n <= m)%nat ->
      quiescent (fst (iter_round cf m (e, s))) (snd (iter_round cf m (e, s))) /\
      reconciled (fst (iter_round cf m (e, s))) /\
      e_tab (fst (iter_round cf m (e, s))) = e_tab (fst (iter_round cf n (e, s))).
Proof.
  intros cf e s H RS C Due.
  apply (converges_and_stays cf e s (reach_full_inv cf e s H) RS C (reach_items_ready cf e s H Due)).
Qed.

(* the same, operationally: take any reachable state, switch the fault oracle off, let the clock pass the
   largest retryAt, and let no further user write happen *)
Definition max_at (q : retries) : N := fold_right (fun it m => N.max (ri_at it) m) 0 (q_items q).

Lemma max_at_ge : forall q it, In it (q_items q) -> ri_at it <= max_at q.
Proof.
  intros q it. unfold max_at. induction (q_items q) as [|i r IH]; intro H; [destruct H|].
  cbn [fold_right]. destruct H as [H|H]; [subst i; lia|specialize (IH H); lia].
Qed.

Theorem converges_after_faults_stop : forall cf e s T, reach cf (e, s) -> 0 < cf_rs cf -> hooks_inert e ->
  max_at (k_ret s) <= T ->
  let e1 := faults_off (set_now e T) in
  reach cf (e1, s) /\
  exists n, (n <= bound cf e1 s)%nat /\
    forall m, (n <= m)%nat ->
      quiescent (fst (iter_round cf m (e1, s))) (snd (iter_round cf m (e1, s))) /\
      reconciled (fst (iter_round cf m (e1, s))).
Proof.
  intros cf e s T H RS HI MT e1.
  assert (H1 : reach cf (e1, s)).
  { unfold e1. eapply reach_env; [|apply es_foff]. eapply reach_env; [|apply es_time]. exact H. }
  split; [exact H1|].
  destruct (converges_from_reach cf e1 s H1 RS) as [n [Hn S]].
  - split; [reflexivity|]. intros k n w Hin. apply (HI k n w Hin).
  - intros it Hi _. cbn [e1 faults_off set_now e_now]. pose proof (max_at_ge _ it Hi). lia.
  - exists n. split; [exact Hn|]. intros m Hm. destruct (S m Hm) as [A [B _]]. split; assumption.
Qed.

Print Assumptions reach_items_inv.
Print Assumptions converges_from_reach.
Print Assumptions converges_after_faults_stop.
