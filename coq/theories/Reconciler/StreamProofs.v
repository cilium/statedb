(* Reconciler/StreamProofs.v — the change stream of a snapshot (changes_of) and the relation between the
   round's snapshot and the current table while user writes land (C14, whole round). *)
From Coq Require Import List NArith Bool Lia ZifyN ZifyBool.
From SV Require Import Reconciler.Retries Reconciler.Model Reconciler.RetriesProofs Reconciler.CommitProofs
  Reconciler.RoundProofs Reconciler.CoverProofs Reconciler.TableWf.
Import ListNotations.
Open Scope N_scope.

(* while no status commit happens: slots not newer than the snapshot are the snapshot's slots, and an
   object in Error was already in Error in the snapshot (only commitStatus writes Error) *)
Definition snap_rel (snap t : table) : Prop :=
  t_rev snap <= t_rev t /\
  (forall k sl, slot_of t k = Some sl -> slot_rev sl <= t_rev snap -> slot_of snap k = Some sl) /\
  (forall k o r, slot_of t k = Some (Live o r) -> o_kind o = Error ->
     exists o' r', slot_of snap k = Some (Live o' r') /\ o_kind o' = Error).

Lemma snap_rel_refl : forall t, snap_rel t t.
Proof.
  intro t. split; [lia|]. split; [intros; assumption|]. intros k o r H He. exists o, r. split; assumption.
Qed.

Lemma snap_rel_tset : forall snap t k sl, snap_rel snap t -> slot_rev sl = t_rev t + 1 ->
  (forall o r, sl = Live o r -> o_kind o = Error -> exists o0 r0, slot_of t k = Some (Live o0 r0) /\ o_kind o0 = Error) ->
  snap_rel snap (tset t k sl).
Proof.
  intros snap t k sl [A [B C]] Hr He. split; [cbn; lia|]. split.
  - intros k' sl' Hs Hle. destruct (N.eq_dec k' k) as [E|E].
    + subst k'. rewrite slot_tset_same in Hs. injection Hs as Hs. subst sl'. lia.
    + rewrite slot_tset_other in Hs by exact E. apply B; assumption.
  - intros k' o r Hs Hk. destruct (N.eq_dec k' k) as [E|E].
    + subst k'. rewrite slot_tset_same in Hs. injection Hs as Hs. destruct (He o r Hs Hk) as [o0 [r0 [X Y]]]. apply (C k o0 r0 X Y).
    + rewrite slot_tset_other in Hs by exact E. apply (C k' o r Hs Hk).
Qed.

Lemma wstep_snap_rel : forall snap t t', wstep t t' -> twf t -> snap_rel snap t -> snap_rel snap t'.
Proof.
  intros snap t t' H. induction H; intros W S.
  - exact S.
  - destruct S as [A [B C]]. split; [exact A|split; [exact B|exact C]].
  - rewrite t_insert_tset. apply snap_rel_tset; [exact S|reflexivity|].
    intros o0 r0 Heq Hk. injection Heq as E1 E2. subst o0. destruct (H Hk) as [o1 [r1 [Hs He]]]. exists o1, r1. split; assumption.
  - destruct (t_delete_cases t k) as [[o [r [A B]]]|[_ B]]; rewrite B; [|exact S].
    apply snap_rel_tset; [exact S|reflexivity|]. intros; discriminate.
  - apply IHwstep2; [eapply wstep_twf; eassumption|apply IHwstep1; assumption].
Qed.

Definition ch_pk (c : change) : N := o_pk (c_obj c).

Fixpoint sorted_rev (l : list change) : Prop :=
  match l with [] => True | c :: r => (forall d, In d r -> c_rev c <= c_rev d) /\ sorted_rev r end.

Definition stream_ok (snap : table) (cur : N) (chs : list change) : Prop :=
  NoDup (map ch_pk chs) /\ sorted_rev chs /\
  (forall ch, In ch chs -> exists sl, slot_of snap (ch_pk ch) = Some sl /\ slot_change sl = ch) /\
  (forall k sl, slot_of snap k = Some sl -> cur < slot_rev sl -> In (slot_change sl) chs) /\
  (forall ch, In ch chs -> cur < c_rev ch).

Lemma slot_change_rev : forall sl, c_rev (slot_change sl) = slot_rev sl.
Proof. intros [o r|o r]; reflexivity. Qed.
Lemma slot_change_obj : forall sl, c_obj (slot_change sl) = slot_obj sl.
Proof. intros [o r|o r]; reflexivity. Qed.

Lemma in_insert_by_rev : forall c l x, In x (insert_by_rev c l) <-> x = c \/ In x l.
Proof.
  intros c l x. induction l as [|d r IH]; cbn [insert_by_rev].
  - split; [intros [H|[]]; left; symmetry; exact H|intros [H|[]]; left; symmetry; exact H].
  - destruct (c_rev c <=? c_rev d).
    + cbn [In]. split; [intros [H|H]; [left; symmetry; exact H|right; exact H]|intros [H|H]; [left; symmetry; exact H|right; exact H]].
    + cbn [In]. rewrite IH. split; [intros [H|[H|H]]; auto|intros [H|[H|H]]; auto].
Qed.

Lemma in_sort : forall l x, In x (fold_right insert_by_rev [] l) <-> In x l.
Proof.
  induction l as [|c r IH]; intro x; cbn [fold_right]; [reflexivity|].
  rewrite in_insert_by_rev, IH. cbn [In]. split; [intros [H|H]; [left; symmetry; exact H|right; exact H]|intros [H|H]; [left; symmetry; exact H|right; exact H]].
Qed.

Lemma sorted_insert : forall c l, sorted_rev l -> sorted_rev (insert_by_rev c l).
Proof.
  intros c l. induction l as [|d r IH]; intro H; cbn [insert_by_rev].
  - cbn. split; [intros d []|exact I].
  - destruct (c_rev c <=? c_rev d) eqn:E.
    + apply N.leb_le in E. cbn [sorted_rev]. split; [|exact H].
      intros x [Hx|Hx]; [subst x; exact E|]. destruct H as [H1 _]. specialize (H1 x Hx). lia.
    + apply N.leb_gt in E. cbn [sorted_rev] in *. destruct H as [H1 H2]. split; [|apply IH; exact H2].
      intros x Hx. apply (proj1 (in_insert_by_rev _ _ _)) in Hx. destruct Hx as [Hx|Hx]; [subst x; lia|apply H1; exact Hx].
Qed.

Lemma sorted_sort : forall l, sorted_rev (fold_right insert_by_rev [] l).
Proof. induction l as [|c r IH]; cbn [fold_right]; [exact I|apply sorted_insert; exact IH]. Qed.

Lemma nodup_insert : forall c l, ~ In (ch_pk c) (map ch_pk l) -> NoDup (map ch_pk l) -> NoDup (map ch_pk (insert_by_rev c l)).
Proof.
  intros c l. induction l as [|d r IH]; intros Hn Hd; cbn [insert_by_rev].
  - cbn. constructor; [intros []|constructor].
  - destruct (c_rev c <=? c_rev d).
    + cbn [map]. constructor; assumption.
    + cbn [map] in *. inversion Hd as [|x xs Hx Hr]; subst. constructor.
      * intro Hin. apply in_map_iff in Hin. destruct Hin as [y [Hy1 Hy2]]. apply (proj1 (in_insert_by_rev _ _ _)) in Hy2.
        destruct Hy2 as [Hy2|Hy2]; [subst y; apply Hn; left; symmetry; exact Hy1|apply Hx; rewrite <- Hy1; apply in_map; exact Hy2].
      * apply IH; [intro Hin; apply Hn; right; exact Hin|exact Hr].
Qed.

Lemma nodup_sort : forall l, NoDup (map ch_pk l) -> NoDup (map ch_pk (fold_right insert_by_rev [] l)).
Proof.
  induction l as [|c r IH]; intro H; cbn [fold_right]; [constructor|].
  cbn [map] in H. inversion H as [|x xs Hx Hr]; subst. apply nodup_insert; [|apply IH; exact Hr].
  intro Hin. apply in_map_iff in Hin. destruct Hin as [y [Hy1 Hy2]]. apply (proj1 (in_sort _ _)) in Hy2.
  apply Hx. rewrite <- Hy1. apply in_map. exact Hy2.
Qed.

Lemma nodup_map_filter : forall A B (f : A -> B) (p : A -> bool) l, NoDup (map f l) -> NoDup (map f (filter p l)).
Proof.
  intros A B f p l. induction l as [|a r IH]; intro H; cbn [filter]; [constructor|].
  cbn [map] in H. inversion H as [|x xs Hx Hr]; subst. destruct (p a); [|apply IH; exact Hr].
  cbn [map]. constructor; [|apply IH; exact Hr]. intro Hin. apply Hx.
  apply in_map_iff in Hin. destruct Hin as [y [Hy1 Hy2]]. apply (proj1 (filter_In _ _ _)) in Hy2. rewrite <- Hy1. apply in_map. apply Hy2.
Qed.

Lemma aget_in : forall V (l : list (N * V)) k v, NoDup (map fst l) -> (aget k l = Some v <-> In (k, v) l).
Proof.
  intros V l k v. induction l as [|[k0 v0] r IH]; intro H; cbn [aget In].
  - split; [discriminate|intros []].
  - cbn [map fst] in H. inversion H as [|x xs Hx Hr]; subst. destruct (k0 =? k) eqn:E.
    + apply N.eqb_eq in E. subst k0. split; [intro A; injection A as A; subst; left; reflexivity|].
      intros [A|A]; [injection A as A; subst; reflexivity|]. exfalso. apply Hx. apply (in_map fst) in A. exact A.
    + apply N.eqb_neq in E. rewrite (IH Hr). split; [intro A; right; exact A|intros [A|A]; [injection A as A1 A2; congruence|exact A]].
Qed.

Theorem changes_stream_ok : forall snap c, twf snap -> stream_ok snap c (changes_of snap c).
Proof.
  intros snap c [W1 [W2 W3]]. unfold changes_of.
  set (g := fun kv : N * slot => slot_change (snd kv)).
  assert (G : forall x, In x (filter (fun ch => c <? c_rev ch) (map g (t_slots snap))) <->
                        exists k sl, slot_of snap k = Some sl /\ slot_change sl = x /\ c < slot_rev sl).
  { intro x. rewrite filter_In, in_map_iff. split.
    - intros [[[k sl] [A B]] C]. exists k, sl. unfold slot_of. rewrite (aget_in _ _ _ _ W1).
      split; [exact B|]. split; [exact A|]. apply N.ltb_lt in C. rewrite <- A in C. unfold g in C. cbn in C. rewrite slot_change_rev in C. exact C.
    - intros [k [sl [A [B C]]]]. unfold slot_of in A. rewrite (aget_in _ _ _ _ W1) in A. split.
      + exists (k, sl). split; [exact B|exact A].
      + apply N.ltb_lt. rewrite <- B, slot_change_rev. exact C. }
  split; [|split; [apply sorted_sort|split; [|split]]].
  - apply nodup_sort. apply nodup_map_filter. rewrite map_map.
    assert (M : map (fun x => ch_pk (g x)) (t_slots snap) = map fst (t_slots snap)).
    { apply map_ext_in. intros [k sl] Hin. unfold g, ch_pk. cbn [snd fst]. rewrite slot_change_obj.
      assert (A : slot_of snap k = Some sl) by (unfold slot_of; apply (aget_in _ _ _ _ W1); exact Hin).
      destruct (W2 k sl A) as [X _]. exact X. }
    rewrite M. exact W1.
  - intros ch Hin. apply (proj1 (in_sort _ _)) in Hin. apply (proj1 (G _)) in Hin. destruct Hin as [k [sl [A [B _]]]].
    exists sl. split; [|exact B]. rewrite <- B. unfold ch_pk. rewrite slot_change_obj. destruct (W2 k sl A) as [X _]. rewrite X. exact A.
  - intros k sl A B. apply in_sort. apply G. exists k, sl. repeat split; assumption.
  - intros ch Hin. apply (proj1 (in_sort _ _)) in Hin. apply (proj1 (G _)) in Hin. destruct Hin as [k [sl [A [B C]]]]. rewrite <- B, slot_change_rev. exact C.
Qed.

(* the head of the stream is the only snapshot slot with a revision in (cur, c_rev head] *)
Lemma stream_head_unique : forall snap cur ch rest k sl, twf snap -> stream_ok snap cur (ch :: rest) ->
  slot_of snap k = Some sl -> cur < slot_rev sl -> slot_rev sl <= c_rev ch -> k = ch_pk ch /\ slot_change sl = ch.
Proof.
  intros snap cur ch rest k sl [W1 [W2 W3]] [A [[B1 B2] [C [D E]]]] Hs Hlt Hle.
  destruct (C ch (or_introl eq_refl)) as [sl0 [S0 S1]].
  assert (R0 : slot_rev sl0 = c_rev ch) by (rewrite <- S1, slot_change_rev; reflexivity).
  assert (K : k = ch_pk ch).
  { destruct (D k sl Hs Hlt) as [X|X].
    - rewrite X. unfold ch_pk. rewrite slot_change_obj. destruct (W2 k sl Hs) as [Y _]. symmetry. exact Y.
    - specialize (B1 _ X). rewrite slot_change_rev in B1. apply (W3 k (ch_pk ch) sl sl0 Hs S0). lia. }
  split; [exact K|]. subst k. rewrite S0 in Hs. injection Hs as Hs. subst sl0. exact S1.
Qed.

Lemma stream_tail : forall snap cur ch rest, twf snap -> stream_ok snap cur (ch :: rest) -> stream_ok snap (c_rev ch) rest.
Proof.
  intros snap cur ch rest W S. pose proof S as [A [[B1 B2] [C [D E]]]].
  cbn [map] in A. inversion A as [|x xs Hx Hr]; subst.
  assert (Strict : forall d, In d rest -> c_rev ch < c_rev d).
  { intros d Hd. pose proof (B1 d Hd) as L. destruct (N.eq_dec (c_rev ch) (c_rev d)) as [Eq|Ne]; [|lia].
    exfalso. destruct (C d (or_intror Hd)) as [sld [Sd Sd1]].
    assert (Rd : slot_rev sld = c_rev d) by (rewrite <- Sd1, slot_change_rev; reflexivity).
    destruct (stream_head_unique snap cur ch rest (ch_pk d) sld W S Sd) as [K _]; [rewrite Rd; apply E; right; exact Hd|lia|].
    apply Hx. rewrite <- K. apply in_map. exact Hd. }
  split; [exact Hr|split; [exact B2|split; [|split]]].
  - intros d Hd. apply C. right. exact Hd.
  - intros k sl Hs Hlt. assert (Hc : cur < slot_rev sl) by (specialize (E ch (or_introl eq_refl)); lia).
    destruct (D k sl Hs Hc) as [X|X]; [|exact X]. exfalso. rewrite X, slot_change_rev in Hlt. lia.
  - exact Strict.
Qed.
