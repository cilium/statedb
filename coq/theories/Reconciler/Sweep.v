(* Reconciler/Sweep.v — one sweep of the refresher (reconciler/reconciler.go refreshLoop, the body of the outer for):

     seq := Table.LowerBound(ReadTxn, ByRevision(lastRevision+1))        -- the snapshot's live objects, oldest change first
     for obj, rev := range seq {
       updatedSince := time.Since(status.UpdatedAt)
       if updatedSince < RefreshInterval { durationUntilRefresh = RefreshInterval - updatedSince; break }
       lastRevision = rev
       if status.Kind == Done { RefreshRateLimiter.Wait(ctx); <the write transaction of Refresh.v> }
     }
     refreshTimer.Reset(durationUntilRefresh)

   Refresh.v models the write of one (object, revision) pair and leaves open WHICH pairs the refresher picks and
   when. This file models that choice: the sweep over the snapshot in revision order with the age test, the cursor
   `lastRevision`, the rate limiter (as an arbitrary list of waits, one before each write: time passes during a sweep)
   and the duration until the next sweep. Time stamps are not part of Model.obj: `upd` gives the UpdatedAt of an
   object's status (a parameter; the theorems hold for every assignment, completeness needs it monotone in revision
   order: that holds while every write of an object stamps our status with the current time - StatusPending/Done/Error/
   Refreshing do -, and fails when another writer re-inserts the object at a new revision with our status and its
   UpdatedAt unchanged, Model.w_stat: then an old Done object can stand behind a younger one and is not picked).

   NOT modelled: the timer itself (the loop sleeps `duration`), ctx cancellation, health reporting. The sweep is not run
   against the implementation by a randomized engine (the refresh loop runs only in the directed probes of the
   reconciler engine: probe refresh / refreshbackoff); it is tied to the rest of the development through Refresh.v. *)
From Coq Require Import List NArith Bool Lia ZifyN ZifyBool.
From SV Require Import Reconciler.Retries Reconciler.Model Reconciler.RetriesProofs Reconciler.CommitProofs
  Reconciler.RoundProofs Reconciler.CoverProofs Reconciler.TableWf Reconciler.StreamProofs Reconciler.Refresh.
Import ListNotations.
Open Scope N_scope.

Section Sweep.
Variable upd : obj -> N.   (* Status.UpdatedAt *)

(* what the sweep hands to the write transaction: the object and revision seen in the snapshot, and when *)
Record cand := mkCand { cd_obj : obj; cd_rev : N; cd_at : N }.

(* the loop over seq; returns (candidates in order, lastRevision afterwards, durationUntilRefresh) *)
Fixpoint sweep (iv now last : N) (objs : list change) (delays : list N) : list cand * N * N :=
  match objs with
  | [] => ([], last, iv)
  | c :: r =>
    let since := now - upd (c_obj c) in          (* time.Since: a time stamp in the future gives a negative duration < iv *)
    if since <? iv then ([], last, iv - since)
    else match o_kind (c_obj c) with
         | Done => let d := hd 0 delays in        (* RefreshRateLimiter.Wait *)
                   let '(cs, l, dur) := sweep iv (now + d) (c_rev c) r (tl delays) in
                   (mkCand (c_obj c) (c_rev c) (now + d) :: cs, l, dur)
         | _ => sweep iv now (c_rev c) r delays
         end
  end.

(* LowerBound(ByRevision(last+1)) on a read snapshot: live objects with a larger revision, by revision *)
Definition live_stream (snap : table) (last : N) : list change :=
  filter (fun c => negb (c_del c)) (changes_of snap last).

Definition refresh_sweep (iv now last : N) (snap : table) (delays : list N) : list cand * N * N :=
  sweep iv now last (live_stream snap last) delays.

Lemma sweep_sound : forall objs iv now last delays cs l dur,
  sweep iv now last objs delays = (cs, l, dur) ->
  forall c, In c cs ->
    exists ch, In ch objs /\ c_obj ch = cd_obj c /\ c_rev ch = cd_rev c /\ o_kind (cd_obj c) = Done /\
               iv <= cd_at c - upd (cd_obj c) /\ now <= cd_at c.
Proof.
  induction objs as [|ch r IH]; intros iv now last delays cs l dur H c Hc; cbn [sweep] in H.
  - inversion H; subst. destruct Hc.
  - destruct (now - upd (c_obj ch) <? iv) eqn:Ey; [inversion H; subst; destruct Hc|].
    destruct (o_kind (c_obj ch)) eqn:Ek.
    1,2,4: destruct (IH _ _ _ _ _ _ _ H c Hc) as [x [A B]]; exists x; split; [right; exact A|exact B].
    destruct (sweep iv (now + hd 0 delays) (c_rev ch) r (tl delays)) as [[cs' l'] dur'] eqn:Er.
    inversion H; subst. destruct Hc as [Hc|Hc].
    + subst c. exists ch. cbn [cd_obj cd_rev cd_at]. repeat split; [left; reflexivity|exact Ek|lia|lia].
    + destruct (IH _ _ _ _ _ _ _ Er c Hc) as [x [A [B1 [B2 [B3 [B4 B5]]]]]]. exists x.
      repeat split; [right; exact A|exact B1|exact B2|exact B3|exact B4|lia].
Qed.

(* every candidate is what Refresh.v calls "seen by the refresher": the snapshot's live object at that revision, Done *)
Theorem sweep_candidates_seen : forall iv now last snap delays c, twf snap ->
  In c (fst (fst (refresh_sweep iv now last snap delays))) ->
  refresher_saw snap (cd_obj c) (cd_rev c) /\ last < cd_rev c /\ iv <= cd_at c - upd (cd_obj c) /\ now <= cd_at c.
Proof.
  intros iv now last snap delays c Hw Hc. unfold refresh_sweep in Hc.
  destruct (sweep iv now last (live_stream snap last) delays) as [[cs l] dur] eqn:E. cbn [fst] in Hc.
  destruct (sweep_sound _ _ _ _ _ _ _ _ E c Hc) as [ch [Hin [Ho [Hr [Hk [Ha Hn]]]]]].
  unfold live_stream in Hin. apply filter_In in Hin. destruct Hin as [Hin Hd].
  destruct (changes_stream_ok snap last Hw) as [_ [_ [S3 [_ S5]]]].
  destruct (S3 ch Hin) as [sl [Hs Hsc]]. specialize (S5 ch Hin).
  destruct sl as [o r|o r]; cbn [slot_change] in Hsc; subst ch; cbn [c_del negb] in Hd; [|discriminate].
  cbn [c_obj c_rev] in *. unfold ch_pk in Hs. cbn [c_obj] in Hs. subst o r.
  repeat split; try assumption.
  unfold t_live. unfold slot_of in Hs. rewrite Hs. reflexivity.
Qed.

Fixpoint upd_mono (l : list change) : Prop :=
  match l with [] => True | c :: r => (forall d, In d r -> upd (c_obj c) <= upd (c_obj d)) /\ upd_mono r end.

Lemma sweep_complete : forall objs iv now last delays cs l dur,
  sweep iv now last objs delays = (cs, l, dur) -> upd_mono objs ->
  forall ch, In ch objs -> o_kind (c_obj ch) = Done -> iv <= now - upd (c_obj ch) ->
    exists c, In c cs /\ cd_obj c = c_obj ch /\ cd_rev c = c_rev ch.
Proof.
  induction objs as [|x r IH]; intros iv now last delays cs l dur H Hm ch Hin Hk Ha; [destruct Hin|].
  cbn [sweep] in H. destruct Hm as [Hm1 Hm2].
  destruct (now - upd (c_obj x) <? iv) eqn:Ey.
  - (* the head is young: everything behind it is younger still *)
    exfalso. apply N.ltb_lt in Ey. destruct Hin as [Hin|Hin]; [subst x; lia|]. specialize (Hm1 ch Hin). lia.
  - destruct Hin as [Hin|Hin].
    + subst x. rewrite Hk in H.
      destruct (sweep iv (now + hd 0 delays) (c_rev ch) r (tl delays)) as [[cs' l'] dur'] eqn:Er.
      inversion H; subst. eexists. split; [left; reflexivity|]. split; reflexivity.
    + destruct (o_kind (c_obj x)) eqn:Ek.
      1,2,4: exact (IH _ _ _ _ _ _ _ H Hm2 ch Hin Hk Ha).
      destruct (sweep iv (now + hd 0 delays) (c_rev x) r (tl delays)) as [[cs' l'] dur'] eqn:Er.
      inversion H; subst.
      destruct (IH _ _ _ _ _ _ _ Er Hm2 ch Hin Hk ltac:(lia)) as [c [A B]]. exists c. split; [right; exact A|exact B].
Qed.

(* on a snapshot: every live Done object with revision above the cursor that is at least RefreshInterval old when the
   sweep starts is handed to the write transaction, whatever the rate limiter's waits *)
Theorem sweep_refreshes_every_old_done_object : forall iv now last snap delays o r, twf snap ->
  upd_mono (live_stream snap last) -> 0 < iv ->
  t_live snap (o_pk o) = Some (o, r) -> last < r -> o_kind o = Done -> iv <= now - upd o ->
  exists c, In c (fst (fst (refresh_sweep iv now last snap delays))) /\ cd_obj c = o /\ cd_rev c = r.
Proof.
  intros iv now last snap delays o r Hw Hm Hiv Hl Hr Hk Ha. unfold refresh_sweep.
  destruct (sweep iv now last (live_stream snap last) delays) as [[cs l] dur] eqn:E. cbn [fst].
  assert (Hin : In (mkChange o r false) (live_stream snap last)).
  { unfold live_stream. apply filter_In. split; [|reflexivity].
    destruct (changes_stream_ok snap last Hw) as [_ [_ [_ [S4 _]]]].
    unfold t_live in Hl. destruct (aget (o_pk o) (t_slots snap)) as [[o' r'|o' r']|] eqn:Es; try discriminate.
    inversion Hl; subst o' r'. apply (S4 (o_pk o) (Live o r)); [exact Es|exact Hr]. }
  destruct (sweep_complete _ _ _ _ _ _ _ _ E Hm _ Hin Hk Ha) as [c [A [B C]]].
  exists c. split; [exact A|split; [exact B|exact C]].
Qed.

Lemma sweep_cursor : forall objs iv now last delays cs l dur,
  sweep iv now last objs delays = (cs, l, dur) ->
  (l = last \/ exists ch, In ch objs /\ l = c_rev ch) /\ (forall c, In c cs -> exists ch, In ch objs /\ cd_rev c = c_rev ch).
Proof.
  induction objs as [|x r IH]; intros iv now last delays cs l dur H; cbn [sweep] in H.
  - inversion H; subst. split; [left; reflexivity|intros c []].
  - destruct (now - upd (c_obj x) <? iv); [inversion H; subst; split; [left; reflexivity|intros c []]|].
    destruct (o_kind (c_obj x)).
    1,2,4: destruct (IH _ _ _ _ _ _ _ H) as [[A|[ch [A1 A2]]] B];
      (split; [|intros c Hc; destruct (B c Hc) as [ch' [B1 B2]]; exists ch'; split; [right; exact B1|exact B2]]);
      [right; exists x; split; [left; reflexivity|exact A]|right; exists ch; split; [right; exact A1|exact A2]].
    destruct (sweep iv (now + hd 0 delays) (c_rev x) r (tl delays)) as [[cs' l'] dur'] eqn:Er. inversion H; subst.
    destruct (IH _ _ _ _ _ _ _ Er) as [[A|[ch [A1 A2]]] B]; split.
    + right. exists x. split; [left; reflexivity|exact A].
    + intros c [Hc|Hc]; [subst c; exists x; split; [left; reflexivity|reflexivity]|].
      destruct (B c Hc) as [ch' [B1 B2]]. exists ch'. split; [right; exact B1|exact B2].
    + right. exists ch. split; [right; exact A1|exact A2].
    + intros c [Hc|Hc]; [subst c; exists x; split; [left; reflexivity|reflexivity]|].
      destruct (B c Hc) as [ch' [B1 B2]]. exists ch'. split; [right; exact B1|exact B2].
Qed.

(* the timer is re-armed for a positive duration of at most the refresh interval *)
Lemma sweep_duration : forall objs iv now last delays cs l dur,
  sweep iv now last objs delays = (cs, l, dur) -> 0 < iv -> 0 < dur /\ dur <= iv.
Proof.
  induction objs as [|x r IH]; intros iv now last delays cs l dur H Hiv; cbn [sweep] in H.
  - inversion H; subst. lia.
  - destruct (now - upd (c_obj x) <? iv) eqn:Ey; [apply N.ltb_lt in Ey; inversion H; subst; lia|].
    destruct (o_kind (c_obj x)).
    1,2,4: exact (IH _ _ _ _ _ _ _ H Hiv).
    destruct (sweep iv (now + hd 0 delays) (c_rev x) r (tl delays)) as [[cs' l'] dur'] eqn:Er. inversion H; subst.
    exact (IH _ _ _ _ _ _ _ Er Hiv).
Qed.

(* whatever happened between the snapshot and the write transaction of a candidate (the rate limiter's wait, other
   candidates' writes, rounds of the reconciler, user writes): the write is the model's `ref` write of a Done object
   unchanged since the snapshot, or nothing; in particular it changes nothing but a status *)
Theorem sweep_write_is_ref_or_nothing : forall iv now last snap delays c e, twf snap -> tstep snap (e_tab e) ->
  In c (fst (fst (refresh_sweep iv now last snap delays))) ->
  (slot_of (e_tab e) (o_pk (cd_obj c)) = slot_of snap (o_pk (cd_obj c)) /\
   refresh_write (e_tab e) (cd_obj c) (cd_rev c) = e_tab (do_write e 5 (o_pk (cd_obj c)))) \/
  (slot_of (e_tab e) (o_pk (cd_obj c)) <> slot_of snap (o_pk (cd_obj c)) /\
   refresh_write (e_tab e) (cd_obj c) (cd_rev c) = e_tab e).
Proof.
  intros iv now last snap delays c e Hw Ht Hc.
  destruct (sweep_candidates_seen iv now last snap delays c Hw Hc) as [Hs _].
  exact (refresher_write_is_ref_or_nothing snap e (cd_obj c) (cd_rev c) Hw Ht Hs).
Qed.

End Sweep.

(* non-vacuity / a worked sweep: three Done objects stamped at 0, 5, 50 and a Pending one at 7; interval 20, sweep at
   time 30 with a limiter wait of 4 before each write: objects 1 and 2 are candidates (written at 34 and 38), the
   Pending one only moves the cursor, the sweep stops at object 4 (age 0 at... stamped 50 > now) and re-arms for 20 *)
Definition sw_upd (o : obj) : N := match o_pk o with 1 => 0 | 2 => 5 | 3 => 7 | _ => 50 end.
Definition sw_snap : table :=
  t_insert (t_insert (t_insert (t_insert (t_empty false) (mkObj 1 1 Done 1 0)) (mkObj 2 1 Done 2 0)) (mkObj 3 1 Pending 3 0))
           (mkObj 4 1 Done 4 0).
Example sweep_example :
  refresh_sweep sw_upd 20 30 0 sw_snap [4; 4; 4] =
    ([mkCand (mkObj 1 1 Done 1 0) 1 34; mkCand (mkObj 2 1 Done 2 0) 2 38], 3, 20) /\
  refresh_sweep sw_upd 20 30 3 sw_snap [] = ([], 3, 20) /\
  refresh_sweep sw_upd 20 60 0 sw_snap [] =
    ([mkCand (mkObj 1 1 Done 1 0) 1 60; mkCand (mkObj 2 1 Done 2 0) 2 60], 3, 10).
Proof. vm_compute. repeat split. Qed.
