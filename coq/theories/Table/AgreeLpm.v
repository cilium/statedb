(* Table/AgreeLpm.v — LPM indexes (lpm_index.go model in Table/Model.v):
   A. the reindex step preserves agreement with the set of live objects
      (l_reindex_agree_n, l_reindex_agree_u', l_reindex_agree_u);
   B. Lookup / Prefix / LowerBound are exact on an index that agrees
      (l_lookup_exact, l_prefix_exact, l_lower_bound_exact). *)
From SV Require Import Base.Bytes Base.OrdMap KeyEnc.Model Table.Model Table.InvDefs Table.Inv Table.AgreeDefs.
From Coq Require Import Sorted ZifyN ZifyNat ZifyBool.
Open Scope N_scope.

(* bit strings as byte strings: an LPM index is an ordered map (Base/OrdMap.v) *)
Definition bkey (k : lkey) : bytes := map (fun b : bool => if b then 1 else 0) k.
Definition lmap (m : lidx) : omap lentry := map (fun ke => (bkey (fst ke), snd ke)) m.

Lemma bkey_inj a : forall b, bkey a = bkey b -> a = b.
Proof.
  induction a as [|x a IH]; intros [|y b] H; try discriminate; auto.
  injection H as Hxy H. f_equal; auto. now destruct x, y.
Qed.

Lemma bkey_eqb a : forall b, bytes_eqb (bkey a) (bkey b) = bits_eqb a b.
Proof.
  induction a as [|x a IH]; intros [|y b]; auto.
  change (((if x then 1 else 0) =? (if y then 1 else 0)) && bytes_eqb (bkey a) (bkey b) = Bool.eqb x y && bits_eqb a b).
  rewrite IH. now destruct x, y.
Qed.

Lemma bkey_ltb a : forall b, bytes_ltb (bkey a) (bkey b) = bits_ltb a b.
Proof.
  induction a as [|x a IH]; intros [|y b]; auto. cbn [bkey map bytes_ltb bits_ltb]. fold (bkey a) (bkey b).
  rewrite IH. now destruct x, y.
Qed.

Lemma bits_eqb_spec a b : bits_eqb a b = true <-> a = b.
Proof. rewrite <- bkey_eqb, bytes_eqb_spec. split; [apply bkey_inj|congruence]. Qed.

Lemma bits_ltb_irrefl a : bits_ltb a a = false.
Proof. rewrite <- bkey_ltb. apply bytes_ltb_irrefl. Qed.

Lemma bits_ltb_trans a b c : bits_ltb a b = true -> bits_ltb b c = true -> bits_ltb a c = true.
Proof. rewrite <- !bkey_ltb, !bytes_ltb_spec. apply lex_lt_trans. Qed.

Lemma bits_ltb_neq a b : bits_ltb a b = true -> a <> b.
Proof. intros H ->. rewrite bits_ltb_irrefl in H. discriminate. Qed.

Lemma bits_ltb_asym a b : bits_ltb a b = true -> bits_ltb b a = false.
Proof.
  intros H. destruct (bits_ltb b a) eqn:E; auto.
  pose proof (bits_ltb_trans _ _ _ H E) as T. rewrite bits_ltb_irrefl in T. discriminate.
Qed.

Lemma lkey_eq_dec (a b : lkey) : {a = b} + {a <> b}.
Proof. apply list_eq_dec. apply Bool.bool_dec. Qed.

Lemma lks_exists_In ks k : lks_exists ks k = true <-> In k ks.
Proof.
  unfold lks_exists. rewrite existsb_exists. split.
  - intros [x [Hx E]]. apply bits_eqb_spec in E. now subst.
  - intros H. exists k. split; auto. now apply bits_eqb_spec.
Qed.

Definition labove (k : lkey) (m : lidx) : Prop := Forall (fun ke => bits_ltb k (fst ke) = true) m.

Lemma labove_In k m k' e : labove k m -> In (k', e) m -> bits_ltb k k' = true.
Proof. unfold labove. rewrite Forall_forall. intros H Hi. exact (H _ Hi). Qed.

Lemma lmap_In k e m : In (k, e) m <-> In (bkey k, e) (lmap m).
Proof.
  unfold lmap. rewrite in_map_iff. split; [intros H; now exists (k, e)|].
  intros [[k' e'] [E H]]. injection E as E <-. apply bkey_inj in E. now subst.
Qed.

Lemma lsorted_om m : lsorted m <-> om_sorted (lmap m).
Proof.
  induction m as [|[k e] r IH]; cbn [lsorted lmap map om_sorted fst snd]; [tauto|]. fold (lmap r).
  rewrite IH. unfold om_above, lmap. rewrite Forall_map. cbn [fst].
  split; intros [Ha Hs]; split; auto; revert Ha; apply Forall_impl; intros ke;
    rewrite <- bytes_ltb_spec, bkey_ltb; auto.
Qed.

Lemma l_get_om k m : l_get k m = om_get (bkey k) (lmap m).
Proof.
  induction m as [|[k' e] r IH]; auto. cbn [l_get lmap map om_get fst snd]. fold (lmap r).
  now rewrite bkey_eqb, bkey_ltb, IH.
Qed.

Lemma l_insert_om k e m : lmap (l_insert k e m) = om_insert (bkey k) e (lmap m).
Proof.
  induction m as [|[k' e'] r IH]; auto. cbn [l_insert lmap map om_insert fst snd]. fold (lmap r).
  rewrite bkey_eqb, bkey_ltb. destruct (bits_eqb k k'); auto. destruct (bits_ltb k k'); auto.
  cbn [map fst snd]. fold (lmap (l_insert k e r)). now rewrite IH.
Qed.

Lemma l_delete_om k m : lmap (l_delete k m) = om_delete (bkey k) (lmap m).
Proof.
  induction m as [|[k' e'] r IH]; auto. cbn [l_delete lmap map om_delete fst snd]. fold (lmap r).
  rewrite bkey_eqb, bkey_ltb. destruct (bits_eqb k k'); auto. destruct (bits_ltb k k'); auto.
  cbn [map fst snd]. fold (lmap (l_delete k r)). now rewrite IH.
Qed.

Lemma l_insert_sorted k e m : lsorted m -> lsorted (l_insert k e m).
Proof. rewrite !lsorted_om, l_insert_om. apply om_insert_sorted. Qed.

Lemma l_delete_sorted k m : lsorted m -> lsorted (l_delete k m).
Proof. rewrite !lsorted_om, l_delete_om. apply om_delete_sorted. Qed.

Lemma l_get_insert_same k e m : l_get k (l_insert k e m) = Some e.
Proof. rewrite l_get_om, l_insert_om. apply om_get_insert_same. Qed.

Lemma l_get_insert_other k k2 e m : k2 <> k -> lsorted m -> l_get k2 (l_insert k e m) = l_get k2 m.
Proof.
  intros Hne Hs. rewrite !l_get_om, l_insert_om. apply om_get_insert_other; [|now apply lsorted_om].
  intros E. now apply bkey_inj in E.
Qed.

Lemma l_get_delete_same k m : lsorted m -> l_get k (l_delete k m) = None.
Proof. intros Hs. rewrite l_get_om, l_delete_om. now apply om_get_delete_same, lsorted_om. Qed.

Lemma l_get_delete_other k k2 m : k2 <> k -> lsorted m -> l_get k2 (l_delete k m) = l_get k2 m.
Proof.
  intros Hne Hs. rewrite !l_get_om, l_delete_om. apply om_get_delete_other; [|now apply lsorted_om].
  intros E. now apply bkey_inj in E.
Qed.

Lemma l_get_In k e m : lsorted m -> (In (k, e) m <-> l_get k m = Some e).
Proof. intros Hs. rewrite lmap_In, l_get_om. now apply om_in_get, lsorted_om. Qed.

(* the entry stored under k, [] if none *)
Definition l_ent (k : lkey) (m : lidx) : lentry := match l_get k m with Some e => e | None => [] end.

Lemma l_ent_insert_same k e m : l_ent k (l_insert k e m) = e.
Proof. unfold l_ent. now rewrite l_get_insert_same. Qed.
Lemma l_ent_insert_other k k2 e m : k2 <> k -> lsorted m -> l_ent k2 (l_insert k e m) = l_ent k2 m.
Proof. intros H Hs. unfold l_ent. now rewrite l_get_insert_other. Qed.
Lemma l_ent_delete_same k m : lsorted m -> l_ent k (l_delete k m) = [].
Proof. intros Hs. unfold l_ent. now rewrite l_get_delete_same. Qed.
Lemma l_ent_delete_other k k2 m : k2 <> k -> lsorted m -> l_ent k2 (l_delete k m) = l_ent k2 m.
Proof. intros H Hs. unfold l_ent. now rewrite l_get_delete_other. Qed.

(* entries: e_upsert is om_insert, e_delete a filter *)
Lemma e_upsert_om pk o e : e_upsert pk o e = om_insert pk o e.
Proof.
  induction e as [|[pk' o'] r IH]; cbn [e_upsert om_insert]; [reflexivity|].
  destruct (bytes_eqb pk pk'); [reflexivity|]. destruct (bytes_ltb pk pk'); [reflexivity|]. now rewrite IH.
Qed.

Lemma esorted_om e : esorted e <-> om_sorted e.
Proof.
  induction e as [|[pk o] r IH]; cbn [esorted om_sorted]; [tauto|].
  rewrite IH. unfold om_above. rewrite !Forall_forall.
  split; intros [H1 H2]; split; auto; intros x Hx; apply bytes_ltb_spec; auto.
Qed.

Lemma e_upsert_In pk o e pk' o' : esorted e ->
  (In (pk', o') (e_upsert pk o e) <-> (pk' = pk /\ o' = o) \/ (In (pk', o') e /\ pk' <> pk)).
Proof. intros Hs. apply esorted_om in Hs. rewrite e_upsert_om, om_in_insert by auto. tauto. Qed.

Lemma e_upsert_sorted pk o e : esorted e -> esorted (e_upsert pk o e).
Proof. intros Hs. rewrite e_upsert_om. apply esorted_om. apply om_insert_sorted. now apply esorted_om. Qed.

Lemma e_upsert_nonempty pk o e : e_upsert pk o e <> [].
Proof.
  destruct e as [|[pk' o'] r]; cbn [e_upsert]; [discriminate|].
  destruct (bytes_eqb pk pk'); [discriminate|]. destruct (bytes_ltb pk pk'); discriminate.
Qed.

Lemma esorted_filter f e : esorted e -> esorted (filter f e).
Proof.
  induction e as [|[pk o] r IH]; cbn [esorted filter]; auto. intros [Ha Hs].
  destruct (f (pk, o)); cbn [esorted]; auto. split; auto.
  rewrite Forall_forall in *. intros x Hx. apply filter_In in Hx. now apply Ha.
Qed.

Lemma e_delete_In pk e pk' o' : In (pk', o') (e_delete pk e) <-> In (pk', o') e /\ pk' <> pk.
Proof.
  unfold e_delete. rewrite filter_In. cbn [fst]. rewrite negb_true_iff.
  split; intros [H1 H2]; split; auto.
  - intros ->. rewrite bytes_eqb_refl in H2. discriminate.
  - destruct (bytes_eqb pk pk') eqn:E; auto. apply bytes_eqb_spec in E. congruence.
Qed.

Lemma esorted_fun e pk o1 o2 : esorted e -> In (pk, o1) e -> In (pk, o2) e -> o1 = o2.
Proof. intros Hs. apply om_in_fun. now apply esorted_om. Qed.

Lemma e_exists_In pk e : existsb (fun x : bytes * object => bytes_eqb pk (fst x)) e = true <-> exists o, In (pk, o) e.
Proof.
  rewrite existsb_exists. split.
  - intros [[pk' o] [Hi E]]. cbn [fst] in E. apply bytes_eqb_spec in E. subst. now exists o.
  - intros [o Hi]. exists (pk, o). split; auto. apply bytes_eqb_refl.
Qed.

Definition lrel (m : lidx) (k : lkey) (pk : bytes) (o : object) : Prop :=
  exists e, In (k, e) m /\ In (pk, o) e.
Definition LWf (m : lidx) : Prop :=
  lsorted m /\ forall k e, In (k, e) m -> e <> [] /\ esorted e.

Lemma l_agree_on_LWf L keys m :
  l_agree_on L keys m <->
  (LWf m /\ forall k pk o, lrel m k pk o <-> (In k (keys (o_data o)) /\ pk = p_id (o_data o) /\ L o)).
Proof. unfold l_agree_on, LWf, lrel. tauto. Qed.

Lemma lrel_ent m k pk o : lsorted m -> (lrel m k pk o <-> In (pk, o) (l_ent k m)).
Proof.
  intros Hs. unfold lrel, l_ent. split.
  - intros [e [H1 H2]]. apply l_get_In in H1; auto. now rewrite H1.
  - destruct (l_get k m) as [e|] eqn:G; [|intros []]. intros H. exists e. split; auto. now apply l_get_In.
Qed.

Lemma LWf_ent m k : LWf m -> esorted (l_ent k m).
Proof.
  intros [Hs He]. unfold l_ent. destruct (l_get k m) as [e|] eqn:G; [|exact I].
  apply l_get_In in G; auto. now apply He in G.
Qed.

Lemma LWf_insert k e m : LWf m -> e <> [] -> esorted e -> LWf (l_insert k e m).
Proof.
  intros [Hs He] Hn Hes. split; [now apply l_insert_sorted|].
  intros k' e' Hi. apply l_get_In in Hi; [|now apply l_insert_sorted].
  destruct (lkey_eq_dec k' k) as [->|Hne].
  - rewrite l_get_insert_same in Hi. injection Hi as <-. auto.
  - rewrite l_get_insert_other in Hi by auto. apply l_get_In in Hi; eauto.
Qed.

Lemma LWf_delete k m : LWf m -> LWf (l_delete k m).
Proof.
  intros [Hs He]. split; [now apply l_delete_sorted|].
  intros k' e' Hi. apply l_get_In in Hi; [|now apply l_delete_sorted].
  destruct (lkey_eq_dec k' k) as [->|Hne].
  - rewrite l_get_delete_same in Hi by auto. discriminate.
  - rewrite l_get_delete_other in Hi by auto. apply l_get_In in Hi; eauto.
Qed.

(* which entries under a key insertKey overwrites: unique, the whole entry; non-unique, the
   element with the same primary key *)
Definition hit (u : bool) (pk' pk : bytes) : Prop := if u then True else pk' = pk.

Lemma ik u pk k o m : LWf m ->
  LWf (l_insert_key u pk k o m) /\
  forall k' pk' o', lrel (l_insert_key u pk k o m) k' pk' o' <->
     (k' = k /\ pk' = pk /\ o' = o) \/ (lrel m k' pk' o' /\ ~ (k' = k /\ hit u pk' pk)).
Proof.
  intros Hw. pose proof (LWf_ent m k Hw) as He. unfold l_insert_key. fold (l_ent k m).
  assert (Hw' : LWf (if u then l_insert k [(pk, o)] m else l_insert k (e_upsert pk o (l_ent k m)) m)).
  { destruct u; apply LWf_insert; auto; try discriminate.
    - cbn [esorted]. split; [constructor|exact I].
    - apply e_upsert_nonempty.
    - now apply e_upsert_sorted. }
  split; auto. intros k' pk' o'. destruct Hw as [Hs _]. destruct Hw' as [Hs' _].
  rewrite !lrel_ent by auto. unfold hit.
  destruct u; (destruct (lkey_eq_dec k' k) as [->|Hne];
               [rewrite l_ent_insert_same|rewrite l_ent_insert_other by auto; tauto]).
  - cbn [In]. split.
    + intros [H|[]]. left. injection H as -> ->. auto.
    + intros [[_ [-> ->]]|[_ H]]; [auto|tauto].
  - rewrite e_upsert_In by auto. tauto.
Qed.

Definition rk_spec (pk : bytes) (k : lkey) (m m' : lidx) : Prop :=
  LWf m' /\
  forall k' pk' o', lrel m' k' pk' o' <-> lrel m k' pk' o' /\ ~ (k' = k /\ pk' = pk).

Lemma rk_same pk k m : LWf m -> (forall o', ~ In (pk, o') (l_ent k m)) -> rk_spec pk k m m.
Proof.
  intros Hw Hn. split; auto. intros k' pk' o'. split; [|tauto]. intros H. split; auto.
  intros [-> ->]. apply lrel_ent in H; [|apply Hw]. exact (Hn _ H).
Qed.

Lemma rk_delete pk k m : LWf m -> (forall pk' o', In (pk', o') (l_ent k m) -> pk' = pk) ->
  rk_spec pk k m (l_delete k m).
Proof.
  intros Hw Ha. pose proof (LWf_delete k m Hw) as Hw'. split; auto.
  intros k' pk' o'. destruct Hw as [Hs _]. destruct Hw' as [Hs' _]. rewrite !lrel_ent by auto.
  destruct (lkey_eq_dec k' k) as [->|Hne].
  - rewrite l_ent_delete_same by auto. cbn [In]. split; [tauto|]. intros [H Hn]. apply Hn. split; auto.
    eapply Ha; eauto.
  - rewrite l_ent_delete_other by auto. tauto.
Qed.

Lemma rk_replace pk k m : LWf m -> e_delete pk (l_ent k m) <> [] ->
  rk_spec pk k m (l_insert k (e_delete pk (l_ent k m)) m).
Proof.
  intros Hw Hn. pose proof (LWf_ent m k Hw) as He.
  assert (Hw' : LWf (l_insert k (e_delete pk (l_ent k m)) m)).
  { apply LWf_insert; auto. unfold e_delete. now apply esorted_filter. }
  split; auto. intros k' pk' o'. destruct Hw as [Hs _]. destruct Hw' as [Hs' _]. rewrite !lrel_ent by auto.
  destruct (lkey_eq_dec k' k) as [->|Hne].
  - rewrite l_ent_insert_same. rewrite e_delete_In. tauto.
  - rewrite l_ent_insert_other by auto. tauto.
Qed.

Lemma rk_general pk k m e : LWf m -> l_ent k m = e ->
  rk_spec pk k m
    (if existsb (fun x : bytes * object => bytes_eqb pk (fst x)) e
     then match e_delete pk e with [] => l_delete k m | e' => l_insert k e' m end
     else m).
Proof.
  intros Hw <-. destruct (existsb _ (l_ent k m)) eqn:X.
  - destruct (e_delete pk (l_ent k m)) as [|x r] eqn:D.
    + apply rk_delete; auto. intros pk' o' Hi. destruct (bytes_eq_dec pk' pk) as [|Hne]; auto.
      assert (Hd : In (pk', o') (e_delete pk (l_ent k m))) by (apply e_delete_In; auto).
      rewrite D in Hd. destruct Hd.
    + rewrite <- D. apply rk_replace; auto. rewrite D. discriminate.
  - apply rk_same; auto. intros o' Hi.
    assert (Hx : existsb (fun x : bytes * object => bytes_eqb pk (fst x)) (l_ent k m) = true)
      by (apply e_exists_In; eauto).
    congruence.
Qed.

Lemma rk pk k m : LWf m -> rk_spec pk k m (l_remove_key pk k m).
Proof.
  intros Hw. unfold l_remove_key. destruct (l_get k m) as [e|] eqn:G.
  - assert (He : l_ent k m = e) by (unfold l_ent; now rewrite G).
    destruct e as [|[pk0 o0] [|x r]].
    + exact (rk_general pk k m [] Hw He).
    + destruct (bytes_eqb pk0 pk) eqn:E.
      * apply bytes_eqb_spec in E. subst pk0. apply rk_delete; auto. rewrite He.
        intros pk' o' [H|[]]. congruence.
      * apply rk_same; auto. rewrite He. intros o' [H|[]]. injection H as -> _.
        rewrite bytes_eqb_refl in E. discriminate.
    + exact (rk_general pk k m _ Hw He).
  - apply rk_same; auto. unfold l_ent. rewrite G. intros o' [].
Qed.

Lemma fold_ik u pk o ks : forall m, LWf m ->
  LWf (fold_left (fun m k => l_insert_key u pk k o m) ks m) /\
  forall k' pk' o', lrel (fold_left (fun m k => l_insert_key u pk k o m) ks m) k' pk' o' <->
    (In k' ks /\ pk' = pk /\ o' = o) \/ (lrel m k' pk' o' /\ ~ (In k' ks /\ hit u pk' pk)).
Proof.
  induction ks as [|k ks IH]; intros m Hw; cbn [fold_left In].
  - split; auto. intros; tauto.
  - destruct (ik u pk k o m Hw) as [Hw1 H1]. destruct (IH _ Hw1) as [Hw2 H2]. split; auto.
    intros k' pk' o'. rewrite H2, H1.
    split.
    + intros [(? & ? & ?)|[[(<- & ? & ?)|[? N1]] N2]]; auto. right. split; auto. intros [[<-|?] ?]; auto.
    + intros [([<-|?] & ? & ?)|[? N]]; auto.
      * destruct (in_dec lkey_eq_dec k ks); [auto|right]. split; auto. tauto.
      * right. split; [right; split; auto; intros [<- ?]|intros [? ?]]; apply N; auto.
Qed.

Lemma fold_rk pk nk ks : forall m, LWf m ->
  LWf (fold_left (fun m k => if lks_exists nk k then m else l_remove_key pk k m) ks m) /\
  forall k' pk' o',
    lrel (fold_left (fun m k => if lks_exists nk k then m else l_remove_key pk k m) ks m) k' pk' o' <->
    lrel m k' pk' o' /\ ~ (In k' ks /\ ~ In k' nk /\ pk' = pk).
Proof.
  induction ks as [|k ks IH]; intros m Hw; cbn [fold_left In].
  - split; auto. intros; tauto.
  - assert (Hsym : forall k', k = k' <-> k' = k) by (intros; split; congruence).
    destruct (lks_exists nk k) eqn:X.
    + apply lks_exists_In in X. destruct (IH _ Hw) as [Hw2 H2]. split; auto.
      intros k' pk' o'. rewrite H2, Hsym. split; intros [H Hn]; split; auto.
      * intros [[->|Hi] [Hnk Hp]]; tauto.
      * tauto.
    + assert (Hnk : ~ In k nk) by (intros Hi; apply lks_exists_In in Hi; congruence).
      destruct (rk pk k m Hw) as [Hw1 H1]. destruct (IH _ Hw1) as [Hw2 H2]. split; auto.
      intros k' pk' o'. rewrite H2, H1, Hsym.
      destruct (lkey_eq_dec k' k) as [->|Hne]; tauto.
Qed.

(* Under a unique index the new object owes something: none of its keys is a key of another
   object that stays live (its entry would be overwritten). *)
Theorem l_reindex_agree u L L' keys idKey old new m :
  step_ok L L' idKey old new ->
  (u = true -> o_rev new <> 0 ->
   forall o k, L' o -> In k (keys (o_data new)) -> In k (keys (o_data o)) -> o = new) ->
  l_agree_on L keys m -> l_agree_on L' keys (l_reindex u keys idKey old new m).
Proof.
  intros [So Sonly Sn Sl] Hu Ha. apply l_agree_on_LWf in Ha. destruct Ha as [Hw Hr]. apply l_agree_on_LWf.
  unfold l_reindex.
  set (nk := if o_rev new =? 0 then [] else keys (o_data new)).
  assert (Hnk : forall k, In k nk <-> (o_rev new <> 0 /\ In k (keys (o_data new)))).
  { intros k. subst nk. destruct (N.eqb_spec (o_rev new) 0) as [E|E]; cbn [In]; tauto. }
  clearbody nk.
  (* entries of the other objects that stay are not overwritten *)
  assert (Hkeep : forall k o, L o -> p_id (o_data o) <> idKey -> In k (keys (o_data o)) ->
                    ~ (In k nk /\ hit u (p_id (o_data o)) idKey)).
  { intros k o Hl Hid Hk [Hi Hh]. destruct u; [|auto]. apply Hnk in Hi. destruct Hi as [Hn Hkn].
    assert (o = new) by (apply (Hu eq_refl Hn o k); auto; apply Sl; auto). subst o. auto. }
  assert (Hhit : hit u idKey idKey) by (destruct u; reflexivity).
  assert (Hnew : forall k, In k nk -> In k (keys (o_data new)) /\ idKey = p_id (o_data new) /\ L' new).
  { intros k Hi. apply Hnk in Hi. destruct Hi as [Hn Hk]. repeat split; auto; [symmetry; auto|apply Sl; auto]. }
  destruct (fold_ik u idKey new nk m Hw) as [Hw1 H1].
  destruct (N.eqb_spec (o_rev old) 0) as [Eo|Eo].
  - split; auto. intros k pk o. rewrite H1, Hr. split.
    + intros [[Hi [-> ->]]|[[Hk [-> Hl]] Hno]]; auto.
      split; auto. split; auto. apply Sl. right. split; auto. intros Hid. destruct (Sonly _ Hl Hid). tauto.
    + intros [Hk [-> Hl']]. apply Sl in Hl'. destruct Hl' as [[Hn ->]|[Hl Hid]].
      * left. split; [apply Hnk; auto|]. split; auto.
      * right. split; auto.
  - destruct (fold_rk idKey nk (keys (o_data old)) _ Hw1) as [Hw2 H2]. split; auto.
    destruct (So Eo) as [Lold Pold].
    intros k pk o. rewrite H2, H1, Hr. split.
    + intros [[[Hi [-> ->]]|[[Hk [-> Hl]] Hno]] Hrm]; auto.
      split; auto. split; auto. apply Sl. right. split; auto. intros Hid.
      destruct (Sonly _ Hl Hid) as [_ ->]. rewrite Hid in Hno.
      destruct (in_dec lkey_eq_dec k nk) as [Hi|Hi]; [apply Hno|apply Hrm]; auto.
    + intros [Hk [-> Hl']]. apply Sl in Hl'. destruct Hl' as [[Hn ->]|[Hl Hid]].
      * assert (Hi : In k nk) by (apply Hnk; auto). split; [|tauto].
        left. split; auto.
      * split; [|tauto]. right. split; auto.
Qed.

Theorem l_reindex_agree_n L L' keys idKey old new m :
  step_ok L L' idKey old new -> l_agree_on L keys m ->
  l_agree_on L' keys (l_reindex false keys idKey old new m).
Proof. intros S. apply l_reindex_agree; auto. discriminate. Qed.

Theorem l_reindex_agree_u' L L' keys idKey old new m :
  step_ok L L' idKey old new ->
  (o_rev new <> 0 -> forall o k, L' o -> In k (keys (o_data new)) -> In k (keys (o_data o)) -> o = new) ->
  l_agree_on L keys m -> l_agree_on L' keys (l_reindex true keys idKey old new m).
Proof. intros S Hu. apply l_reindex_agree; auto. Qed.

Theorem l_reindex_agree_u L L' keys idKey old new m :
  step_ok L L' idKey old new -> wf_on L' keys -> l_agree_on L keys m ->
  l_agree_on L' keys (l_reindex true keys idKey old new m).
Proof.
  intros Hs Hwf. apply l_reindex_agree_u'; auto.
  intros Hn o k Hl Hk1 Hk2. apply (Hwf o new k); auto. apply (so_live _ _ _ _ _ Hs). auto.
Qed.

Definition by_pk (a b : object) : Prop := lex_lt (p_id (o_data a)) (p_id (o_data b)).

Lemma bits_prefix_len a : forall b q,
  bits_prefix a q = true -> bits_prefix b q = true -> bits_ltb a b = true -> (length a <= length b)%nat.
Proof.
  induction a as [|x xs IH]; intros b q; [cbn [length]; lia|].
  destruct b as [|y ys], q as [|z zs]; cbn [bits_prefix bits_ltb length]; try discriminate.
  rewrite !andb_true_iff, !Bool.eqb_true_iff. intros [-> H1] [-> H2]. rewrite Bool.eqb_reflx.
  intros H3. specialize (IH _ _ H1 H2 H3). lia.
Qed.

(* the fold of l_lookup returns the last stored prefix of q *)
Lemma l_lookup_fold q m : lsorted m -> forall acc,
  match fold_left (fun best (ke : lkey * lentry) => if bits_prefix (fst ke) q then Some (snd ke) else best) m acc with
  | Some e =>
      (exists k, In (k, e) m /\ bits_prefix k q = true /\
         forall k' e', In (k', e') m -> bits_prefix k' q = true -> k' = k \/ bits_ltb k' k = true) \/
      (acc = Some e /\ forall k' e', In (k', e') m -> bits_prefix k' q = false)
  | None => acc = None /\ forall k' e', In (k', e') m -> bits_prefix k' q = false
  end.
Proof.
  induction m as [|[k0 e0] r IH]; cbn [fold_left lsorted]; intros Hs acc.
  - destruct acc as [e|]; [right|]; split; auto; intros k' e' [].
  - destruct Hs as [Ha Hs]. cbn [fst snd]. specialize (IH Hs).
    destruct (bits_prefix k0 q) eqn:P.
    + specialize (IH (Some e0)).
      destruct (fold_left _ r (Some e0)) as [e|]; [|destruct IH; discriminate].
      left. destruct IH as [[k [Hi [Hp Hmax]]]|[He Hnone]].
      * exists k. split; [right; auto|]. split; auto. intros k' e' [H|H] Hp'.
        -- injection H as <- <-. right. eapply labove_In; eauto.
        -- eauto.
      * injection He as <-. exists k0. split; [left; auto|]. split; auto. intros k' e' [H|H] Hp'.
        -- injection H as <- <-. auto.
        -- rewrite (Hnone _ _ H) in Hp'. discriminate.
    + specialize (IH acc). destruct (fold_left _ r acc) as [e|].
      * destruct IH as [[k [Hi [Hp Hmax]]]|[He Hnone]].
        -- left. exists k. split; [right; auto|]. split; auto. intros k' e' [H|H] Hp'.
           ++ injection H as <- <-. congruence.
           ++ eauto.
        -- right. split; auto. intros k' e' [H|H]; [injection H as <- <-; auto|eauto].
      * destruct IH as [He Hnone]. split; auto. intros k' e' [H|H]; [injection H as <- <-; auto|eauto].
Qed.

Lemma esorted_by_pk e : esorted e -> (forall pk o, In (pk, o) e -> pk = p_id (o_data o)) ->
  StronglySorted by_pk (map snd e).
Proof.
  induction e as [|[pk o] r IH]; cbn [esorted map snd]; intros Hs Hp; [constructor|].
  destruct Hs as [Ha Hs]. constructor.
  - apply IH; auto. intros pk' o' Hi. apply Hp. right; auto.
  - rewrite Forall_forall in *. intros o' Hi. apply in_map_iff in Hi. destruct Hi as [[pk' o''] [E Hi]].
    cbn [snd] in E. subst o''. unfold by_pk.
    rewrite <- (Hp pk o) by (left; auto). rewrite <- (Hp pk' o') by (right; auto).
    apply bytes_ltb_spec. exact (Ha _ Hi).
Qed.

Theorem l_lookup_exact L keys m q : l_agree_on L keys m ->
  match l_lookup q m with
  | Some e => exists k, bits_prefix k q = true /\
                (forall k' o, L o -> In k' (keys (o_data o)) -> bits_prefix k' q = true -> (length k' <= length k)%nat) /\
                e <> [] /\ StronglySorted by_pk (map snd e) /\
                (forall o, In o (map snd e) <-> (L o /\ In k (keys (o_data o))))
  | None => forall o k, L o -> In k (keys (o_data o)) -> bits_prefix k q = false
  end.
Proof.
  intros Ha. apply l_agree_on_LWf in Ha. destruct Ha as [[Hs He] Hr].
  pose proof (l_lookup_fold q m Hs None) as Hf. unfold l_lookup.
  destruct (fold_left _ m None) as [e|].
  - destruct Hf as [[k [Hi [Hp Hmax]]]|[Hx _]]; [|discriminate].
    exists k. split; auto. destruct (He _ _ Hi) as [Hne Hes].
    assert (Hpk : forall pk o, In (pk, o) e -> In k (keys (o_data o)) /\ pk = p_id (o_data o) /\ L o).
    { intros pk o Hio. apply Hr. exists e. auto. }
    split; [|split; [|split]]; auto.
    + intros k' o Hl Hk Hp'.
      assert (Hrel : lrel m k' (p_id (o_data o)) o) by (apply Hr; auto).
      destruct Hrel as [e' [Hi' _]]. destruct (Hmax _ _ Hi' Hp') as [->|Hlt]; [lia|].
      eapply bits_prefix_len; eauto.
    + apply esorted_by_pk; auto. intros pk o Hio. now apply Hpk in Hio.
    + intros o. split.
      * intros Hio. apply in_map_iff in Hio. destruct Hio as [[pk o'] [E Hio]]. cbn [snd] in E. subst o'.
        apply Hpk in Hio. tauto.
      * intros [Hl Hk]. assert (Hrel : lrel m k (p_id (o_data o)) o) by (apply Hr; auto).
        destruct Hrel as [e' [Hi' Hio]].
        apply l_get_In in Hi; auto. apply l_get_In in Hi'; auto. assert (e' = e) by congruence. subst e'.
        apply in_map_iff. exists (p_id (o_data o), o). auto.
  - destruct Hf as [_ Hnone]. intros o k Hl Hk.
    assert (Hrel : lrel m k (p_id (o_data o)) o) by (apply Hr; auto).
    destruct Hrel as [e' [Hi' _]]. eauto.
Qed.

Definition l_flat (m : lidx) : list (lkey * bytes * object) :=
  flat_map (fun ke => map (fun x => (fst ke, fst x, snd x)) (snd ke)) m.

Lemma l_objs_flat m : l_objs m = map snd (l_flat m).
Proof.
  unfold l_objs, l_flat. induction m as [|[k e] r IH]; cbn [flat_map map fst snd]; auto.
  rewrite map_app, map_map, IH. cbn [snd]. reflexivity.
Qed.

Definition flat_lt (a b : lkey * bytes * object) : Prop :=
  bits_ltb (fst (fst a)) (fst (fst b)) = true \/
  (fst (fst a) = fst (fst b) /\ lex_lt (snd (fst a)) (snd (fst b))).

Lemma l_flat_In m k pk o : In (k, pk, o) (l_flat m) <-> lrel m k pk o.
Proof.
  unfold l_flat, lrel. rewrite in_flat_map. split.
  - intros [[k' e] [Hi Hx]]. cbn [fst snd] in Hx. apply in_map_iff in Hx.
    destruct Hx as [[pk' o'] [E Hx]]. cbn [fst snd] in E. injection E as -> -> ->. eauto.
  - intros [e [Hi Hx]]. exists (k, e). split; auto. cbn [fst snd]. apply in_map_iff.
    exists (pk, o). auto.
Qed.

Lemma SSorted_app {A} (R : A -> A -> Prop) a : forall b,
  StronglySorted R a -> StronglySorted R b -> (forall x y, In x a -> In y b -> R x y) ->
  StronglySorted R (a ++ b).
Proof.
  induction a as [|x a IH]; intros b Ha Hb Hab; cbn [app]; auto.
  inversion Ha as [|x' a' Hsa Hfa]; subst. constructor.
  - apply IH; auto. intros; apply Hab; auto. now right.
  - apply Forall_app. split; auto. apply Forall_forall. intros y Hy. apply Hab; auto. now left.
Qed.

Lemma l_flat_sorted m : LWf m -> StronglySorted flat_lt (l_flat m).
Proof.
  induction m as [|[k e] r IH]; intros [Hs He]; [constructor|].
  cbn [lsorted] in Hs. destruct Hs as [Ha Hs].
  change (l_flat ((k, e) :: r)) with (map (fun x : bytes * object => (k, fst x, snd x)) e ++ l_flat r).
  apply SSorted_app.
  - destruct (He k e (or_introl eq_refl)) as [_ Hes]. clear - Hes.
    induction e as [|[pk o] e IHe]; cbn [map esorted] in *; [constructor|].
    destruct Hes as [Hab Hes]. constructor; auto.
    rewrite Forall_forall in *. intros y Hy. apply in_map_iff in Hy. destruct Hy as [[pk' o'] [<- Hy]].
    right. cbn [fst snd]. split; auto. apply bytes_ltb_spec. exact (Hab _ Hy).
  - apply IH. split; auto. intros k' e' Hi. apply (He k' e'). now right.
  - intros x [[k' pk'] o'] Hx Hy. apply in_map_iff in Hx. destruct Hx as [[pk o] [<- Hx]].
    apply l_flat_In in Hy. destruct Hy as [e' [Hi _]]. left. cbn [fst snd].
    eapply labove_In; eauto.
Qed.

Lemma LWf_filter f m : LWf m -> LWf (filter f m).
Proof.
  intros [Hs He]. split.
  - clear He. induction m as [|[k e] r IH]; cbn [filter lsorted] in *; auto. destruct Hs as [Ha Hs].
    destruct (f (k, e)); cbn [lsorted]; auto. split; auto.
    rewrite Forall_forall in *. intros x Hx. apply filter_In in Hx. now apply Ha.
  - intros k e Hi. apply filter_In in Hi. apply (He k e). tauto.
Qed.

Lemma l_lower_bound_om q m : lmap (l_lower_bound q m) = om_lower_bound (bkey q) (lmap m).
Proof.
  induction m as [|[k e] r IH]; auto. cbn [l_lower_bound lmap map om_lower_bound fst snd]. fold (lmap r).
  rewrite bkey_ltb. now destruct (bits_ltb k q).
Qed.

Lemma l_lower_bound_In q m : lsorted m ->
  forall k e, In (k, e) (l_lower_bound q m) <-> In (k, e) m /\ bits_ltb k q = false.
Proof.
  intros Hs k e. rewrite !lmap_In, l_lower_bound_om, om_lower_bound_spec by now apply lsorted_om.
  cbn [fst]. now rewrite bkey_ltb.
Qed.

Lemma LWf_lower_bound q m : LWf m -> LWf (l_lower_bound q m).
Proof.
  intros [Hs He]. split.
  - rewrite lsorted_om, l_lower_bound_om. now apply om_lower_bound_sorted, lsorted_om.
  - intros k e Hi. apply l_lower_bound_In in Hi; auto. apply (He k e). tauto.
Qed.

Theorem l_prefix_exact L keys m q : l_agree_on L keys m ->
  StronglySorted flat_lt (l_flat (l_prefix q m)) /\
  forall k pk o, In (k, pk, o) (l_flat (l_prefix q m)) <->
    (bits_prefix q k = true /\ In k (keys (o_data o)) /\ pk = p_id (o_data o) /\ L o).
Proof.
  intros Ha. apply l_agree_on_LWf in Ha. destruct Ha as [Hw Hr]. split.
  - apply l_flat_sorted. unfold l_prefix. now apply LWf_filter.
  - intros k pk o. rewrite l_flat_In, <- Hr. unfold lrel, l_prefix. split.
    + intros [e [Hi Hx]]. apply filter_In in Hi. cbn [fst] in Hi. destruct Hi as [Hi Hp]. eauto.
    + intros [Hp [e [Hi Hx]]]. exists e. split; auto. apply filter_In. auto.
Qed.

Theorem l_lower_bound_exact L keys m q : l_agree_on L keys m ->
  StronglySorted flat_lt (l_flat (l_lower_bound q m)) /\
  forall k pk o, In (k, pk, o) (l_flat (l_lower_bound q m)) <->
    (bits_ltb k q = false /\ In k (keys (o_data o)) /\ pk = p_id (o_data o) /\ L o).
Proof.
  intros Ha. apply l_agree_on_LWf in Ha. destruct Ha as [Hw Hr]. split.
  - apply l_flat_sorted. now apply LWf_lower_bound.
  - intros k pk o. rewrite l_flat_In, <- Hr. unfold lrel. destruct Hw as [Hs _]. split.
    + intros [e [Hi Hx]]. apply l_lower_bound_In in Hi; auto. destruct Hi as [Hi Hp]. eauto.
    + intros [Hp [e [Hi Hx]]]. exists e. split; auto. apply l_lower_bound_In; auto.
Qed.

Print Assumptions l_reindex_agree_n.
Print Assumptions l_reindex_agree_u'.
Print Assumptions l_reindex_agree_u.
Print Assumptions l_lookup_exact.
Print Assumptions l_prefix_exact.
Print Assumptions l_lower_bound_exact.
