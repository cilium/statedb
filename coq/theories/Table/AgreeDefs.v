(* Table/AgreeDefs.v — vocabulary shared by Table/AgreeN.v (part indexes), Table/AgreeLpm.v
   (LPM indexes), Table/Agree.v (the Agree invariant) and Table/Queries.v: the agreement
   predicates of Table/InvDefs.v abstracted over the set of live objects, and the abstract
   description of one write step (modify / delete) as seen by a secondary index. They unfold
   to the predicates of InvDefs at `live t`. *)
From SV Require Import Base.Bytes Base.OrdMap KeyEnc.Model Table.Model Table.InvDefs.
Open Scope N_scope.

Definition u_agree_on (L : object -> Prop) (keys : payload -> list bytes) (m : idx) : Prop :=
  om_sorted m /\ forall K o, In (K, o) m <-> (In K (keys (o_data o)) /\ L o).
(* composite keys *)
Definition n_agree_on (L : object -> Prop) (keys : payload -> list bytes) (m : idx) : Prop :=
  om_sorted m /\
  forall K o, In (K, o) m <-> (exists k, In k (keys (o_data o)) /\ K = nuk (p_id (o_data o)) k /\ L o).
Definition l_agree_on (L : object -> Prop) (keys : payload -> list lkey) (m : lidx) : Prop :=
  lsorted m /\
  (forall k e, In (k, e) m -> e <> [] /\ esorted e) /\
  forall k pk o, (exists e, In (k, e) m /\ In (pk, o) e) <->
                 (In k (keys (o_data o)) /\ pk = p_id (o_data o) /\ L o).
(* keys of a unique index are not shared by two different objects of L *)
Definition wf_on {A} (L : object -> Prop) (keys : payload -> list A) : Prop :=
  forall o1 o2 k, L o1 -> L o2 -> In k (keys (o_data o1)) -> In k (keys (o_data o2)) -> o1 = o2.

(* One write step as seen by `reindex idKey old new`: L = live objects before, L' = after.
   old = the previous object under idKey (noobj, revision 0, if there was none),
   new = the object now stored under idKey (noobj, revision 0, for a delete). *)
Record step_ok (L L' : object -> Prop) (idKey : bytes) (old new : object) : Prop := mkStep {
  so_old : o_rev old <> 0 -> L old /\ p_id (o_data old) = idKey;
  so_only : forall o, L o -> p_id (o_data o) = idKey -> o_rev old <> 0 /\ o = old;
  so_new : o_rev new <> 0 -> p_id (o_data new) = idKey;
  so_live : forall o, L' o <-> ((o_rev new <> 0 /\ o = new) \/ (L o /\ p_id (o_data o) <> idKey))
}.

Lemma lu_wf_unfold t : lu_wf t <-> wf_on (live t) p_lu.
Proof. reflexivity. Qed.
