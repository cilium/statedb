(* Table/ClientsRun2.v — Derive converges: corollary of the run-level loop invariant (Table/ClientsRun.v) and the C07
   convergence theorem: right after a CDeriveGo whose iteration's Next refreshed, the derived table has exactly
   the contents of the input table in the current root. *)
From Coq Require Import List NArith Bool Lia.
Import ListNotations.
From SV Require Import Base.Bytes Base.OrdMap KeyEnc.Model Table.Model Table.Proofs Table.InvDefs Table.Inv Table.Inv2
                       Table.GcProofs Table.ChangesStream Table.ChangesIter Table.ChangesProofs Table.ChangesRet
                       Table.ChangesHist Table.ChangesFromInit Table.Clients Table.ClientsProofs Table.ClientsProofs2
                       Table.ClientsRun.
Local Open Scope N_scope.

Lemma friendly_run_app iid tab l1 : forall d l2,
  friendly_run iid tab d (l1 ++ l2) <-> friendly_run iid tab d l1 /\ friendly_run iid tab (fst (run d l1)) l2.
Proof.
  induction l1 as [|o r IH]; intros d l2; cbn [app friendly_run run fst]; [tauto|].
  rewrite IH. destruct (step d o) as [d1 x]. cbn [fst]. destruct (run d1 r) as [d2 xs]. cbn [fst]. tauto.
Qed.

Lemma room_run_app l1 : forall d l2, room_run d (l1 ++ l2) -> room_run d l1 /\ room_run (fst (run d l1)) l2.
Proof.
  induction l1 as [|o r IH]; intros d l2 H; cbn [app room_run run fst] in *.
  - split; auto. split; auto. destruct l2; cbn in H; tauto.
  - destruct H as [H1 H2]. destruct (IH _ _ H2) as [A B]. split; [split; auto|].
    destruct (step d o) as [d1 x]. cbn [fst] in *. destruct (run d1 r); exact B.
Qed.

Lemma init_iter_tab n pre iid tab t0 ops it :
  let d := fst (run (init_db n) pre) in
  let d0 := fst (step d (OChanges iid tab)) in
  room_run (init_db n) (pre ++ OChanges iid tab :: ops) ->
  created d iid tab t0 ->
  (forall cur, nth_error (d_root d) tab = Some cur -> ~ reg iid cur) ->
  friendly_run iid tab d0 ops ->
  assoc iid (d_iters (fst (run d0 ops))) = Some it -> it_tab it = tab.
Proof.
  intros d d0 Hroom Hc Hf Hfr Hit.
  destruct (from_init_facts n pre iid tab ops Hroom) as [A [B C]].
  destruct (discharged_facts iid tab d t0 ops Hc A Hf (conj B C) Hfr) as [_ [R _]].
  destruct (R it Hit) as [cur [_ HR]]. exact (ri_tab _ _ _ _ _ _ HR).
Qed.

Theorem derive_run_converges n inn out cs s outs pre post ds S t0 s' x ops1 :
  (out < n)%nat -> inn <> out -> forallb (cop_ok out) cs = true ->
  crun (init_csys n 0) cs = (s, outs, pre ++ OChanges derive_iid inn :: post) ->
  forallb (fun o => negb (touches derive_iid o)) pre = true ->
  (* the loop is about to run an iteration whose Next refreshes from S *)
  cs_d s = Some ds -> dv_in ds = inn -> dv_phase ds <> DReg ->
  d_txn (cs_db s) = None -> d_ready ds (cs_db s) = true ->
  next_source (fst (step (cs_db s) (OBegin [out]))) derive_iid STxn = Some S ->
  (* the hypotheses of C07_from_init_converges, on the flattened operations *)
  let dc := fst (run (init_db n) pre) in
  let d0 := fst (step dc (OChanges derive_iid inn)) in
  room_run (init_db n) (pre ++ OChanges derive_iid inn :: (post ++ [OBegin [out]]) ++ [ONext derive_iid STxn None]) ->
  created dc derive_iid inn t0 ->
  (forall cur, nth_error (d_root dc) inn = Some cur -> ~ reg derive_iid cur) ->
  friendly_run derive_iid inn d0 ((post ++ [OBegin [out]]) ++ [ONext derive_iid STxn None]) ->
  (* the step *)
  cstep s CDeriveGo = (s', x, ops1) ->
  exists tin' tout', nth_error (d_root (cs_db s')) inn = Some tin' /\ nth_error (d_root (cs_db s')) out = Some tout' /\
                     contents tout' = contents tin' /\ contents tin' = contents S.
Proof.
  intros Hout Hio Hc Hrun Hpre Hds Hin Hph Htx Hrdy HS dc d0 Hroom Hcr Hfresh Hfr Hstep.
  destruct (RInvF_crun n out cs s outs _ Hout Hc Hrun) as [HR HI].
  destruct (derive_run_invariant_split n out cs s outs pre inn post Hout Hc Hrun Hpre) as [Hdb [tout [T1 [T2 T3]]]].
  fold dc d0 in Hdb, T3.
  pose proof (rf_out _ _ _ _ HI _ Hds) as Do. destruct (r_d _ _ _ HR _ Hds) as [Di _].
  (* the step is an iteration of the loop, then the observer's wake-up *)
  destruct (cstep_wake _ _ _ _ _ Hstep) as [s1 [l1 [l2 [E0 [Hw _]]]]].
  cbn [cstep0] in E0. rewrite Hds in E0. unfold derive_go in E0. rewrite Htx, Hrdy, (r_mode _ _ _ HR) in E0. cbn [negb] in E0.
  destruct (derive_iter (tr_std 0) ds (cs_db s)) as [[d' ds'] ops_i] eqn:E.
  assert (Hs1 : cs_db s1 = d' /\ cs_o s1 = cs_o s) by (destruct (dv_phase ds); [congruence|..]; injection E0 as <- _ _; auto).
  destruct Hs1 as [Hd1 Ho1]. clear E0.
  destruct (wake_quiet _ _ _ (fun os Eo => r_o _ _ _ HR os (eq_trans (eq_sym Ho1) Eo)) Hw) as [_ [Hs' Hoop]].
  rewrite Hd1 in Hs'. rewrite Hs'. clear Hw Hs' Hd1 Ho1.
  rewrite Hdb in E, Htx, T1, HS.
  destruct (next_source_begin _ _ _ _ Htx HS) as [it [Hit HSin]].
  assert (Htab : it_tab it = inn).
  { rewrite <- app_assoc in Hroom, Hfr. apply friendly_run_app in Hfr. destruct Hfr as [Hfr _].
    rewrite app_comm_cons, app_assoc in Hroom. apply room_run_app in Hroom. destruct Hroom as [Hroom _].
    eapply (init_iter_tab n pre derive_iid inn t0 post it); eauto. }
  destruct (derive_mirror_equals_input n pre t0 post ds tout d' ds' ops_i S it) as [tin' [tout' [A [B C]]]];
    rewrite ?Do, ?Di, ?Hin; auto; try congruence.
  destruct (derive_mirror_step ds d0 post tout d' ds' ops_i) as [Hd' [Tn [_ F]]]; rewrite ?Do, ?Di; auto.
  rewrite Hin in A. rewrite Do in B, F.
  assert (HSin' : contents tin' = contents S).
  { rewrite F, <- Htab in A by exact Hio. congruence. }
  (* the wake-up writes no table *)
  assert (L : LInv n d').
  { rewrite Hd'. unfold d0, dc. rewrite <- run_single, <- !run_app. apply LInv_run, LInv_init. }
  assert (Hinn : (inn < n)%nat).
  { destruct L as [L _]. rewrite <- L. now apply nth_error_some_length in A. }
  destruct (oop_contents n inn d' l2 tin' L Hinn Tn A Hoop) as [tin2 [E1 Q1]].
  destruct (oop_contents n out d' l2 tout' L Hout Tn B Hoop) as [tout2 [E2 Q2]].
  exists tin2, tout2. rewrite Q1, Q2. auto.
Qed.

(* the hypotheses are satisfiable: the run cx_pre of Table/ClientsProofs.v (its last harness transaction inserts b,
   deletes a and finishes the input table's initializer); the CDeriveGo that follows mirrors both changes *)
Example derive_run_converges_nonvacuous :
  let r := crun (init_csys 2 0) cx_pre in
  let flat := snd r in let s := fst (fst r) in
  let pre := firstn 8 flat in let post := skipn 9 flat in
  let dc := fst (run (init_db 2) pre) in
  let d0 := fst (step dc (OChanges derive_iid 0)) in
  forallb (cop_ok 1) cx_pre = true /\
  flat = pre ++ OChanges derive_iid 0 :: post /\
  forallb (fun o => negb (touches derive_iid o)) pre = true /\
  cs_d s = Some cx_ds /\ d_txn (cs_db s) = None /\ d_ready cx_ds (cs_db s) = true /\
  (exists S, next_source (fst (step (cs_db s) (OBegin [1%nat]))) derive_iid STxn = Some S /\ contents S = [([98], 2)]) /\
  room_run (init_db 2) (pre ++ OChanges derive_iid 0 :: (post ++ [OBegin [1%nat]]) ++ [ONext derive_iid STxn None]) /\
  (exists t0, created dc derive_iid 0 t0) /\
  (forall cur, nth_error (d_root dc) 0 = Some cur -> ~ reg derive_iid cur) /\
  friendly_run derive_iid 0 d0 ((post ++ [OBegin [1%nat]]) ++ [ONext derive_iid STxn None]) /\
  map contents (d_root (cs_db s)) = [[([98], 2)]; [([97], 1)]] /\
  map contents (d_root (cs_db (fst (fst (cstep s CDeriveGo))))) = [[([98], 2)]; [([98], 2)]].
Proof.
  cbv zeta. split; [vm_compute; reflexivity|]. split; [vm_compute; reflexivity|]. split; [vm_compute; reflexivity|].
  split; [vm_compute; reflexivity|]. split; [vm_compute; reflexivity|]. split; [vm_compute; reflexivity|].
  split; [eexists; split; vm_compute; reflexivity|].
  split; [apply room_runb_ok; vm_compute; reflexivity|].
  split; [vm_compute; do 4 eexists; split; [reflexivity|split; reflexivity]|].
  split; [intros cur H; vm_compute in H; injection H as <-; vm_compute; tauto|].
  split; [apply friendly_runb_ok; vm_compute; reflexivity|].
  split; vm_compute; reflexivity.
Qed.
