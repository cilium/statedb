(* Table/ClientsRun5.v — Derive converges (Table/ClientsRun2.v), continued: the usage hypotheses of the C07 theorem (`created`, not registered
   before, `friendly_run`) discharged for runs of the system in which the harness obeys `uok`; what remains is
   revision room (no uint64 overflow) on the flattened operations. *)
From Coq Require Import List NArith Bool Lia.
Import ListNotations.
From SV Require Import Base.Bytes Base.OrdMap KeyEnc.Model Table.Model Table.Proofs Table.InvDefs Table.Inv Table.Inv2
                       Table.GcProofs Table.ChangesStream Table.ChangesIter Table.ChangesProofs Table.ChangesRet
                       Table.ChangesHist Table.ChangesFromInit Table.Clients Table.ClientsProofs Table.ClientsProofs2
                       Table.ClientsRun Table.ClientsRun2.
Local Open Scope N_scope.

Section Trackers.
Variables (i : nat) (P : list N -> Prop).

Definition tentryP (d : db) : Prop :=
  (forall t, nth_error (d_root d) i = Some t -> P (t_trackers t)) /\
  (forall es old te b, d_txn d = Some (es, old) -> nth_error es i = Some (te, b) -> P (t_trackers te)).
End Trackers.

Definition untracked (iid : N) (l : list N) : Prop := ~ In iid l.
Definition tracked (iid : N) (l : list N) : Prop := In iid l.
Definition untouched (iid : N) (l : list op) : bool := forallb (fun o => negb (touches iid o)) l.

(* the operations that register and remove iid as a tracker *)
Definition tchange (iid : N) (o : op) : bool :=
  match o with OChanges j _ | OClose j => j =? iid | _ => false end.

Lemma tmove_tracked iid i o t t' : tchange iid o = false -> tmove i t o t' ->
  (In iid (t_trackers t') <-> In iid (t_trackers t)).
Proof.
  intros Ho Hm. revert Ho. destruct Hm as [o t1 _ E _|o t1 _ E _|j|j| | |]; intros Ho;
    try (rewrite E; tauto); cbn [tchange] in Ho; try apply N.eqb_neq in Ho.
  - cbn [set_meta t_trackers]. rewrite in_app_iff. cbn [In]. intuition congruence.
  - cbn [untrack set_meta t_trackers]. rewrite filter_In, negb_true_iff, N.eqb_neq. intuition congruence.
  - reflexivity.
  - reflexivity.
  - unfold fin_table. destruct (t_init t) as [[w [|]]|]; reflexivity.
Qed.

Lemma step_tracked iid i d o : tchange iid o = false -> tentryP i (tracked iid) d -> tentryP i (tracked iid) (fst (step d o)).
Proof.
  intros H. apply (step_entryP i (fun t => In iid (t_trackers t))). intros t t' Ht Hm.
  now apply (tmove_tracked iid i o t t' H Hm).
Qed.

Lemma untouched_tchange iid o : touches iid o = false -> tchange iid o = false.
Proof. destruct o; auto. Qed.

Lemma run_untracked iid i l d : untouched iid l = true -> tentryP i (untracked iid) d -> tentryP i (untracked iid) (fst (run d l)).
Proof.
  intros H. apply (run_entryP i (fun t => ~ In iid (t_trackers t))). intros o t t' Hin Ht Hm.
  unfold untouched in H. rewrite forallb_forall in H. specialize (H o Hin). apply negb_true_iff in H.
  now rewrite (tmove_tracked iid i o t t' (untouched_tchange _ _ H) Hm).
Qed.

(* what may follow the registration of iterator iid: anything but a second Changes with the id, closing it, and a
   Next of it from a snapshot *)
Definition gop (iid : N) (o : op) : bool :=
  match o with
  | OChanges i _ | OClose i | ONext i (SSnap _) _ => negb (i =? iid)
  | _ => true
  end.

Lemma untouched_gop iid o : negb (touches iid o) = true -> gop iid o = true.
Proof. destruct o; auto. cbn. destruct s; auto. Qed.

(* with the tracker registered in the root such operations are friendly, and leave it registered *)
Lemma gop_friendly n iid tab l : (tab < n)%nat -> forall d, LInv n d -> forallb (gop iid) l = true ->
  tentryP tab (tracked iid) d -> friendly_run iid tab d l /\ tentryP tab (tracked iid) (fst (run d l)).
Proof.
  intros Htab. induction l as [|o r IH]; intros d L H T; cbn [friendly_run run]; [auto|].
  cbn [forallb] in H. apply andb_true_iff in H. destruct H as [Ho Hr].
  assert (Hreg : reg_root iid tab d).
  { destruct (LInv_root n d tab L Htab) as [cur Hc]. exists cur. split; [exact Hc|exact (proj1 T _ Hc)]. }
  assert (T1 : tentryP tab (tracked iid) (fst (step d o))).
  { apply step_tracked; [|exact T]. destruct o; auto; cbn in *; now apply negb_true_iff. }
  destruct (IH _ (LInv_step n d o L) Hr T1) as [A B]. split; [split; [|exact A]|].
  - destruct o; cbn [friendly gop] in *; auto.
    + now apply negb_true_iff, N.eqb_neq in Ho.
    + intros ->. split; [|exact Hreg]. destruct s; auto. rewrite N.eqb_refl in Ho. discriminate.
  - destruct (step d o) as [d1 x]. cbn [fst] in *. destruct (run d1 r) as [d2 xs]. exact B.
Qed.

(* iterator iid has been registered on table tab: the C07 usage hypotheses hold for the operations flattened so far *)
Definition registered (n : nat) (iid : N) (tab : nat) (d : db) (ops : list op) : Prop :=
  exists pre post t0, ops = pre ++ OChanges iid tab :: post /\ untouched iid pre = true /\
    created (fst (run (init_db n) pre)) iid tab t0 /\
    (forall cur, nth_error (d_root (fst (run (init_db n) pre))) tab = Some cur -> ~ reg iid cur) /\
    friendly_run iid tab (fst (step (fst (run (init_db n) pre)) (OChanges iid tab))) post /\
    tentryP tab (tracked iid) d.

Lemma run_split_db n iid pre tab post :
  fst (run (init_db n) (pre ++ OChanges iid tab :: post)) =
  fst (run (fst (step (fst (run (init_db n) pre)) (OChanges iid tab))) post).
Proof.
  rewrite run_app. change (OChanges iid tab :: post) with ([OChanges iid tab] ++ post).
  rewrite run_app, run_single. reflexivity.
Qed.

Lemma registered_leg n iid tab d ops l : (tab < n)%nat -> d = fst (run (init_db n) ops) ->
  registered n iid tab d ops -> forallb (gop iid) l = true -> registered n iid tab (fst (run d l)) (ops ++ l).
Proof.
  intros Htab Hd [pre [post [t0 [E [U [C [F [R T]]]]]]]] Hl.
  destruct (gop_friendly n iid tab l Htab d) as [Fl Tl]; auto; [rewrite Hd; apply LInv_run, LInv_init|].
  exists pre, (post ++ l), t0. split; [rewrite E, <- app_assoc; reflexivity|]. repeat (split; [assumption|]).
  split; [|exact Tl]. apply friendly_run_app. split; [exact R|]. now rewrite <- run_split_db, <- E, <- Hd.
Qed.

(* the registration leg of either client *)
Lemma registered_reg n iid tab d ops sid : (tab < n)%nat -> d = fst (run (init_db n) ops) -> d_txn d = None ->
  untouched iid ops = true -> tentryP tab (untracked iid) d ->
  registered n iid tab (fst (run d [OBegin [tab]; OChanges iid tab; OCommit sid]))
             (ops ++ [OBegin [tab]; OChanges iid tab; OCommit sid]).
Proof.
  intros Htab Hd Htx U [T1 _]. assert (L : LInv n d) by (rewrite Hd; apply LInv_run, LInv_init).
  destruct (LInv_root n d tab L Htab) as [t Ht].
  pose proof (step_begin1 d tab Htx) as Hb. pose proof (lock1_same _ _ _ Ht) as He.
  exists (ops ++ [OBegin [tab]]), [OCommit sid], t. split; [now rewrite <- app_assoc|].
  split; [unfold untouched in *; rewrite forallb_app, U; reflexivity|].
  rewrite run_app, <- Hd, run_single, Hb. split; [|split; [|split; [cbn; auto|]]].
  - exists (lock1 tab (d_root d)), (d_root d), t. cbn [set_txn d_txn]. auto.
  - intros cur Hcur. cbn [set_txn d_root] in Hcur. exact (T1 _ Hcur).
  - change [OBegin [tab]; OChanges iid tab; OCommit sid] with ([OBegin [tab]] ++ [OChanges iid tab] ++ [OCommit sid]).
    rewrite !run_app, !run_single, Hb. cbn [step set_txn d_txn]. rewrite He, Ht. cbn [fst set_iters set_wm set_txn d_txn d_root].
    split; cbn [d_root d_txn]; [|discriminate].
    intros t' H. rewrite nth_error_zip_with in H.
    rewrite (nth_error_upd_nth_same _ _ _ _ He), Ht in H. injection H as <-.
    cbn [t_init t_trackers]. destruct (t_init t) as [[w [|]]|]; cbn [t_trackers]; apply in_or_app; right; left; reflexivity.
Qed.

Definition cop_okG (inn out : nat) (c : cop) : bool :=
  match c with
  | CUser o => uok out o
  | CDeriveStart i o => Nat.eqb i inn && Nat.eqb o out
  | _ => true
  end.

Lemma cop_okG_ok inn out cs : forallb (cop_okG inn out) cs = true -> forallb (cop_ok out) cs = true.
Proof.
  apply forallb_impl. intros c H. destruct c; cbn [cop_okG cop_ok] in *; auto. apply andb_true_iff in H. tauto.
Qed.

Definition is_reg (sd : option dstate) : bool :=
  match sd with Some ds => match dv_phase ds with DReg => false | _ => true end | None => false end.

Lemma is_reg_phase ds : dv_phase ds <> DReg -> is_reg (Some ds) = true.
Proof. cbn. destruct (dv_phase ds); congruence. Qed.

(* before the loop's registration leg nothing has used its iterator id; after it the id is registered on inn *)
Record GInv (n inn out : nat) (s : csys) (ops : list op) : Prop := mkGInv {
  g_ids : forall ds, cs_d s = Some ds -> dv_in ds = inn /\ dv_out ds = out;
  g_st : if is_reg (cs_d s) then registered n derive_iid inn (cs_db s) ops
         else untouched derive_iid ops = true /\ tentryP inn (untracked derive_iid) (cs_db s)
}.

Lemma GInv_quiet n inn out s ops d' l sd so : (inn < n)%nat ->
  creach n s ops -> GInv n inn out s ops -> d' = fst (run (cs_db s) l) -> untouched derive_iid l = true ->
  is_reg sd = is_reg (cs_d s) -> (forall ds, sd = Some ds -> dv_in ds = inn /\ dv_out ds = out) ->
  GInv n inn out (mkCS d' sd so (cs_mode s)) (ops ++ l).
Proof.
  intros Hinn HR [I3 I4] -> Hu Hr Hsd. constructor; cbn [cs_db cs_d]; [exact Hsd|]. rewrite Hr. destruct (is_reg (cs_d s)).
  - apply registered_leg; auto; [exact (r_db _ _ _ HR)|exact (forallb_impl _ _ _ (untouched_gop derive_iid) Hu)].
  - destruct I4 as [U T]. split; [|now apply run_untracked]. unfold untouched in *. now rewrite forallb_app, U, Hu.
Qed.

Lemma oop_untouched l : forallb oop l = true -> untouched derive_iid l = true.
Proof. intros H. exact (proj2 (uok_split 0 l (forallb_impl _ _ _ (oop_uok 0) H))). Qed.

Lemma GInv_dleg n inn out s ops c sd' d' l : (inn < n)%nat ->
  creach n s ops -> GInv n inn out s ops -> cop_okG inn out c = true ->
  dleg (tr_std (cs_mode s)) (cs_db s) c (cs_d s) sd' d' l -> GInv n inn out (mkCS d' sd' (cs_o s) (cs_mode s)) (ops ++ l).
Proof.
  intros Hinn HR HI Hc Hd. pose proof HI as [I3 I4].
  destruct Hd as [i o -> Ed Et|ds -> Ed Et Eph|ds d1 ds1 l1 -> Ed Et Er Eph Hi].
  - cbn [cop_okG] in Hc. apply andb_true_iff in Hc. destruct Hc as [Hc1 Hc2]. apply Nat.eqb_eq in Hc1, Hc2. subst i o.
    apply GInv_quiet; auto; [now rewrite Ed|]. intros ds E. injection E as <-. auto.
  - (* the registration leg *)
    destruct (I3 _ Ed) as [Din Do]. destruct (r_d _ _ _ HR _ Ed) as [Di _]. rewrite Ed in I4. cbn [is_reg] in I4.
    rewrite Eph in I4. destruct I4 as [U T]. unfold derive_reg_ops. rewrite Din, Di.
    constructor; cbn [cs_db cs_d]; [intros ds0 E; injection E as <-; auto|].
    cbn [is_reg set_phase dv_phase]. apply registered_reg; auto. exact (r_db _ _ _ HR).
  - (* an iteration: Begin and the loop's own Next, then operations that do not concern the iterator *)
    destruct (I3 _ Ed) as [Din Do]. destruct (r_d _ _ _ HR _ Ed) as [Di _].
    destruct (derive_iter_job _ _ _ _ _ _ Hi) as [A [C [_ [_ [_ Eph1]]]]]. specialize (Eph1 Eph).
    constructor; cbn [cs_db cs_d]; [intros ds0 E; injection E as <-; split; congruence|].
    rewrite Ed, (is_reg_phase _ Eph) in I4. rewrite (is_reg_phase _ Eph1), (derive_iter_run _ _ _ _ _ _ Hi).
    apply registered_leg; auto; [exact (r_db _ _ _ HR)|].
    destruct (derive_iter_ops (gop derive_iid) _ _ _ _ _ _ Hi) as [[_ [_ ->]]|[rest [-> Hq]]]; try reflexivity; [|exact Hq].
    intros o0 Ho. destruct o0; try discriminate; reflexivity.
Qed.

Lemma GInv_crun n inn out cs s outs ops : (inn < n)%nat -> forallb (cop_okG inn out) cs = true ->
  crun (init_csys n 0) cs = (s, outs, ops) -> creach n s ops /\ GInv n inn out s ops.
Proof.
  intros Hinn. apply (crun_invariant_derive n (cop_okG inn out) (GInv n inn out)).
  - constructor; [discriminate|]. split; [reflexivity|]. split; cbn; [|discriminate].
    intros t H. apply nth_error_In, repeat_spec in H. subst t. intros [].
  - intros s0 ops0 o HR HI Hc. apply GInv_quiet; auto; [now rewrite run_single| |exact (g_ids _ _ _ _ _ HI)].
    cbn [cop_okG] in Hc. unfold uok in Hc. apply andb_true_iff in Hc. unfold untouched. cbn [forallb]. now rewrite (proj2 Hc).
  - intros s0 ops0 c sd' d' l. now apply GInv_dleg.
  - intros s0 ops0 l so HR HI Hp. apply GInv_quiet; auto; [now apply oop_untouched|exact (g_ids _ _ _ _ _ HI)].
Qed.

(* the C07 usage hypotheses, for every run in which the harness obeys `uok` *)
Theorem derive_run_c07_hypotheses n inn out cs s outs ops ds :
  (inn < n)%nat -> forallb (cop_okG inn out) cs = true ->
  crun (init_csys n 0) cs = (s, outs, ops) -> cs_d s = Some ds -> dv_phase ds <> DReg ->
  exists pre post t0, ops = pre ++ OChanges derive_iid inn :: post /\
    forallb (fun o => negb (touches derive_iid o)) pre = true /\
    let dc := fst (run (init_db n) pre) in
    created dc derive_iid inn t0 /\
    (forall cur, nth_error (d_root dc) inn = Some cur -> ~ reg derive_iid cur) /\
    friendly_run derive_iid inn (fst (step dc (OChanges derive_iid inn))) post /\
    (* and the tracker is registered in the root: a Next of the loop's next iteration is friendly as well *)
    (d_txn (cs_db s) = None ->
     friendly_run derive_iid inn (fst (step dc (OChanges derive_iid inn)))
                  ((post ++ [OBegin [out]]) ++ [ONext derive_iid STxn None])).
Proof.
  intros Hinn Hc H Ed Hph. destruct (GInv_crun n inn out cs s outs ops Hinn Hc H) as [HR [_ I4]].
  rewrite Ed, (is_reg_phase _ Hph) in I4. destruct I4 as [pre [post [t0 [E [U [C [F [R T]]]]]]]]. exists pre, post, t0. repeat (split; [assumption|]).
  intros Htx. rewrite <- app_assoc. apply friendly_run_app. split; [exact R|].
  rewrite <- run_split_db, <- E, <- (r_db _ _ _ HR).
  now apply (gop_friendly n derive_iid inn [OBegin [out]; ONext derive_iid STxn None] Hinn (cs_db s) (creach_LInv _ _ _ HR)).
Qed.

(* derive_run_converges with the usage hypotheses discharged: what remains is revision room on the flattened operations *)
Theorem derive_run_converges' n inn out cs s outs ops ds S s' x ops1 :
  (out < n)%nat -> (inn < n)%nat -> inn <> out -> forallb (cop_okG inn out) cs = true ->
  crun (init_csys n 0) cs = (s, outs, ops) ->
  cs_d s = Some ds -> dv_phase ds <> DReg -> d_txn (cs_db s) = None -> d_ready ds (cs_db s) = true ->
  next_source (fst (step (cs_db s) (OBegin [out]))) derive_iid STxn = Some S ->
  room_run (init_db n) (ops ++ [OBegin [out]; ONext derive_iid STxn None]) ->
  cstep s CDeriveGo = (s', x, ops1) ->
  exists tin' tout', nth_error (d_root (cs_db s')) inn = Some tin' /\ nth_error (d_root (cs_db s')) out = Some tout' /\
                     contents tout' = contents tin' /\ contents tin' = contents S.
Proof.
  intros Hout Hinn Hio Hc Hrun Ed Hph Htx Hrdy HS Hroom Hstep.
  destruct (derive_run_c07_hypotheses n inn out cs s outs ops ds Hinn Hc Hrun Ed Hph)
    as [pre [post [t0 [E [U [C [F [_ R]]]]]]]].
  destruct (GInv_crun n inn out cs s outs ops Hinn Hc Hrun) as [_ HI].
  destruct (g_ids _ _ _ _ _ HI _ Ed) as [Din _]. subst ops.
  assert (Hroom' : room_run (init_db n) (pre ++ OChanges derive_iid inn :: (post ++ [OBegin [out]]) ++ [ONext derive_iid STxn None])).
  { rewrite <- app_assoc in Hroom. cbn [app] in Hroom. rewrite <- app_assoc. cbn [app]. exact Hroom. }
  exact (derive_run_converges n inn out cs s outs pre post ds S t0 s' x ops1 Hout Hio (cop_okG_ok inn out cs Hc) Hrun U
           Ed Din Hph Htx Hrdy HS Hroom' C F (R Htx) Hstep).
Qed.

Example derive_run_converges'_nonvacuous :
  let r := crun (init_csys 2 0) cx_pre in
  let s := fst (fst r) in
  forallb (cop_okG 0 1) cx_pre = true /\
  cs_d s = Some cx_ds /\ d_txn (cs_db s) = None /\ d_ready cx_ds (cs_db s) = true /\
  (exists S, next_source (fst (step (cs_db s) (OBegin [1%nat]))) derive_iid STxn = Some S /\ contents S = [([98], 2)]) /\
  room_run (init_db 2) (snd r ++ [OBegin [1%nat]; ONext derive_iid STxn None]) /\
  map contents (d_root (cs_db (fst (fst (cstep s CDeriveGo))))) = [[([98], 2)]; [([98], 2)]].
Proof.
  cbv zeta. split; [vm_compute; reflexivity|]. split; [vm_compute; reflexivity|]. split; [vm_compute; reflexivity|].
  split; [vm_compute; reflexivity|]. split; [eexists; split; vm_compute; reflexivity|].
  split; [apply room_runb_ok; vm_compute; reflexivity|]. vm_compute; reflexivity.
Qed.
