(* Table/SliceProofs.v — property C01 at memory level: the Go code shares slice backing
   arrays between snapshots. Over the slice heap of Base/Slice.v:
   A. lpmEntry.upsert / lpmEntry.delete (lpm_index.go), current version (copies) and
      pre-fix version 9ab81d8^ (in place), plus the seeded S-C13-3 variant (slices.Delete):
      refinement to e_upsert / e_delete of Table/Model.v (all versions: the in-place ones are
      correct in the writer's own view), frame for the current version, refutation by witness
      of the frame property for the in-place versions;
   B. tableInitialization.pending (table.go RegisterInitializer + mark-done closure), and the
      seeded S-C19-1 variant;
   C. the root slice in Commit (write_txn.go), and the seeded S-C05-1 variant
   (the witnesses against S-C19-1 and S-C05-1 and the summary of C are stated in Properties/C01.v).
   Modelling notes: searchTail is the binary search of slices.BinarySearchFunc (on explicit fuel);
   Go panics (index out of range, RegisterInitializer of a registered name) are outside the
   model; pointer elements of dbRoot are numbers and the `locked` flag of the pointee is a
   function on them; the growth policy of append / slices.Clone is an arbitrary `extra`.
   Not proved here: that S-C05-1 is harmless whenever the append works in place (only the
   instance commit_root_bad_hidden_with_spare_capacity is shown). *)
From SV Require Import Base.Bytes Base.OrdMap KeyEnc.Model Table.Model Table.InvDefs Base.Slice.
From Coq Require Import Arith Lia.
Local Open Scope nat_scope.

(* A. Pure facts: e_upsert / e_delete as "position of the first key >= pk", and the binary
   search of searchTail (slices.BinarySearchFunc) finds that position on a sorted tail. *)

Definition eobj := (bytes * object)%type.            (* lpmEntryObject{primary, obj} *)
Definition ezero : eobj := ([], noobj).              (* lpmEntryObject{} *)

(* number of leading elements with primary < pk *)
Fixpoint lin_idx (d : list eobj) (pk : bytes) : nat :=
  match d with
  | [] => 0
  | x :: r => if bytes_ltb (fst x) pk then S (lin_idx r pk) else 0
  end.
Definition found_at (d : list eobj) (pk : bytes) (i : nat) : bool :=
  (i <? length d) && bytes_eqb (fst (nth i d ezero)) pk.

(* slices.BinarySearchFunc(tail, key, cmp(a.primary, key)):
     i, j := 0, n; for i < j { h := (i+j)/2; if cmp(x[h]) < 0 { i = h+1 } else { j = h } }
     return i, i < n && cmp(x[i]) == 0 *)
Fixpoint bsearch (fuel : nat) (d : list eobj) (pk : bytes) (i j : nat) : nat :=
  match fuel with
  | O => i
  | S f => if i <? j
           then let m := (i + j) / 2 in
                if bytes_ltb (fst (nth m d ezero)) pk then bsearch f d pk (m + 1) j
                else bsearch f d pk i m
           else i
  end.
Definition search_tail (d : list eobj) (pk : bytes) : nat * bool :=
  let i := bsearch (length d) d pk 0 (length d) in (i, found_at d pk i).

Lemma lin_idx_le d pk : lin_idx d pk <= length d.
Proof. induction d as [|x r IH]; cbn [lin_idx length]; [lia|]. destruct (bytes_ltb _ _); lia. Qed.

Lemma esorted_tail x r : esorted (x :: r) -> esorted r.
Proof. destruct x. cbn [esorted]. tauto. Qed.

Lemma esorted_above x r : esorted (x :: r) -> Forall (fun y => lex_lt (fst x) (fst y)) r.
Proof.
  destruct x as [pk o]. cbn [esorted fst]. intros [H _]. eapply Forall_impl; [|exact H].
  intros y. apply bytes_ltb_spec.
Qed.

Lemma ltb_false_ge a b : bytes_ltb a b = false -> a = b \/ lex_lt b a.
Proof.
  intros H. destruct (lex_lt_total a b) as [L|[L|L]]; auto.
  apply bytes_ltb_spec in L. congruence.
Qed.

Lemma lin_idx_spec (d : list eobj) pk : esorted d -> forall i, i < length d ->
  bytes_ltb (fst (nth i d ezero)) pk = (i <? lin_idx d pk).
Proof.
  induction d as [|x r IH]; cbn [lin_idx length]; intros Hs i Hl; [lia|].
  destruct (bytes_ltb (fst x) pk) eqn:E; (destruct i as [|i]; [exact E|]); cbn [nth].
  - apply IH; [now apply esorted_tail in Hs|lia].
  - apply bytes_ltb_false. intros L2. pose proof (esorted_above _ _ Hs) as Ha. rewrite Forall_forall in Ha.
    assert (L1 : lex_lt (fst x) (fst (nth i r ezero))) by (apply Ha, nth_In; lia).
    pose proof (lex_lt_trans _ _ _ L1 L2) as L3. apply bytes_ltb_spec in L3. congruence.
Qed.

Lemma bsearch_lin (d : list eobj) pk : esorted d -> forall fuel i j,
  j - i <= fuel -> i <= lin_idx d pk -> lin_idx d pk <= j -> j <= length d ->
  bsearch fuel d pk i j = lin_idx d pk.
Proof.
  intros Hs. induction fuel as [|f IH]; intros i j Hf Hi Hj Hl; cbn [bsearch]; cbv zeta; [lia|].
  destruct (Nat.ltb_spec i j) as [L|L]; [|lia].
  assert (Hm : i <= (i + j) / 2 < j) by (split; [apply Nat.div_le_lower_bound|apply Nat.div_lt_upper_bound]; lia).
  set (m := (i + j) / 2) in *.
  destruct (bytes_ltb (fst (nth m d ezero)) pk) eqn:E; rewrite lin_idx_spec in E by (auto; lia);
    [apply Nat.ltb_lt in E|apply Nat.ltb_ge in E]; apply IH; lia.
Qed.

Lemma search_tail_lin (d : list eobj) pk : esorted d -> search_tail d pk = (lin_idx d pk, found_at d pk (lin_idx d pk)).
Proof.
  intros Hs. unfold search_tail. rewrite bsearch_lin; auto; try lia. apply lin_idx_le.
Qed.

Lemma found_at_true (d : list eobj) pk i : found_at d pk i = true -> i < length d /\ fst (nth i d ezero) = pk.
Proof.
  unfold found_at. intros H. apply andb_true_iff in H. destruct H as [H1 H2].
  apply Nat.ltb_lt in H1. apply bytes_eqb_spec in H2. auto.
Qed.

Lemma search_tail_spec (d : list eobj) pk : esorted d ->
  let (i, found) := search_tail d pk in
  i <= length d /\ (found = true -> i < length d /\ fst (nth i d ezero) = pk).
Proof. intros Hs. rewrite search_tail_lin by auto. split; [apply lin_idx_le|apply found_at_true]. Qed.

Lemma found_at_cons x (d : list eobj) pk i : found_at (x :: d) pk (S i) = found_at d pk i.
Proof. reflexivity. Qed.

(* e_upsert and e_delete in positional form: both cut the list at the first key >= pk and drop the element
   there when it is pk (e_upsert needs no sortedness: it scans exactly like lin_idx) *)
Lemma e_upsert_pos pk o (d : list eobj) :
  let i := lin_idx d pk in
  e_upsert pk o d = firstn i d ++ (pk, o) :: skipn (if found_at d pk i then S i else i) d.
Proof.
  cbv zeta. induction d as [|[pk' o'] r IH]; cbn [e_upsert lin_idx fst]; [reflexivity|].
  rewrite (bytes_ltb_flip pk pk'). destruct (bytes_eqb pk pk') eqn:E; cbn [negb andb].
  - unfold found_at. cbn [nth fst]. now rewrite bytes_eqb_sym, E.
  - destruct (bytes_ltb pk pk'); cbn [negb andb].
    + unfold found_at. cbn [nth fst]. rewrite bytes_eqb_sym, E, andb_false_r. reflexivity.
    + rewrite IH, found_at_cons. now destruct (found_at r pk _).
Qed.

Lemma filter_all_above pk (r : list eobj) :
  Forall (fun x => lex_lt pk (fst x)) r -> filter (fun x => negb (bytes_eqb pk (fst x))) r = r.
Proof.
  induction 1 as [|x r Hx _ IH]; cbn [filter]; auto.
  destruct (bytes_eqb pk (fst x)) eqn:X; [|cbn [negb]; now rewrite IH].
  apply bytes_eqb_spec in X. rewrite X in Hx. now apply lex_lt_irrefl in Hx.
Qed.

Lemma e_delete_pos pk (d : list eobj) : esorted d ->
  let i := lin_idx d pk in
  e_delete pk d = firstn i d ++ skipn (if found_at d pk i then S i else i) d.
Proof.
  cbv zeta. unfold e_delete.
  induction d as [|[pk' o'] r IH]; intros Hs; cbn [filter lin_idx fst]; [reflexivity|].
  pose proof (esorted_above _ _ Hs) as Ha. cbn [fst] in Ha.
  rewrite (bytes_ltb_flip pk pk'). destruct (bytes_eqb pk pk') eqn:E; cbn [negb andb].
  - apply bytes_eqb_spec in E. subst pk'. unfold found_at. cbn [nth fst]. rewrite bytes_eqb_refl.
    now apply filter_all_above.
  - destruct (bytes_ltb pk pk') eqn:L; cbn [negb andb].
    + unfold found_at. cbn [nth fst]. rewrite bytes_eqb_sym, E, andb_false_r. cbn [firstn skipn app]. f_equal.
      apply filter_all_above. apply bytes_ltb_spec in L. eapply Forall_impl; [|exact Ha].
      intros y. now apply lex_lt_trans.
    + rewrite IH by (now apply esorted_tail in Hs). rewrite found_at_cons. now destruct (found_at r pk _).
Qed.

(* the same for an entry, whose first element the Go code keeps apart and compares first *)
Lemma e_upsert_head pk o (hd : eobj) d : esorted (hd :: d) ->
  e_upsert pk o (hd :: d) =
  if bytes_eqb pk (fst hd) then (fst hd, o) :: d
  else if bytes_ltb pk (fst hd) then (pk, o) :: hd :: d
  else hd :: (let (i, found) := search_tail d pk in firstn i d ++ (pk, o) :: skipn (if found then S i else i) d).
Proof.
  intros Hs. destruct hd as [pk' o']. cbn [e_upsert fst].
  destruct (bytes_eqb pk pk') eqn:E; [apply bytes_eqb_spec in E; now subst|].
  destruct (bytes_ltb pk pk'); [reflexivity|].
  rewrite search_tail_lin by (now apply esorted_tail in Hs). now rewrite e_upsert_pos.
Qed.

Lemma e_delete_head pk (hd : eobj) d : esorted (hd :: d) ->
  e_delete pk (hd :: d) =
  if bytes_eqb pk (fst hd) then d
  else if bytes_ltb pk (fst hd) then hd :: d
  else hd :: (let (i, found) := search_tail d pk in if found then firstn i d ++ skipn (S i) d else d).
Proof.
  intros Hs. pose proof (esorted_tail _ _ Hs) as Ht. rewrite e_delete_pos, search_tail_lin by assumption.
  cbv zeta. cbn [lin_idx]. rewrite (bytes_ltb_flip pk (fst hd)).
  destruct (bytes_eqb pk (fst hd)) eqn:E; cbn [negb andb].
  - unfold found_at. cbn [nth length]. now rewrite bytes_eqb_sym, E.
  - destruct (bytes_ltb pk (fst hd)); cbn [negb andb].
    + unfold found_at. cbn [nth length]. now rewrite bytes_eqb_sym, E, andb_false_r.
    + rewrite found_at_cons. destruct (found_at _ _ _); cbn [firstn skipn app]; [reflexivity|].
      now rewrite firstn_skipn.
Qed.
Notation eheap := (@heap eobj).

(* lpmEntry{head, tail, used}: the head is stored by value, the tail is a slice header *)
Record mentry := mkME { me_used : bool; me_head : eobj; me_tail : slice }.
Definition me_den (h : eheap) (e : mentry) : lentry :=
  if me_used e then me_head e :: sl_den h (me_tail e) else [].
(* the tail header exists in h; an unused entry has an empty tail (it is the zero lpmEntry or
   the result of deleting the last object) *)
Definition me_wf (h : eheap) (e : mentry) : Prop :=
  sl_wf h (me_tail e) /\ (me_used e = false -> s_len (me_tail e) = 0).

Section Helpers.
Context {A : Type}.
Variable z : A.
Notation hp := (@heap A).

(* h' differs from h only inside array a (and possibly by new arrays): every slice header of h
   is still well-formed, and reads the same unless it lives in array a *)
Definition pres (a : nat) (h h' : hp) : Prop :=
  forall s, sl_wf h s -> sl_wf h' s /\ ((s_arr s <> a \/ s_len s = 0) -> sl_den h' s = sl_den h s).

Lemma pres_refl a h : pres a h h.
Proof. intros s W. auto. Qed.
Lemma pres_trans a h1 h2 h3 : pres a h1 h2 -> pres a h2 h3 -> pres a h1 h3.
Proof.
  intros P1 P2 s W. destruct (P1 s W) as [W2 D2]. destruct (P2 s W2) as [W3 D3]. split; auto.
  intros C. rewrite D3, D2; auto.
Qed.

Lemma wr_frame_arr (h : hp) a o data s : s_arr s <> a \/ s_len s = 0 ->
  sl_den (write_range h a o data) s = sl_den h s.
Proof.
  intros C. apply write_range_frame. unfold overlapb.
  destruct (Nat.eqb_spec (s_arr s) a) as [E|E]; cbn [andb]; auto.
  apply Nat.ltb_ge. destruct C as [C|C]; [congruence|lia].
Qed.

Lemma pres_write (h : hp) a o data : pres a h (write_range h a o data).
Proof. intros s W. split; [now apply write_range_wf|]. apply wr_frame_arr. Qed.

Lemma pres_alloc a (h : hp) arr : pres a h (h ++ [arr]).
Proof. intros s W. split; [now apply alloc_wf|]. intros _. now apply alloc_frame. Qed.

Lemma pres_copy (h : hp) dst src : pres (s_arr dst) h (sl_copy h dst src).
Proof. apply pres_write. Qed.
Lemma pres_index_set (h : hp) s i x : pres (s_arr s) h (sl_index_set h s i x).
Proof. unfold sl_index_set. destruct (i <? s_len s); [apply pres_write|apply pres_refl]. Qed.

Lemma wf_fresh (h : hp) s : sl_wf h s -> s_arr s <> length h \/ s_len s = 0.
Proof.
  intros W. destruct (Nat.eq_dec (s_arr s) (length h)) as [E|E]; auto.
  right. destruct (sl_wf_unallocated h s W); lia.
Qed.

Lemma pres_fresh_frame (h h' : hp) s : pres (length h) h h' -> sl_wf h s -> sl_den h' s = sl_den h s.
Proof. intros P W. destruct (P s W) as [_ D]. apply D. now apply wf_fresh. Qed.

(* copy(nt[lo:hi], src) seen through nt *)
Lemma copy_into (h : hp) nt src lo hi : sl_wf h nt -> sl_wf h src -> lo <= hi -> hi <= s_len nt ->
  sl_den (sl_copy h (sl_reslice nt lo hi) src) nt =
  write_list (sl_den h nt) lo (firstn (Nat.min (hi - lo) (s_len src)) (sl_den h src)).
Proof.
  intros Wn Ws H1 H2. unfold sl_copy. cbn [sl_reslice s_arr s_off s_len].
  apply write_range_self; auto. rewrite firstn_length, sl_den_length by auto. lia.
Qed.

Lemma write_list_app_at (l1 l2 : list A) k data : k = length l1 ->
  write_list (l1 ++ l2) k data = l1 ++ write_list l2 0 data.
Proof. intros ->. rewrite <- (Nat.add_0_r (length l1)). apply write_list_app_r. Qed.

Lemma wl_app_at (l1 : list A) m data : length data <= m ->
  write_list (l1 ++ repeat z m) (length l1) data = l1 ++ data ++ repeat z (m - length data).
Proof.
  intros L. rewrite write_list_app_at by reflexivity. f_equal.
  replace m with (length data + (m - length data)) at 1 by lia.
  rewrite repeat_app. apply write_list_app_0. now rewrite repeat_length.
Qed.

Lemma write_list_one (l : list A) : forall i x, i < length l ->
  write_list l i [x] = firstn i l ++ x :: skipn (S i) l.
Proof.
  induction l as [|y l IH]; intros [|i] x L; cbn [length] in L; try lia.
  - cbn [write_list firstn skipn app]. now rewrite write_list_nil_data.
  - cbn [write_list firstn app]. rewrite IH by lia. reflexivity.
Qed.

Lemma firstn_skipn_app (d r : list A) idx : idx <= length d ->
  firstn (length d - idx) (skipn idx (d ++ r)) = skipn idx d.
Proof.
  intros L. rewrite skipn_app. replace (idx - length d) with 0 by lia. apply firstn_exact, skipn_length.
Qed.

Lemma nth0_skipn1 (l : list A) : l <> [] -> nth 0 l z :: skipn 1 l = l.
Proof. destruct l; [congruence|reflexivity]. Qed.

(* The copying code makes a fresh array and fills it from left to right with elements read through slice
   headers of the heap h it started from. filling h h' nt a m: h' is h plus work inside the fresh array
   only, and nt, the header of the fresh array, reads a followed by m cells still zero. *)
Definition filling (h h' : hp) (nt : slice) (a : list A) (m : nat) : Prop :=
  pres (length h) h h' /\ sl_wf h' nt /\ s_arr nt = length h /\ sl_den h' nt = a ++ repeat z m.

Lemma filling_make (h : hp) n : filling h (fst (sl_make z h n 0)) (snd (sl_make z h n 0)) [] n.
Proof.
  split; [apply pres_alloc|]. split; [apply sl_make_wf|]. split; [reflexivity|apply sl_make_den].
Qed.

Lemma filling_len h h' nt a m : filling h h' nt a m -> s_len nt = length a + m.
Proof. intros (_ & W & _ & D). rewrite <- (sl_den_length _ _ W), D, app_length, repeat_length. reflexivity. Qed.

(* copy(dst, src), dst the next cells of nt, src a slice of h *)
Lemma filling_copy h h' nt a m dst src : filling h h' nt a m -> sl_wf h src ->
  s_arr dst = s_arr nt -> s_off dst = s_off nt + length a -> s_len src <= s_len dst -> s_len dst <= m ->
  filling h (sl_copy h' dst src) nt (a ++ sl_den h src) (m - s_len src).
Proof.
  intros F Ws Ea Eo L1 L2. pose proof (filling_len _ _ _ _ _ F) as Ln. destruct F as (P & W & An & D).
  destruct (P src Ws) as [Ws' _]. pose proof (pres_fresh_frame _ _ _ P Ws) as Ds.
  split; [|split; [now apply sl_copy_wf|split; [exact An|]]].
  - eapply pres_trans; [exact P|]. rewrite <- An, <- Ea. apply pres_copy.
  - unfold sl_copy. rewrite Ea, Eo, Ds, Nat.min_r, firstn_all2 by (rewrite ?sl_den_length; auto; lia).
    rewrite write_range_self by (rewrite ?sl_den_length; auto; lia).
    rewrite D, wl_app_at, sl_den_length, app_assoc by (rewrite ?sl_den_length; auto; lia). reflexivity.
Qed.

(* nt[i] = x, i the next cell *)
Lemma filling_set h h' nt a m i x : filling h h' nt a m -> i = length a -> 0 < m ->
  filling h (sl_index_set h' nt i x) nt (a ++ [x]) (m - 1).
Proof.
  intros F -> L. pose proof (filling_len _ _ _ _ _ F) as Ln. destruct F as (P & W & An & D).
  split; [|split; [now apply sl_index_set_wf|split; [exact An|]]].
  - eapply pres_trans; [exact P|]. rewrite <- An. apply pres_index_set.
  - rewrite sl_index_set_self, D, wl_app_at, app_assoc by (auto; cbn [length]; lia). reflexivity.
Qed.

Lemma filling_done h h' nt a m : filling h h' nt a m -> m = 0 -> sl_den h' nt = a.
Proof. intros (_ & _ & _ & D) ->. now rewrite D, app_nil_r. Qed.
End Helpers.

(* lpmEntry.upsert / delete, current version (/repo HEAD: always a fresh tail array) *)
Definition upsert_new (h : eheap) (e : mentry) (pk : bytes) (o : object) : eheap * mentry :=
  if negb (me_used e) then (h, mkME true (pk, o) (me_tail e))           (* !e.used *)
  else
    let hd := me_head e in let t := me_tail e in let n := s_len t in
    if bytes_eqb pk (fst hd) then (h, mkME true (fst hd, o) t)           (* case 0: e.head.obj = obj *)
    else if bytes_ltb pk (fst hd) then                                   (* case -1 *)
      let (h1, nt) := sl_make ezero h (n + 1) 0 in                       (* make([]T, len+1) *)
      let h2 := sl_index_set h1 nt 0 hd in                               (* newTail[0] = oldHead *)
      let h3 := sl_copy h2 (sl_reslice nt 1 (n + 1)) t in                (* copy(newTail[1:], e.tail) *)
      (h3, mkME true (pk, o) nt)
    else
      let (idx, found) := search_tail (sl_den h t) pk in
      if found then
        let (h1, nt) := sl_make ezero h n 0 in                           (* make([]T, len) *)
        let h2 := sl_copy h1 nt t in                                     (* copy(newTail, e.tail) *)
        let h3 := sl_index_set h2 nt idx (fst (sl_get ezero h2 nt idx), o) in  (* newTail[idx].obj = obj *)
        (h3, mkME true hd nt)
      else
        let (h1, nt) := sl_make ezero h (n + 1) 0 in
        let h2 := sl_copy h1 nt (sl_reslice t 0 idx) in                  (* copy(newTail, e.tail[:idx]) *)
        let h3 := sl_index_set h2 nt idx (pk, o) in                      (* newTail[idx] = {pk, obj} *)
        let h4 := sl_copy h3 (sl_reslice nt (idx + 1) (n + 1)) (sl_reslice t idx n) in
        (h4, mkME true hd nt).

Definition delete_new (h : eheap) (e : mentry) (pk : bytes) : eheap * mentry :=
  if negb (me_used e) then (h, e)
  else
    let hd := me_head e in let t := me_tail e in let n := s_len t in
    if bytes_eqb pk (fst hd) then
      if n =? 0 then (h, mkME false ezero t)                             (* head = {}, used = false *)
      else
        let (h1, nt) := sl_make ezero h (n - 1) 0 in
        let h2 := sl_copy h1 nt (sl_reslice t 1 n) in                    (* copy(newTail, e.tail[1:]) *)
        (h2, mkME true (sl_get ezero h t 0) nt)                          (* e.head = e.tail[0] *)
    else if bytes_ltb pk (fst hd) then (h, e)
    else
      let (idx, found) := search_tail (sl_den h t) pk in
      if negb found then (h, e)
      else
        let (h1, nt) := sl_make ezero h (n - 1) 0 in
        let h2 := sl_copy h1 nt (sl_reslice t 0 idx) in                  (* copy(newTail, e.tail[:idx]) *)
        let h3 := sl_copy h2 (sl_reslice nt idx (n - 1)) (sl_reslice t (idx + 1) n) in
        (h3, mkME true hd nt).

(* every heap produced by the current versions differs from the input heap only by a fresh array *)
Lemma make_pres (h : eheap) n : pres (length h) h (fst (sl_make ezero h n 0)).
Proof. apply pres_alloc. Qed.

Lemma pres_copy_step a (h0 h : eheap) dst src : pres a h0 h -> s_arr dst = a -> pres a h0 (sl_copy h dst src).
Proof. intros P <-. eapply pres_trans; [exact P|apply pres_copy]. Qed.
Lemma pres_index_set_step a (h0 h : eheap) s i x : pres a h0 h -> s_arr s = a -> pres a h0 (sl_index_set h s i x).
Proof. intros P <-. eapply pres_trans; [exact P|apply pres_index_set]. Qed.
Lemma pres_alloc_step a (h0 h : eheap) arr : pres a h0 h -> pres a h0 (h ++ [arr]).
Proof. intros P. eapply pres_trans; [exact P|apply pres_alloc]. Qed.
#[local] Hint Resolve pres_refl pres_alloc_step pres_copy_step pres_index_set_step : pres.

Lemma upsert_new_pres h e pk o : pres (length h) h (fst (upsert_new h e pk o)).
Proof.
  unfold upsert_new, sl_make. destruct (negb (me_used e)); [apply pres_refl|]. cbv zeta.
  destruct (bytes_eqb pk (fst (me_head e))); [apply pres_refl|].
  destruct (bytes_ltb pk (fst (me_head e))); [cbn [fst]; auto 6 with pres|].
  destruct (search_tail _ _) as [idx found]. destruct found; cbn [fst]; auto 6 with pres.
Qed.

Lemma delete_new_pres h e pk : pres (length h) h (fst (delete_new h e pk)).
Proof.
  unfold delete_new, sl_make. destruct (negb (me_used e)); [apply pres_refl|]. cbv zeta.
  destruct (bytes_eqb pk (fst (me_head e))).
  - destruct (_ =? 0); cbn [fst]; auto with pres.
  - destruct (bytes_ltb pk (fst (me_head e))); [apply pres_refl|].
    destruct (search_tail _ _) as [idx found]. destruct found; cbn [fst negb]; auto with pres.
Qed.

(* FRAME, current version: every slice header / entry value that exists before the call reads
   the same after it — this is what keeps the entries reachable from earlier snapshots frozen *)
Theorem upsert_new_frame h e pk o e' : me_wf h e' ->
  me_den (fst (upsert_new h e pk o)) e' = me_den h e'.
Proof. intros [W _]. unfold me_den. now rewrite (pres_fresh_frame _ _ _ (upsert_new_pres h e pk o) W). Qed.
Theorem delete_new_frame h e pk e' : me_wf h e' ->
  me_den (fst (delete_new h e pk)) e' = me_den h e'.
Proof. intros [W _]. unfold me_den. now rewrite (pres_fresh_frame _ _ _ (delete_new_pres h e pk) W). Qed.

Lemma tail_slice_wf (h : eheap) t lo hi : sl_wf h t -> lo <= hi -> hi <= s_len t -> sl_wf h (sl_reslice t lo hi).
Proof. intros W H1 H2. apply sl_reslice_wf; auto. destruct W. lia. Qed.

(* side conditions on lengths and offsets of concrete slice headers *)
Ltac len := cbn [sl_reslice s_arr s_off s_len s_cap app];
  rewrite ?app_length, ?firstn_length, ?sl_den_length by assumption; cbn [length]; lia.

Lemma build_front (h : eheap) t hd : sl_wf h t ->
  let (h1, nt) := sl_make ezero h (s_len t + 1) 0 in
  sl_den (sl_copy (sl_index_set h1 nt 0 hd) (sl_reslice nt 1 (s_len t + 1)) t) nt = hd :: sl_den h t.
Proof.
  intros Wt. pose proof (filling_make ezero h (s_len t + 1)) as F. unfold sl_make in *. cbn [fst snd] in F.
  eapply filling_set with (i := 0) (x := hd) in F; [|reflexivity|lia].
  eapply filling_copy with (dst := sl_reslice _ 1 (s_len t + 1)) (src := t) in F; [|auto|reflexivity|reflexivity|len..].
  exact (filling_done _ _ _ _ _ _ F ltac:(lia)).
Qed.

Lemma build_set (h : eheap) t idx o : sl_wf h t -> idx < s_len t ->
  let (h1, nt) := sl_make ezero h (s_len t) 0 in
  let h2 := sl_copy h1 nt t in
  sl_den (sl_index_set h2 nt idx (fst (sl_get ezero h2 nt idx), o)) nt =
  firstn idx (sl_den h t) ++ (fst (nth idx (sl_den h t) ezero), o) :: skipn (S idx) (sl_den h t).
Proof.
  intros Wt Hi. pose proof (filling_make ezero h (s_len t)) as F. unfold sl_make in *. cbn [fst snd] in F. cbv zeta.
  eapply filling_copy with (src := t) in F; [|auto|reflexivity|reflexivity|len..].
  pose proof (filling_done _ _ _ _ _ _ F ltac:(lia)) as D. destruct F as (_ & W & _). cbn [app] in D.
  rewrite sl_index_set_self by (auto; len). unfold sl_get. rewrite D. apply write_list_one. len.
Qed.

Lemma build_ins (h : eheap) t idx x : sl_wf h t -> idx <= s_len t ->
  let n := s_len t in
  let (h1, nt) := sl_make ezero h (n + 1) 0 in
  let h2 := sl_copy h1 nt (sl_reslice t 0 idx) in
  let h3 := sl_index_set h2 nt idx x in
  sl_den (sl_copy h3 (sl_reslice nt (idx + 1) (n + 1)) (sl_reslice t idx n)) nt =
  firstn idx (sl_den h t) ++ x :: skipn idx (sl_den h t).
Proof.
  intros Wt Hi. pose proof (filling_make ezero h (s_len t + 1)) as F. unfold sl_make in *. cbn [fst snd] in F. cbv zeta.
  eapply filling_copy with (src := sl_reslice t 0 idx) in F; [|apply tail_slice_wf; auto; lia|reflexivity|reflexivity|len..].
  rewrite sl_prefix_den in F by auto.
  eapply filling_set with (i := idx) (x := x) in F; [|len..].
  eapply filling_copy with (dst := sl_reslice _ (idx + 1) (s_len t + 1)) (src := sl_reslice t idx (s_len t)) in F;
    [|apply tail_slice_wf; auto; lia|reflexivity|len..].
  rewrite sl_suffix_den in F by auto.
  rewrite (filling_done _ _ _ _ _ _ F) by len. cbn [app]. now rewrite <- app_assoc.
Qed.

Lemma build_del_front (h : eheap) t : sl_wf h t -> 0 < s_len t ->
  let n := s_len t in
  let (h1, nt) := sl_make ezero h (n - 1) 0 in
  sl_den (sl_copy h1 nt (sl_reslice t 1 n)) nt = skipn 1 (sl_den h t).
Proof.
  intros Wt Hn. pose proof (filling_make ezero h (s_len t - 1)) as F. unfold sl_make in *. cbn [fst snd] in F. cbv zeta.
  eapply filling_copy with (src := sl_reslice t 1 (s_len t)) in F; [|apply tail_slice_wf; auto; lia|reflexivity|reflexivity|len..].
  rewrite sl_suffix_den in F by (auto; lia). exact (filling_done _ _ _ _ _ _ F ltac:(len)).
Qed.

Lemma build_del_at (h : eheap) t idx : sl_wf h t -> idx < s_len t ->
  let n := s_len t in
  let (h1, nt) := sl_make ezero h (n - 1) 0 in
  let h2 := sl_copy h1 nt (sl_reslice t 0 idx) in
  sl_den (sl_copy h2 (sl_reslice nt idx (n - 1)) (sl_reslice t (idx + 1) n)) nt =
  firstn idx (sl_den h t) ++ skipn (S idx) (sl_den h t).
Proof.
  intros Wt Hi. pose proof (filling_make ezero h (s_len t - 1)) as F. unfold sl_make in *. cbn [fst snd] in F. cbv zeta.
  eapply filling_copy with (src := sl_reslice t 0 idx) in F; [|apply tail_slice_wf; auto; lia|reflexivity|reflexivity|len..].
  rewrite sl_prefix_den in F by lia.
  eapply filling_copy with (dst := sl_reslice _ idx (s_len t - 1)) (src := sl_reslice t (idx + 1) (s_len t)) in F;
    [|apply tail_slice_wf; auto; lia|reflexivity|len..].
  rewrite sl_suffix_den in F by (auto; lia).
  rewrite (filling_done _ _ _ _ _ _ F) by len. now rewrite Nat.add_1_r.
Qed.
(* The in-place versions: lpmEntry.upsert before fix 9ab81d8 (defect D1) and the seeded
   lpmEntry.delete of S-C13-3 (slices.Delete). `extra` = spare cells chosen by append's
   growth policy when it has to reallocate. *)
Definition upsert_old (extra : nat) (h : eheap) (e : mentry) (pk : bytes) (o : object) : eheap * mentry :=
  if negb (me_used e) then (h, mkME true (pk, o) (me_tail e))
  else
    let hd := me_head e in let t := me_tail e in
    if bytes_eqb pk (fst hd) then (h, mkME true (fst hd, o) t)
    else if bytes_ltb pk (fst hd) then
      let (h1, t1) := sl_append ezero h t ezero extra in                 (* e.tail = append(e.tail, {}) *)
      let h2 := sl_copy h1 (sl_reslice t1 1 (s_len t1)) (sl_reslice t1 0 (s_len t1 - 1)) in
                                                                         (* copy(e.tail[1:], e.tail[:len-1]) *)
      let h3 := sl_index_set h2 t1 0 hd in                               (* e.tail[0] = oldHead *)
      (h3, mkME true (pk, o) t1)
    else
      let (idx, found) := search_tail (sl_den h t) pk in
      if found then                                                      (* e.tail[idx].obj = obj  IN PLACE *)
        (sl_index_set h t idx (fst (sl_get ezero h t idx), o), mkME true hd t)
      else
        let (h1, t1) := sl_append ezero h t ezero extra in
        let h2 := sl_copy h1 (sl_reslice t1 (idx + 1) (s_len t1)) (sl_reslice t1 idx (s_len t1)) in
                                                                         (* copy(e.tail[idx+1:], e.tail[idx:]) *)
        let h3 := sl_index_set h2 t1 idx (pk, o) in                      (* e.tail[idx] = entry *)
        (h3, mkME true hd t1).

(* S-C13-3: `e.tail = slices.Delete(e.tail, idx, idx+1)` in the tail branch *)
Definition delete_inplace (h : eheap) (e : mentry) (pk : bytes) : eheap * mentry :=
  if negb (me_used e) then (h, e)
  else
    let hd := me_head e in let t := me_tail e in let n := s_len t in
    if bytes_eqb pk (fst hd) then
      if n =? 0 then (h, mkME false ezero t)
      else
        let (h1, nt) := sl_make ezero h (n - 1) 0 in
        let h2 := sl_copy h1 nt (sl_reslice t 1 n) in
        (h2, mkME true (sl_get ezero h t 0) nt)
    else if bytes_ltb pk (fst hd) then (h, e)
    else
      let (idx, found) := search_tail (sl_den h t) pk in
      if negb found then (h, e)
      else
        let (h1, t1) := sl_delete_inplace ezero h t idx (idx + 1) in
        (h1, mkME true hd t1).

(* witnesses: one prefix holding the objects 10 < 20 < 30 < 40 (head 10 by value, tail array
   [20 30 40]); an older snapshot (or, if the writer aborts, the committed state itself) holds
   the SAME entry value, i.e. the same tail header *)
Definition wobj (id val : N) : eobj := ([id], mkO (mkP [id] val [] [] [] []) val).
Definition w_heap : eheap := [[wobj 20 1; wobj 30 1; wobj 40 1]].
Definition w_entry : mentry := mkME true (wobj 10 1) (mkS 0 0 3 3).

Lemma w_entry_ok : me_wf w_heap w_entry /\ esorted (me_den w_heap w_entry).
Proof. split; [split; [split; cbn; lia|discriminate]|]. cbn. repeat split; repeat constructor. Qed.

(* REFUTATION, pre-fix upsert: updating the 2nd object writes through to every holder of the
   old entry value, whatever the growth policy *)
Theorem upsert_old_alias_refuted :
  exists (h : eheap) (e : mentry) (k : bytes) (o : object) (e_other : mentry),
    me_wf h e /\ me_wf h e_other /\ esorted (me_den h e) /\
    forall extra, me_den h e_other <> me_den (fst (upsert_old extra h e k o)) e_other.
Proof.
  exists w_heap, w_entry, [20%N], (snd (wobj 20 2)), w_entry.
  destruct w_entry_ok as [W S]. split; [exact W|]. split; [exact W|]. split; [exact S|].
  intros extra. vm_compute. discriminate.
Qed.

(* the insert path: the tail array has a spare cell (left by append's growth policy in an earlier
   upsert); inserting 30 appends in place and shifts inside the shared array, so the holder of
   the old entry value (same header, len 2) reads [10 20 30] instead of [10 20 40] *)
Theorem upsert_old_insert_alias_refuted :
  exists (h : eheap) (e : mentry) (k : bytes) (o : object) (e_other : mentry),
    me_wf h e /\ me_wf h e_other /\ esorted (me_den h e) /\
    forall extra, me_den h e_other <> me_den (fst (upsert_old extra h e k o)) e_other.
Proof.
  exists [[wobj 20 1; wobj 40 1; ezero]], (mkME true (wobj 10 1) (mkS 0 0 2 3)), [30%N], (snd (wobj 30 1)),
         (mkME true (wobj 10 1) (mkS 0 0 2 3)).
  split; [split; [split; cbn; lia|discriminate]|].
  split; [split; [split; cbn; lia|discriminate]|].
  split; [cbn; repeat split; repeat constructor|].
  intros extra. vm_compute. discriminate.
Qed.

(* S-C13-3 REFUTATION: deleting a tail object shifts and zeroes inside the shared array: the old
   holder then reads [10 30 40 <zero>] instead of [10 20 30 40] *)
Theorem delete_inplace_alias_refuted :
  exists (h : eheap) (e : mentry) (k : bytes) (e_other : mentry),
    me_wf h e /\ me_wf h e_other /\ esorted (me_den h e) /\
    me_den h e_other <> me_den (fst (delete_inplace h e k)) e_other /\
    me_den (fst (delete_inplace h e k)) e_other = [wobj 10 1; wobj 30 1; wobj 40 1; ezero].
Proof.
  exists w_heap, w_entry, [20%N], w_entry.
  destruct w_entry_ok as [W S]. split; [exact W|]. split; [exact W|]. split; [exact S|].
  split; [vm_compute; discriminate|vm_compute; reflexivity].
Qed.

(* the same witnesses are harmless for the current versions (instances of the frame theorems) *)
Example upsert_new_witness_frozen :
  me_den (fst (upsert_new w_heap w_entry [20%N] (snd (wobj 20 2)))) w_entry = me_den w_heap w_entry.
Proof. apply upsert_new_frame. apply w_entry_ok. Qed.
Example delete_new_witness_frozen :
  me_den (fst (delete_new w_heap w_entry [20%N])) w_entry = me_den w_heap w_entry.
Proof. apply delete_new_frame. apply w_entry_ok. Qed.
(* The in-place versions are correct in the WRITER's view (they refine the model too): the
   defect is invisible to the transaction that performs the write, only other holders of
   the array see it — which is why only the aliasing refutations above distinguish them. *)
(* append(tail, {}) then copy(tail[idx+1:], tail[idx:]) then tail[idx] = x, on lists *)
Lemma shift_insert (d : list eobj) idx x : idx <= length d ->
  write_list (write_list (d ++ [ezero]) (idx + 1) (skipn idx d)) idx [x] = firstn idx d ++ x :: skipn idx d.
Proof.
  intros L. assert (La : length (firstn idx d) = idx) by (rewrite firstn_length; lia).
  rewrite <- (firstn_skipn idx d) at 1. revert La.
  generalize (firstn idx d) as a, (skipn idx d) as b. intros a b <-.
  rewrite <- app_assoc, write_list_app_r, <- (Nat.add_0_r (length a)), write_list_app_r. f_equal.
  destruct b as [|y b]; [reflexivity|]. cbn [app write_list].
  rewrite write_list_nil_data, write_list_full by (rewrite app_length; cbn [length]; lia). reflexivity.
Qed.

(* t1: the tail after append(tail, {}); the copy may read one cell more or less at the end (shi) *)
Lemma build_old_ins (h1 : eheap) t1 (d : list eobj) idx x shi :
  sl_wf h1 t1 -> sl_den h1 t1 = d ++ [ezero] -> idx <= length d -> length d <= shi -> shi <= s_len t1 ->
  let h2 := sl_copy h1 (sl_reslice t1 (idx + 1) (s_len t1)) (sl_reslice t1 idx shi) in
  sl_den (sl_index_set h2 t1 idx x) t1 = firstn idx d ++ x :: skipn idx d.
Proof.
  intros W1 D1 Hi S1 S2 h2.
  assert (Ln : s_len t1 = length d + 1) by (rewrite <- (sl_den_length _ _ W1), D1, app_length; reflexivity).
  assert (Ws : sl_wf h1 (sl_reslice t1 idx shi)) by (apply tail_slice_wf; auto; lia).
  rewrite sl_index_set_self by (try apply sl_copy_wf; auto; lia).
  unfold h2. rewrite copy_into by (auto; lia). rewrite sl_reslice_den, D1 by lia. cbn [sl_reslice s_len].
  rewrite Nat.min_l, firstn_firstn, Nat.min_l by lia.
  replace (s_len t1 - (idx + 1)) with (length d - idx) by lia.
  rewrite firstn_skipn_app by lia. now apply shift_insert.
Qed.

Lemma append_zero_facts extra (h : eheap) t : sl_wf h t ->
  let r := sl_append ezero h t ezero extra in
  sl_wf (fst r) (snd r) /\ sl_den (fst r) (snd r) = sl_den h t ++ [ezero] /\ s_len (snd r) = s_len t + 1.
Proof.
  intros W. cbv zeta. unfold sl_append. split; [now apply sl_append_list_wf|]. split; [now apply sl_append_list_den|].
  unfold sl_append_list. destruct (_ <=? _); reflexivity.
Qed.

(* REFINEMENT. upsert: the two versions make the same tests and differ in how they build the new tail *)
Lemma upsert_refines_both extra h e pk o : me_wf h e -> esorted (me_den h e) ->
  me_den (fst (upsert_new h e pk o)) (snd (upsert_new h e pk o)) = e_upsert pk o (me_den h e) /\
  me_den (fst (upsert_old extra h e pk o)) (snd (upsert_old extra h e pk o)) = e_upsert pk o (me_den h e).
Proof.
  destruct e as [[|] hd t]; unfold me_wf, upsert_new, upsert_old, me_den; cbn [me_used me_head me_tail negb];
    intros [Wt Hu] Hs.
  2: { cbn [fst snd me_used me_head me_tail e_upsert]. now rewrite sl_den_nil by auto. }
  rewrite e_upsert_head by exact Hs. cbv zeta.
  pose proof (search_tail_spec _ pk (esorted_tail _ _ Hs)) as B.
  pose proof (sl_den_length _ _ Wt) as Ld. rewrite Ld in B.
  destruct (append_zero_facts extra h t Wt) as [W1 [D1 L1]].
  destruct (bytes_eqb pk (fst hd)); [split; reflexivity|].
  destruct (bytes_ltb pk (fst hd)).
  - split.
    + unfold sl_make. cbn [fst snd me_used me_head me_tail]. f_equal. exact (build_front h t hd Wt).
    + destruct (sl_append ezero h t ezero extra) as [h1 t1]. cbn [fst snd me_used me_head me_tail] in *.
      f_equal. apply (build_old_ins h1 t1 (sl_den h t) 0 hd); auto; lia.
  - destruct (search_tail (sl_den h t) pk) as [i [|]]; destruct B as [Bi Bf].
    + destruct (Bf eq_refl) as [Bl <-]. split.
      * unfold sl_make. cbn [fst snd me_used me_head me_tail]. f_equal. exact (build_set h t i o Wt Bl).
      * cbn [fst snd me_used me_head me_tail]. f_equal. rewrite sl_index_set_self by (auto; lia).
        apply write_list_one. lia.
    + split.
      * unfold sl_make. cbn [fst snd me_used me_head me_tail]. f_equal. exact (build_ins h t i (pk, o) Wt Bi).
      * destruct (sl_append ezero h t ezero extra) as [h1 t1]. cbn [fst snd me_used me_head me_tail] in *.
        f_equal. apply (build_old_ins h1 t1 (sl_den h t) i (pk, o)); auto; lia.
Qed.

Theorem upsert_old_refines extra h e pk o : me_wf h e -> esorted (me_den h e) ->
  me_den (fst (upsert_old extra h e pk o)) (snd (upsert_old extra h e pk o)) = e_upsert pk o (me_den h e).
Proof. intros W S. apply (upsert_refines_both extra h e pk o W S). Qed.

(* delete: the current version and the seeded one are the same code but for the last branch *)
Lemma delete_refines_both h e pk : me_wf h e -> esorted (me_den h e) ->
  me_den (fst (delete_new h e pk)) (snd (delete_new h e pk)) = e_delete pk (me_den h e) /\
  me_den (fst (delete_inplace h e pk)) (snd (delete_inplace h e pk)) = e_delete pk (me_den h e).
Proof.
  destruct e as [[|] hd t]; unfold me_wf, delete_new, delete_inplace, me_den; cbn [me_used me_head me_tail negb];
    intros [Wt Hu] Hs; [|split; reflexivity].
  rewrite e_delete_head by exact Hs. cbv zeta.
  pose proof (search_tail_spec _ pk (esorted_tail _ _ Hs)) as B. rewrite sl_den_length in B by auto.
  destruct (bytes_eqb pk (fst hd)).
  - destruct (Nat.eqb_spec (s_len t) 0) as [Z|Z]; cbn [fst snd me_used me_head me_tail].
    + split; symmetry; now apply sl_den_nil.
    + unfold sl_make. cbn [fst snd me_used me_head me_tail]. rewrite (build_del_front h t Wt) by lia.
      split; apply nth0_skipn1; intros X; apply Z; now rewrite <- (sl_den_length h t Wt), X.
  - destruct (bytes_ltb pk (fst hd)); [split; reflexivity|].
    destruct (search_tail (sl_den h t) pk) as [i [|]]; destruct B as [Bi Bf]; cbn [negb]; [|split; reflexivity].
    destruct (Bf eq_refl) as [Bl _]. split.
    + unfold sl_make. cbn [fst snd me_used me_head me_tail]. f_equal. exact (build_del_at h t i Wt Bl).
    + pose proof (sl_delete_inplace_den ezero h t i (i + 1) Wt ltac:(lia) ltac:(lia)) as D.
      destruct (sl_delete_inplace ezero h t i (i + 1)) as [h1 t1]. cbn [fst snd me_used me_head me_tail] in *.
      now rewrite D, Nat.add_1_r.
Qed.

Theorem delete_inplace_refines h e pk : me_wf h e -> esorted (me_den h e) ->
  me_den (fst (delete_inplace h e pk)) (snd (delete_inplace h e pk)) = e_delete pk (me_den h e).
Proof. intros W S. apply (delete_refines_both h e pk W S). Qed.

(* B.  tableInitialization.pending ([]string) — table.go RegisterInitializer and the mark-done
       closure it returns. `table.init == nil` is None. The extras are the spare cells chosen by
       the growth policy of slices.Clone / append. *)
Notation sheap := (@heap bytes).
Definition szero : bytes := [].                      (* "" *)

Section Generic.
Context {A : Type}.
Variable z : A.
Notation hp := (@heap A).

Lemma pres_append (h : hp) s xs extra : pres (s_arr s) h (fst (sl_append_list z h s xs extra)).
Proof. unfold sl_append_list. destruct (_ <=? _); cbn [fst]; [apply pres_write|apply pres_alloc]. Qed.
Lemma pres_deletefunc (h : hp) s del : pres (s_arr s) h (fst (sl_deletefunc_inplace z h s del)).
Proof. apply pres_write. Qed.
Lemma pres_delete_inplace (h : hp) s i j : pres (s_arr s) h (fst (sl_delete_inplace z h s i j)).
Proof. apply pres_write. Qed.

(* h' keeps every slice header of h intact *)
Definition stable (h h' : hp) : Prop := forall s, sl_wf h s -> sl_wf h' s /\ sl_den h' s = sl_den h s.
Lemma stable_refl h : stable h h.
Proof. intros s W; auto. Qed.
Lemma stable_trans h1 h2 h3 : stable h1 h2 -> stable h2 h3 -> stable h1 h3.
Proof.
  intros S1 S2 s W. destruct (S1 s W) as [W2 D2]. destruct (S2 s W2) as [W3 D3]. split; auto. congruence.
Qed.
Lemma pres_stable (h h' : hp) : pres (length h) h h' -> stable h h'.
Proof. intros P s W. split; [now apply P|now apply pres_fresh_frame]. Qed.

(* slices.Clone: a fresh array with the same elements; in-place work on it is invisible to the headers of h *)
Lemma clone_facts (h : hp) p extra : sl_wf h p ->
  let (h1, p1) := sl_clone z h p extra in
  sl_wf h1 p1 /\ sl_den h1 p1 = sl_den h p /\ forall h', pres (s_arr p1) h1 h' -> stable h h'.
Proof.
  intros W. split; [apply (sl_clone_wf z h p extra W)|]. split; [apply (sl_clone_den z h p extra W)|].
  intros h' P. apply pres_stable. eapply pres_trans; [apply pres_alloc|exact P].
Qed.

Lemma append_facts (h : hp) s xs extra : sl_wf h s ->
  let r := sl_append_list z h s xs extra in
  sl_wf (fst r) (snd r) /\ sl_den (fst r) (snd r) = sl_den h s ++ xs /\ pres (s_arr s) h (fst r).
Proof. intros W. split; [now apply sl_append_list_wf|]. split; [now apply sl_append_list_den|apply pres_append]. Qed.
End Generic.

Definition register_new (e1 e2 : nat) (h : sheap) (init : option slice) (name : bytes) : sheap * option slice :=
  match init with
  | None => let (h1, p1) := sl_append szero h sl_nil name e2 in (h1, Some p1)   (* fresh struct, append(nil, name) *)
  | Some p => let (h1, p1) := sl_clone szero h p e1 in                          (* init2.pending = slices.Clone(init2.pending) *)
              let (h2, p2) := sl_append szero h1 p1 name e2 in                  (* init.pending = append(init.pending, name) *)
              (h2, Some p2)
  end.

Definition contains (h : sheap) (p : slice) (name : bytes) : bool := existsb (bytes_eqb name) (sl_den h p).

Definition done_new (e1 : nat) (h : sheap) (init : option slice) (name : bytes) : sheap * option slice :=
  match init with
  | None => (h, None)
  | Some p => if contains h p name
              then let (h1, p1) := sl_clone szero h p e1 in
                   let (h2, p2) := sl_deletefunc_inplace szero h1 p1 (fun n => bytes_eqb n name) in
                   (h2, Some p2)              (* slices.DeleteFunc(slices.Clone(init.pending), n == name) *)
              else (h, init)
  end.

(* S-C19-1: no clone before append; fast path re-slices pending[:last] *)
Definition register_seeded (e2 : nat) (h : sheap) (init : option slice) (name : bytes) : sheap * option slice :=
  match init with
  | None => let (h1, p1) := sl_append szero h sl_nil name e2 in (h1, Some p1)
  | Some p => let (h1, p1) := sl_append szero h p name e2 in (h1, Some p1)
  end.
Definition done_seeded (e1 : nat) (h : sheap) (init : option slice) (name : bytes) : sheap * option slice :=
  match init with
  | None => (h, None)
  | Some p => if contains h p name
              then let last := s_len p - 1 in
                   if bytes_eqb (sl_get szero h p last) name
                   then (h, Some (sl_reslice p 0 last))                      (* init.pending = init.pending[:last] *)
                   else let (h1, p1) := sl_clone szero h p e1 in
                        let (h2, p2) := sl_deletefunc_inplace szero h1 p1 (fun n => bytes_eqb n name) in
                        (h2, Some p2)
              else (h, init)
  end.

Definition init_wf (h : sheap) (init : option slice) : Prop := forall p, init = Some p -> sl_wf h p.

(* FRAME + functional correctness of the current code *)
Lemma register_new_ok e1 e2 h init name : init_wf h init ->
  let r := register_new e1 e2 h init name in
  stable h (fst r) /\ init_wf (fst r) (snd r) /\
  exists p', snd r = Some p' /\
    sl_den (fst r) p' = (match init with Some p => sl_den h p | None => [] end) ++ [name].
Proof.
  intros Wi. cbv zeta. unfold register_new, sl_append. destruct init as [p|].
  - pose proof (clone_facts szero h p e1 (Wi p eq_refl)) as C.
    destruct (sl_clone szero h p e1) as [h1 p1]. destruct C as (W1 & D1 & S1).
    destruct (append_facts szero h1 p1 [name] e2 W1) as (W2 & D2 & P2).
    destruct (sl_append_list szero h1 p1 [name] e2) as [h2 p2]. cbn [fst snd] in *.
    split; [now apply S1|]. split; [intros q [= <-]; exact W2|]. exists p2. split; auto. now rewrite D2, D1.
  - assert (W0 : sl_wf h sl_nil) by (split; cbn; lia).
    destruct (append_facts szero h sl_nil [name] e2 W0) as (W2 & D2 & _).
    assert (S2 : stable h (fst (sl_append_list szero h sl_nil [name] e2))) by apply pres_stable, pres_alloc.
    destruct (sl_append_list szero h sl_nil [name] e2) as [h2 p2]. cbn [fst snd] in *.
    split; [exact S2|]. split; [intros q [= <-]; exact W2|]. exists p2. auto.
Qed.

Lemma filter_absent name l : existsb (bytes_eqb name) l = false -> filter (fun n => negb (bytes_eqb n name)) l = l.
Proof.
  induction l as [|x l IH]; cbn [filter existsb]; auto. intros C. apply orb_false_iff in C. destruct C as [C1 C2].
  now rewrite bytes_eqb_sym, C1, IH.
Qed.

Lemma done_new_ok e1 h init name : init_wf h init ->
  let r := done_new e1 h init name in
  stable h (fst r) /\ init_wf (fst r) (snd r) /\
  match init, snd r with
  | Some p, Some p' => sl_den (fst r) p' = filter (fun n => negb (bytes_eqb n name)) (sl_den h p)
  | None, None => True
  | _, _ => False
  end.
Proof.
  intros Wi. cbv zeta. unfold done_new. destruct init as [p|]; [|cbn; split; [apply stable_refl|split; auto]].
  destruct (contains h p name) eqn:Ct.
  - pose proof (clone_facts szero h p e1 (Wi p eq_refl)) as C.
    destruct (sl_clone szero h p e1) as [h1 p1]. destruct C as (W1 & D1 & S1).
    pose proof (sl_deletefunc_inplace_wf szero h1 p1 (fun n => bytes_eqb n name) W1) as W2.
    pose proof (sl_deletefunc_inplace_den szero h1 p1 (fun n => bytes_eqb n name) W1) as D2.
    pose proof (S1 _ (pres_deletefunc szero h1 p1 (fun n => bytes_eqb n name))) as S2.
    destruct (sl_deletefunc_inplace szero h1 p1 (fun n => bytes_eqb n name)) as [h2 p2]. cbn [fst snd] in *.
    split; [exact S2|]. split; [intros q [= <-]; exact W2|]. now rewrite D2, D1.
  - cbn [fst snd]. split; [apply stable_refl|]. split; [exact Wi|]. symmetry. now apply filter_absent.
Qed.

(* a transaction = any sequence of registrations and marks *)
Inductive iop := IReg (name : bytes) (e1 e2 : nat) | IDone (name : bytes) (e1 : nat).
Definition istep_new (st : sheap * option slice) (op : iop) : sheap * option slice :=
  match op with
  | IReg n e1 e2 => register_new e1 e2 (fst st) (snd st) n
  | IDone n e1 => done_new e1 (fst st) (snd st) n
  end.
Definition istep_seeded (st : sheap * option slice) (op : iop) : sheap * option slice :=
  match op with
  | IReg n _ e2 => register_seeded e2 (fst st) (snd st) n
  | IDone n e1 => done_seeded e1 (fst st) (snd st) n
  end.

Lemma istep_new_ok st op : init_wf (fst st) (snd st) ->
  stable (fst st) (fst (istep_new st op)) /\ init_wf (fst (istep_new st op)) (snd (istep_new st op)).
Proof.
  intros W. destruct op as [n e1 e2|n e1]; cbn [istep_new].
  - destruct (register_new_ok e1 e2 (fst st) (snd st) n W) as [S [W' _]]. auto.
  - destruct (done_new_ok e1 (fst st) (snd st) n W) as [S [W' _]]. auto.
Qed.

(* FRAME: whatever a write transaction does with the initializers (and whether it then
   commits or aborts), every pending slice that existed before reads the same afterwards *)
Theorem init_pending_frame ops : forall h init s, init_wf h init -> sl_wf h s ->
  sl_den (fst (fold_left istep_new ops (h, init))) s = sl_den h s.
Proof.
  assert (G : forall l st, init_wf (fst st) (snd st) -> stable (fst st) (fst (fold_left istep_new l st))).
  { induction l as [|op r IH]; intros st W; cbn [fold_left]; [apply stable_refl|].
    destruct (istep_new_ok st op W) as [S W']. eapply stable_trans; [exact S|]. now apply IH. }
  intros h init s Wi Ws. now apply (G ops (h, init) Wi s).
Qed.

(* the transaction that refutes S-C19-1 (Properties/C01.v C01_init_pending_alias_refuted: committed pending
   [a b]; mark b done, register c, abort: the seeded code leaves [a c] in the committed slice header)
   leaves the committed slice alone with the current code *)
Example init_pending_witness_frozen e1 e2 e3 :
  sl_den (fst (fold_left istep_new [IDone [98%N] e1; IReg [99%N] e2 e3] ([[[97%N]; [98%N]]], Some (mkS 0 0 2 2))))
         (mkS 0 0 2 2) = [[97%N]; [98%N]].
Proof.
  rewrite init_pending_frame; [reflexivity| |split; cbn; lia].
  intros p Hp. injection Hp as <-. split; cbn; lia.
Qed.

(* C.  the root slice in Commit (write_txn.go). dbRoot = []*tableEntry: an element is a pointer,
       modelled as a number; `locked` is the flag of the pointed-to entry (true exactly for the
       transaction's own copies of the tables it locked). `entries` = txn.tableEntries =
       slices.Clone of the old root made in WriteTxn: the transaction's PRIVATE array; `cur` = the root
       loaded again under the root lock. *)
Notation rheap := (@heap nat).

(* for pos := range txn.tableEntries { table := txn.tableEntries[pos];
     if !table.locked { <target>[pos] = currentRoot[pos]; continue }; ... } *)
Definition root_loop (locked : nat -> bool) (entries target cur : slice) (k : nat) (h : rheap) : rheap :=
  fold_left (fun h pos => if locked (sl_get 0 h entries pos) then h
                          else sl_index_set h target pos (sl_get 0 h cur pos)) (seq 0 k) h.

(* if len(currentRoot) > len(root) { root = append(root, currentRoot[len(root):]...) } *)
Definition root_append (extra : nat) (h : rheap) (root cur : slice) : rheap * slice :=
  if s_len root <? s_len cur
  then sl_append_list 0 h root (sl_den h (sl_reslice cur (s_len root) (s_len cur))) extra
  else (h, root).

(* current code: root := txn.tableEntries; loop writes root[pos]; THEN append; db.root.Store(&root) *)
Definition commit_root_good (extra : nat) (locked : nat -> bool) (h : rheap) (entries cur : slice) : rheap * slice :=
  let root := entries in
  let h1 := root_loop locked entries root cur (s_len entries) h in
  root_append extra h1 root cur.

(* S-C05-1: append FIRST, and the loop writes through txn.tableEntries[pos] *)
Definition commit_root_bad (extra : nat) (locked : nat -> bool) (h : rheap) (entries cur : slice) : rheap * slice :=
  let (h0, root) := root_append extra h entries cur in
  let h1 := root_loop locked entries entries cur (s_len entries) h0 in
  (h1, root).

(* what must be published at position pos < len(entries) *)
Definition root_want (locked : nat -> bool) (E C : list nat) (pos : nat) : nat :=
  if locked (nth pos E 0) then nth pos E 0 else nth pos C 0.

Lemma skipn_cons_nth (l : list nat) : forall k, k < length l -> skipn k l = nth k l 0 :: skipn (S k) l.
Proof.
  induction l as [|x l IH]; intros [|k] L; cbn [length] in L; try lia; [reflexivity|].
  cbn [skipn nth]. rewrite IH by lia. reflexivity.
Qed.

Lemma nth_map_seq (f : nat -> nat) n r pos : pos < n -> nth pos (map f (seq 0 n) ++ r) 0 = f pos.
Proof.
  intros L. rewrite app_nth1, (nth_indep _ 0 (f 0)) by (rewrite map_length, seq_length; lia).
  now rewrite map_nth, seq_nth.
Qed.

(* the loop writing through txn.tableEntries itself, after k rounds *)
Lemma root_loop_spec locked (h : rheap) entries cur : sl_wf h entries -> sl_wf h cur ->
  s_arr cur <> s_arr entries -> s_len entries <= s_len cur ->
  forall k, k <= s_len entries ->
  let hk := root_loop locked entries entries cur k h in
  pres (s_arr entries) h hk /\
  sl_den hk entries = map (root_want locked (sl_den h entries) (sl_den h cur)) (seq 0 k) ++ skipn k (sl_den h entries).
Proof.
  intros We Wc Hne Hlen. cbv zeta. pose proof (sl_den_length _ _ We) as LE.
  induction k as [|k IH]; intros Hk; [split; [apply pres_refl|reflexivity]|].
  destruct IH as [P D]; [lia|]. unfold root_loop in *. rewrite seq_S, fold_left_app. cbn [fold_left Nat.add].
  set (hk := fold_left _ (seq 0 k) h) in *.
  destruct (P entries We) as [Wek _]. destruct (P cur Wc) as [_ Dck]. specialize (Dck (or_introl Hne)).
  assert (Lk : length (map (root_want locked (sl_den h entries) (sl_den h cur)) (seq 0 k)) = k)
    by now rewrite map_length, seq_length.
  rewrite skipn_cons_nth in D by lia.
  assert (G : sl_get 0 hk entries k = nth k (sl_den h entries) 0)
    by (unfold sl_get; now rewrite D, app_nth2, Lk, Nat.sub_diag by lia).
  rewrite G, map_app, <- app_assoc. cbn [map app]. unfold root_want at 2.
  destruct (locked (nth k (sl_den h entries) 0)); [now split|].
  split; [eapply pres_trans; [exact P|apply pres_index_set]|].
  rewrite sl_index_set_self, D, write_list_app_at by (auto; lia). cbn [write_list].
  rewrite write_list_nil_data. unfold sl_get. now rewrite Dck.
Qed.

(* the current order publishes, at every position of the transaction's root, its own entry
   for a locked table and currentRoot[pos] for an unlocked one, followed by the tables
   registered meanwhile; and touches nothing outside the transaction's private array *)
Theorem commit_root_good_spec extra locked (h : rheap) entries cur :
  sl_wf h entries -> sl_wf h cur -> s_arr cur <> s_arr entries -> s_len entries <= s_len cur ->
  let r := commit_root_good extra locked h entries cur in
  sl_den (fst r) (snd r) =
    map (root_want locked (sl_den h entries) (sl_den h cur)) (seq 0 (s_len entries))
    ++ skipn (s_len entries) (sl_den h cur)
  /\ pres (s_arr entries) h (fst r).
Proof.
  intros We Wc Hne Hlen. cbv zeta. unfold commit_root_good. cbv zeta.
  destruct (root_loop_spec locked h entries cur We Wc Hne Hlen (s_len entries) (le_n _)) as [P D].
  set (h1 := root_loop locked entries entries cur (s_len entries) h) in *.
  rewrite skipn_all2, app_nil_r in D by (rewrite sl_den_length; auto).
  destruct (P entries We) as [We1 _]. destruct (P cur Wc) as [Wc1 Dc1]. specialize (Dc1 (or_introl Hne)).
  unfold root_append. destruct (Nat.ltb_spec (s_len entries) (s_len cur)) as [L|L].
  - destruct (append_facts 0 h1 entries (sl_den h1 (sl_reslice cur (s_len entries) (s_len cur))) extra We1)
      as (_ & Da & Pa).
    split; [|eapply pres_trans; eauto]. now rewrite Da, D, sl_suffix_den, Dc1 by auto.
  - cbn [fst snd]. split; [|exact P]. now rewrite D, skipn_all2, app_nil_r by (rewrite sl_den_length; auto; lia).
Qed.

(* the witness against S-C05-1 (Properties/C01.v C01_commit_root_append_refuted). T1 starts on root
   [A0 B0] = pointers [1 2] (array 0) and locks A:
   its private clone (array 1, cap = len = 2) is [10 2]. Meanwhile table C is registered and a
   transaction on B commits: current root [1 3 4] (array 2). T1 commits: the append reallocates
   (array 3), the refresh of B goes to the abandoned array 1, and the published root carries the
   STALE B (2) instead of the current one (3) — for every growth policy. *)
Definition w_locked (p : nat) : bool := p =? 10.
Definition w_rheap : rheap := [[1; 2]; [10; 2]; [1; 3; 4]].
Definition w_entries : slice := mkS 1 0 2 2.
Definition w_cur : slice := mkS 2 0 3 3.

(* with a spare cell in the private clone (cap 3: Go's size classes for 5, 7, 9 tables) the append
   works in place, root still aliases txn.tableEntries and the seeded order is harmless *)
Example commit_root_bad_hidden_with_spare_capacity extra :
  let r := commit_root_bad extra w_locked [[1; 2]; [10; 2; 0]; [1; 3; 4]] (mkS 1 0 2 3) w_cur in
  sl_den (fst r) (snd r) = [10; 3; 4].
Proof. vm_compute. reflexivity. Qed.

