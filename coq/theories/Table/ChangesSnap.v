(* Table/ChangesSnap.v — Next on retained snapshots (C07 + C08): any monotone choice of snapshots.
   Every snapshot (OSnap / the ReadTxn returned by OCommit) taken while the iterator's tracker is
   registered in the committed root is stamped with the position of the operation that took it; a
   Next with a fresh read transaction (or the current write transaction) has the position of the
   Next itself. Side condition (`mfriendly`): the snapshot passed to Next is stamped (taken at or
   after the creating transaction committed) and its position is not below that of the snapshot
   passed to the previous refreshing Next. Under it the retention invariant extends to all stamped
   snapshots (SInv): pairwise, later ones retain what earlier ones may make the iterator hold. *)
From SV Require Import Base.Bytes Base.OrdMap KeyEnc.Model KeyEnc.Proofs
                       Table.Model Table.InvDefs Table.Proofs Table.GcProofs Table.Inv Table.Inv2
                       Table.ChangesStream Table.ChangesIter Table.ChangesProofs Table.ChangesRet
                       Table.ChangesHist Table.ChangesFromInit.
From Coq Require Import ZifyN ZifyNat ZifyBool.
Open Scope N_scope.
#[local] Opaque rev_key.

Lemma assoc_In {A} k (v : A) l : assoc k l = Some v -> In (k, v) l.
Proof.
  induction l as [|[a b] r IH]; simpl; [discriminate|].
  destruct (N.eqb_spec k a) as [->|Hne]; [intros H; injection H as ->; now left|auto].
Qed.

(* which operations change the retained snapshots *)
Lemma step_snaps_frame d o : match o with OSnap _ | OCommit _ => False | _ => True end ->
  d_snaps (fst (step d o)) = d_snaps d.
Proof.
  intros Hk. destruct (is_write o) eqn:Hw.
  { now destruct (step_write_spec d o Hw) as [_ [_ [_ [_ [A _]]]]]. }
  destruct o; cbn [is_write] in Hw; try discriminate; try contradiction.
  - cbn [step]. destruct (d_txn d); reflexivity.
  - cbn [step]. destruct (d_txn d); reflexivity.
  - cbn [step]. destruct (src_root d s); [|reflexivity]. destruct (nth_error l tab); reflexivity.
  - cbn [step]. destruct (d_txn d) as [[es old]|]; [|reflexivity].
    destruct (nth_error es tab) as [[t [|]]|]; try reflexivity. destruct (nth_error old tab); reflexivity.
  - pose proof (step_next_cases d iid s take) as Hc. destruct (next_source d iid s); [|now destruct Hc as [-> _]].
    destruct Hc as [it [l [_ [_ Hd]]]]. apply (delivery_frame _ _ _ _ _ Hd).
  - destruct (step_resume_cases d iid take) as [[-> _]|[it [l [_ [_ [_ Hd]]]]]]; [reflexivity|].
    apply (delivery_frame _ _ _ _ _ Hd).
  - cbn [step]. destruct (assoc iid (d_iters d)) as [it|]; [|reflexivity]. destruct (d_txn d); [reflexivity|].
    cbn [fst]. now rewrite gc_trigger_snaps.
  - cbn [step]. destruct (d_gc d); reflexivity.
  - cbn [step]. destruct (d_gc d); try reflexivity. destruct (d_txn d); [reflexivity|].
    cbn [fst]. unfold gc_settle. cbn. destruct (d_gcchan d); reflexivity.
Qed.

Section Snap.
Variables (iid : N) (tab : nat).

Record mg := mkMg {
  mg_now : nat;                    (* position of the next operation of the run *)
  mg_stamps : list (N * nat);      (* snapshot id -> position of the operation that took it *)
  mg_last : nat                    (* position of the snapshot handed to the last refreshing Next *)
}.
Definition mg0 : mg := mkMg 0 [] 0.

Definition unstamp (sid : N) (l : list (N * nat)) : list (N * nat) :=
  filter (fun kv => negb (fst kv =? sid)) l.

(* position of the snapshot a Next is called with; None: an unstamped snapshot *)
Definition src_pos (m : mg) (s : source) : option nat :=
  match s with
  | SFresh | STxn => Some (mg_now m)
  | SSnap sid => assoc sid (mg_stamps m)
  end.

Definition mstep (m : mg) (d : db) (o : op) : mg :=
  let d' := fst (step d o) in
  let stamp sid := if reg_rootb iid tab d' then assoc_set sid (mg_now m) (mg_stamps m)
                   else unstamp sid (mg_stamps m) in
  mkMg (S (mg_now m))
       (match o with
        | OSnap sid => stamp sid
        | OCommit sid => match d_txn d with Some _ => stamp sid | None => mg_stamps m end
        | _ => mg_stamps m
        end)
       (match o with
        | ONext i s _ =>
          if i =? iid then
            match next_source d iid s, src_pos m s with
            | Some _, Some p => p
            | _, _ => mg_last m
            end
          else mg_last m
        | _ => mg_last m
        end).

(* the side condition: any monotone choice of snapshots *)
Definition mfriendly (m : mg) (d : db) (o : op) : Prop :=
  match o with
  | OChanges i _ => i <> iid
  | ONext i s _ => i = iid -> reg_root iid tab d /\
                   exists p, src_pos m s = Some p /\ (mg_last m <= p)%nat
  | OAbort => assoc iid (d_iters d) <> None -> reg_root iid tab d
  | _ => True
  end.

Fixpoint mfriendly_run (m : mg) (d : db) (ops : list op) : Prop :=
  match ops with
  | [] => True
  | o :: r => mfriendly m d o /\ mfriendly_run (mstep m d o) (fst (step d o)) r
  end.

Definition snap_tab (d : db) (sid : N) : option table :=
  match assoc sid (d_snaps d) with Some r => nth_error r tab | None => None end.

Lemma ok_snap d sid X : tables_ok d -> snap_tab d sid = Some X -> TInv X /\ rev_room X.
Proof.
  intros [[_ [_ H1]] [_ [_ H2]]] Hs. unfold snap_tab in Hs. destruct (assoc sid (d_snaps d)) as [r|] eqn:Ha; [|discriminate].
  apply assoc_In in Ha. apply nth_error_In in Hs.
  specialize (H1 _ _ Ha). specialize (H2 _ _ Ha). rewrite Forall_forall in H1, H2. auto.
Qed.

(* Next on retained snapshot sid refreshes from that snapshot's table *)
Lemma next_snap_source d it sid T : assoc iid (d_iters d) = Some it -> it_tab it = tab ->
  next_source d iid (SSnap sid) = Some T -> snap_tab d sid = Some T.
Proof.
  intros Hi Ht Hn. unfold next_source in Hn. rewrite Hi, Ht in Hn. cbn [src_committed] in Hn.
  unfold snap_tab. destruct (assoc sid (d_snaps d)) as [r|]; [|discriminate].
  destruct (nth_error r tab) as [t|]; [|discriminate]. destruct (nth_error (d_root d) tab); [|discriminate].
  match type of Hn with (if ?c then _ else _) = _ => destruct c end; congruence.
Qed.

Definition stamped (m : mg) (d : db) (sid : N) (p : nat) (X : table) : Prop :=
  assoc sid (mg_stamps m) = Some p /\ snap_tab d sid = Some X.

Record SInv (G : table) (m : mg) (d : db) : Prop := mkSInv {
  si_last : (mg_last m <= mg_now m)%nat;
  si_lt : forall sid p, assoc sid (mg_stamps m) = Some p -> (p < mg_now m)%nat;
  (* a stamped snapshot not older than the last one used is a later state than G, retains what G may
     make the iterator hold, and the committed root (and open transaction) retain what IT may *)
  si_one : forall it sid p X, assoc iid (d_iters d) = Some it -> stamped m d sid p X ->
           (mg_last m <= p)%nat ->
           RInv iid tab X d /\ tab_le G X /\ retained G X (it_delrev it);
  (* pairwise, in the order taken *)
  si_two : forall it sid1 p1 X1 sid2 p2 X2, assoc iid (d_iters d) = Some it ->
           stamped m d sid1 p1 X1 -> stamped m d sid2 p2 X2 ->
           (mg_last m <= p1)%nat -> (p1 <= p2)%nat ->
           tab_le X1 X2 /\ retained X1 X2 (it_delrev it)
}.

Lemma SInv_frame G m d m' d' :
  mg_stamps m' = mg_stamps m -> mg_last m' = mg_last m -> mg_now m' = S (mg_now m) ->
  d_snaps d' = d_snaps d ->
  (assoc iid (d_iters d') = assoc iid (d_iters d) \/ assoc iid (d_iters d') = None) ->
  (forall X, RInv iid tab X d -> RInv iid tab X d') ->
  SInv G m d -> SInv G m' d'.
Proof.
  intros E1 E2 E3 E4 E5 HX [S1 S2 S3 S4].
  assert (Hst : forall sid p X, stamped m' d' sid p X -> stamped m d sid p X).
  { unfold stamped, snap_tab. rewrite E1, E4. auto. }
  constructor.
  - rewrite E2, E3. lia.
  - intros sid p H. rewrite E1 in H. rewrite E3. specialize (S2 _ _ H). lia.
  - intros it sid p X Hi Hs Hl. destruct E5 as [E5|E5]; [|congruence]. rewrite E5 in Hi. rewrite E2 in Hl.
    destruct (S3 it sid p X Hi (Hst _ _ _ Hs) Hl) as [A [B C]]. auto.
  - intros it sid1 p1 X1 sid2 p2 X2 Hi H1 H2 Hl Hp. destruct E5 as [E5|E5]; [|congruence].
    rewrite E5 in Hi. rewrite E2 in Hl. eapply S4; eauto.
Qed.

Lemma assoc_unstamp_same sid (l : list (N * nat)) : assoc sid (unstamp sid l) = None.
Proof. apply assoc_filter_same. Qed.
Lemma assoc_unstamp_other sid sid' (l : list (N * nat)) : sid' <> sid -> assoc sid' (unstamp sid l) = assoc sid' l.
Proof. intros H. now apply assoc_filter_other. Qed.

(* what is stamped once a snapshot of the (new) committed root has been taken under id sid: the older
   entries, and sid itself at the present position if the tracker is in that root *)
Lemma stamped_add m d d' sid r' (regd : bool) sid' p X :
  d_snaps d' = assoc_set sid r' (d_snaps d) ->
  stamped (mkMg (S (mg_now m))
                (if regd then assoc_set sid (mg_now m) (mg_stamps m) else unstamp sid (mg_stamps m))
                (mg_last m)) d' sid' p X ->
  (sid' <> sid /\ stamped m d sid' p X) \/
  (sid' = sid /\ regd = true /\ p = mg_now m /\ nth_error r' tab = Some X).
Proof.
  intros Es [H1 H2]. cbn [mg_stamps] in H1. unfold stamped, snap_tab in *. rewrite Es in H2.
  destruct (N.eq_dec sid' sid) as [->|Hne]; [right|left; split; [exact Hne|]].
  - rewrite assoc_set_same in H2.
    destruct regd; [rewrite assoc_set_same in H1; injection H1 as <-; auto|].
    rewrite assoc_unstamp_same in H1. discriminate.
  - rewrite assoc_set_other in H2 by auto. split; [|exact H2].
    destruct regd; [now rewrite assoc_set_other in H1|now rewrite assoc_unstamp_other in H1].
Qed.

Lemma SInv_add G m d d' sid r' (regd : bool) :
  d_snaps d' = assoc_set sid r' (d_snaps d) -> r' = d_root d' ->
  assoc iid (d_iters d') = assoc iid (d_iters d) ->
  (regd = true -> reg_root iid tab d') ->
  RInv iid tab G d' -> (forall X, RInv iid tab X d -> RInv iid tab X d') ->
  tables_ok d' ->
  SInv G m d ->
  SInv G (mkMg (S (mg_now m))
               (if regd then assoc_set sid (mg_now m) (mg_stamps m) else unstamp sid (mg_stamps m))
               (mg_last m)) d'.
Proof.
  intros Es -> Ei Hreg HRG HX HOK [S1 S2 S3 S4].
  (* the new entry is a root holding the tracker: RInv_root applies to it *)
  assert (Hcur : forall it X Y, assoc iid (d_iters d') = Some it -> regd = true ->
            nth_error (d_root d') tab = Some X -> RInv iid tab Y d' ->
            RInv iid tab X d' /\ tab_le Y X /\ retained Y X (it_delrev it)).
  { intros it X Y Hi Hr Hc HY. destruct (Hreg Hr) as [cur [Hc' Hrc]]. assert (cur = X) by congruence. subst cur.
    now apply RInv_root. }
  constructor; cbn [mg_now mg_stamps mg_last].
  - lia.
  - intros sid' p H. destruct regd.
    + destruct (N.eq_dec sid' sid) as [->|Hne]; [rewrite assoc_set_same in H; injection H as <-; lia|].
      rewrite assoc_set_other in H by auto. specialize (S2 _ _ H). lia.
    + destruct (N.eq_dec sid' sid) as [->|Hne]; [rewrite assoc_unstamp_same in H; discriminate|].
      rewrite assoc_unstamp_other in H by auto. specialize (S2 _ _ H). lia.
  - intros it sid' p X Hi Hs Hl. destruct (stamped_add _ _ _ _ _ _ _ _ _ Es Hs) as [[_ Hs']|[_ [Hr [_ Hc]]]].
    + rewrite Ei in Hi. destruct (S3 it sid' p X Hi Hs' Hl) as [A [B C]]. auto.
    + exact (Hcur it X G Hi Hr Hc HRG).
  - intros it sid1 p1 X1 sid2 p2 X2 Hi H1 H2 Hl Hp.
    destruct (stamped_add _ _ _ _ _ _ _ _ _ Es H1) as [[_ H1']|[_ [_ [-> Hc1]]]],
             (stamped_add _ _ _ _ _ _ _ _ _ Es H2) as [[_ H2']|[_ [Hr [-> Hc2]]]].
    + rewrite Ei in Hi. eapply S4; eauto.
    + (* an older snapshot against the new one *)
      rewrite Ei in Hi. destruct (S3 it sid1 p1 X1 Hi H1' Hl) as [A _]. rewrite <- Ei in Hi.
      apply (Hcur it X2 X1 Hi Hr Hc2 (HX _ A)).
    + (* the new one cannot come before an older one *)
      exfalso. destruct H2' as [Hq _]. specialize (S2 _ _ Hq). lia.
    + assert (X1 = X2) by congruence. subst. split; [apply tab_le_refl|apply retained_refl].
Qed.

(* a Next / Resume of iid: cursor and watermark move up, the anchor moves to A (position q) *)
Lemma SInv_bumped G A m d d' it it2 q :
  assoc iid (d_iters d) = Some it -> bumped iid d d' it it2 -> it_delrev it2 <= t_rev A -> TInv A ->
  reg_root iid tab d -> tables_ok d -> SInv G m d ->
  (mg_last m <= q)%nat -> (q <= mg_now m)%nat ->
  (forall sid p X, stamped m d sid p X -> (q <= p)%nat -> tab_le A X /\ retained A X (it_delrev it)) ->
  SInv A (mkMg (S (mg_now m)) (mg_stamps m) q) d'.
Proof.
  intros Hi HB Hle HIA Hreg HOK [S1 S2 S3 S4] Hq1 Hq2 HA.
  pose proof HB as [B1 B2 B3 B4 B5 B6 B7 B8].
  assert (Hst : forall sid p X, stamped (mkMg (S (mg_now m)) (mg_stamps m) q) d' sid p X -> stamped m d sid p X).
  { unfold stamped, snap_tab. cbn [mg_stamps]. rewrite B5. auto. }
  constructor; cbn [mg_now mg_stamps mg_last].
  - lia.
  - intros sid p H. specialize (S2 _ _ H). lia.
  - intros it' sid p X Hi' Hs Hl. rewrite B1 in Hi'. injection Hi' as <-. apply Hst in Hs.
    assert (Hl0 : (mg_last m <= p)%nat) by (clear - Hq1 Hl; lia).
    destruct (S3 it sid p X Hi Hs Hl0) as [R _]. destruct (HA _ _ _ Hs Hl) as [L Rt].
    split; [|split; [exact L|]].
    + apply (RInv_bump iid tab X d d' it it2); auto. destruct L as [L0 _]. clear - L0 Hle. lia.
    + apply (retained_raise A X (it_delrev it)); auto.
  - intros it' sid1 p1 X1 sid2 p2 X2 Hi' H1 H2 Hl Hp. rewrite B1 in Hi'. injection Hi' as <-.
    apply Hst in H1, H2. assert (Hl0 : (mg_last m <= p1)%nat) by (clear - Hq1 Hl; lia).
    destruct (S4 it _ _ _ _ _ _ Hi H1 H2 Hl0 Hp) as [L Rt].
    split; [exact L|]. destruct (HA _ _ _ H1 Hl) as [[LA _] _].
    pose proof (proj1 (ok_snap _ _ _ HOK (proj2 H1))) as HI1.
    apply (retained_raise X1 X2 (it_delrev it)); auto. clear - LA Hle. lia.
Qed.

Lemma mfriendly_friendly m d o : mfriendly m d o ->
  (forall sid take, o <> ONext iid (SSnap sid) take) -> friendly iid tab d o.
Proof.
  destruct o; cbn [mfriendly friendly]; auto. intros H Hn E. subst. destruct (H eq_refl) as [Hr _].
  split; auto. destruct s; auto. exfalso. eapply Hn; reflexivity.
Qed.

Lemma mstep_plain m d o :
  match o with OSnap _ | OCommit _ => False | _ => True end -> is_self iid o = false ->
  mg_stamps (mstep m d o) = mg_stamps m /\ mg_last (mstep m d o) = mg_last m /\
  mg_now (mstep m d o) = S (mg_now m).
Proof. destruct o; cbn [mstep is_self mg_stamps mg_last mg_now]; try contradiction; auto; intros _ ->; auto. Qed.

Lemma iters_passive d o : is_self iid o = false -> friendly iid tab d o ->
  assoc iid (d_iters (fst (step d o))) = assoc iid (d_iters d) \/ assoc iid (d_iters (fst (step d o))) = None.
Proof.
  intros Hs Hf. destruct (touches iid o) eqn:Ht; [|left; now apply step_iters_frame].
  destruct o; cbn [touches is_self friendly] in *; try discriminate; try congruence.
  - apply N.eqb_eq in Ht. congruence.
  - apply N.eqb_eq in Ht. subst. destruct (step_close_self d iid) as [->|Hn]; auto.
Qed.

Lemma SInv_same G m d m' : mg_stamps m' = mg_stamps m -> mg_last m' = mg_last m -> mg_now m' = S (mg_now m) ->
  SInv G m d -> SInv G m' d.
Proof. intros E1 E2 E3. apply (SInv_frame G m d m' d); auto. Qed.

Lemma SInv_passive G m d o : is_self iid o = false -> wf d -> tables_ok d -> tables_ok (fst (step d o)) ->
  friendly iid tab d o -> RInv iid tab G (fst (step d o)) ->
  SInv G m d -> SInv G (mstep m d o) (fst (step d o)).
Proof.
  intros Hs HW HOK HOK' Hf HR1 HSI.
  assert (HX : forall X, RInv iid tab X d -> RInv iid tab X (fst (step d o))).
  { intros X HX. now apply RInv_passive. }
  assert (Hplain : match o with OSnap _ | OCommit _ => False | _ => True end -> SInv G (mstep m d o) (fst (step d o))).
  { intros Hp. destruct (mstep_plain m d o Hp Hs) as [E1 [E2 E3]].
    apply (SInv_frame G m d); auto; [now apply step_snaps_frame|now apply iters_passive]. }
  destruct o; try (apply Hplain; exact I).
  - (* OCommit *)
    unfold mstep. cbn [step] in *.
    destruct (d_txn d) as [[es old]|] eqn:Et; [|apply (SInv_same G m); auto]. cbn [fst] in *.
    match goal with |- context [reg_rootb iid tab ?dd] => set (d' := dd) in * end.
    apply (SInv_add G m d d' sid (d_root d') (reg_rootb iid tab d')); auto. apply reg_rootb_ok.
  - (* OSnap *)
    unfold mstep. cbn [step fst] in *.
    match goal with |- context [reg_rootb iid tab ?dd] => set (d' := dd) in * end.
    apply (SInv_add G m d d' sid (d_root d') (reg_rootb iid tab d')); auto. apply reg_rootb_ok.
Qed.

Lemma SInv_next_fresh g m d s take : (s = SFresh \/ s = STxn) -> tables_ok d ->
  sinv true iid g d -> RInv iid tab (fst g) d -> SInv (fst g) m d ->
  friendly iid tab d (ONext iid s take) -> good_step true iid (fst g) d (ONext iid s take) ->
  SInv (fst (gstep iid g d (ONext iid s take))) (mstep m d (ONext iid s take)) (fst (step d (ONext iid s take))).
Proof.
  intros Hs HOK [_ HS'] HR HSI Hf HG. unfold mstep. cbn [gstep]. rewrite !N.eqb_refl. cbn [fst].
  assert (Hp : src_pos m s = Some (mg_now m)) by (destruct Hs as [->| ->]; reflexivity). rewrite Hp.
  destruct (next_source d iid s) as [T|] eqn:Hn.
  2:{ destruct (step_next_none d iid s take Hn) as [-> _]. apply (SInv_same (fst g) m); auto. }
  destruct (assoc iid (d_iters d)) as [it|] eqn:Hi.
  2:{ unfold next_source in Hn. rewrite Hi in Hn. discriminate. }
  destruct (HS' it eq_refl) as [HO _]. cbn [good_step] in HG.
  destruct (HG eq_refl T it Hn Hi) as [HleT [HIT [HRoT _]]].
  cbn [friendly] in Hf. destruct (Hf eq_refl) as [_ Hreg].
  destruct (bumped_next iid (fst g) d s take it (snd g) T Hi HO Hn HleT HIT HRoT) as [it2 [HB HD]].
  apply (SInv_bumped (fst g) T m d _ it it2 (mg_now m)); auto.
  - apply (si_last _ _ _ HSI).
  - intros sid p X [Hst _] Hpp. pose proof (si_lt _ _ _ HSI _ _ Hst). lia.
Qed.

Lemma SInv_resume g m d take : tables_ok d ->
  sinv true iid g d -> RInv iid tab (fst g) d -> SInv (fst g) m d ->
  SInv (fst g) (mstep m d (OResume iid take)) (fst (step d (OResume iid take))).
Proof.
  intros HOK [_ HS'] HR HSI. unfold mstep.
  assert (Hno : fst (step d (OResume iid take)) = d ->
                SInv (fst g) (mkMg (S (mg_now m)) (mg_stamps m) (mg_last m)) (fst (step d (OResume iid take)))).
  { intros ->. apply (SInv_same (fst g) m); auto. }
  destruct (assoc iid (d_iters d)) as [it|] eqn:Hi; [|apply Hno; cbn [step]; now rewrite Hi].
  destruct (it_pending it) as [l|] eqn:Hp; [|apply Hno; cbn [step]; now rewrite Hi, Hp].
  destruct (it_seq it) eqn:Hs; [|apply Hno; cbn [step]; now rewrite Hi, Hp, Hs].
  destruct (HS' it eq_refl) as [HO _].
  destruct (bumped_resume iid (fst g) d take it (snd g) l Hi HO Hp Hs) as [it2 [HB HD]].
  apply (SInv_bumped (fst g) (fst g) m d _ it it2 (mg_last m)); auto.
  - apply (oi_tinv _ _ _ HO).
  - eapply RInv_seq_reg; eauto.
  - apply (si_last _ _ _ HSI).
  - intros sid p X Hst Hpp. destruct (si_one _ _ _ HSI it sid p X Hi Hst Hpp) as [_ [A B]]. auto.
Qed.

(* Next of iid on a retained snapshot: stamped, and not older than the one used last *)
Lemma MInv_next_snap g m d sid take : tables_ok d ->
  sinv true iid g d -> RInv iid tab (fst g) d -> SInv (fst g) m d -> mfriendly m d (ONext iid (SSnap sid) take) ->
  let o := ONext iid (SSnap sid) take in
  RInv iid tab (fst (gstep iid g d o)) (fst (step d o)) /\
  SInv (fst (gstep iid g d o)) (mstep m d o) (fst (step d o)) /\ good_step true iid (fst g) d o.
Proof.
  intros HOK [_ HS'] HR HSI Hf o. unfold o, mstep. cbn [gstep src_pos]. rewrite !N.eqb_refl. cbn [fst mfriendly] in *.
  destruct (Hf eq_refl) as [Hreg [p [Hp Hlp]]]. cbn [src_pos] in Hp. rewrite Hp.
  destruct (next_source d iid (SSnap sid)) as [T|] eqn:Hn.
  2:{ destruct (step_next_none d iid (SSnap sid) take Hn) as [-> _].
      split; [exact HR|]. split; [apply (SInv_same (fst g) m); auto|]. cbn [good_step]. intros _ T it Hn'. congruence. }
  destruct (next_source_iter _ _ _ _ Hn) as [it Hi]. destruct (HS' it Hi) as [HO _].
  assert (Hst : stamped m d sid p T) by (split; [exact Hp|exact (next_snap_source d it sid T Hi (RInv_tab _ _ _ _ _ HR Hi) Hn)]).
  destruct (si_one _ _ _ HSI it sid p T Hi Hst Hlp) as [HRT [HleT HretT]].
  destruct (ok_snap _ _ _ HOK (proj2 Hst)) as [HIT HRoT].
  destruct (bumped_next iid (fst g) d (SSnap sid) take it (snd g) T Hi HO Hn HleT HIT HRoT) as [it2 [HB HD]].
  split; [eapply RInv_bump; eauto|]. split.
  - apply (SInv_bumped (fst g) T m d _ it it2 p); auto.
    + pose proof (si_lt _ _ _ HSI _ _ Hp). lia.
    + intros sid' p' X Hs' Hpp. eapply (si_two _ _ _ HSI); eauto.
  - cbn [good_step]. intros _ T' it' Hn' Hi'. rewrite Hn in Hn'. injection Hn' as <-.
    rewrite Hi in Hi'. injection Hi' as <-. auto.
Qed.

Lemma MInv_step g m d o : wf d -> tables_ok d -> tables_ok (fst (step d o)) ->
  sinv true iid g d -> RInv iid tab (fst g) d -> SInv (fst g) m d -> mfriendly m d o ->
  RInv iid tab (fst (gstep iid g d o)) (fst (step d o)) /\
  SInv (fst (gstep iid g d o)) (mstep m d o) (fst (step d o)) /\
  good_step true iid (fst g) d o.
Proof.
  intros HW HOK HOK' HS HR HSI Hf.
  (* everything but a Next on a retained snapshot satisfies `friendly`: RInv and good_step come from RInv_step *)
  assert (Hfr : friendly iid tab d o -> SInv (fst (gstep iid g d o)) (mstep m d o) (fst (step d o)) ->
            RInv iid tab (fst (gstep iid g d o)) (fst (step d o)) /\
            SInv (fst (gstep iid g d o)) (mstep m d o) (fst (step d o)) /\ good_step true iid (fst g) d o).
  { intros Hfr HS1. destruct (RInv_step iid tab g d _ HW HOK HOK' HS HR Hfr) as [HR1 HG]. auto. }
  destruct (is_self iid o) eqn:Hself.
  - destruct o; cbn [is_self] in Hself; try discriminate; apply N.eqb_eq in Hself; subst iid0.
    + (* ONext iid *)
      destruct s as [|sid|]; [|now apply MInv_next_snap|];
        (eassert (Hf' : friendly iid tab d (ONext iid _ take))
           by (eapply mfriendly_friendly; [exact Hf|]; intros ? ? E; discriminate);
         apply (Hfr Hf'); apply SInv_next_fresh; auto; apply (RInv_step iid tab g d _ HW HOK HOK' HS HR Hf')).
    + (* OResume iid *)
      apply (Hfr I). cbn [gstep]. rewrite N.eqb_refl. cbn [fst]. now apply SInv_resume.
  - assert (Hf' : friendly iid tab d o).
    { eapply mfriendly_friendly; [exact Hf|]. intros ? ? ->. cbn in Hself. now rewrite N.eqb_refl in Hself. }
    apply (Hfr Hf'). pose proof (proj1 (RInv_step iid tab g d _ HW HOK HOK' HS HR Hf')) as H.
    rewrite gstep_passive in * by auto. now apply SInv_passive.
Qed.

Fixpoint mrun (m : mg) (d : db) (ops : list op) : mg :=
  match ops with
  | [] => m
  | o :: r => mrun (mstep m d o) (fst (step d o)) r
  end.

Theorem mono_run ops : forall g m d,
  wf d -> sinv true iid g d -> RInv iid tab (fst g) d -> SInv (fst g) m d ->
  ok_run d ops -> mfriendly_run m d ops ->
  good_run true iid g d ops /\
  RInv iid tab (fst (grun iid g d ops)) (fst (run d ops)) /\
  SInv (fst (grun iid g d ops)) (mrun m d ops) (fst (run d ops)).
Proof.
  induction ops as [|o r IH]; intros g m d HW HS HR HSI HOK HF; cbn [good_run grun run mrun]; [auto|].
  destruct HOK as [HOK HOKr], HF as [HF HFr].
  destruct (MInv_step g m d o HW HOK (ok_run_head _ _ HOKr) HS HR HSI HF) as [HR1 [HSI1 HG]].
  pose proof (sinv_step true iid g d o HS HG) as HS1.
  pose proof (wf_step d o HW HOK) as HW1.
  destruct (IH _ _ _ HW1 HS1 HR1 HSI1 HOKr HFr) as [A [B C]].
  destruct (step d o) as [d1 x]. cbn [fst] in *. destruct (run d1 r) as [d2 xs]. cbn [fst] in *. auto.
Qed.

Lemma SInv_created G d : SInv G mg0 d.
Proof.
  constructor; cbn [mg0 mg_last mg_now mg_stamps]; auto.
  - intros sid p H. discriminate.
  - intros it sid p X _ [H _]. discriminate.
  - intros it sid1 p1 X1 sid2 p2 X2 _ [H _]. discriminate.
Qed.

Section FromInitMono.
Variables (n : nat) (pre : list op) (t0 : table) (ops : list op).
Let d := fst (run (init_db n) pre).
Let d0 := fst (step d (OChanges iid tab)).
Hypothesis Hroom : room_run (init_db n) (pre ++ OChanges iid tab :: ops).
Hypothesis Hcreated : created d iid tab t0.
Hypothesis Hfresh : forall cur, nth_error (d_root d) tab = Some cur -> ~ reg iid cur.
Hypothesis Hmono : mfriendly_run mg0 d0 ops.

Lemma mono_facts : good_run true iid (t0, []) d0 ops /\ TInv t0 /\ rev_room t0 /\
  RInv iid tab (fst (grun iid (t0, []) d0 ops)) (fst (run d0 ops)).
Proof.
  destruct (from_init_facts n pre iid tab ops Hroom) as [HW [HOK HOKr]]. fold d in HW, HOK. fold d0 in HOKr.
  destruct (created_ok iid tab _ _ Hcreated HOK) as [HI0 HR0].
  destruct (mono_run ops (t0, []) mg0 d0 (wf_step d _ HW HOK) (sinv_created true d iid tab t0 Hcreated HI0 HR0)
                     (RInv_created iid tab d t0 Hcreated HW HOK Hfresh) (SInv_created _ _) HOKr Hmono) as [A [B _]].
  auto.
Qed.

End FromInitMono.
End Snap.

Definition mfriendlyb (iid : N) (tab : nat) (m : mg) (d : db) (o : op) : bool :=
  match o with
  | OChanges i _ => negb (i =? iid)
  | ONext i s _ => negb (i =? iid) ||
                   (reg_rootb iid tab d &&
                    match src_pos m s with Some p => Nat.leb (mg_last m) p | None => false end)
  | OAbort => reg_rootb iid tab d
  | _ => true
  end.

Lemma mfriendlyb_ok iid tab m d o : mfriendlyb iid tab m d o = true -> mfriendly iid tab m d o.
Proof.
  destruct o; cbn [mfriendlyb mfriendly]; auto.
  - intros H _. now apply reg_rootb_ok.
  - intros H. now apply negb_true_iff, N.eqb_neq in H.
  - intros H E. subst. rewrite N.eqb_refl in H. cbn in H. apply andb_true_iff in H. destruct H as [A B].
    split; [now apply reg_rootb_ok|]. destruct (src_pos m s) as [p|]; [|discriminate].
    exists p. split; auto. now apply Nat.leb_le.
Qed.

Fixpoint mfriendly_runb (iid : N) (tab : nat) (m : mg) (d : db) (ops : list op) : bool :=
  match ops with
  | [] => true
  | o :: r => mfriendlyb iid tab m d o && mfriendly_runb iid tab (mstep iid tab m d o) (fst (step d o)) r
  end.

Lemma mfriendly_runb_ok iid tab ops : forall m d,
  mfriendly_runb iid tab m d ops = true -> mfriendly_run iid tab m d ops.
Proof.
  induction ops as [|o r IH]; intros m d H; cbn [mfriendly_runb mfriendly_run] in *; auto.
  apply andb_true_iff in H. destruct H as [A B]. split; [now apply mfriendlyb_ok|auto].
Qed.

(* Next on the ReadTxn returned by the creating Commit (partially consumed), a retained snapshot taken
   before a delete / re-insert / re-delete of the same key, a collection scan and apply in between,
   Next on that old snapshot, then on a later one, then on a fresh transaction *)
Definition sx_ops : list op :=
  [OCommit 1; ONext 7 (SSnap 1) (Some 1%nat);
   OBegin [0%nat]; ODelete 0 [97]; OInsert 0 (mkP [98] 5 [] [] [] []); OCommit 2;
   OBegin [0%nat]; OInsert 0 ex_a; OCommit 3; OSnap 4; OGcScan;
   OBegin [0%nat]; ODelete 0 [97]; OCommit 5;
   ONext 7 (SSnap 2) None; OGcApply; ONext 7 (SSnap 4) None; OGcScan; OGcApply;
   ONext 7 (SSnap 5) (Some 0%nat)].

Example mono_hypotheses_satisfiable :
  let d := fst (run (init_db 1) ex_pre) in
  let d0 := fst (step d (OChanges 7 0)) in
  let all := sx_ops ++ [ONext 7 SFresh None] in
  room_run (init_db 1) (ex_pre ++ OChanges 7 0 :: all) /\
  (exists t0, created d 7 0 t0) /\
  (forall cur, nth_error (d_root d) 0 = Some cur -> ~ reg 7 cur) /\
  mfriendly_run 7 0 mg0 d0 all /\
  (exists S, next_source (fst (run d0 sx_ops)) 7 SFresh = Some S) /\
  map (fun c => (p_id (o_data (fst c)), o_rev (fst c), snd c)) (delivered 7 d0 all) =
    [([97], 1, false); ([97], 3, true); ([98], 4, false); ([97], 5, false); ([97], 6, true)] /\
  replay (delivered 7 d0 all) = [([98], (5, 4))].
Proof.
  cbv zeta. split; [apply room_runb_ok; vm_compute; reflexivity|].
  split; [vm_compute; do 4 eexists; split; [reflexivity|split; reflexivity]|].
  split; [intros cur H; vm_compute in H; injection H as <-; vm_compute; tauto|].
  split; [apply mfriendly_runb_ok; vm_compute; reflexivity|].
  split; [vm_compute; eexists; reflexivity|].
  split; vm_compute; reflexivity.
Qed.
