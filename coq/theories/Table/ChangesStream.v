(* Table/ChangesStream.v — the two revision-ordered streams a change iterator merges
   (iterator.go changeIterator.refresh, dualIterator.next): what LowerBound on the revision
   index / graveyard-revision index returns under the table invariant, and what the merge
   of the two streams is. *)
From SV Require Import Base.Bytes Base.OrdMap KeyEnc.Model KeyEnc.Proofs
                       Table.Model Table.InvDefs Table.Inv.
From Coq Require Import ZifyN ZifyNat ZifyBool Permutation.
Open Scope N_scope.
#[local] Opaque rev_key.

(* one more revision can be assigned without leaving uint64 (rev_key (r + 1) stays injective) *)
Definition rev_room (t : table) : Prop := t_rev t < 18446744073709551615.

Lemma rev_room_bound t : rev_room t -> rev_bound t.
Proof. unfold rev_room, rev_bound. lia. Qed.

Fixpoint asc (l : list N) : Prop :=
  match l with
  | [] => True
  | x :: r => Forall (N.lt x) r /\ asc r
  end.

Lemma asc_app l1 : forall l2, asc (l1 ++ l2) <->
  asc l1 /\ asc l2 /\ forall x y, In x l1 -> In y l2 -> x < y.
Proof.
  induction l1 as [|a l1 IH]; intros l2; simpl.
  - split; [intros H; repeat split; auto; intros x y []|tauto].
  - rewrite IH, Forall_app. split.
    + intros [[F1 F2] [A1 [A2 H]]]. repeat split; auto.
      intros x y [<-|Hx] Hy; [|auto]. rewrite Forall_forall in F2. auto.
    + intros [[F1 A1] [A2 H]]. repeat split; auto.
      apply Forall_forall. intros y Hy. apply H; auto.
Qed.

Lemma asc_NoDup l : asc l -> NoDup l.
Proof.
  induction l as [|x r IH]; simpl; [constructor|]. intros [F A]. constructor; auto.
  intros Hin. rewrite Forall_forall in F. specialize (F _ Hin). lia.
Qed.

Definition revkeyed (m : idx) : Prop :=
  forall k o, In (k, o) m -> k = rev_key (o_rev o) /\ o_rev o < B64.

Lemma revkeyed_tail kv m : revkeyed (kv :: m) -> revkeyed m.
Proof. intros H k o Hin. apply H. now right. Qed.

Lemma revkeyed_asc m : om_sorted m -> revkeyed m -> asc (map o_rev (vals m)).
Proof.
  induction m as [|[k o] r IH]; simpl; auto. intros [Ha Hs] Hk. split.
  - apply Forall_forall. intros x Hx. unfold vals in Hx. rewrite map_map in Hx.
    apply in_map_iff in Hx. destruct Hx as [[k' o'] [<- Hin]]. simpl.
    destruct (Hk k o (or_introl eq_refl)) as [-> Hb].
    destruct (Hk k' o' (or_intror Hin)) as [-> Hb'].
    pose proof (om_above_in _ _ _ _ Ha Hin) as Hl. now apply rev_key_mono in Hl.
  - apply IH; auto. eapply revkeyed_tail; eauto.
Qed.

Lemma lower_bound_revkeyed k m : om_sorted m -> revkeyed m -> revkeyed (om_lower_bound k m).
Proof. intros Hs Hk k' o Hin. apply om_lower_bound_spec in Hin; auto. apply Hk. tauto. Qed.

(* LowerBound(rev_key r) on a revision-keyed index: exactly the entries with revision >= r,
   in strictly ascending revision order *)
Lemma rev_stream_spec m r : om_sorted m -> revkeyed m -> r < B64 ->
  asc (map o_rev (vals (om_lower_bound (rev_key r) m))) /\
  forall o, In o (vals (om_lower_bound (rev_key r) m)) <-> In (rev_key (o_rev o), o) m /\ r <= o_rev o.
Proof.
  intros Hs Hk Hr. split.
  - apply revkeyed_asc; [now apply om_lower_bound_sorted|now apply lower_bound_revkeyed].
  - intros o. unfold vals. rewrite in_map_iff. split.
    + intros [[k o'] [E Hin]]. simpl in E. subst o'. apply om_lower_bound_spec in Hin; auto.
      destruct Hin as [Hin Hl]. destruct (Hk _ _ Hin) as [-> Hb]. split; auto. simpl in Hl.
      destruct (N.lt_ge_cases (o_rev o) r) as [Hlt|]; auto.
      apply rev_key_mono in Hlt; auto. apply bytes_ltb_spec in Hlt. congruence.
    + intros [Hin Hle]. exists (rev_key (o_rev o), o). split; auto.
      apply om_lower_bound_spec; auto. split; auto. simpl.
      destruct (bytes_ltb (rev_key (o_rev o)) (rev_key r)) eqn:E; auto.
      apply bytes_ltb_spec in E. destruct (Hk _ _ Hin) as [_ Hb]. apply rev_key_mono in E; auto. lia.
Qed.

Definition upd_stream (t : table) (r : N) : list object := vals (om_lower_bound (rev_key r) (t_revidx t)).
Definition del_stream (t : table) (r : N) : list object := vals (om_lower_bound (rev_key r) (t_graverev t)).

Section Streams.
Variable t : table.
Hypothesis HI : TInv t.
Hypothesis HB : rev_bound t.

Lemma revidx_revkeyed : revkeyed (t_revidx t).
Proof.
  intros k o Hin. apply (ti_revidx t HI) in Hin. destruct Hin as [-> Hl]. split; auto.
  pose proof (live_rev t HI _ Hl). unfold rev_bound, B64 in *. lia.
Qed.

Lemma graverev_revkeyed : revkeyed (t_graverev t).
Proof.
  intros k o Hin. apply (ti_graverev t HI) in Hin. destruct Hin as [-> Hl]. split; auto.
  pose proof (dead_rev t HI _ Hl). unfold rev_bound, B64 in *. lia.
Qed.

(* LowerBound(ByRevision(r)): exactly the live objects with revision >= r, strictly ascending *)
Theorem upd_stream_spec r : r < B64 ->
  asc (map o_rev (upd_stream t r)) /\ forall o, In o (upd_stream t r) <-> live t o /\ r <= o_rev o.
Proof.
  intros Hr. destruct (rev_stream_spec (t_revidx t) r (ti_sorted_revidx t HI) revidx_revkeyed Hr) as [H1 H2].
  split; auto. intros o. unfold upd_stream. rewrite H2, (ti_revidx t HI). tauto.
Qed.

(* deleteTracker.deleted(r): exactly the retained deleted objects with deletion revision >= r *)
Theorem del_stream_spec r : r < B64 ->
  asc (map o_rev (del_stream t r)) /\ forall o, In o (del_stream t r) <-> dead t o /\ r <= o_rev o.
Proof.
  intros Hr. destruct (rev_stream_spec (t_graverev t) r (ti_sorted_graverev t HI) graverev_revkeyed Hr) as [H1 H2].
  split; auto. intros o. unfold del_stream. rewrite H2, (ti_graverev t HI). tauto.
Qed.
End Streams.

(* dualIterator: merge of the two streams *)
Definition crev (c : object * bool) : N := o_rev (fst c).
Definition tag (b : bool) (l : list object) : list (object * bool) := map (fun o => (o, b)) l.

Lemma merge_nil_r f : forall dels, (length dels <= f)%nat -> merge_streams f dels [] = tag true dels.
Proof.
  induction f as [|f IH]; intros [|d dr] H; simpl in *; auto; [lia|]. f_equal. apply IH. lia.
Qed.

Lemma merge_nil_l f : forall upds, (length upds <= f)%nat -> merge_streams f [] upds = tag false upds.
Proof.
  induction f as [|f IH]; intros [|d dr] H; simpl in *; auto; [lia|]. f_equal. apply IH. lia.
Qed.

Lemma in_tag o b b' l : In (o, b) (tag b' l) <-> b = b' /\ In o l.
Proof.
  unfold tag. rewrite in_map_iff. split.
  - intros [x [E H]]. injection E as -> ->. auto.
  - intros [-> H]. exists o; auto.
Qed.

Lemma merge_perm f : forall dels upds, (length dels + length upds <= f)%nat ->
  Permutation (merge_streams f dels upds) (tag true dels ++ tag false upds).
Proof.
  induction f as [|f IH]; intros dels upds H.
  - destruct dels, upds; simpl in *; try lia. constructor.
  - destruct dels as [|d dr], upds as [|u ur]; cbn [merge_streams].
    + constructor.
    + simpl. constructor. rewrite merge_nil_l by (simpl in H; lia). reflexivity.
    + simpl. constructor. rewrite merge_nil_r by (simpl in H; lia). now rewrite app_nil_r.
    + destruct (o_rev d <=? o_rev u).
      * simpl. constructor. apply IH. simpl in *. lia.
      * etransitivity; [apply perm_skip; apply (IH (d :: dr) ur); simpl in *; lia|].
        simpl. change ((u, false) :: (d, true) :: tag true dr ++ tag false ur)
          with ((u, false) :: ((d, true) :: tag true dr) ++ tag false ur).
        apply Permutation_middle.
Qed.

Lemma merge_in f dels upds o b : (length dels + length upds <= f)%nat ->
  (In (o, b) (merge_streams f dels upds) <-> if b then In o dels else In o upds).
Proof.
  intros H. pose proof (merge_perm f dels upds H) as P. split.
  - intros Hin. apply (Permutation_in _ P) in Hin. apply in_app_iff in Hin.
    destruct Hin as [Hin|Hin]; apply in_tag in Hin; destruct Hin as [-> Hin]; auto.
  - intros Hin. apply (Permutation_in _ (Permutation_sym P)). apply in_app_iff.
    destruct b; [left|right]; apply in_tag; auto.
Qed.

Lemma asc_cons_inv x l : asc (x :: l) -> asc l /\ forall y, In y l -> x < y.
Proof. simpl. intros [F A]. split; auto. now rewrite Forall_forall in F. Qed.

Lemma merge_above x f : forall dels upds,
  Forall (N.lt x) (map o_rev dels) -> Forall (N.lt x) (map o_rev upds) ->
  Forall (N.lt x) (map crev (merge_streams f dels upds)).
Proof.
  induction f as [|f IH]; intros dels upds Hd Hu; [constructor|].
  destruct dels as [|d dr], upds as [|u ur]; cbn [merge_streams]; [constructor|..].
  - inversion_clear Hu. constructor; [assumption|]. apply IH; [constructor|assumption].
  - inversion_clear Hd. constructor; [assumption|]. apply IH; [assumption|constructor].
  - destruct (o_rev d <=? o_rev u); [inversion_clear Hd|inversion_clear Hu];
      (constructor; [assumption|]; apply IH; assumption).
Qed.

Lemma merge_asc f : forall dels upds, (length dels + length upds <= f)%nat ->
  asc (map o_rev dels) -> asc (map o_rev upds) ->
  (forall d u, In d dels -> In u upds -> o_rev d <> o_rev u) ->
  asc (map crev (merge_streams f dels upds)).
Proof.
  induction f as [|f IH]; intros dels upds H Ad Au Hx.
  - destruct dels, upds; simpl in *; try lia; auto.
  - destruct dels as [|d dr], upds as [|u ur]; cbn [merge_streams]; [exact I|..].
    + destruct Au as [Fu Au]. split; [apply merge_above; [constructor|exact Fu]|].
      apply IH; [simpl in *; lia|exact I|exact Au|intros ? ? []].
    + destruct Ad as [Fd Ad]. split; [apply merge_above; [exact Fd|constructor]|].
      apply IH; [simpl in *; lia|exact Ad|exact I|intros ? ? ? []].
    + assert (Hne : o_rev d <> o_rev u) by (apply Hx; now left).
      pose proof Ad as [Fd Ad']. pose proof Au as [Fu Au'].
      (* the head taken is below the other head, hence below the rest of the other stream *)
      destruct (N.leb_spec (o_rev d) (o_rev u)) as [Hle|Hgt]; cbn [map asc]; split.
      * apply (merge_above (o_rev d)); [exact Fd|]. constructor; [lia|]. eapply Forall_impl; [|exact Fu]. intros y; lia.
      * apply IH; auto; [simpl in *; lia|]. intros d' u' Hd' Hu'. apply Hx; auto. now right.
      * apply (merge_above (o_rev u)); [|exact Fu]. constructor; [lia|]. eapply Forall_impl; [|exact Fd]. intros y; lia.
      * apply IH; auto; [simpl in *; lia|]. intros d' u' Hd' Hu'. apply Hx; auto. now right.
Qed.

(* l holds, strictly ascending, exactly the retained deletions above D and the live objects above R *)
Definition pend_spec (l : list (object * bool)) (G : table) (R D : N) : Prop :=
  asc (map crev l) /\
  forall o b, In (o, b) l <-> (if b then dead G o /\ D < o_rev o else live G o /\ R < o_rev o).

Theorem refresh_spec S it : TInv S -> rev_bound S ->
  it_rev it + 1 < B64 -> it_delrev it + 1 < B64 ->
  exists l, it_pending (refresh S it) = Some l /\ pend_spec l S (it_rev it) (it_delrev it) /\
    Permutation l (tag true (del_stream S (it_delrev it + 1)) ++ tag false (upd_stream S (it_rev it + 1))).
Proof.
  intros HI HB HR HD. unfold refresh. cbn [it_pending].
  fold (upd_stream S (it_rev it + 1)). fold (del_stream S (it_delrev it + 1)).
  destruct (upd_stream_spec S HI HB _ HR) as [Au Iu]. destruct (del_stream_spec S HI HB _ HD) as [Ad Id].
  set (upds := upd_stream S (it_rev it + 1)) in *. set (dels := del_stream S (it_delrev it + 1)) in *.
  assert (Hf : (length dels + length upds <= length upds + length dels)%nat) by lia.
  eexists. split; [reflexivity|]. split; [|now apply merge_perm]. split.
  - apply merge_asc; auto. intros d u Hd Hu. apply Id in Hd. apply Iu in Hu.
    intros E. apply (ti_rev_distinct_cross S HI u d); [tauto|tauto|now symmetry].
  - intros o b. rewrite merge_in by auto. destruct b; [rewrite Id|rewrite Iu]; split; intros [H1 H2]; split; auto; lia.
Qed.
