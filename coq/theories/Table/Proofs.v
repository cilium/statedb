(* Table/Proofs.v — first layer of facts about the table model: results and frame
   conditions of the write operations, revision arithmetic, transaction frame. *)
From SV Require Import Base.Bytes Base.OrdMap KeyEnc.Model Table.Model.
From Coq Require Import ZifyN ZifyNat ZifyBool.
Open Scope N_scope.

(* modify = a guard on the stored revision, then an unconditional write *)
Definition new_object (m : bool) (p : payload) (t : table) : object :=
  match m, om_get (p_id p) (t_primary t) with
  | true, Some o => mkO (merge_payload (o_data o) p) (t_rev t + 1)
  | _, _ => mkO p (t_rev t + 1)
  end.

Definition old_object (id : bytes) (t : table) : object :=
  match om_get id (t_primary t) with Some o => o | None => noobj end.

Definition guard_err (g : N) (old : option object) : werr :=
  if 0 <? g then match old with
                 | None => ENotFound
                 | Some o => if o_rev o =? g then EOk else ERevMismatch
                 end
  else EOk.

Definition put (m : bool) (p : payload) (t : table) : table := fst (modify 0 m p t).

Lemma modify_eq g m p t :
  let old := om_get (p_id p) (t_primary t) in
  modify g m p t = (match guard_err g old with EOk => put m p t | _ => t end, (old, guard_err g old)).
Proof.
  unfold put, modify, modify_with, guard_err. change (0 <? 0) with false. cbv iota.
  destruct (om_get (p_id p) (t_primary t)) as [o|]; [|destruct (om_get (p_id p) (t_grave t))];
    destruct (0 <? g); try destruct (o_rev o =? g); reflexivity.
Qed.

Lemma modify_inv g m p t t' old e : modify g m p t = (t', (old, e)) ->
  old = om_get (p_id p) (t_primary t) /\ e = guard_err g old /\
  t' = match e with EOk => put m p t | _ => t end.
Proof. rewrite modify_eq. intros H. injection H as <- <- <-. auto. Qed.

Lemma put_eq m p t :
  let id := p_id p in let no := new_object m p t in let oo := old_object id t in
  let old := om_get id (t_primary t) in
  put m p t =
  mkT (t_rev t + 1) (om_insert id no (t_primary t))
      (om_insert (rev_key (t_rev t + 1)) no
         (match old with Some o => om_delete (rev_key (o_rev o)) (t_revidx t) | None => t_revidx t end))
      (match old, om_get id (t_grave t) with None, Some _ => om_delete id (t_grave t) | _, _ => t_grave t end)
      (match old, om_get id (t_grave t) with
       | None, Some g => om_delete (rev_key (o_rev g)) (t_graverev t) | _, _ => t_graverev t end)
      (reindex true p_u id oo no (t_u t)) (reindex false p_n id oo no (t_n t))
      (l_reindex true p_lu id oo no (t_lu t)) (l_reindex false p_ln id oo no (t_ln t))
      (t_trackers t) (t_init t).
Proof.
  unfold put, modify, modify_with, new_object, old_object. change (0 <? 0) with false. cbv iota zeta.
  destruct (om_get (p_id p) (t_primary t)); [|destruct (om_get (p_id p) (t_grave t))]; now destruct m.
Qed.

Lemma modify_result g m p t t' old e : modify g m p t = (t', (old, e)) ->
  old = om_get (p_id p) (t_primary t) \/ (e = ENotFound /\ old = None).
Proof. intros H. left. apply (modify_inv _ _ _ _ _ _ _ H). Qed.

Lemma modify_rejected_identity g m p t t' old e :
  modify g m p t = (t', (old, e)) -> e <> EOk -> t' = t.
Proof. intros H He. destruct (modify_inv _ _ _ _ _ _ _ H) as (_ & _ & ->). now destruct e. Qed.

(* a successful insert/modify/CAS acts on the primary map as a keyed-map insert and is
   assigned the next revision *)
Lemma modify_ok_spec g m p t t' old e : modify g m p t = (t', (old, e)) -> e = EOk ->
  t_rev t' = t_rev t + 1 /\
  t_primary t' = om_insert (p_id p) (new_object m p t) (t_primary t) /\
  o_rev (new_object m p t) = t_rev t' /\
  t_trackers t' = t_trackers t /\ t_init t' = t_init t.
Proof.
  intros H ->. destruct (modify_inv _ _ _ _ _ _ _ H) as (_ & _ & ->). rewrite put_eq.
  repeat split. unfold new_object. now destruct m, (om_get (p_id p) (t_primary t)).
Qed.

Lemma delete_spec g id t t' old e : delete g id t = (t', (old, e)) ->
  old = om_get id (t_primary t) /\
  match om_get id (t_primary t) with
  | None => e = EOk /\ t' = t                                   (* no-op delete *)
  | Some o =>
    if (0 <? g) && negb (o_rev o =? g)
    then e = ERevMismatch /\ t' = t                             (* rejected: nothing changes *)
    else e = EOk /\ t_rev t' = t_rev t + 1 /\ t_primary t' = om_delete id (t_primary t)
  end.
Proof.
  unfold delete, delete_with. destruct (om_get id (t_primary t)) as [o|] eqn:E.
  - destruct ((0 <? g) && negb (o_rev o =? g)); intros H; injection H as <- <- <-; simpl; auto.
  - intros H; injection H as <- <- <-; auto.
Qed.

Lemma modify_rev_mono g m p t : t_rev t <= t_rev (fst (modify g m p t)).
Proof.
  rewrite modify_eq. cbn [fst]. destruct (guard_err g _); try lia. rewrite put_eq. cbn [t_rev]. lia.
Qed.

Lemma delete_rev_mono g id t : t_rev t <= t_rev (fst (delete g id t)).
Proof.
  unfold delete, delete_with. destruct (om_get id (t_primary t)) as [o|]; [|cbn; lia].
  destruct ((0 <? g) && negb (o_rev o =? g)); cbn; lia.
Qed.

Lemma run_cons_fst d o r : fst (run d (o :: r)) = fst (run (fst (step d o)) r).
Proof. simpl. destruct (step d o) as [d1 x]. simpl. destruct (run d1 r). reflexivity. Qed.

Lemma run_app d l1 l2 : fst (run d (l1 ++ l2)) = fst (run (fst (run d l1)) l2).
Proof.
  revert d. induction l1 as [|o l IH]; intros d; [reflexivity|].
  cbn [app]. now rewrite !run_cons_fst, IH.
Qed.

Lemma run_single d o : fst (run d [o]) = fst (step d o).
Proof. apply run_cons_fst. Qed.

Lemma fst_wr x : fst (wr x) = fst x.
Proof. destruct x as [t [old e]]. reflexivity. Qed.

(* a write through with_locked changes at most the transaction's entry for the table *)
Lemma with_locked_cases d tab f a b :
  fst (with_locked d tab f a b) = d \/
  exists es old t, d_txn d = Some (es, old) /\ nth_error es tab = Some (t, true) /\
    fst (with_locked d tab f a b) = set_txn d (Some (upd_nth tab (fun _ => (fst (f t), true)) es, old)).
Proof.
  unfold with_locked. destruct (d_txn d) as [[es old]|] eqn:E; auto.
  destruct (nth_error es tab) as [[t [|]]|] eqn:E2; auto.
  right. exists es, old, t. repeat split; auto. destruct (f t); reflexivity.
Qed.

(* `consume` touches the database only by delete-tracker marks: a watermark update followed by
   a collector trigger; what these preserve, it preserves *)
Lemma consume_db (P : db -> Prop) iid take l : forall it d,
  (forall d r, P d -> P (gc_trigger (set_wm d (assoc_set iid r (d_wm d))))) -> P d ->
  P (snd (consume take l it d iid)).
Proof.
  intros it d Hmark. revert take it d.
  induction l as [|[o del] r IH]; intros take it d HP; simpl; auto.
  assert (Hd : P (if del then gc_trigger (set_wm d (assoc_set iid (o_rev o) (d_wm d))) else d))
    by (destruct del; auto).
  destruct take as [[|[|n]]|]; simpl; auto;
    match goal with |- context [consume ?t r ?i ?dd iid] =>
      specialize (IH t i dd Hd); destruct (consume t r i dd iid) as [[x y] z] end; exact IH.
Qed.

(* nothing a write transaction does touches the committed root until Commit *)
Definition txn_local (o : op) : bool :=
  match o with
  | OInsert _ _ | OModify _ _ | OCas _ _ _ | ODelete _ _ | OCad _ _ _ | ODeleteAll _
  | OQuery _ _ _ | ORegInit _ _ | OInitDone _ _ | OChanges _ _ => true
  | _ => false
  end.

(* a retained snapshot is re-bound only by a Commit or Snapshot under its own name *)
Definition reassigns (o : op) (sid : N) : bool :=
  match o with OCommit s | OSnap s => s =? sid | _ => false end.

Lemma assoc_set_other {A} k k' (v : A) l : k <> k' -> assoc k (assoc_set k' v l) = assoc k l.
Proof.
  intros Hne. unfold assoc_set. simpl. destruct (N.eqb_spec k k'); [congruence|].
  induction l as [|[a b] r IH]; simpl; auto.
  destruct (N.eqb_spec a k'); simpl.
  - destruct (N.eqb_spec k a); [congruence|]. exact IH.
  - destruct (N.eqb_spec k a); auto.
Qed.

(* d' has the root and the snapshots of d, and the collector holds no new key lists *)
Definition quiet (d d' : db) : Prop :=
  d_root d' = d_root d /\ d_snaps d' = d_snaps d /\
  forall keys, d_gc d' = GGate2 keys -> d_gc d = GGate2 keys.

Lemma quiet_gc_settle d : quiet d (gc_settle d).
Proof. unfold gc_settle. destruct (d_gc d) eqn:E, (d_gcchan d); repeat split; cbn; congruence. Qed.

Lemma quiet_gc_trigger d : quiet d (gc_trigger d).
Proof. unfold gc_trigger. now destruct (quiet_gc_settle (mkD (d_root d) (d_txn d) (d_snaps d) (d_iters d) (d_wm d) true (d_gc d) (d_closedw d) (d_nextw d))). Qed.

Lemma quiet_consume take l it d iid : quiet d (snd (consume take l it d iid)).
Proof.
  apply (consume_db (quiet d)); [|repeat split; auto].
  intros d1 r (R & S & G). destruct (quiet_gc_trigger (set_wm d1 (assoc_set iid r (d_wm d1)))) as (R' & S' & G').
  repeat split; [now rewrite R'|now rewrite S'|auto].
Qed.

Lemma quiet_with_locked d tab f a b : quiet d (fst (with_locked d tab f a b)).
Proof. destruct (with_locked_cases d tab f a b) as [->|(es & old & t & _ & _ & ->)]; repeat split; auto. Qed.

Lemma with_locked_root d tab f a b : d_root (fst (with_locked d tab f a b)) = d_root d.
Proof. apply quiet_with_locked. Qed.

Lemma gc_trigger_snaps d : d_snaps (gc_trigger d) = d_snaps d.
Proof. apply quiet_gc_trigger. Qed.

Lemma gc_trigger_gate2 d keys : d_gc (gc_trigger d) = GGate2 keys -> d_gc d = GGate2 keys.
Proof. apply quiet_gc_trigger. Qed.

(* transaction-local operations keep the root; a snapshot name is re-bound only by its own Commit
   or Snapshot; key lists reach the collector only through a scan of the current root *)
Definition frame (d : db) (o : op) (d' : db) : Prop :=
  (txn_local o = true -> d_root d' = d_root d) /\
  (forall sid, reassigns o sid = false -> assoc sid (d_snaps d') = assoc sid (d_snaps d)) /\
  (forall keys, d_gc d' = GGate2 keys ->
     d_gc d = GGate2 keys \/ (o = OGcScan /\ keys = map (gc_scan_table (d_wm d)) (d_root d))).

Lemma frame_quiet d o d' : quiet d d' -> frame d o d'.
Proof. intros (R & S & G). repeat split; auto. intros sid _. now rewrite S. Qed.

Lemma frame_rebind d o sid r d' : o = OCommit sid \/ o = OSnap sid ->
  d_snaps d' = assoc_set sid r (d_snaps d) -> d_gc d' = d_gc d -> frame d o d'.
Proof.
  intros [-> | ->] S G; (split; [discriminate|split]).
  1,3: intros s Hr; rewrite S; apply assoc_set_other; intros ->; cbn in Hr; now rewrite N.eqb_refl in Hr.
  all: intros keys H; left; now rewrite <- G.
Qed.

Theorem step_frame d o : frame d o (fst (step d o)).
Proof.
  assert (Q : quiet d d) by (repeat split; auto).
  assert (W : forall tab f a b, frame d o (fst (with_locked d tab f a b)))
    by (intros; apply frame_quiet, quiet_with_locked).
  assert (C : forall take l it iid x, frame d o (set_iters (snd (consume take l it d iid)) x)).
  { intros. apply frame_quiet. destruct (quiet_consume take l it d iid) as (R & S & G). repeat split; auto. }
  destruct o; cbn [step]; auto using frame_quiet.
  - (* OBegin *) destruct (d_txn d); now apply frame_quiet.
  - (* ODeleteAll *)
    destruct (d_txn d) as [[es old]|]; [|now apply frame_quiet].
    destruct (nth_error es tab) as [[t [|]]|]; auto. destruct (t_primary t); now apply frame_quiet.
  - (* OCommit *)
    destruct (d_txn d) as [[es old]|]; [|now apply frame_quiet]. eapply frame_rebind; [left|..]; reflexivity.
  - (* OAbort *) destruct (d_txn d); now apply frame_quiet.
  - (* OSnap *) eapply frame_rebind; [right|..]; reflexivity.
  - (* OQuery *) destruct (src_root d s); [|now apply frame_quiet]. destruct (nth_error l tab); now apply frame_quiet.
  - (* OChanges *)
    destruct (d_txn d) as [[es old]|]; [|now apply frame_quiet].
    destruct (nth_error es tab) as [[t [|]]|]; try now apply frame_quiet.
    destruct (nth_error old tab); now apply frame_quiet.
  - (* ONext *)
    destruct (assoc iid (d_iters d)) as [it|]; [|now apply frame_quiet].
    destruct (src_committed d s) as [rt|]; [|now apply frame_quiet].
    destruct (nth_error rt (it_tab it)) as [t|]; [|now apply frame_quiet].
    destruct (nth_error (d_root d) (it_tab it)) as [cur|]; [|now apply frame_quiet].
    match goal with |- context [if ?c then _ else _] => destruct c end; [now apply frame_quiet|].
    match goal with |- context [consume ?a ?b ?c d ?e] =>
      pose proof (fun x => C a b c e x) as Hc; destruct (consume a b c d e) as [[x y] z] end. apply Hc.
  - (* OResume *)
    destruct (assoc iid (d_iters d)) as [it|]; [|now apply frame_quiet].
    destruct (it_pending it) as [l|]; [|now apply frame_quiet]. destruct (it_seq it); [|now apply frame_quiet].
    match goal with |- context [consume ?a ?b ?c d ?e] =>
      pose proof (fun x => C a b c e x) as Hc; destruct (consume a b c d e) as [[x y] z] end. apply Hc.
  - (* OClose *)
    destruct (assoc iid (d_iters d)) as [it|]; [|now apply frame_quiet]. destruct (d_txn d); [now apply frame_quiet|].
    cbn [fst]. match goal with |- frame _ _ (gc_trigger ?x) => destruct (quiet_gc_trigger x) as (_ & S & G) end.
    split; [discriminate|]. split; [intros sid _; now rewrite S|intros keys H; left; now apply G in H].
  - (* OGcScan *)
    destruct (d_gc d) eqn:E; try now apply frame_quiet.
    repeat split; auto. intros keys H. right. cbn in H. injection H as <-. auto.
  - (* OGcApply *)
    destruct (d_gc d) eqn:E; try now apply frame_quiet. destruct (d_txn d); [now apply frame_quiet|].
    cbn [fst]. match goal with |- frame _ _ (gc_settle ?x) => destruct (quiet_gc_settle x) as (_ & S & G) end.
    split; [discriminate|]. split; [intros sid _; now rewrite S|intros keys' H; apply G in H; discriminate].
  - (* ORegInit *)
    match goal with |- context [with_locked d tab ?f ?a ?b] =>
      destruct (quiet_with_locked d tab f a b) as (R & S & G); destruct (with_locked d tab f a b) as [d' x] end.
    apply frame_quiet. repeat split; auto.
Qed.

Theorem txn_writes_invisible d ops :
  forallb txn_local ops = true -> d_root (fst (run d ops)) = d_root d.
Proof.
  revert d. induction ops as [|o r IH]; intros d H; [reflexivity|].
  apply andb_true_iff in H. destruct H as [Ho Hr].
  rewrite run_cons_fst, IH by auto. now apply step_frame.
Qed.

(* Abort after any sequence of transaction-local operations leaves the committed root as it was *)
Theorem abort_restores_root d tabs ops :
  d_txn d = None -> forallb txn_local ops = true ->
  let d' := fst (run d (OBegin tabs :: ops ++ [OAbort])) in
  d_root d' = d_root d /\ d_txn d' = None.
Proof.
  intros Hn Hl. cbn zeta. rewrite run_cons_fst, run_app, run_single.
  assert (Hb : d_root (fst (step d (OBegin tabs))) = d_root d) by (simpl; rewrite Hn; reflexivity).
  set (d0 := fst (step d (OBegin tabs))) in *.
  pose proof (txn_writes_invisible d0 ops Hl) as Hr.
  set (d1 := fst (run d0 ops)) in *.
  simpl. destruct (d_txn d1) eqn:E; simpl; split; congruence.
Qed.

Theorem run_keeps_snapshot ops : forall d sid r,
  assoc sid (d_snaps d) = Some r -> forallb (fun o => negb (reassigns o sid)) ops = true ->
  assoc sid (d_snaps (fst (run d ops))) = Some r.
Proof.
  induction ops as [|o l IH]; intros d sid r Hs Hr; [exact Hs|].
  simpl in Hr. apply andb_true_iff in Hr. destruct Hr as [Ho Hl]. rewrite run_cons_fst.
  apply IH; auto. rewrite (proj1 (proj2 (step_frame d o))); auto. now destruct (reassigns o sid).
Qed.
