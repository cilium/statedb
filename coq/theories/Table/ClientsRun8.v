(* Table/ClientsRun8.v — C19 at run level, the converse bookkeeping: from Derive's start until the loop's marking
   leg, the derived table carries the pending initializer derive_name, in the committed root and in any open
   transaction; hence the derived table reports itself initialized only after the marking leg
   (whose properties Table/ClientsRun7.v derive_init_handover states). *)
From Coq Require Import List NArith Bool Lia.
Import ListNotations.
From SV Require Import Base.Bytes Base.OrdMap KeyEnc.Model Table.Model Table.Proofs Table.InvDefs Table.Inv Table.Inv2
                       Table.GcProofs Table.ChangesStream Table.ChangesIter Table.ChangesProofs Table.ChangesRet
                       Table.ChangesHist Table.ChangesFromInit Table.Clients Table.ClientsProofs Table.ClientsProofs2
                       Table.ClientsRun Table.ClientsRun2 Table.ClientsRun5 Table.ClientsRun7.
Local Open Scope N_scope.

(* the table has the pending initializer derive_name *)
Definition pend (t : table) : Prop := exists w p, t_init t = Some (w, p) /\ In derive_name p.

Lemma pend_not_initialized t : pend t -> fst (fst (q_init t)) = false.
Proof. intros [w [p [A B]]]. unfold q_init. rewrite A. destruct p; [destruct B|reflexivity]. Qed.

Definition ientry (out : nat) (d : db) : Prop :=
  (forall t, nth_error (d_root d) out = Some t -> pend t) /\
  (forall es old te b, d_txn d = Some (es, old) -> nth_error es out = Some (te, b) -> pend te).

(* the one operation that can complete the initializer *)
Definition noinitdone (out : nat) (o : op) : bool :=
  match o with OInitDone t nm => negb (Nat.eqb t out && (nm =? derive_name)) | _ => true end.

(* registering appends, completing another initializer removes that one only, Commit drops an empty list only *)
Lemma pend_tmove out o t t' : noinitdone out o = true -> pend t -> tmove out t o t' -> pend t'.
Proof.
  intros Hno [w [p [A B]]] Hm. revert Hno.
  destruct Hm as [o t1 _ _ E|o t1 _ _ E|j|j|name w' p' Hr|name w' p' Ei|sid]; intros Hno;
    try (exists w, p; split; [cbn; congruence|exact B]).
  - destruct Hr as [[Ei _]|[p0 [Ei ->]]]; [congruence|]. exists w', (p0 ++ [name]). split; [reflexivity|].
    apply in_or_app. left. congruence.
  - exists w', (filter (fun n => negb (n =? name)) p'). split; [reflexivity|]. apply filter_In.
    assert (p' = p) by congruence. subst p'. split; [exact B|].
    cbn [noinitdone] in Hno. rewrite Nat.eqb_refl in Hno. cbn [andb] in Hno. now rewrite N.eqb_sym.
  - unfold fin_table. rewrite A. destruct p; [destruct B|]. exists w, (n :: p). auto.
Qed.

Lemma run_ientry out l d : forallb (noinitdone out) l = true -> ientry out d -> ientry out (fst (run d l)).
Proof.
  intros H. apply (run_entryP out pend). intros o t t' Hin. rewrite forallb_forall in H. exact (pend_tmove out o t t' (H _ Hin)).
Qed.

(* Derive(): the registration of the initializer *)
Lemma start_leg_ientry n d out sid : LInv n d -> d_txn d = None -> (out < n)%nat ->
  ientry out (fst (run d [OBegin [out]; ORegInit out derive_name; OCommit sid])).
Proof.
  intros L Htx Hout. destruct (LInv_root n d out L Hout) as [t Ht].
  pose proof (lock1_same _ _ _ Ht) as He.
  change [OBegin [out]; ORegInit out derive_name; OCommit sid] with ([OBegin [out]] ++ [ORegInit out derive_name] ++ [OCommit sid]).
  rewrite !run_app, !run_single, (step_begin1 d out Htx).
  set (d1 := set_txn d (Some (lock1 out (d_root d), d_root d))).
  (* after the ORegInit: the locked entry has the pending initializer, the root is unchanged *)
  assert (H2 : exists es2 t2, d_txn (fst (step d1 (ORegInit out derive_name))) = Some (es2, d_root d) /\
                              nth_error es2 out = Some (t2, true) /\ pend t2 /\
                              d_root (fst (step d1 (ORegInit out derive_name))) = d_root d).
  { unfold d1. cbn [step with_locked set_txn d_txn]. rewrite He.
    destruct (t_init t) as [[w p]|] eqn:Ei; [destruct (existsb (N.eqb derive_name) p) eqn:Ex|]; cbn [fst set_txn d_txn d_root];
      eexists; eexists; (split; [reflexivity|]); (split; [rewrite (nth_error_upd_nth_same _ _ _ _ He); reflexivity|]); (split; [|reflexivity]).
    - exists w, p. split; [exact Ei|]. apply existsb_exists in Ex. destruct Ex as [y [Hy E]]. apply N.eqb_eq in E. now subst.
    - exists w, (p ++ [derive_name]). split; [reflexivity|]. apply in_or_app. right. left. reflexivity.
    - eexists; eexists. split; [reflexivity|]. left. reflexivity. }
  destruct H2 as [es2 [t2 [T2 [E2 [[w [p [A B]]] R2]]]]].
  revert T2 R2. generalize (fst (step d1 (ORegInit out derive_name))) as d2. intros d2 T2 R2.
  cbn [step]. rewrite T2. cbn [fst]. split; cbn [d_root d_txn]; [|discriminate].
  intros t' H. rewrite nth_error_zip_with, E2, R2, Ht in H. injection H as <-.
  rewrite A. destruct p; [destruct B|]. exists w, (n0 :: p). auto.
Qed.

(* the harness does not complete the derived table's initializer itself (and Derive is started on `out`) *)
Definition cop_okI0 (out : nat) (c : cop) : bool :=
  match c with
  | CUser o => noinitdone out o
  | CDeriveStart _ o => Nat.eqb o out
  | _ => true
  end.
Definition cop_okI (inn out : nat) (c : cop) : bool :=
  cop_okG inn out c && match c with CUser o => noinitdone out o | _ => true end.

Lemma cop_okI_okI0 inn out cs : forallb (cop_okI inn out) cs = true -> forallb (cop_okI0 out) cs = true.
Proof.
  intros H. rewrite forallb_forall in *. intros c Hc. specialize (H c Hc). unfold cop_okI in H.
  apply andb_true_iff in H. destruct H as [A B]. destruct c; cbn [cop_okI0 cop_okG] in *; auto.
  apply andb_true_iff in A. tauto.
Qed.
Lemma cop_okI_okG inn out cs : forallb (cop_okI inn out) cs = true -> forallb (cop_okG inn out) cs = true.
Proof.
  intros H. rewrite forallb_forall in *. intros c Hc. specialize (H c Hc). unfold cop_okI in H.
  apply andb_true_iff in H. tauto.
Qed.

Record IInv (n out : nat) (s : csys) : Prop := mkIInv {
  i_L : LInv n (cs_db s);
  i_d : forall ds, cs_d s = Some ds ->
        dv_out ds = out /\ dv_name ds = derive_name /\ (dv_marked ds = false -> ientry out (cs_db s))
}.

Lemma IInv_leg n out s d' l so :
  IInv n out s -> d' = fst (run (cs_db s) l) -> forallb (noinitdone out) l = true ->
  IInv n out (mkCS d' (cs_d s) so (cs_mode s)).
Proof.
  intros [L I] -> Hl. constructor; cbn [cs_db cs_d]; [now apply LInv_run|].
  intros ds E. destruct (I _ E) as [A [B C]]. split; [exact A|]. split; [exact B|]. intros Hm. apply run_ientry; auto.
Qed.

Lemma IInv_eta n out s : IInv n out s -> IInv n out (mkCS (cs_db s) (cs_d s) (cs_o s) (cs_mode s)).
Proof. intros H. apply (IInv_leg n out s (cs_db s) []); auto. Qed.

Lemma IInv_dleg n out s ops c sd' d' l : (out < n)%nat ->
  creach n s ops -> IInv n out s -> cop_okI0 out c = true ->
  dleg (tr_std (cs_mode s)) (cs_db s) c (cs_d s) sd' d' l -> IInv n out (mkCS d' sd' (cs_o s) (cs_mode s)).
Proof.
  intros Hout HR [L I] Hc [i o -> Ed Et|ds -> Ed Et Eph|ds d1 ds1 l1 -> Ed Et Er Eph Hi].
  - (* Derive(): registers the initializer *)
    apply Nat.eqb_eq in Hc. subst o. constructor; cbn [cs_db cs_d]; [now apply LInv_run|].
    intros ds E. injection E as E. subst ds. split; [reflexivity|]. split; [reflexivity|]. intros _.
    exact (start_leg_ientry n (cs_db s) out derive_sid L Et Hout).
  - pose proof (IInv_leg n out s _ (derive_reg_ops ds) (cs_o s) (mkIInv _ _ _ L I) eq_refl eq_refl) as [L' I'].
    constructor; [exact L'|]. cbn [cs_d] in *. intros ds0 E. injection E as <-. exact (I' _ Ed).
  - (* an iteration that leaves the flag unset issues no OInitDone *)
    pose proof (derive_iter_run _ _ _ _ _ _ Hi) as Hd1. destruct (I _ Ed) as [Do [Dn K]].
    destruct (derive_iter_job _ _ _ _ _ _ Hi) as [_ [A [_ [B _]]]].
    constructor; cbn [cs_db cs_d]; [rewrite Hd1; now apply LInv_run|].
    intros ds0 E. injection E as <-. split; [congruence|]. split; [congruence|]. intros Hm.
    destruct (derive_no_initdone _ _ _ _ _ _ Hi (or_introl Hm)) as [K1 K2].
    rewrite Hd1. apply run_ientry; [|apply K; destruct (dv_marked ds); [rewrite K1 in Hm; congruence|reflexivity]].
    apply forallb_forall. intros o Ho. destruct o; try reflexivity. exfalso. exact (K2 _ _ Ho).
Qed.

Lemma IInv_crun n out cs s outs ops : (out < n)%nat -> forallb (cop_okI0 out) cs = true ->
  crun (init_csys n 0) cs = (s, outs, ops) -> IInv n out s.
Proof.
  intros Hout Hc H. apply (crun_invariant_derive n (cop_okI0 out) (fun s _ => IInv n out s)) with (cs := cs) (outs := outs) (ops := ops); auto.
  - constructor; [apply LInv_init|]. cbn. discriminate.
  - intros s0 ops0 o HR HI Hc0. apply (IInv_leg n out s0 _ [o]); auto; [now rewrite run_single|cbn [forallb cop_okI0] in *; now rewrite Hc0].
  - intros s0 ops0 c sd' d' l. now apply IInv_dleg.
  - intros s0 ops0 l so HR HI Hp. apply (IInv_leg n out s0 _ l); auto. apply forallb_forall. intros o Ho.
    rewrite forallb_forall in Hp. specialize (Hp o Ho). destruct o; try discriminate; reflexivity.
Qed.

(* (i) until the loop's marking leg the derived table carries the pending initializer derive_name, in the root and
       in any open transaction: it is NOT initialized *)
Theorem derive_unmarked_not_initialized n out cs s outs ops ds :
  (out < n)%nat -> forallb (cop_okI0 out) cs = true -> crun (init_csys n 0) cs = (s, outs, ops) ->
  cs_d s = Some ds -> dv_marked ds = false ->
  (exists tout w p, nth_error (d_root (cs_db s)) out = Some tout /\ t_init tout = Some (w, p) /\ In derive_name p /\
                    fst (fst (q_init tout)) = false) /\
  (forall es old te b, d_txn (cs_db s) = Some (es, old) -> nth_error es out = Some (te, b) ->
     exists w p, t_init te = Some (w, p) /\ In derive_name p).
Proof.
  intros Hout Hc H Ed Hm. pose proof (IInv_crun n out cs s outs ops Hout Hc H) as [L I].
  destruct (I _ Ed) as [_ [_ K]]. destruct (K Hm) as [P1 P2]. split; [|exact P2].
  destruct (LInv_root n _ out L Hout) as [tout Ht]. pose proof (P1 _ Ht) as Hp. pose proof (pend_not_initialized _ Hp) as Hq.
  destruct Hp as [w [p [A B]]]. exists tout, w, p. auto.
Qed.

(* (ii) the derived table reports itself initialized only after the loop's marking leg *)
Corollary derive_initialized_only_after_mark n out cs s outs ops ds tout :
  (out < n)%nat -> forallb (cop_okI0 out) cs = true -> crun (init_csys n 0) cs = (s, outs, ops) ->
  cs_d s = Some ds -> nth_error (d_root (cs_db s)) out = Some tout -> fst (fst (q_init tout)) = true ->
  dv_marked ds = true.
Proof.
  intros Hout Hc H Ed Ht Hq. destruct (dv_marked ds) eqn:Hm; [reflexivity|].
  destruct (derive_unmarked_not_initialized n out cs s outs ops ds Hout Hc H Ed Hm) as [[t [w [p [A [_ [_ B]]]]]] _].
  congruence.
Qed.

(* the same under the condition of the other C19 run-level theorems *)
Corollary derive_initialized_only_after_mark' n inn out cs s outs ops ds tout :
  (out < n)%nat -> forallb (cop_okI inn out) cs = true -> crun (init_csys n 0) cs = (s, outs, ops) ->
  cs_d s = Some ds -> nth_error (d_root (cs_db s)) out = Some tout -> fst (fst (q_init tout)) = true ->
  dv_marked ds = true.
Proof. intros Hout Hc. apply derive_initialized_only_after_mark. exact Hout. eapply cop_okI_okI0; eauto. Qed.

(* satisfiable: cx_pre (ends right before the marking leg; its harness transactions register and complete
   ANOTHER initializer, 5, on the input table) and ix_run; after the marking leg the table is initialized *)
Example derive_unmarked_not_initialized_nonvacuous :
  forallb (cop_okI 0 1) cx_pre = true /\ forallb (cop_okI 0 1) ix_run = true /\
  (let s := fst (fst (crun (init_csys 2 0) cx_pre)) in
   option_map dv_marked (cs_d s) = Some false /\
   option_map t_init (nth_error (d_root (cs_db s)) 1) = Some (Some (1, [derive_name])) /\
   option_map (fun t => fst (fst (q_init t))) (nth_error (d_root (cs_db s)) 1) = Some false /\
   (let s' := fst (fst (cstep s CDeriveGo)) in
    option_map dv_marked (cs_d s') = Some true /\
    option_map (fun t => fst (fst (q_init t))) (nth_error (d_root (cs_db s')) 1) = Some true)) /\
  (let s := fst (fst (crun (init_csys 2 0) ix_run)) in
   option_map dv_marked (cs_d s) = Some false /\
   option_map (fun t => fst (fst (q_init t))) (nth_error (d_root (cs_db s)) 1) = Some false).
Proof. vm_compute. repeat split; reflexivity. Qed.
