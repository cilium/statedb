(* Table/ChangesHist.v — database histories (C07 + C08): structural invariants of the single-
   goroutine database model (wf), and the retention invariant of one change iterator (RInv): from
   the creation of the iterator on, whatever the iterator may still need stays in the graveyard of
   the committed root and of the open write transaction, across writes, commits, other iterators,
   closes and collection runs (scan and apply arbitrarily far apart). It discharges the per-Next
   hypotheses of Table/ChangesProofs.v for iterators advanced with fresh read transactions. *)
From SV Require Import Base.Bytes Base.OrdMap KeyEnc.Model KeyEnc.Proofs
                       Table.Model Table.InvDefs Table.Proofs Table.GcProofs Table.Inv
                       Table.Inv2 Table.Inv3 Table.Inv6
                       Table.ChangesStream Table.ChangesIter Table.ChangesProofs Table.ChangesRet.
From Coq Require Import ZifyN ZifyNat ZifyBool.
Open Scope N_scope.
#[local] Opaque rev_key.

Lemma nth_error_some_length {A} (l : list A) n x : nth_error l n = Some x -> (n < length l)%nat.
Proof. intros H. apply nth_error_Some. congruence. Qed.

Lemma nth_error_same_length {A B} (l1 : list A) (l2 : list B) n x :
  length l1 = length l2 -> nth_error l1 n = Some x -> exists y, nth_error l2 n = Some y.
Proof.
  intros Hl H. apply nth_error_some_length in H. rewrite Hl in H.
  destruct (nth_error l2 n) eqn:E; eauto. apply nth_error_None in E. lia.
Qed.

(* OBegin's entries: the root tables with lock flags *)
Lemma begin_entries tabs : forall (es : list (table * bool)) n,
  nth_error (fold_left (fun es i => upd_nth i (fun e => (fst e, true)) es) tabs es) n =
  match nth_error es n with
  | Some (t, b) => Some (t, b || existsb (Nat.eqb n) tabs)
  | None => None
  end.
Proof.
  induction tabs as [|i r IH]; intros es n; cbn [fold_left existsb].
  - destruct (nth_error es n) as [[t b]|]; auto. now rewrite orb_false_r.
  - rewrite IH. destruct (Nat.eqb_spec n i) as [->|Hne].
    + destruct (nth_error es i) as [[t b]|] eqn:E.
      * rewrite (nth_error_upd_nth_same _ _ _ _ E). cbn [fst orb]. now rewrite orb_true_r.
      * assert (nth_error (upd_nth i (fun e => (fst e, true)) es) i = None) as ->; auto.
        apply nth_error_None. rewrite length_upd_nth. now apply nth_error_None.
    + rewrite nth_error_upd_nth_other by auto. cbn [orb]. reflexivity.
Qed.

Definition tables_ok (d : db) : Prop := all_tables TInv d /\ all_tables rev_room d.

Lemma ok_root d n t : tables_ok d -> nth_error (d_root d) n = Some t -> TInv t /\ rev_room t.
Proof.
  intros [[H1 _] [H2 _]] Hn. apply nth_error_In in Hn. rewrite Forall_forall in H1, H2. auto.
Qed.

Lemma ok_entry d es old n te b : tables_ok d -> d_txn d = Some (es, old) ->
  nth_error es n = Some (te, b) -> TInv te /\ rev_room te.
Proof.
  intros [[_ [H1 _]] [_ [H2 _]]] Ht Hn. apply nth_error_In in Hn.
  destruct (H1 _ _ Ht) as [F1 _], (H2 _ _ Ht) as [F2 _]. rewrite Forall_forall in F1, F2.
  split; [apply (F1 _ Hn)|apply (F2 _ Hn)].
Qed.

(* Inv3.TxnInv and Inv6.LenInv say the same of the open transaction and of the length of a scanned key
   list, with one clause more (unlocked entries ARE the committed tables). wf is what the theorems assume
   of the state the iterator is created in, so it asks only for what the retention argument uses. *)
Record wf (d : db) : Prop := mkWf {
  wf_txn : forall es old, d_txn d = Some (es, old) ->
           old = d_root d /\ length es = length (d_root d) /\
           forall n te b cur, nth_error es n = Some (te, b) -> nth_error (d_root d) n = Some cur ->
                              t_rev cur <= t_rev te;
  wf_gc : forall keys, d_gc d = GGate2 keys ->
          length keys = length (d_root d) /\
          forall n ks cur, nth_error keys n = Some ks -> nth_error (d_root d) n = Some cur ->
                           forall k, In k ks -> exists r, r < B64 /\ k = rev_key r /\ r <= t_rev cur
}.

Lemma wf_init n : wf (init_db n).
Proof. constructor; cbn; intros; discriminate. Qed.

Definition is_write (o : op) : bool :=
  match o with
  | OInsert _ _ | OModify _ _ | OCas _ _ _ | ODelete _ _ | OCad _ _ _ | ODeleteAll _
  | ORegInit _ _ | OInitDone _ _ => true
  | _ => false
  end.

(* relation between a locked entry before and after one write operation *)
Definition wrel (t t' : table) : Prop :=
  t_rev t <= t_rev t' /\ (TInv t -> rev_bound t' -> tstep t t').

Lemma wrel_tstep t t' : t_rev t <= t_rev t' -> (TInv t -> tstep t t') -> wrel t t'.
Proof. intros H1 H2. split; auto. Qed.

Definition txn_step (d d' : db) : Prop :=
  d_txn d' = d_txn d \/
  exists tab es old t t', d_txn d = Some (es, old) /\ nth_error es tab = Some (t, true) /\
                          d_txn d' = Some (upd_nth tab (fun _ => (t', true)) es, old) /\ wrel t t'.

Lemma wrel_sem t t' : sem_eq t t' -> t_trackers t' = t_trackers t -> wrel t t'.
Proof. intros Hs Ht. split; [destruct Hs as [-> _]; lia|]. intros _ _. now apply tstep_sem. Qed.

Lemma step_write_spec d o : is_write o = true ->
  let d' := fst (step d o) in
  d_root d' = d_root d /\ d_iters d' = d_iters d /\ d_wm d' = d_wm d /\ d_gc d' = d_gc d /\
  d_snaps d' = d_snaps d /\ txn_step d d'.
Proof.
  assert (Hgen : forall tab f a b, (forall t, wrel t (fst (f t))) ->
            let d' := fst (with_locked d tab f a b) in
            d_root d' = d_root d /\ d_iters d' = d_iters d /\ d_wm d' = d_wm d /\ d_gc d' = d_gc d /\
            d_snaps d' = d_snaps d /\ txn_step d d').
  { intros tab f a b Hf. cbv zeta. destruct (with_locked_cases d tab f a b) as [->|[es [old [t [E1 [E2 ->]]]]]].
    - repeat split; auto; now left.
    - cbn. repeat split; auto. right. exists tab, es, old, t, (fst (f t)). auto. }
  assert (Hwr : forall x, fst (wr x) = fst x) by (intros [t [old e]]; reflexivity).
  destruct o; cbn [is_write]; try discriminate; intros _; cbn [step].
  1-3: apply Hgen; intros t; rewrite Hwr; apply wrel_tstep; [apply modify_rev_mono|apply tstep_modify].
  1-2: apply Hgen; intros t; rewrite Hwr; apply wrel_tstep; [apply delete_rev_mono|apply tstep_delete].
  - (* ODeleteAll *)
    destruct (d_txn d) as [[es old]|] eqn:E; [|repeat split; auto; now left].
    destruct (nth_error es tab) as [[t [|]]|] eqn:E2.
    + apply Hgen. intros t0. cbn [fst]. split; [apply delete_all_rev_mono|apply tstep_delete_all].
    + destruct (t_primary t); repeat split; auto; now left.
    + apply Hgen. intros t0. cbn [fst]. split; [apply delete_all_rev_mono|apply tstep_delete_all].
  - (* ORegInit *)
    match goal with |- context [with_locked d tab ?f ?a ?b] =>
      pose proof (Hgen tab f a b) as Hw; destruct (with_locked d tab f a b) as [d' x] end.
    cbn [fst d_root d_iters d_wm d_gc d_snaps] in *.
    assert (Hx : txn_step d d' -> txn_step d (mkD (d_root d') (d_txn d') (d_snaps d') (d_iters d') (d_wm d')
                   (d_gcchan d') (d_gc d') (d_closedw d') (d_nextw d' + 1))) by (unfold txn_step; cbn; auto).
    destruct Hw as [A [B [C [D [E F]]]]]; [|repeat split; auto].
    intros t. destruct (t_init t) as [[w p]|]; [destruct (existsb (N.eqb name) p)|]; cbn [fst];
      (apply wrel_sem; [repeat split|reflexivity]).
  - (* OInitDone *)
    apply Hgen. intros t. destruct (t_init t) as [[w p]|]; cbn [fst];
      (apply wrel_sem; [repeat split|reflexivity]).
Qed.

Lemma fin_sem t : sem_eq t (fin_table t) /\ t_trackers (fin_table t) = t_trackers t.
Proof. unfold fin_table. destruct (t_init t) as [[w [|]]|]; repeat split. Qed.

(* a locked entry is replaced by one with at least its revision *)
Lemma wf_txn_upd d es old tab t t' : wf d -> d_txn d = Some (es, old) ->
  nth_error es tab = Some (t, true) -> t_rev t <= t_rev t' ->
  old = d_root d /\ length (upd_nth tab (fun _ => (t', true)) es) = length (d_root d) /\
  forall n te b cur, nth_error (upd_nth tab (fun _ => (t', true)) es) n = Some (te, b) ->
                     nth_error (d_root d) n = Some cur -> t_rev cur <= t_rev te.
Proof.
  intros [W1 _] E1 E2 Hr. destruct (W1 _ _ E1) as [Ho [Hl Hn]].
  split; auto. split; [now rewrite length_upd_nth|].
  intros n te b cur Hn1 Hn2. rewrite nth_error_upd_nth in Hn1. destruct (Nat.eqb_spec tab n) as [->|_]; [|eauto].
  rewrite E2 in Hn1. injection Hn1 as <- <-. specialize (Hn _ _ _ _ E2 Hn2). lia.
Qed.

(* the committed root keeps its length, and no table's revision goes down (Commit, Close and the
   collector are the steps that write it) *)
Lemma wf_root_step d o : wf d ->
  length (d_root (fst (step d o))) = length (d_root d) /\
  forall n cur cur', nth_error (d_root d) n = Some cur ->
                     nth_error (d_root (fst (step d o))) n = Some cur' -> t_rev cur <= t_rev cur'.
Proof.
  intros [W1 W2]. step_cases d o; rewrite Er;
    try (split; [reflexivity|intros n cur cur' H1 H2; rewrite H1 in H2; injection H2 as <-; apply N.le_refl]).
  - destruct (W1 _ _ E1) as [_ [Hl Hn]]. split; [now apply zip_with_length_eq|].
    intros n cur cur' H1 H2. unfold commit_root in H2. rewrite nth_error_zip_with, H1 in H2.
    destruct (nth_error es0 n) as [[te [|]]|] eqn:En'; try discriminate; injection H2 as <-; [|apply N.le_refl].
    rewrite fin_table_rev. eauto.
  - split; [apply length_upd_nth|]. intros n cur cur' H1 H2. rewrite nth_error_upd_nth, H1 in H2.
    destruct (Nat.eqb tab0 n); injection H2 as <-; apply N.le_refl.
  - destruct (W2 _ Eg) as [Hl _]. split; [now apply zip_with_length_eq|].
    intros n cur cur' H1 H2. rewrite nth_error_zip_with, H1 in H2.
    destruct (nth_error keys0 n); try discriminate. injection H2 as <-. rewrite gc_apply_rev. apply N.le_refl.
Qed.

Lemma wf_step d o : wf d -> tables_ok d -> wf (fst (step d o)).
Proof.
  intros HW HOK. destruct (wf_root_step d o HW) as [Hlen Hrev]. pose proof HW as [W1 W2]. constructor.
  - (* the open transaction *)
    clear Hlen Hrev. step_cases d o; intros es old H; rewrite Et in H; rewrite Er; try discriminate;
      try exact (W1 _ _ H); injection H as <- <-.
    + split; [reflexivity|]. rewrite <- E2. split; [now rewrite map_length|].
      intros n te b cur H1 H2. rewrite nth_error_map, H1 in H2. injection H2 as <-. apply N.le_refl.
    + apply (wf_txn_upd d es0 old0 tab0 t0); auto. now apply tupd_rev_mono.
    + apply (wf_txn_upd d es0 old0 tab0 t0); auto. rewrite (treg_rev _ _ _ Hu). apply N.le_refl.
  - (* a scanned key list: an old one, against a root that only moved up, or a new one *)
    intros keys H. destruct (step_gate2 d o keys H) as [H0|[-> ->]].
    + destruct (W2 _ H0) as [Hk1 Hk2]. split; [congruence|]. intros n ks cur' H1 H2 k Hk.
      destruct (nth_error_same_length _ (d_root d) _ _ Hlen H2) as [cur Hc].
      destruct (Hk2 _ _ _ H1 Hc _ Hk) as [r [A [B C]]]. exists r. specialize (Hrev _ _ _ Hc H2). repeat split; auto. lia.
    + assert (Er : d_root (fst (step d OGcScan)) = d_root d) by (cbn [step]; destruct (d_gc d); reflexivity).
      rewrite Er. split; [apply map_length|].
      intros n ks cur H1 H2 k Hk. rewrite nth_error_map, H2 in H1. injection H1 as <-.
      destruct (ok_root _ _ _ HOK H2) as [HI HR].
      destruct (gc_scan_only_observed _ _ _ Hk) as [x [Hin [Hle _]]].
      apply (ti_graverev cur HI) in Hin. destruct Hin as [-> Hd]. exists (o_rev x). repeat split; auto.
      unfold rev_room, B64 in *. lia.
Qed.

Section Ret.
Variables (iid : N) (tab : nat).

Definition reg (t : table) : Prop := In iid (t_trackers t).

(* G: the table the iterator last refreshed from (at creation: the creating transaction's table);
   cur: the committed root's table; D = the tracker's watermark = the iterator's delete cursor *)
Record rinv (G : table) (d : db) (it : iter) (cur : table) : Prop := mkRinv {
  ri_tab : it_tab it = tab;
  ri_wm : assoc iid (d_wm d) = Some (it_delrev it);
  ri_dle : it_delrev it <= t_rev G;
  ri_tinv : TInv G;
  (* a pending collection (scanned, not yet applied) only holds keys at or below the watermark *)
  ri_gc : forall keys ks, d_gc d = GGate2 keys -> nth_error keys tab = Some ks ->
          forall k, In k ks -> exists r, r < B64 /\ k = rev_key r /\ r <= it_delrev it;
  ri_phase :
    (* the tracker is registered in the committed root *)
    (reg cur /\ tab_le G cur /\ retained G cur (it_delrev it) /\
     forall es old te, d_txn d = Some (es, old) -> nth_error es tab = Some (te, true) ->
                       reg te /\ tab_le cur te /\ retained cur te (it_delrev it))
    \/
    (* the creating transaction is still open *)
    (~ reg cur /\ it_seq it = false /\ t_rev cur <= it_delrev it /\
     exists es old te, d_txn d = Some (es, old) /\ nth_error es tab = Some (te, true) /\
                       reg te /\ tab_le G te /\ retained G te (it_delrev it))
}.

Definition RInv (G : table) (d : db) : Prop :=
  forall it, assoc iid (d_iters d) = Some it ->
  exists cur, nth_error (d_root d) tab = Some cur /\ rinv G d it cur.

(* a locked entry before / after, as far as the iterator is concerned *)
Definition tev (t t' : table) : Prop :=
  reg t -> reg t' /\ tab_le t t' /\ forall A D, D <= t_rev t -> retained A t D -> retained A t' D.

Lemma tev_of_tstep t t' : tstep t t' -> tev t t'.
Proof.
  intros [E [L R]] Hr. split; [unfold reg; now rewrite E|]. split; auto.
  intros A D HD. apply R; auto. intros Hn. unfold reg in Hr. rewrite Hn in Hr. destruct Hr.
Qed.

Lemma tev_entry X D t t' : tev t t' -> D <= t_rev X ->
  reg t /\ tab_le X t /\ retained X t D -> reg t' /\ tab_le X t' /\ retained X t' D.
Proof.
  intros Hev HD [A [B C]]. destruct (Hev A) as [A' [L R]]. split; [exact A'|].
  split; [eapply tab_le_trans; eauto|]. apply R; auto. destruct B. lia.
Qed.

Definition txn_ev (d d' : db) : Prop :=
  d_txn d' = d_txn d \/
  exists tab' es old t t', d_txn d = Some (es, old) /\ nth_error es tab' = Some (t, true) /\
                           d_txn d' = Some (upd_nth tab' (fun _ => (t', true)) es, old) /\ tev t t'.

(* operations confined to the open transaction, other iterators, snapshots, queries *)
Lemma RInv_frame G d d' :
  d_root d' = d_root d ->
  assoc iid (d_iters d') = assoc iid (d_iters d) -> assoc iid (d_wm d') = assoc iid (d_wm d) ->
  (forall keys, d_gc d' = GGate2 keys -> d_gc d = GGate2 keys) ->
  txn_ev d d' -> tables_ok d -> RInv G d -> RInv G d'.
Proof.
  intros Er Ei Ew Eg Et HOK HR it Hi. rewrite Ei in Hi. destruct (HR it Hi) as [cur [Hc [R1 R2 R3 R3' R4 R5]]].
  exists cur. split; [now rewrite Er|]. constructor; auto; [now rewrite Ew|eauto|].
  destruct (ok_root _ _ _ HOK Hc) as [HIc _].
  destruct R5 as [[P1 [P2 [P3 P4]]]|[P1 [P2 [P3 [es [old [te [Q1 [Q2 [Q3 [Q4 Q5]]]]]]]]]]].
  - left. split; [exact P1|]. split; [exact P2|]. split; [exact P3|]. intros es' old' te' H H0.
    destruct Et as [Et|[tab' [es [old [t [t' [E1 [E2 [E3 Hev]]]]]]]]].
    + rewrite Et in H. exact (P4 _ _ _ H H0).
    + rewrite E3 in H. injection H as <- <-.
      destruct (Nat.eq_dec tab' tab) as [->|Hne].
      * rewrite (nth_error_upd_nth_same _ _ _ _ E2) in H0. injection H0 as <-.
        apply (tev_entry cur _ t t' Hev); [destruct P2; lia|exact (P4 _ _ _ E1 E2)].
      * rewrite nth_error_upd_nth_other in H0 by auto. exact (P4 _ _ _ E1 H0).
  - right. split; [exact P1|]. split; [exact P2|]. split; [exact P3|].
    destruct Et as [Et|[tab' [es0 [old0 [t [t' [E1 [E2 [E3 Hev]]]]]]]]].
    + exists es, old, te. rewrite Et. split; [|split; [|split; [|split]]]; auto.
    + rewrite Q1 in E1. injection E1 as <- <-.
      destruct (Nat.eq_dec tab' tab) as [->|Hne].
      * rewrite Q2 in E2. injection E2 as <-.
        exists (upd_nth tab (fun _ => (t', true)) es), old, t'. rewrite E3.
        rewrite (nth_error_upd_nth_same _ _ _ _ Q2). split; [reflexivity|]. split; [reflexivity|].
        apply (tev_entry G _ te t' Hev R3). auto.
      * exists (upd_nth tab' (fun _ => (t', true)) es), old, te. rewrite E3.
        rewrite nth_error_upd_nth_other by auto. split; [|split; [|split; [|split]]]; auto.
Qed.

Lemma in_filter_neq j (l : list N) : iid <> j -> (In iid (filter (fun x => negb (x =? j)) l) <-> In iid l).
Proof.
  intros Hne. rewrite filter_In. split; [tauto|]. intros H. split; auto.
  destruct (N.eqb_spec iid j); [congruence|reflexivity].
Qed.

Lemma txn_ev_of_step d d' : txn_step d d' -> tables_ok d -> tables_ok d' -> txn_ev d d'.
Proof.
  intros [H|[tab' [es [old [t [t' [E1 [E2 [E3 [_ Hw]]]]]]]]]] HOK HOK'; [now left|].
  right. exists tab', es, old, t, t'. split; [|split; [|split]]; auto. apply tev_of_tstep. apply Hw.
  - exact (proj1 (ok_entry _ _ _ _ _ _ HOK E1 E2)).
  - apply rev_room_bound.
    exact (proj2 (ok_entry _ _ _ _ _ _ HOK' E3 (nth_error_upd_nth_same _ _ _ _ E2))).
Qed.

(* what the user of iterator iid owes for the discharged theorems: the id is not re-used, Next is
   called with a fresh read transaction (or the current write transaction) and only once the
   creating transaction has committed, and the creating transaction is not aborted.
   `ONext ... -> reg_root d` is what excludes K4 (Changes after a delete in the same transaction, then
   Next on that transaction): before the creating Commit the tracker is not in the committed root *)
Definition reg_root (d : db) : Prop := exists cur, nth_error (d_root d) tab = Some cur /\ reg cur.
Definition friendly (d : db) (o : op) : Prop :=
  match o with
  | OChanges i _ => i <> iid
  | ONext i s _ => i = iid -> (s = SFresh \/ s = STxn) /\ reg_root d
  | OAbort => assoc iid (d_iters d) <> None -> reg_root d
  | _ => True
  end.

Lemma RInv_write G d o : is_write o = true -> tables_ok d -> tables_ok (fst (step d o)) ->
  RInv G d -> RInv G (fst (step d o)).
Proof.
  intros Hw HOK HOK'. destruct (step_write_spec d o Hw) as [A [B [C [D [_ E]]]]]. cbv zeta in *.
  apply RInv_frame; auto; [now rewrite B|now rewrite C|intros keys; now rewrite D|].
  apply txn_ev_of_step; auto.
Qed.

Lemma RInv_begin G d tabs : RInv G d -> RInv G (fst (step d (OBegin tabs))).
Proof.
  intros HR. cbn [step]. destruct (d_txn d) eqn:Et; [exact HR|]. cbn [fst].
  intros it Hi. cbn [set_txn d_iters] in Hi. destruct (HR it Hi) as [cur [Hc [R1 R2 R3 R3' R4 R5]]].
  exists cur. split; [exact Hc|]. constructor; auto.
  destruct R5 as [[P1 [P2 [P3 P4]]]|[_ [_ [_ [es [old [te [Q1 _]]]]]]]]; [|congruence].
  left. split; [exact P1|]. split; [exact P2|]. split; [exact P3|].
  intros es old te H H0. cbn [set_txn d_txn] in H. injection H as <- <-.
  rewrite begin_entries, nth_error_map, Hc in H0. cbn in H0. injection H0 as <- _.
  split; [exact P1|]. split; [apply tab_le_refl|apply retained_refl].
Qed.

Lemma RInv_commit G d sid : wf d -> tables_ok d -> RInv G d -> RInv G (fst (step d (OCommit sid))).
Proof.
  intros [W1 _] HOK HR. cbn [step]. destruct (d_txn d) as [[es old]|] eqn:Et; [|exact HR]. cbn [fst].
  destruct (W1 _ _ eq_refl) as [_ [Hl _]].
  intros it Hi. cbn [d_iters] in Hi. destruct (HR it Hi) as [cur [Hc [R1 R2 R3 R3' R4 R5]]].
  destruct (nth_error_same_length _ es _ _ (eq_sym Hl) Hc) as [[te b] He].
  destruct (ok_root _ _ _ HOK Hc) as [HIc _].
  cbn [d_root]. rewrite nth_error_zip_with, He, Hc.
  destruct R5 as [[P1 [P2 [P3 P4]]]|[P1 [P2 [P3 [es0 [old0 [te0 [Q1 [Q2 [Q3 [Q4 Q5]]]]]]]]]]].
  - destruct b.
    + destruct (P4 _ _ _ Et He) as [A [B C]]. destruct (fin_sem te) as [Hs Htr].
      exists (fin_table te). split; [reflexivity|]. constructor; auto. left.
      split; [unfold reg; now rewrite Htr|].
      split; [eapply tab_le_sem_r; eauto; eapply tab_le_trans; eauto|].
      split; [eapply retained_sem_r; eauto; eapply retained_trans; eauto|].
      intros ? ? ? H. cbn in H. discriminate.
    + exists cur. split; [reflexivity|]. constructor; auto. left.
      split; [exact P1|]. split; [exact P2|]. split; [exact P3|]. intros ? ? ? H. cbn in H. discriminate.
  - rewrite Et in Q1. injection Q1 as <- <-. rewrite He in Q2. injection Q2 as <- ->. destruct (fin_sem te) as [Hs Htr].
    exists (fin_table te). split; [reflexivity|]. constructor; auto. left.
    split; [unfold reg; now rewrite Htr|].
    split; [eapply tab_le_sem_r; eauto|]. split; [eapply retained_sem_r; eauto|].
    intros ? ? ? H. cbn in H. discriminate.
Qed.

Lemma RInv_abort G d : friendly d OAbort -> RInv G d -> RInv G (fst (step d OAbort)).
Proof.
  intros Hf HR. cbn [step]. destruct (d_txn d) eqn:Et; [|exact HR]. cbn [fst].
  intros it Hi. cbn [set_txn d_iters] in Hi. destruct (HR it Hi) as [cur [Hc [R1 R2 R3 R3' R4 R5]]].
  exists cur. split; [exact Hc|]. constructor; auto.
  destruct R5 as [[P1 [P2 [P3 P4]]]|[P1 _]].
  - left. split; [exact P1|]. split; [exact P2|]. split; [exact P3|]. intros ? ? ? H. cbn in H. discriminate.
  - exfalso. cbn [friendly] in Hf. destruct Hf as [cur' [Hc' Hr]]; [congruence|]. congruence.
Qed.

Lemma RInv_changes G d j tab' : j <> iid -> tables_ok d -> RInv G d -> RInv G (fst (step d (OChanges j tab'))).
Proof.
  intros Hne HOK HR. cbn [step].
  destruct (d_txn d) as [[es old]|] eqn:Et; [|exact HR].
  destruct (nth_error es tab') as [[t [|]]|] eqn:E2; try exact HR.
  destruct (nth_error old tab') as [told|]; [|exact HR]. cbn [fst].
  apply (RInv_frame G d); auto; cbn [set_iters set_wm set_txn d_root d_iters d_wm d_gc d_txn].
  - apply assoc_set_other. congruence.
  - apply assoc_set_other. congruence.
  - right. exists tab', es, old, t. eexists. split; [exact Et|]. split; [exact E2|]. split; [reflexivity|].
    intros Hr. split; [unfold reg; cbn; apply in_or_app; now left|].
    split; [apply (tab_le_sem_r t t); [repeat split|apply tab_le_refl]|].
    intros A D _ H. eapply retained_sem_r; eauto. repeat split.
Qed.

(* a delivery to another iterator *)
Lemma RInv_other G d o : touches iid o = false ->
  match o with ONext _ _ _ | OResume _ _ => True | _ => False end ->
  tables_ok d -> RInv G d -> RInv G (fst (step d o)).
Proof.
  intros Ht Hk HOK HR.
  assert (Hd : forall j it1 l, (j =? iid) = false -> delivery d j it1 l (step d o) -> RInv G (fst (step d o))).
  { intros j it1 l Hj Hd. destruct (delivery_frame _ _ _ _ _ Hd) as [A [B [_ [I [W Gc]]]]].
    assert (iid <> j) by (intros ->; now rewrite N.eqb_refl in Hj).
    apply (RInv_frame G d); auto. now left. }
  destruct o; try contradiction; cbn [touches] in Ht.
  - pose proof (step_next_cases d iid0 s take) as Hc. destruct (next_source d iid0 s).
    + destruct Hc as [it [l [_ [_ Hc]]]]. eauto.
    + now destruct Hc as [-> _].
  - destruct (step_resume_cases d iid0 take) as [[-> _]|[it [l [_ [_ [_ Hc]]]]]]; [exact HR|eauto].
Qed.

Lemma RInv_close G d j : j <> iid -> RInv G d -> RInv G (fst (step d (OClose j))).
Proof.
  intros Hne HR. assert (Ht : touches iid (OClose j) = false) by (cbn; now apply N.eqb_neq).
  pose proof (step_iters_frame d _ iid Ht) as Hit. cbn [step] in *.
  destruct (assoc j (d_iters d)) as [itj|]; [|exact HR]. destruct (d_txn d) eqn:Et; [exact HR|].
  cbn [fst] in *.
  match goal with |- RInv G (gc_trigger ?x) => destruct (gc_trigger_frame x) as [A [B [_ [_ [C _]]]]];
    pose proof (gc_trigger_gate2 x) as Hg; set (dx := x) in * end.
  intros it Hi. rewrite Hit in Hi. destruct (HR it Hi) as [cur [Hc [R1 R2 R3 R3' R4 R5]]].
  set (mt := fun t => mkT (t_rev t) (t_primary t) (t_revidx t) (t_grave t) (t_graverev t) (t_u t) (t_n t) (t_lu t) (t_ln t)
                         (filter (fun x => negb (x =? j)) (t_trackers t)) (t_init t)) in *.
  assert (Hcur : exists cur', nth_error (d_root (gc_trigger dx)) tab = Some cur' /\ sem_eq cur cur' /\ (reg cur' <-> reg cur)).
  { rewrite A. cbn [dx set_iters set_root d_root]. destruct (Nat.eq_dec (it_tab itj) tab) as [E|E].
    - rewrite E. rewrite (nth_error_upd_nth_same _ _ _ _ Hc). exists (mt cur). split; auto. split; [repeat split|].
      unfold reg, mt. cbn [t_trackers]. apply in_filter_neq. congruence.
    - rewrite nth_error_upd_nth_other by auto. exists cur. split; auto. split; [apply sem_eq_refl|tauto]. }
  destruct Hcur as [cur' [Hc' [Hs Hr]]]. exists cur'. split; [exact Hc'|].
  constructor; auto.
  - rewrite C. exact R2.
  - intros keys ks H. apply Hg in H. cbn in H. eauto.
  - destruct R5 as [[P1 [P2 [P3 P4]]]|[_ [_ [_ [es [old [te [Q1 _]]]]]]]]; [|congruence].
    left. split; [now apply Hr|]. split; [eapply tab_le_sem_r; eauto|]. split; [eapply retained_sem_r; eauto|].
    intros ? ? ? H. rewrite B in H. cbn in H. congruence.
Qed.

Lemma RInv_scan G d : tables_ok d -> RInv G d -> RInv G (fst (step d OGcScan)).
Proof.
  intros HOK HR. cbn [step]. destruct (d_gc d) eqn:Eg; try exact HR. cbn [fst].
  intros it Hi. cbn [set_gc d_iters] in Hi. destruct (HR it Hi) as [cur [Hc [R1 R2 R3 R3' R4 R5]]].
  exists cur. split; [exact Hc|]. constructor; auto.
  intros keys ks H H1 k Hk. cbn [set_gc d_gc] in H. injection H as <-.
  rewrite nth_error_map, Hc in H1. cbn in H1. injection H1 as <-.
  destruct (ok_root _ _ _ HOK Hc) as [HI HRm].
  destruct (gc_scan_only_observed _ _ _ Hk) as [o [Hin [Hle Hall]]].
  apply (ti_graverev cur HI) in Hin. destruct Hin as [-> Hd]. exists (o_rev o).
  split; [unfold rev_room, B64 in *; lia|]. split; [reflexivity|].
  destruct R5 as [[P1 _]|[_ [_ [P3 _]]]]; [|lia].
  exact (Hall iid _ P1 R2).
Qed.

Lemma RInv_apply G d : wf d -> tables_ok d -> RInv G d -> RInv G (fst (step d OGcApply)).
Proof.
  intros [_ W2] HOK HR. cbn [step]. destruct (d_gc d) eqn:Eg; try exact HR.
  destruct (d_txn d) eqn:Et; [exact HR|]. cbn [fst].
  destruct (W2 _ eq_refl) as [Hl _].
  intros it Hi.
  assert (Hi0 : assoc iid (d_iters d) = Some it).
  { revert Hi. unfold gc_settle. cbn. destruct (d_gcchan d); cbn; auto. }
  destruct (HR it Hi0) as [cur [Hc [R1 R2 R3 R3' R4 R5]]].
  destruct (nth_error_same_length _ keys _ _ (eq_sym Hl) Hc) as [ks Hk].
  destruct (ok_root _ _ _ HOK Hc) as [HI HRm].
  exists (gc_apply_table ks cur). split.
  { unfold gc_settle. cbn. destruct (d_gcchan d); cbn; rewrite nth_error_zip_with, Hk, Hc; reflexivity. }
  assert (Hwm : d_wm (gc_settle (set_gc (set_root d (zip_with gc_apply_table keys (d_root d))) GIdle)) = d_wm d).
  { unfold gc_settle. cbn. destruct (d_gcchan d); reflexivity. }
  assert (Htx : d_txn (gc_settle (set_gc (set_root d (zip_with gc_apply_table keys (d_root d))) GIdle)) = None).
  { unfold gc_settle. cbn. destruct (d_gcchan d); cbn; exact Et. }
  constructor; auto.
  - now rewrite Hwm.
  - intros keys0 ks0 H. exfalso. revert H. unfold gc_settle. cbn. destruct (d_gcchan d); cbn; discriminate.
  - destruct R5 as [[P1 [P2 [P3 P4]]]|[_ [_ [_ [es [old [te [Q1 _]]]]]]]]; [|congruence].
    left. split; [unfold reg; now rewrite (proj2 (proj2 (gc_apply_sem_live ks cur)))|].
    split; [now apply tab_le_gc_apply|].
    split; [apply retained_gc_apply; auto; [now apply rev_room_bound|]; intros k Hin; eapply R4; eauto|].
    intros ? ? ? H. rewrite Htx in H. discriminate.
Qed.

Lemma RInv_tab G d it : RInv G d -> assoc iid (d_iters d) = Some it -> it_tab it = tab.
Proof. intros HR Hi. destruct (HR it Hi) as [cur [_ [R1 _]]]. exact R1. Qed.

Lemma RInv_seq_reg G d it : RInv G d -> assoc iid (d_iters d) = Some it -> it_seq it = true -> reg_root d.
Proof.
  intros HR Hi Hs. destruct (HR it Hi) as [cur [Hc [_ _ _ _ _ R5]]].
  destruct R5 as [[P1 _]|[_ [Q _]]]; [exists cur; auto|congruence].
Qed.

Lemma RInv_committed A d it cur : RInv A d -> assoc iid (d_iters d) = Some it ->
  nth_error (d_root d) tab = Some cur -> reg cur ->
  it_delrev it <= t_rev A /\ TInv A /\ tab_le A cur /\ retained A cur (it_delrev it).
Proof.
  intros HR Hi Hc Hr. destruct (HR it Hi) as [cur' [Hc' [R1 R2 R3 R3' R4 R5]]].
  assert (cur' = cur) by congruence. subst cur'.
  destruct R5 as [[_ [P2 [P3 _]]]|[Q _]]; [auto|contradiction].
Qed.

Lemma RInv_retention G d it cur : RInv G d -> assoc iid (d_iters d) = Some it ->
  nth_error (d_root d) tab = Some cur -> reg cur ->
  retained G cur (it_delrev it) /\ assoc iid (d_wm d) = Some (it_delrev it).
Proof.
  intros HR Hi Hc Hr. split; [apply (RInv_committed G d it cur); auto|].
  destruct (HR it Hi) as [cur' [_ R]]. apply (ri_wm _ _ _ _ R).
Qed.

(* once the tracker is in the committed root, any table that root is a later state of, and retains for, will do as anchor *)
Lemma RInv_swap A B d : RInv A d -> reg_root d -> TInv B ->
  (forall it cur, assoc iid (d_iters d) = Some it -> nth_error (d_root d) tab = Some cur ->
                  it_delrev it <= t_rev B /\ tab_le B cur /\ retained B cur (it_delrev it)) ->
  RInv B d.
Proof.
  intros HR [cur0 [Hc0 Hr0]] HB Hall it Hi. destruct (HR it Hi) as [cur [Hc [R1 R2 R3 R3' R4 R5]]].
  assert (cur0 = cur) by congruence. subst cur0. destruct (Hall it cur Hi Hc) as [A1 [A2 A3]].
  exists cur. split; auto. constructor; auto.
  destruct R5 as [[P1 [_ [_ P4]]]|[Q _]]; [|contradiction]. left. auto.
Qed.

(* a committed root holding the tracker is itself an anchor, a later state of every other anchor Y and
   retaining what Y may make the iterator hold *)
Lemma RInv_root Y d it X : RInv Y d -> tables_ok d -> assoc iid (d_iters d) = Some it ->
  nth_error (d_root d) tab = Some X -> reg X ->
  RInv X d /\ tab_le Y X /\ retained Y X (it_delrev it).
Proof.
  intros HR HOK Hi Hc Hr. destruct (RInv_committed Y d it X HR Hi Hc Hr) as [A1 [A2 [A3 A4]]].
  destruct (ok_root _ _ _ HOK Hc) as [HIX _]. split; [|auto].
  apply (RInv_swap Y X d); auto; [exists X; auto|]. intros it' cur' Hi' Hc'.
  assert (it' = it) by congruence. assert (cur' = X) by congruence. subst.
  split; [destruct A3; lia|]. split; [apply tab_le_refl|apply retained_refl].
Qed.

(* its effect on the database, as far as RInv is concerned *)
Record bumped (d d' : db) (it it2 : iter) : Prop := mkBumped {
  bu_it : assoc iid (d_iters d') = Some it2;
  bu_tab : it_tab it2 = it_tab it;
  bu_root : d_root d' = d_root d;
  bu_txn : d_txn d' = d_txn d;
  bu_snaps : d_snaps d' = d_snaps d;
  bu_gc : forall keys, d_gc d' = GGate2 keys -> d_gc d = GGate2 keys;
  bu_wm : assoc iid (d_wm d) = Some (it_delrev it) -> assoc iid (d_wm d') = Some (it_delrev it2);
  bu_mono : it_delrev it <= it_delrev it2
}.

(* cursor and watermark move up together, below the anchor's revision *)
Lemma RInv_bump A d d' it it2 : assoc iid (d_iters d) = Some it -> bumped d d' it it2 ->
  it_delrev it2 <= t_rev A -> reg_root d -> tables_ok d ->
  RInv A d -> RInv A d'.
Proof.
  intros Hi [B1 B2 B3 B4 _ B6 B7 B8] Hle [cur0 [Hc0 Hr0]] HOK HR it' Hi'.
  rewrite B1 in Hi'. injection Hi' as <-.
  destruct (HR it Hi) as [cur [Hc [R1 R2 R3 R3' R4 R5]]]. assert (cur0 = cur) by congruence. subst cur0.
  destruct (ok_root _ _ _ HOK Hc) as [HIc _].
  exists cur. split; [now rewrite B3|]. constructor; auto.
  - congruence.
  - intros keys ks H H1 k Hk. apply B6 in H. destruct (R4 _ _ H H1 _ Hk) as [r [X [Y Z]]]. exists r. repeat split; auto. lia.
  - destruct R5 as [[P1 [P2 [P3 P4]]]|[Q _]]; [|contradiction].
    left. split; [exact P1|]. split; [exact P2|].
    split; [apply (retained_raise A cur (it_delrev it)); auto|].
    intros es old te H H0. rewrite B4 in H. destruct (P4 _ _ _ H H0) as [X [Y Z]].
    split; [exact X|]. split; [exact Y|].
    apply (retained_raise cur te (it_delrev it)); auto. destruct P2 as [W _]. lia.
Qed.

(* it1: the iterator as stored (Resume) or refreshed (Next) *)
Lemma delivery_bumped G d it it1 l r acc :
  assoc iid (d_iters d) = Some it -> it_tab it1 = it_tab it -> it_delrev it1 = it_delrev it ->
  delivery d iid it1 l r -> oinv G it1 acc -> it_pending it1 = Some l -> it_seq it1 = true ->
  exists it2, bumped d (fst r) it it2 /\ it_delrev it2 <= t_rev G.
Proof.
  intros Hi Et Ed Hd HO Hp Hs.
  destruct (delivery_inv G _ _ _ _ _ acc Hd HO Hp Hs) as [it2 [Hi2 [HO2 [_ [Ht [Hm Hw]]]]]].
  destruct (delivery_frame _ _ _ _ _ Hd) as [A [B [C [_ [_ Gc]]]]].
  exists it2. split; [|exact (oi_dle _ _ _ HO2)]. rewrite Et in Ht. rewrite Ed in Hm, Hw. now constructor.
Qed.

Lemma bumped_resume G d take it acc l :
  assoc iid (d_iters d) = Some it -> oinv G it acc -> it_pending it = Some l -> it_seq it = true ->
  exists it2, bumped d (fst (step d (OResume iid take))) it it2 /\ it_delrev it2 <= t_rev G.
Proof.
  intros Hi HO Hp Hs.
  exact (delivery_bumped G d it it l _ acc Hi eq_refl eq_refl (step_resume_some d iid take it l Hi Hp Hs) HO Hp Hs).
Qed.

Lemma bumped_next G d s take it acc T :
  assoc iid (d_iters d) = Some it -> oinv G it acc -> next_source d iid s = Some T ->
  tab_le G T -> TInv T -> rev_room T ->
  exists it2, bumped d (fst (step d (ONext iid s take))) it it2 /\ it_delrev it2 <= t_rev T.
Proof.
  intros Hi HO Hn Hle HI HR. pose proof (step_next_cases d iid s take) as Hc. rewrite Hn, Hi in Hc.
  destruct Hc as [it0 [l [E [Hl Hd]]]]. injection E as <-.
  exact (delivery_bumped T d it (next_iter T it) l _ acc Hi eq_refl eq_refl Hd (oinv_refresh _ _ _ _ HO Hle HI HR) Hl eq_refl).
Qed.

(* every operation except a Next / Resume of iid keeps RInv for ANY anchor table *)
Definition is_self (o : op) : bool :=
  match o with ONext i _ _ | OResume i _ => i =? iid | _ => false end.

Lemma gstep_passive g d o : is_self o = false -> gstep iid g d o = g.
Proof. destruct o; cbn [gstep is_self]; auto; intros ->; reflexivity. Qed.

Lemma RInv_passive A d o : is_self o = false -> wf d -> tables_ok d -> tables_ok (fst (step d o)) ->
  friendly d o -> RInv A d -> RInv A (fst (step d o)).
Proof.
  intros Hs HW HOK HOK' Hf HR.
  destruct (is_write o) eqn:Hw; [now apply RInv_write|].
  destruct o; cbn [is_write is_self] in Hw, Hs; try discriminate.
  - now apply RInv_begin.
  - now apply RInv_commit.
  - now apply RInv_abort.
  - cbn [step fst]. apply (RInv_frame A d); auto. now left.
  - cbn [step]. destruct (src_root d s); [|exact HR]. destruct (nth_error l tab0); exact HR.
  - cbn [friendly] in Hf. now apply RInv_changes.
  - apply RInv_other; auto.
  - apply RInv_other; auto.
  - destruct (N.eqb_spec iid0 iid) as [->|Hne]; [|now apply RInv_close].
    destruct (step_close_self d iid) as [->|Hn]; [exact HR|]. intros it' Hi'. congruence.
  - now apply RInv_scan.
  - now apply RInv_apply.
Qed.

(* Next with a fresh read transaction or the write transaction refreshes from the committed root *)
Lemma next_fresh_source d it s T : wf d -> s = SFresh \/ s = STxn ->
  assoc iid (d_iters d) = Some it -> it_tab it = tab -> next_source d iid s = Some T ->
  nth_error (d_root d) tab = Some T.
Proof.
  intros [W1 _] Hs Hi Ht Hn. unfold next_source in Hn. rewrite Hi, Ht in Hn.
  assert (Hsc : src_committed d s = Some (d_root d) \/ src_committed d s = None).
  { destruct Hs as [->| ->]; cbn; auto. destruct (d_txn d) as [[es old]|] eqn:Et; auto.
    destruct (W1 _ _ eq_refl) as [-> _]. auto. }
  destruct Hsc as [Hsc|Hsc]; rewrite Hsc in Hn; [|discriminate].
  destruct (nth_error (d_root d) tab) as [cur|]; [|discriminate].
  match type of Hn with (if ?c then _ else _) = _ => destruct c end; congruence.
Qed.

Lemma RInv_step g d o : wf d -> tables_ok d -> tables_ok (fst (step d o)) ->
  sinv true iid g d -> RInv (fst g) d -> friendly d o ->
  RInv (fst (gstep iid g d o)) (fst (step d o)) /\ good_step true iid (fst g) d o.
Proof.
  intros HW HOK HOK' [_ HS] HR Hf.
  destruct (is_self o) eqn:Hself.
  2:{ rewrite gstep_passive by auto. split; [now apply RInv_passive|].
      destruct o; cbn [good_step friendly is_self] in *; auto.
      intros ->. now rewrite N.eqb_refl in Hself. }
  destruct o; try discriminate; apply N.eqb_eq in Hself; subst iid0; cbn [gstep]; rewrite N.eqb_refl; cbn [fst].
  - (* ONext iid: the committed root becomes the anchor *)
    cbn [friendly good_step] in *. destruct (Hf eq_refl) as [Hs [c [Hc' Hrc]]].
    destruct (next_source d iid s) as [T|] eqn:Hn.
    2:{ destruct (step_next_none d iid s take Hn) as [-> _]. split; [exact HR|]. intros _ T it Hn'; discriminate. }
    destruct (next_source_iter _ _ _ _ Hn) as [it Hi]. destruct (HS it Hi) as [HO _].
    pose proof (next_fresh_source d it s T HW Hs Hi (RInv_tab _ _ _ HR Hi) Hn) as Hc.
    assert (c = T) by congruence. subst c.
    destruct (ok_root _ _ _ HOK Hc) as [HIT HRT].
    destruct (RInv_root _ _ _ _ HR HOK Hi Hc Hrc) as [HRT' [Hle Hret]].
    split; [|intros _ T' it' Hn' Hi'; injection Hn' as <-; rewrite Hi in Hi'; injection Hi' as <-; auto].
    destruct (bumped_next (fst g) d s take it (snd g) T Hi HO Hn Hle HIT HRT) as [it2 [HB HD]].
    apply (RInv_bump T d _ it it2); auto. exists T; auto.
  - (* OResume iid *)
    split; [|exact I].
    destruct (step_resume_cases d iid take) as [[-> _]|[it [l [Hi [Hp [Hs _]]]]]]; [exact HR|].
    destruct (HS it Hi) as [HO _].
    destruct (bumped_resume (fst g) d take it (snd g) l Hi HO Hp Hs) as [it2 [HB HD]].
    apply (RInv_bump (fst g) d _ it it2); auto. eapply RInv_seq_reg; eauto.
Qed.

Fixpoint friendly_run (d : db) (ops : list op) : Prop :=
  match ops with
  | [] => True
  | o :: r => friendly d o /\ friendly_run (fst (step d o)) r
  end.
(* every table reachable in every state of the run satisfies TInv and has revision room
   (TInv preservation: Table/Inv.v, along histories Table/Inv2.v) *)
Fixpoint ok_run (d : db) (ops : list op) : Prop :=
  tables_ok d /\ match ops with [] => True | o :: r => ok_run (fst (step d o)) r end.

Lemma ok_run_head d ops : ok_run d ops -> tables_ok d.
Proof. destruct ops; cbn; tauto. Qed.

Theorem ret_run ops : forall g d,
  wf d -> sinv true iid g d -> RInv (fst g) d -> ok_run d ops -> friendly_run d ops ->
  good_run true iid g d ops /\ RInv (fst (grun iid g d ops)) (fst (run d ops)) /\ wf (fst (run d ops)).
Proof.
  induction ops as [|o r IH]; intros g d HW HS HR HOK HF; cbn [good_run grun run]; [auto|].
  destruct HOK as [HOK HOKr], HF as [HF HFr].
  destruct (RInv_step g d o HW HOK (ok_run_head _ _ HOKr) HS HR HF) as [HR1 HG].
  pose proof (sinv_step true iid g d o HS HG) as HS1.
  pose proof (wf_step d o HW HOK) as HW1.
  destruct (IH _ _ HW1 HS1 HR1 HOKr HFr) as [A [B C]].
  destruct (step d o) as [d1 x]. cbn [fst] in *. destruct (run d1 r) as [d2 xs]. cbn [fst] in *. auto.
Qed.

Lemma RInv_created d t0 : created d iid tab t0 -> wf d -> tables_ok d ->
  (forall cur, nth_error (d_root d) tab = Some cur -> ~ reg cur) ->
  RInv t0 (fst (step d (OChanges iid tab))).
Proof.
  intros [es [old [told [Ht [He Ho]]]]] [W1 W2] HOK Hfresh. cbn [step]. rewrite Ht, He, Ho. cbn [fst].
  destruct (W1 _ _ Ht) as [Hold [Hl Hrev]].
  destruct (nth_error_same_length _ (d_root d) _ _ Hl He) as [cur Hc].
  destruct (ok_entry _ _ _ _ _ _ HOK Ht He) as [HI0 HR0].
  intros it Hi. cbn [set_iters d_iters] in Hi. rewrite assoc_set_same in Hi. injection Hi as <-.
  exists cur. split; [exact Hc|].
  constructor; cbn [refresh it_tab it_delrev it_seq set_iters set_wm set_txn d_wm d_gc d_txn]; auto.
  - apply assoc_set_same.
  - lia.
  - intros keys ks H H1 k Hk. destruct (W2 _ H) as [_ Hb]. destruct (Hb _ _ _ H1 Hc _ Hk) as [r [A [B C]]].
    exists r. repeat split; auto. specialize (Hrev _ _ _ _ He Hc). lia.
  - right. split; [now apply Hfresh|]. split; [reflexivity|]. split; [exact (Hrev _ _ _ _ He Hc)|].
    set (t0' := mkT (t_rev t0) (t_primary t0) (t_revidx t0) (t_grave t0) (t_graverev t0) (t_u t0) (t_n t0)
                    (t_lu t0) (t_ln t0) (t_trackers t0 ++ [iid]) (t_init t0)).
    exists (upd_nth tab (fun _ => (t0', true)) es), old, t0'. split; [reflexivity|].
    split; [apply (nth_error_upd_nth_same (fun _ => (t0', true)) _ _ _ He)|].
    split; [unfold reg; cbn; apply in_or_app; right; now left|].
    split; [apply (tab_le_sem_r t0 t0); [repeat split|apply tab_le_refl]|].
    apply (retained_sem_r t0 t0); [repeat split|apply retained_refl].
Qed.

Lemma created_ok d t0 : created d iid tab t0 -> tables_ok d -> TInv t0 /\ rev_room t0.
Proof. intros [es [old [told [Ht [He _]]]]] HOK. exact (ok_entry _ _ _ _ _ _ HOK Ht He). Qed.

Section Discharged.
Variables (d : db) (t0 : table) (ops : list op).
Hypothesis Hcreated : created d iid tab t0.
Hypothesis Hwf : wf d.
Hypothesis Hfresh : forall cur, nth_error (d_root d) tab = Some cur -> ~ reg cur.
Let d0 := fst (step d (OChanges iid tab)).
Hypothesis Hok : tables_ok d /\ ok_run d0 ops.
Hypothesis Hfriendly : friendly_run d0 ops.

Lemma discharged_facts :
  good_run true iid (t0, []) d0 ops /\ RInv (fst (grun iid (t0, []) d0 ops)) (fst (run d0 ops)) /\
  TInv t0 /\ rev_room t0.
Proof.
  destruct Hok as [HOK HOKr]. destruct (created_ok _ _ Hcreated HOK) as [HI0 HR0].
  destruct (ret_run ops (t0, []) d0 (wf_step d _ Hwf HOK) (sinv_created true d iid tab t0 Hcreated HI0 HR0)
                    (RInv_created d t0 Hcreated Hwf HOK Hfresh) HOKr Hfriendly) as [A [B _]].
  auto.
Qed.

Theorem fresh_strictly_increasing : asc (map crev (delivered iid d0 ops)).
Proof.
  destruct discharged_facts as [A [_ [B C]]].
  apply (changes_strictly_increasing d iid tab t0 ops Hcreated B C). now apply good_run_weaken.
Qed.

Theorem fresh_converge : forall it,
  assoc iid (d_iters (fst (run d0 ops))) = Some it -> it_pending it = None ->
  replay (delivered iid d0 ops) = abs_of (fst (grun iid (t0, []) d0 ops)).
Proof.
  destruct discharged_facts as [A [_ [B C]]]. exact (changes_converge d iid tab t0 ops Hcreated B C A).
Qed.

(* C08: at every point of the run, every key the iterator may hold that has ceased to be live in the
   committed root has a deletion above the iterator's delete cursor retained in its graveyard *)
Theorem fresh_retention : forall it cur,
  assoc iid (d_iters (fst (run d0 ops))) = Some it ->
  nth_error (d_root (fst (run d0 ops))) tab = Some cur -> reg cur ->
  retained (fst (grun iid (t0, []) d0 ops)) cur (it_delrev it) /\
  assoc iid (d_wm (fst (run d0 ops))) = Some (it_delrev it).
Proof.
  destruct discharged_facts as [_ [R _]]. intros it cur. now apply RInv_retention.
Qed.
End Discharged.
End Ret.

(* the run ends with a Next(fresh read transaction) consumed to completion: replay = the committed table *)
Theorem fresh_converge_next iid tab d t0 ops s S :
  created d iid tab t0 -> wf d ->
  (forall cur, nth_error (d_root d) tab = Some cur -> ~ reg iid cur) ->
  let d0 := fst (step d (OChanges iid tab)) in
  tables_ok d /\ ok_run d0 (ops ++ [ONext iid s None]) ->
  friendly_run iid tab d0 (ops ++ [ONext iid s None]) ->
  next_source (fst (run d0 ops)) iid s = Some S ->
  replay (delivered iid d0 (ops ++ [ONext iid s None])) = abs_of S.
Proof.
  intros Hc Hw Hf d0 Hok Hfr Hn.
  destruct (discharged_facts iid tab d t0 _ Hc Hw Hf Hok Hfr) as [A [_ [B C]]].
  exact (changes_converge_next d iid tab t0 ops s S Hc B C A Hn).
Qed.

Theorem wf_run ops : forall d, wf d -> ok_run d ops -> wf (fst (run d ops)).
Proof.
  induction ops as [|o r IH]; intros d HW HOK; cbn [run]; auto.
  destruct HOK as [HOK HOKr]. pose proof (wf_step d o HW HOK) as HW1. specialize (IH _ HW1 HOKr).
  destruct (step d o) as [d1 x]. cbn [fst] in *. destruct (run d1 r) as [d2 xs]. exact IH.
Qed.

