(* Table/AgreeRun.v — the Agree invariant along whole histories of the database model: after any
   sequence of operations (transactions, inserts, key-changing updates, deletes, DeleteAll,
   commits, aborts, snapshots, graveyard collection, ...) every table value reachable anywhere
   (committed root, open write transaction, retained snapshots) satisfies TInv and Agree, hence
   every query through every index is exact on it (Table/Queries.v).
   Uses the history-lifting of Table/Inv2.v (all_tables_step) and the core invariant of Table/Inv.v. *)
From SV Require Import Base.Bytes Base.OrdMap KeyEnc.Model Table.Model Table.InvDefs Table.Proofs Table.GcProofs
  Table.Inv Table.Inv2 Table.Inv3 Table.AgreeDefs Table.AgreeLpm Table.AgreeN Table.Agree Table.Queries.
From Coq Require Import Sorted ZifyN ZifyNat ZifyBool.
Open Scope N_scope.

(* Agree only reads the primary index and the four secondary indexes *)
Lemma Agree_ext t t' :
  t_primary t' = t_primary t -> t_u t' = t_u t -> t_n t' = t_n t -> t_lu t' = t_lu t -> t_ln t' = t_ln t ->
  Agree t -> Agree t'.
Proof.
  intros E1 E2 E3 E4 E5. unfold Agree, u_agree, n_agree, l_agree, live. now rewrite E1, E2, E3, E4, E5.
Qed.

Lemma wf_ext t t' : t_primary t' = t_primary t -> (u_wf t -> u_wf t') /\ (lu_wf t -> lu_wf t') /\ (pk_short t -> pk_short t').
Proof. intros E. unfold u_wf, lu_wf, pk_short, live. now rewrite E. Qed.

Lemma Agree_gc_apply keys t : Agree t -> Agree (gc_apply_table keys t).
Proof.
  destruct (gc_apply_frame keys t) as [_ [E1 [_ [E2 [E3 [E4 [E5 _]]]]]]]. now apply Agree_ext.
Qed.

Lemma Agree_set_meta t trk ini : Agree t -> Agree (set_meta t trk ini).
Proof. now apply Agree_ext. Qed.

Theorem delete_all_agree t : TInv t -> Agree t -> rev_bound (delete_all t) -> Agree (delete_all t).
Proof.
  intros HI HA Hb. apply (delete_all_inv (fun t => TInv t /\ Agree t)); auto.
  intros id t0 [I A] B. split; [now apply TInv_delete|now apply delete_agree].
Qed.

(* what is maintained / what the user owes at every step: revisions below 2^64 and the documented
   well-formedness of the unique indexes (no key shared by two live objects) *)
Definition TA (t : table) : Prop := TInv t /\ Agree t.
Definition TW (t : table) : Prop := rev_bound t /\ u_wf t /\ lu_wf t.
Definition DAgree (d : db) : Prop := all_tables TA d.
Definition DWf (d : db) : Prop := all_tables TW d.
(* unlike run_bounded (Inv2.run_bounded_b) run_wf has no boolean checker; agree_nonvacuous below
   exhibits one table satisfying TW, not a run *)
Fixpoint run_wf (d : db) (ops : list op) : Prop :=
  match ops with
  | [] => True
  | o :: r => DWf (fst (step d o)) /\ run_wf (fst (step d o)) r
  end.

Theorem DAgree_init n : DAgree (init_db n).
Proof.
  unfold DAgree, all_tables, init_db. simpl. repeat split; try discriminate; try tauto.
  apply Forall_forall. intros t Ht. apply repeat_spec in Ht. subst. split; [apply TInv_empty|apply Agree_empty].
Qed.

Theorem DAgree_step d o : DAgree d -> DWf (fst (step d o)) -> DAgree (fst (step d o)).
Proof.
  apply all_tables_step; unfold TA, TW.
  - intros g m p t [HI HA] [Hb [Hu Hl]]. split; [now apply TInv_modify|now apply modify_agree].
  - intros g id t [HI HA] [Hb _]. split; [now apply TInv_delete|now apply delete_agree].
  - intros t [HI HA] [Hb _]. split; [now apply TInv_delete_all|now apply delete_all_agree].
  - intros keys t [HI HA] [Hb _]. split; [|now apply Agree_gc_apply].
    apply TInv_gc_apply; auto. unfold rev_bound in *. now rewrite gc_apply_rev in Hb.
  - intros t trk ini [HI HA]. split; [now apply TInv_set_meta|now apply Agree_set_meta].
Qed.

Theorem DAgree_run ops : forall d, DAgree d -> run_wf d ops -> DAgree (fst (run d ops)).
Proof.
  induction ops as [|o r IH]; intros d HI Hb; [exact HI|].
  rewrite run_cons_fst. destruct Hb as [Hb1 Hb2]. apply IH; auto. now apply DAgree_step.
Qed.

Theorem reachable_agree n ops t :
  run_wf (init_db n) ops -> in_db (fst (run (init_db n) ops)) t -> TInv t /\ Agree t.
Proof.
  intros Hw Hin. apply (all_tables_in_db TA _ _ (DAgree_run ops _ (DAgree_init n) Hw) Hin).
Qed.

(* the hypotheses are satisfiable: a one-object table with keys in all four secondary indexes *)
Definition nv_payload : payload := mkP [97] 1 [[5]; []] [[1]; [0]; [1]] [[true]] [[false]; []].
Definition nv_table : table := fst (modify 0 false nv_payload empty_table).

Lemma nv_live o : live nv_table o -> o = mkO nv_payload 1.
Proof. unfold live. vm_compute. intros [H|[]]. now injection H. Qed.

Example agree_nonvacuous :
  TInv nv_table /\ Agree nv_table /\ pk_short nv_table /\ u_wf nv_table /\ lu_wf nv_table /\
  live nv_table (mkO nv_payload 1).
Proof.
  split; [|split; [|split; [|split; [|split]]]].
  - apply TInv_modify; [apply TInv_empty|]. unfold rev_bound. vm_compute. reflexivity.
  - apply modify_agree'; [apply TInv_empty|apply Agree_empty| |]; intros o k [].
  - intros o HL. apply nv_live in HL. subst o. vm_compute. reflexivity.
  - intros o1 o2 k H1 H2 _ _. apply nv_live in H1, H2. congruence.
  - intros o1 o2 k H1 H2 _ _. apply nv_live in H1, H2. congruence.
  - unfold live. vm_compute. auto.
Qed.

Print Assumptions reachable_agree.
