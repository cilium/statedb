(* Table/ClientsRun.v — run-level theorems about the system of Table/Clients.v (`crun`).
   The tools every Table/ClientsRun*.v file uses: what one operation can do to one table (step_entryP), what holds
   of every reachable state (`creach`), and the induction over a run, leg by leg (crun_invariant).
   Then the loop invariant of a MIRROR Derive over whole runs (any interleaving of harness operations that
           do not write the derived table and do not use the loop's iterator, of the loop itself, and of the
           observer): the derived table is the (key, value) projection of the replay of everything the loop's
           iterator has been handed. *)
From Coq Require Import List NArith Bool Lia.
Import ListNotations.
From SV Require Import Base.Bytes Base.OrdMap KeyEnc.Model Table.Model Table.Proofs Table.InvDefs Table.Inv Table.Inv2 Table.Inv6
                       Table.GcProofs Table.ChangesStream Table.ChangesIter Table.ChangesProofs Table.ChangesRet
                       Table.ChangesHist Table.ChangesFromInit Table.Clients Table.ClientsProofs Table.ClientsProofs2.
Local Open Scope N_scope.

(* ==== lengths: every state reachable from init_db n has n tables, in the root, in the open transaction and in
        a pending collection (no hypothesis on revisions needed, unlike ChangesHist.wf) ========================= *)
Definition LInv (n : nat) (d : db) : Prop :=
  length (d_root d) = n /\
  (forall es old, d_txn d = Some (es, old) -> length es = n) /\
  (forall keys, d_gc d = GGate2 keys -> length keys = n).

Lemma LInv_init n : LInv n (init_db n).
Proof. split; [apply repeat_length|]. split; cbn; intros; discriminate. Qed.

Lemma LInv_step n d o : LInv n d -> LInv n (fst (step d o)).
Proof.
  intros [L1 [L2 L3]].
  assert (G : forall keys, d_gc (fst (step d o)) = GGate2 keys -> length keys = n).
  { intros keys H. destruct (step_gate2 _ _ _ H) as [H1|[_ ->]]; [eauto|now rewrite map_length]. }
  destruct (step_shape d o) as [H|es Ht Hm H|es old tab t t' Ht Hn Hu _ _ H|tab name es old t t' _ Ht Hn Hu H|tab name _ H
                               |sid es old _ Ht H|H|sid H|iid tab Ht H|keys Hg Ht H];
    apply core5_inv in H; destruct H as [R [T _]]; (split; [|split; [|exact G]]); rewrite ?R, ?T; auto.
  - intros es' old' E. injection E as <- _. rewrite <- L1, <- Hm. now rewrite map_length.
  - intros es' old' E. injection E as <- _. rewrite length_upd_nth. eauto.
  - intros es' old' E. injection E as <- _. rewrite length_upd_nth. eauto.
  - unfold commit_root. rewrite zip_with_length_eq; auto. rewrite (L2 _ _ Ht). auto.
  - discriminate.
  - discriminate.
  - now rewrite length_upd_nth.
  - discriminate.
  - rewrite zip_with_length_eq; auto. rewrite (L3 _ Hg). auto.
  - discriminate.
Qed.

Lemma LInv_run n ops : forall d, LInv n d -> LInv n (fst (run d ops)).
Proof.
  induction ops as [|o r IH]; intros d H; cbn [run]; [exact H|].
  specialize (IH _ (LInv_step n d o H)). destruct (step d o) as [d1 x]. cbn [fst] in *.
  destruct (run d1 r) as [d2 xs]. exact IH.
Qed.

Lemma LInv_root n d i : LInv n d -> (i < n)%nat -> exists t, nth_error (d_root d) i = Some t.
Proof.
  intros [L _] Hi. destruct (nth_error (d_root d) i) eqn:E; [eauto|]. apply nth_error_None in E. lia.
Qed.

(* ==== one table across one operation ===========================================================================
   [entryP i Q d]: every version of table i that d holds (the root's, and the open transaction's entry) satisfies Q.
   [tmove i t o t']: what operation o can turn a version t of table i into. Every frame property of the run-level
   proofs (primary index, delete trackers, pending initializers) is an instance of step_entryP. *)
Definition wtab (o : op) : option nat :=
  match o with
  | OInsert tab _ | OModify tab _ | OCas tab _ _ | ODelete tab _ | OCad tab _ _ | ODeleteAll tab => Some tab
  | _ => None
  end.
Definition nowrite (out : nat) (o : op) : bool :=
  match wtab o with Some tab => negb (Nat.eqb tab out) | None => true end.

Definition entryP (i : nat) (Q : table -> Prop) (d : db) : Prop :=
  (forall t, nth_error (d_root d) i = Some t -> Q t) /\
  (forall es old te b, d_txn d = Some (es, old) -> nth_error es i = Some (te, b) -> Q te).

Inductive tmove (i : nat) (t : table) : op -> table -> Prop :=
| tm_keep o t' : t_primary t' = t_primary t -> t_trackers t' = t_trackers t -> t_init t' = t_init t -> tmove i t o t'
| tm_write o t' : wtab o = Some i -> t_trackers t' = t_trackers t -> t_init t' = t_init t -> tmove i t o t'
| tm_track j : tmove i t (OChanges j i) (set_meta t (t_trackers t ++ [j]) (t_init t))
| tm_close j : tmove i t (OClose j) (untrack j t)
| tm_reg name w p : (t_init t = None /\ p = [name]) \/ (exists p0, t_init t = Some (w, p0) /\ p = p0 ++ [name]) ->
    tmove i t (ORegInit i name) (set_meta t (t_trackers t) (Some (w, p)))
| tm_done name w p : t_init t = Some (w, p) ->
    tmove i t (OInitDone i name) (set_meta t (t_trackers t) (Some (w, filter (fun n => negb (n =? name)) p)))
| tm_fin sid : tmove i t (OCommit sid) (fin_table t).

Lemma entryP_same i (Q : table -> Prop) d d' : d_root d' = d_root d -> d_txn d' = d_txn d -> entryP i Q d -> entryP i Q d'.
Proof. intros R T [P1 P2]. split; [rewrite R; exact P1|rewrite T; exact P2]. Qed.

Lemma entryP_upd i (Q : table -> Prop) d es old tab t t' :
  d_txn d = Some (es, old) -> nth_error es tab = Some (t, true) -> (tab = i -> Q t -> Q t') ->
  entryP i Q d -> entryP i Q (set_txn d (Some (upd_nth tab (fun _ => (t', true)) es, old))).
Proof.
  intros Ht Hn Hp [P1 P2]. split; [exact P1|]. cbn [set_txn d_txn]. intros es' old' te b E H. injection E as <- _.
  destruct (Nat.eq_dec tab i) as [->|Hne].
  - rewrite (nth_error_upd_nth_same _ _ _ _ Hn) in H. injection H as <- _. eauto.
  - rewrite nth_error_upd_nth_other in H by exact Hne. eauto.
Qed.

Lemma entryP_with_locked i (Q : table -> Prop) d tab f a b :
  (tab = i -> forall t, Q t -> Q (fst (f t))) -> entryP i Q d -> entryP i Q (fst (with_locked d tab f a b)).
Proof.
  intros Hf HP. destruct (with_locked_cases d tab f a b) as [->|[es [old [t [E1 [E2 ->]]]]]]; [exact HP|].
  eapply entryP_upd; eauto.
Qed.

Lemma step_entryP i (Q : table -> Prop) d o :
  (forall t t', Q t -> tmove i t o t' -> Q t') -> entryP i Q d -> entryP i Q (fst (step d o)).
Proof.
  intros HQ HP.
  assert (Hk : forall t t', t_primary t' = t_primary t -> t_trackers t' = t_trackers t /\ t_init t' = t_init t ->
                            Q t -> Q t').
  { intros t t' A [B C] Ht. eapply HQ; [exact Ht|]. now apply tm_keep. }
  assert (Hw : forall t t', wtab o = Some i -> t_trackers t' = t_trackers t /\ t_init t' = t_init t -> Q t -> Q t').
  { intros t t' E [A B] Ht. eapply HQ; [exact Ht|]. now apply tm_write. }
  destruct o; cbn [step];
    try (apply entryP_with_locked; [|exact HP]; intros -> t; rewrite fst_wr; apply (Hw _ _ eq_refl);
         first [apply modify_meta|apply delete_meta]).
  - (* OBegin *)
    destruct (d_txn d) eqn:Et; [exact HP|]. cbn [fst]. destruct HP as [P1 P2]. split; [exact P1|].
    cbn [set_txn d_txn]. intros es old te b E H. injection E as <- _.
    rewrite begin_entries, nth_error_map in H. destruct (nth_error (d_root d) i) as [t|] eqn:En; [|discriminate].
    cbn in H. injection H as <- _. auto.
  - (* ODeleteAll *)
    destruct (d_txn d) as [[es old]|] eqn:Et; [|exact HP].
    destruct (nth_error es tab) as [[t [|]]|] eqn:E2;
      try (apply entryP_with_locked; [|exact HP]; intros -> t0; apply (Hw _ _ eq_refl), delete_all_meta).
    destruct (t_primary t); exact HP.
  - (* OCommit *)
    destruct (d_txn d) as [[es old]|] eqn:Et; [|exact HP]. cbn [fst]. destruct HP as [P1 P2].
    split; cbn [d_root d_txn]; [|discriminate].
    intros t H. rewrite nth_error_zip_with in H.
    destruct (nth_error es i) as [[te b]|] eqn:En; [|discriminate].
    destruct (nth_error (d_root d) i) as [cur|] eqn:Ec; [|discriminate]. injection H as <-.
    destruct b; [|auto]. eapply HQ; [exact (P2 _ _ _ _ Et En)|]. exact (tm_fin i te sid).
  - (* OAbort *)
    destruct (d_txn d); [|exact HP]. cbn [fst]. destruct HP as [P1 _]. split; [exact P1|discriminate].
  - (* OSnap *) apply (entryP_same i Q d); auto.
  - (* OQuery *) destruct (src_root d s); [|exact HP]. destruct (nth_error l tab); exact HP.
  - (* OChanges *)
    destruct (d_txn d) as [[es old]|] eqn:Et; [|exact HP].
    destruct (nth_error es tab) as [[t [|]]|] eqn:E2; try exact HP.
    destruct (nth_error old tab); [|exact HP]. cbn [fst].
    match goal with |- entryP i Q (set_iters (set_wm ?dd _) _) => apply (entryP_same i Q dd); auto end.
    eapply entryP_upd; eauto. intros -> Ht. eapply HQ; [exact Ht|]. exact (tm_track i t iid).
  - (* ONext *)
    destruct (step_next_frame d iid s take) as [A B]. apply (entryP_same i Q d); auto.
  - (* OResume *)
    destruct (assoc iid (d_iters d)) as [it|]; [|exact HP].
    destruct (it_pending it) as [l|]; [|exact HP]. destruct (it_seq it); [|exact HP].
    match goal with |- context [consume ?a ?b ?c ?dd ?e] =>
      pose proof (consume_frame b a c dd e) as Hc; destruct (consume a b c dd e) as [[x y] z] end.
    cbn [fst snd] in *. destruct Hc as [A [B _]]. apply (entryP_same i Q d); auto.
  - (* OClose *)
    destruct (assoc iid (d_iters d)) as [it|]; [|exact HP]. destruct (d_txn d) eqn:Et; [exact HP|]. cbn [fst].
    match goal with |- entryP i Q (gc_trigger ?x) => destruct (gc_trigger_frame x) as [A [B _]] end.
    destruct HP as [P1 P2]. split.
    + rewrite A. cbn [set_iters set_root d_root]. intros t H.
      destruct (Nat.eq_dec (it_tab it) i) as [<-|Hn].
      * destruct (nth_error (d_root d) (it_tab it)) as [cur|] eqn:Ec.
        -- rewrite (nth_error_upd_nth_same _ _ _ _ Ec) in H. injection H as <-.
           eapply HQ; [exact (P1 _ eq_refl)|]. exact (tm_close (it_tab it) cur iid).
        -- rewrite nth_error_upd_nth_none in H by exact Ec. congruence.
      * rewrite nth_error_upd_nth_other in H by exact Hn. auto.
    + rewrite B. cbn [set_iters set_root d_txn]. rewrite Et. discriminate.
  - (* OGcScan *) destruct (d_gc d); exact HP.
  - (* OGcApply *)
    destruct (d_gc d) eqn:Eg; try exact HP. destruct (d_txn d) eqn:Et; [exact HP|]. cbn [fst].
    destruct HP as [P1 P2]. split.
    + assert (R : d_root (gc_settle (set_gc (set_root d (zip_with gc_apply_table keys (d_root d))) GIdle)) =
                  zip_with gc_apply_table keys (d_root d)).
      { unfold gc_settle. cbn. destruct (d_gcchan d); reflexivity. }
      rewrite R. intros t H. rewrite nth_error_zip_with in H.
      destruct (nth_error keys i) as [ks|]; [|discriminate].
      destruct (nth_error (d_root d) i) as [cur|] eqn:Ec; [|discriminate]. injection H as <-.
      destruct (gc_apply_frame ks cur) as [_ [E1 [_ [_ [_ [_ [_ E2]]]]]]]. apply (Hk cur); auto.
    + assert (T : d_txn (gc_settle (set_gc (set_root d (zip_with gc_apply_table keys (d_root d))) GIdle)) = None).
      { unfold gc_settle. cbn. destruct (d_gcchan d); cbn; exact Et. }
      rewrite T. discriminate.
  - (* ORegInit *)
    match goal with |- context [with_locked d tab ?f ?a ?b] =>
      assert (Hq : entryP i Q (fst (with_locked d tab f a b)));
      [apply entryP_with_locked; [|exact HP]|destruct (with_locked d tab f a b) as [d' x]; exact Hq] end.
    intros -> t Ht. destruct (t_init t) as [[w p]|] eqn:Ei; [destruct (existsb (N.eqb name) p)|]; cbn [fst];
      [exact Ht| |]; (eapply HQ; [exact Ht|]).
    + apply (tm_reg i t name w (p ++ [name])). right. exists p. auto.
    + apply (tm_reg i t name (d_nextw d) [name]). left. auto.
  - (* OInitDone *)
    apply entryP_with_locked; [|exact HP]. intros -> t Ht. destruct (t_init t) as [[w p]|] eqn:Ei; cbn [fst]; [|exact Ht].
    eapply HQ; [exact Ht|]. exact (tm_done i t name w p Ei).
Qed.

Lemma run_entryP i (Q : table -> Prop) l : forall d,
  (forall o t t', In o l -> Q t -> tmove i t o t' -> Q t') -> entryP i Q d -> entryP i Q (fst (run d l)).
Proof.
  induction l as [|o r IH]; intros d HQ HP; cbn [run]; [exact HP|].
  assert (H1 : entryP i Q (fst (step d o))) by (apply step_entryP; [|exact HP]; intros t t'; apply HQ; now left).
  specialize (IH _ (fun o' t t' Hin => HQ o' t t' (or_intror Hin)) H1).
  destruct (step d o) as [d1 x]. cbn [fst] in *. destruct (run d1 r) as [d2 xs]. exact IH.
Qed.

Lemma nowrite_primary i o t t' : nowrite i o = true -> tmove i t o t' -> t_primary t' = t_primary t.
Proof.
  intros Hn Hm. revert Hn. destruct Hm as [o' t1 A _ _|o' t1 E _ _| | | | |]; intros Hn; try reflexivity; [exact A| |].
  - unfold nowrite in Hn. rewrite E, Nat.eqb_refl in Hn. discriminate.
  - apply fin_table_primary.
Qed.

Lemma run_primary i (R : idx -> Prop) l d : forallb (nowrite i) l = true ->
  entryP i (fun t => R (t_primary t)) d -> entryP i (fun t => R (t_primary t)) (fst (run d l)).
Proof.
  intros H. apply run_entryP. intros o t t' Hin Ht Hm. rewrite forallb_forall in H.
  now rewrite (nowrite_primary i o t t' (H _ Hin) Hm).
Qed.

(* ==== runs of the system from the initial database ============================================================
   What holds of every reachable state whatever the harness does, and the induction over a run: a step of the
   system is one leg (Table/ClientsProofs.v cstep_legs) and then the observer's wake-up; in crun_invariant I holds
   between steps, J between the leg and the wake-up. *)
Definition uok (out : nat) (o : op) : bool := nowrite out o && negb (touches derive_iid o).

Definition cop_ok (out : nat) (c : cop) : bool :=
  match c with
  | CUser o => uok out o
  | CDeriveStart _ o => Nat.eqb o out
  | _ => true                                  (* the loop, and the observer on any table, the derived one included *)
  end.

Lemma derive_iter_job tr ds d d' ds' l : derive_iter tr ds d = (d', ds', l) ->
  dv_in ds' = dv_in ds /\ dv_out ds' = dv_out ds /\ dv_iid ds' = dv_iid ds /\ dv_name ds' = dv_name ds /\
  dv_sid ds' = dv_sid ds /\ (dv_phase ds <> DReg -> dv_phase ds' <> DReg).
Proof.
  unfold derive_iter. destruct (run d [OBegin [dv_out ds]; ONext (dv_iid ds) STxn None]) as [d1 outs].
  assert (Hd : (d, ds, @nil op) = (d', ds', l) ->
               dv_in ds' = dv_in ds /\ dv_out ds' = dv_out ds /\ dv_iid ds' = dv_iid ds /\ dv_name ds' = dv_name ds /\
               dv_sid ds' = dv_sid ds /\ (dv_phase ds <> DReg -> dv_phase ds' <> DReg))
    by (intros K; injection K as _ <- _; auto 10).
  destruct outs as [|x [|y [|z r]]]; try exact Hd; destruct y; try exact Hd.
  destruct (apply_changes tr (dv_out ds) d1 l0) as [d2 o2]. destruct (init_ops ds d2) as [[o3 m] iw].
  intros K. injection K as _ <- _. cbn [set_phase dv_out dv_iid dv_in dv_name dv_sid dv_phase].
  repeat (split; [reflexivity|]). intros _. destruct watch_closed; discriminate.
Qed.

Record creach (n : nat) (s : csys) (ops : list op) : Prop := mkCreach {
  r_db : cs_db s = fst (run (init_db n) ops);
  r_mode : cs_mode s = 0;
  r_d : forall ds, cs_d s = Some ds -> dv_iid ds = derive_iid /\ dv_name ds = derive_name /\ dv_sid ds = derive_sid;
  r_o : forall os, cs_o s = Some os -> ov_iid os = observe_iid
}.

Lemma creach_LInv n s ops : creach n s ops -> LInv n (cs_db s).
Proof. intros H. rewrite (r_db _ _ _ H). apply LInv_run, LInv_init. Qed.

Lemma creach_leg n s ops c s' r l : creach n s ops -> leg s c s' r l -> creach n s' (ops ++ l).
Proof.
  intros [R1 R2 R3 R4] [c0|o|c0 sd' d' l0 Hd|tab Eo|c0 os os' d' l0 r0 _ Eo Ho];
    constructor; cbn [cs_db cs_mode cs_d cs_o]; rewrite ?app_nil_r; auto.
  - now rewrite run_app, <- R1, run_single.
  - destruct (dleg_run_dop _ _ _ _ _ _ _ Hd) as [-> _]; [intros ds E; apply (R3 _ E)|]. now rewrite run_app, <- R1.
  - intros ds' E'. destruct Hd as [inn out _ _ _|ds _ Ed _ _|ds d1 ds1 l1 _ Ed _ _ _ Hi]; injection E' as <-.
    + repeat split.
    + exact (R3 _ Ed).
    + destruct (derive_iter_job _ _ _ _ _ _ Hi) as [_ [_ [A [B [C _]]]]]. destruct (R3 _ Ed) as [A' [B' C']].
      repeat split; congruence.
  - intros os E. injection E as <-. reflexivity.
  - destruct (oleg_run_oop _ _ _ _ _ _ Ho (R4 _ Eo)) as [-> _]. now rewrite run_app, <- R1.
  - intros os0 E. injection E as <-. now destruct (oleg_run_oop _ _ _ _ _ _ Ho (R4 _ Eo)) as [_ [_ [A _]]].
Qed.

Lemma creach_wake n s ops s' l : creach n s ops -> wake s s' l -> creach n s' (ops ++ l).
Proof.
  intros H [_|os os' d' l0 Eo Ho]; [now rewrite app_nil_r|].
  apply (creach_leg n s ops CObserveGo _ None l0 H). apply (leg_observe s _ os); auto.
Qed.

Section RunInvariant.
Variables (n : nat) (ok : cop -> bool) (I J : csys -> list cout -> list op -> Prop).
Hypothesis Hinit : I (init_csys n 0) [] [].
Hypothesis Hleg : forall s outs ops c s' x r l, creach n s ops -> I s outs ops -> ok c = true ->
  leg s c s' r l -> xchange x = r -> J s' (outs ++ [x]) (ops ++ l).
Hypothesis Hwake : forall s outs ops s' l, creach n s ops -> J s outs ops -> wake s s' l -> I s' outs (ops ++ l).

Lemma crun_invariant_from cs : forall s outs ops s' outs1 ops1,
  creach n s ops -> I s outs ops -> forallb ok cs = true -> crun s cs = (s', outs1, ops1) ->
  creach n s' (ops ++ ops1) /\ I s' (outs ++ outs1) (ops ++ ops1).
Proof.
  induction cs as [|c r IH]; intros s outs ops s' outs1 ops1 HR HI Hc; cbn [crun].
  - intros H; injection H as <- <- <-. now rewrite !app_nil_r.
  - cbn [forallb] in Hc. apply andb_true_iff in Hc. destruct Hc as [Hc Hr].
    destruct (cstep s c) as [[s1 x] o1] eqn:E1. destruct (crun s1 r) as [[s2 xs] o2] eqn:E2.
    intros H; injection H as <- <- <-. destruct (cstep_legs _ _ _ _ _ E1) as [s0 [l1 [l2 [Hl [Hw ->]]]]].
    pose proof (creach_leg _ _ _ _ _ _ _ HR Hl) as HR0.
    change (x :: xs) with ([x] ++ xs). rewrite !app_assoc. apply (IH s1); auto.
    + exact (creach_wake _ _ _ _ _ HR0 Hw).
    + apply (Hwake s0); auto. eapply Hleg; eauto.
Qed.

Theorem crun_invariant cs s outs ops : forallb ok cs = true -> crun (init_csys n 0) cs = (s, outs, ops) ->
  creach n s ops /\ I s outs ops.
Proof.
  intros Hc H. apply (crun_invariant_from cs (init_csys n 0) [] [] s outs ops); auto.
  constructor; cbn; auto; discriminate.
Qed.
End RunInvariant.

(* for an invariant of the Derive side the observer is a source of operations of its own (`oop`) and nothing else *)
Section DeriveInvariant.
Variables (n : nat) (ok : cop -> bool) (I : csys -> list op -> Prop).
Hypothesis Hinit : I (init_csys n 0) [].
Hypothesis Huser : forall s ops o, creach n s ops -> I s ops -> ok (CUser o) = true ->
  I (mkCS (fst (step (cs_db s) o)) (cs_d s) (cs_o s) (cs_mode s)) (ops ++ [o]).
Hypothesis Hdleg : forall s ops c sd' d' l, creach n s ops -> I s ops -> ok c = true ->
  dleg (tr_std (cs_mode s)) (cs_db s) c (cs_d s) sd' d' l -> I (mkCS d' sd' (cs_o s) (cs_mode s)) (ops ++ l).
Hypothesis Hoop : forall s ops l so, creach n s ops -> I s ops -> forallb oop l = true ->
  I (mkCS (fst (run (cs_db s) l)) (cs_d s) so (cs_mode s)) (ops ++ l).

Lemma derive_inv_oleg s ops os os' d' l r : creach n s ops -> I s ops -> cs_o s = Some os ->
  oleg (cs_db s) os os' d' l r -> I (mkCS d' (cs_d s) (Some os') (cs_mode s)) (ops ++ l).
Proof.
  intros HR HI Eo Ho. destruct (oleg_run_oop _ _ _ _ _ _ Ho (r_o _ _ _ HR _ Eo)) as [-> [Hp _]]. now apply Hoop.
Qed.

Theorem crun_invariant_derive cs s outs ops : forallb ok cs = true -> crun (init_csys n 0) cs = (s, outs, ops) ->
  creach n s ops /\ I s ops.
Proof.
  apply (crun_invariant n ok (fun s _ ops => I s ops) (fun s _ ops => I s ops) Hinit).
  - intros s0 _ ops0 c s' x r l HR HI Hc Hl _. revert Hc.
    destruct Hl as [c0|o|c0 sd' d' l0 Hd|tab Eo|c0 os os' d' l0 r0 _ Eo Ho]; intros Hc; eauto using derive_inv_oleg.
    + now rewrite app_nil_r.
    + exact (Hoop s0 ops0 [] _ HR HI eq_refl).
  - intros s0 _ ops0 s' l HR HI [_|os os' d' l0 Eo Ho]; [now rewrite app_nil_r|eauto using derive_inv_oleg].
Qed.
End DeriveInvariant.

Lemma oop_uok out o : oop o = true -> uok out o = true.
Proof.
  destruct o; try discriminate; try reflexivity; cbn [oop]; try destruct s; try discriminate;
    intros E; apply N.eqb_eq in E; subst; reflexivity.
Qed.

Lemma oop_nowrite i o : oop o = true -> nowrite i o = true.
Proof. intros H. apply (oop_uok i) in H. unfold uok in H. apply andb_true_iff in H. tauto. Qed.

Lemma oop_contents n i d l t : LInv n d -> (i < n)%nat -> d_txn d = None -> nth_error (d_root d) i = Some t ->
  forallb oop l = true -> exists t2, nth_error (d_root (fst (run d l))) i = Some t2 /\ contents t2 = contents t.
Proof.
  intros L Hi Htx Ht Hp. destruct (LInv_root n _ i (LInv_run n l d L) Hi) as [t2 E2]. exists t2. split; [exact E2|].
  unfold contents. f_equal.
  refine (proj1 (run_primary i (fun X => X = t_primary t) l d (forallb_impl _ _ _ (oop_nowrite i) Hp) _) _ E2).
  split; [intros t1 E1; congruence|rewrite Htx; discriminate].
Qed.

Lemma uok_split out l : forallb (uok out) l = true ->
  forallb (nowrite out) l = true /\ forallb (fun o => negb (touches derive_iid o)) l = true.
Proof.
  induction l as [|o r IH]; cbn [forallb]; [auto|]. unfold uok at 1. rewrite !andb_true_iff.
  intros [[A B] C]. destruct (IH C). auto.
Qed.

(* "table `out` is, in the root and in the open transaction, the projection of the replay of dlv" *)
Definition FI (out : nat) (d : db) (dlv : list (object * bool)) : Prop :=
  entryP out (fun t => om_sorted (t_primary t) /\ contents t = cproj (replay dlv)) d.

Lemma FI_quiet out d dlv l : forallb (nowrite out) l = true -> FI out d dlv -> FI out (fst (run d l)) dlv.
Proof.
  intros H. exact (run_primary out (fun X => om_sorted X /\
    map (fun kv => (fst kv, p_val (o_data (snd kv)))) X = cproj (replay dlv)) l d H).
Qed.

Record RInvF (n out : nat) (s : csys) (ops : list op) : Prop := mkRInvF {
  rf_out : forall ds, cs_d s = Some ds -> dv_out ds = out;
  rf_fi : FI out (cs_db s) (delivered derive_iid (init_db n) ops)
}.

Lemma RInvF_quiet n out s ops d' l sd so :
  creach n s ops -> RInvF n out s ops -> d' = fst (run (cs_db s) l) ->
  forallb (nowrite out) l = true -> delivered derive_iid (cs_db s) l = [] ->
  (forall ds, sd = Some ds -> dv_out ds = out) ->
  RInvF n out (mkCS d' sd so (cs_mode s)) (ops ++ l).
Proof.
  intros HR [I1 I2] -> Hw Hd Hsd. constructor; cbn [cs_db cs_d]; [exact Hsd|].
  rewrite delivered_app, <- (r_db _ _ _ HR), Hd, app_nil_r. now apply FI_quiet.
Qed.

Lemma RInvF_uok n out s ops d' l sd so :
  creach n s ops -> RInvF n out s ops -> d' = fst (run (cs_db s) l) -> forallb (uok out) l = true ->
  (forall ds, sd = Some ds -> dv_out ds = out) ->
  RInvF n out (mkCS d' sd so (cs_mode s)) (ops ++ l).
Proof.
  intros HR HI Hd Hu. destruct (uok_split _ _ Hu) as [A B]. apply RInvF_quiet; auto. now apply delivered_untouched.
Qed.

Lemma RInvF_dleg n out s ops c sd' d' l : (out < n)%nat ->
  creach n s ops -> RInvF n out s ops -> cop_ok out c = true ->
  dleg (tr_std (cs_mode s)) (cs_db s) c (cs_d s) sd' d' l -> RInvF n out (mkCS d' sd' (cs_o s) (cs_mode s)) (ops ++ l).
Proof.
  intros Hout HR HI Hc [inn out0 -> Ed Et|ds -> Ed Et Eph|ds d1 ds1 l1 -> Ed Et Er Eph Hi].
  - apply Nat.eqb_eq in Hc. subst out0. apply RInvF_uok; auto. intros ds E. injection E as <-. reflexivity.
  - apply RInvF_quiet; auto. intros ds0 E. injection E as <-. exact (rf_out _ _ _ _ HI _ Ed).
  - (* an iteration: Table/ClientsProofs2.v derive_mirror_step *)
    pose proof (rf_out _ _ _ _ HI _ Ed) as Do. destruct (r_d _ _ _ HR _ Ed) as [Di _].
    destruct HI as [_ [P1 P2]]. rewrite (r_mode _ _ _ HR) in Hi. rewrite (r_db _ _ _ HR) in *.
    destruct (LInv_root n _ out (LInv_run n ops _ (LInv_init n)) Hout) as [tout Htout].
    destruct (P1 _ Htout) as [SX CX].
    destruct (derive_mirror_step ds (init_db n) ops tout d1 ds1 l1 Et) as [A [B [[tout' [C1 [C2 C3]]] _]]]; auto;
      rewrite ?Do, ?Di; auto.
    constructor; cbn [cs_db cs_d].
    + intros ds0 E. injection E as <-. destruct (derive_iter_job _ _ _ _ _ _ Hi) as [_ [K _]]. congruence.
    + rewrite Do in C1. rewrite Di in C3. split; [intros t Ht; split; congruence|]. rewrite B. discriminate.
Qed.

Lemma RInvF_crun n out cs s outs ops : (out < n)%nat -> forallb (cop_ok out) cs = true ->
  crun (init_csys n 0) cs = (s, outs, ops) -> creach n s ops /\ RInvF n out s ops.
Proof.
  intros Hout. apply (crun_invariant_derive n (cop_ok out) (RInvF n out)).
  - constructor; [discriminate|]. split; cbn; [|discriminate].
    intros t H. apply nth_error_In, repeat_spec in H. subst t. split; [exact I|reflexivity].
  - intros s0 ops0 o HR HI Hc. apply RInvF_uok; auto; [now rewrite run_single|cbn [forallb cop_ok] in *; now rewrite Hc|].
    exact (rf_out _ _ _ _ HI).
  - intros s0 ops0 c sd' d' l. now apply RInvF_dleg.
  - intros s0 ops0 l so HR HI Hp. apply RInvF_uok; auto; [exact (forallb_impl _ _ _ (oop_uok out) Hp)|exact (rf_out _ _ _ _ HI)].
Qed.

(* `ops` = the operations the run executed (crun_is_run: the database is `run (init_db n) ops`).
   The derived table is, at every point of the run (whatever the loop's phase, whether or not the harness holds
   a transaction, also before Derive has been started: then nothing has been delivered and the table is empty),
   the (key, value) projection of the replay of everything iterator derive_iid has been handed. *)
Theorem derive_run_invariant n out cs s outs ops :
  (out < n)%nat -> forallb (cop_ok out) cs = true ->
  crun (init_csys n 0) cs = (s, outs, ops) ->
  cs_db s = fst (run (init_db n) ops) /\
  exists tout, nth_error (d_root (cs_db s)) out = Some tout /\ om_sorted (t_primary tout) /\
               contents tout = cproj (replay (delivered derive_iid (init_db n) ops)).
Proof.
  intros Hout Hc H. destruct (RInvF_crun n out cs s outs ops Hout Hc H) as [HR [_ [P1 _]]].
  split; [exact (r_db _ _ _ HR)|].
  destruct (LInv_root n (cs_db s) out (creach_LInv _ _ _ HR) Hout) as [tout Htout].
  exists tout. split; [exact Htout|exact (P1 _ Htout)].
Qed.

(* the same, in the form "split at the loop's OChanges": before it nothing touches the iterator id, and what has
   been delivered is what has been delivered after it *)
Lemma delivered_split iid d pre tab post :
  forallb (fun o => negb (touches iid o)) pre = true ->
  delivered iid d (pre ++ OChanges iid tab :: post) =
  delivered iid (fst (step (fst (run d pre)) (OChanges iid tab))) post.
Proof.
  intros H. rewrite delivered_app, (delivered_untouched _ _ _ H). cbn [app delivered]. reflexivity.
Qed.

Corollary derive_run_invariant_split n out cs s outs pre tab post :
  (out < n)%nat -> forallb (cop_ok out) cs = true ->
  crun (init_csys n 0) cs = (s, outs, pre ++ OChanges derive_iid tab :: post) ->
  forallb (fun o => negb (touches derive_iid o)) pre = true ->
  let d0 := fst (step (fst (run (init_db n) pre)) (OChanges derive_iid tab)) in
  cs_db s = fst (run d0 post) /\
  exists tout, nth_error (d_root (cs_db s)) out = Some tout /\ om_sorted (t_primary tout) /\
               contents tout = cproj (replay (delivered derive_iid d0 post)).
Proof.
  intros Hout Hc H Hpre d0. destruct (derive_run_invariant n out cs s outs _ Hout Hc H) as [A [tout [B [C D]]]].
  split.
  - rewrite A, run_app. change (OChanges derive_iid tab :: post) with ([OChanges derive_iid tab] ++ post).
    rewrite run_app, run_single. reflexivity.
  - exists tout. split; [exact B|]. split; [exact C|]. rewrite D, delivered_split by exact Hpre. reflexivity.
Qed.

(* the hypotheses are satisfiable, and the run is not trivial: the harness locks the derived table and registers
   an initializer on it, aborts, snapshots, runs the collector; an observer watches the DERIVED table; the loop
   runs four times *)
Definition fx_run : list cop :=
  cx_pre ++ [CObserveStart 1; CObserveGo; CDeriveGo; CObserveGo; CDeriveGo;
             CUser (OBegin [1%nat; 0%nat]); CUser (ORegInit 1 7); CUser (OInsert 0 (cx_pa 9)); CUser OAbort;
             CUser (OSnap 3); CUser OGcScan; CUser OGcApply;
             CUser (OBegin [0%nat]); CUser (OInsert 0 (cx_pa 5)); CUser (OCommit 4); CDeriveGo; CObserveGo].

Example derive_run_invariant_nonvacuous :
  forallb (cop_ok 1) fx_run = true /\
  (let '(s, outs, ops) := crun (init_csys 2 0) fx_run in
   length ops = 49%nat /\
   map contents (d_root (cs_db s)) = [[([97], 5); ([98], 2)]; [([97], 5); ([98], 2)]] /\
   cproj (replay (delivered derive_iid (init_db 2) ops)) = [([97], 5); ([98], 2)] /\
   length (delivered derive_iid (init_db 2) ops) = 4%nat).
Proof. vm_compute. repeat split; reflexivity. Qed.
