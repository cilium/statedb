(* Table/ChangesFromInit.v — the change-iterator theorems for databases reachable from the initial
   one: the table invariant is discharged by Table/Inv2.v (DInv_step), the structural invariant by
   ChangesHist.wf_run; what remains as a hypothesis is that revisions keep room below 2^64 in every
   state of the run (no uint64 overflow), plus the usage conditions `friendly`.
   Also: boolean checkers for these hypotheses, to exhibit concrete runs that satisfy them. *)
From SV Require Import Base.Bytes Base.OrdMap KeyEnc.Model
                       Table.Model Table.InvDefs Table.Proofs Table.Inv Table.Inv2
                       Table.ChangesStream Table.ChangesIter Table.ChangesProofs Table.ChangesRet
                       Table.ChangesHist.
From Coq Require Import ZifyN ZifyNat ZifyBool.
Open Scope N_scope.

Fixpoint room_run (d : db) (ops : list op) : Prop :=
  all_tables rev_room d /\ match ops with [] => True | o :: r => room_run (fst (step d o)) r end.

Lemma all_tables_impl (P Q : table -> Prop) d : (forall t, P t -> Q t) -> all_tables P d -> all_tables Q d.
Proof.
  intros H [A [B C]]. split; [eapply Forall_impl; eauto|]. split.
  - intros es old E. destruct (B _ _ E) as [B1 B2]. split; eapply Forall_impl; eauto. intros a. apply H.
  - intros sid r E. eapply Forall_impl; eauto.
Qed.

Lemma ok_run_of_room ops : forall d, DInv d -> room_run d ops -> ok_run d ops.
Proof.
  induction ops as [|o r IH]; intros d HI [HR Hr]; cbn [ok_run]; split; try (split; assumption); auto.
  apply IH; auto. apply DInv_step; auto. destruct r; destruct Hr as [Hr _];
    (eapply all_tables_impl; [|exact Hr]; intros t; apply rev_room_bound).
Qed.

Lemma ok_run_app l1 : forall d l2, ok_run d (l1 ++ l2) -> ok_run d l1 /\ ok_run (fst (run d l1)) l2.
Proof.
  induction l1 as [|o r IH]; intros d l2 H; cbn [app ok_run run] in *.
  - split; auto. split; auto. destruct l2; cbn in H; tauto.
  - destruct H as [H1 H2]. destruct (IH _ _ H2) as [A B]. split; [split; auto|].
    destruct (step d o) as [d1 x]. cbn [fst] in *. destruct (run d1 r); exact B.
Qed.

Section FromInit.
Variables (n : nat) (pre : list op) (iid : N) (tab : nat) (t0 : table) (ops : list op).
Let d := fst (run (init_db n) pre).
Let d0 := fst (step d (OChanges iid tab)).
Hypothesis Hroom : room_run (init_db n) (pre ++ OChanges iid tab :: ops).
Hypothesis Hcreated : created d iid tab t0.
Hypothesis Hfresh : forall cur, nth_error (d_root d) tab = Some cur -> ~ reg iid cur.
Hypothesis Hfriendly : friendly_run iid tab d0 ops.

Lemma from_init_facts : wf d /\ tables_ok d /\ ok_run d0 ops.
Proof.
  pose proof (ok_run_of_room _ _ (DInv_init n) Hroom) as Hok.
  destruct (ok_run_app _ _ _ Hok) as [H1 H2]. fold d in H2. cbn [ok_run] in H2. destruct H2 as [H2 H3].
  split; [apply wf_run; auto; apply wf_init|]. split; auto.
Qed.

Theorem init_converge : forall it,
  assoc iid (d_iters (fst (run d0 ops))) = Some it -> it_pending it = None ->
  replay (delivered iid d0 ops) = abs_of (fst (grun iid (t0, []) d0 ops)).
Proof.
  destruct from_init_facts as [A [B C]].
  exact (fresh_converge iid tab d t0 ops Hcreated A Hfresh (conj B C) Hfriendly).
Qed.

End FromInit.

Theorem init_converge_next n pre iid tab t0 ops s S :
  let d := fst (run (init_db n) pre) in
  let d0 := fst (step d (OChanges iid tab)) in
  room_run (init_db n) (pre ++ OChanges iid tab :: ops ++ [ONext iid s None]) ->
  created d iid tab t0 ->
  (forall cur, nth_error (d_root d) tab = Some cur -> ~ reg iid cur) ->
  friendly_run iid tab d0 (ops ++ [ONext iid s None]) ->
  next_source (fst (run d0 ops)) iid s = Some S ->
  replay (delivered iid d0 (ops ++ [ONext iid s None])) = abs_of S.
Proof.
  intros d d0 Hroom Hc Hf Hfr Hn.
  destruct (from_init_facts n pre iid tab _ Hroom) as [A [B C]].
  exact (fresh_converge_next iid tab d t0 ops s S Hc A Hf (conj B C) Hfr Hn).
Qed.

Definition roomb (t : table) : bool := t_rev t <? 18446744073709551615.
Fixpoint room_runb (d : db) (ops : list op) : bool :=
  all_tables_b roomb d && match ops with [] => true | o :: r => room_runb (fst (step d o)) r end.

Lemma room_runb_ok ops : forall d, room_runb d ops = true -> room_run d ops.
Proof.
  induction ops as [|o r IH]; intros d H; cbn [room_runb room_run] in *; apply andb_true_iff in H; destruct H as [A B];
    (split; [apply (all_tables_b_ok roomb); auto; intros t; apply N.ltb_lt|auto]).
Qed.

Definition reg_rootb (iid : N) (tab : nat) (d : db) : bool :=
  match nth_error (d_root d) tab with Some cur => existsb (N.eqb iid) (t_trackers cur) | None => false end.

Lemma reg_rootb_ok iid tab d : reg_rootb iid tab d = true -> reg_root iid tab d.
Proof.
  unfold reg_rootb, reg_root, reg. destruct (nth_error (d_root d) tab) as [cur|]; [|discriminate].
  intros H. exists cur. split; auto. apply existsb_exists in H. destruct H as [x [Hx E]].
  apply N.eqb_eq in E. now subst.
Qed.

Definition friendlyb (iid : N) (tab : nat) (d : db) (o : op) : bool :=
  match o with
  | OChanges i _ => negb (i =? iid)
  | ONext i s _ => negb (i =? iid) ||
                   (match s with SFresh | STxn => true | SSnap _ => false end && reg_rootb iid tab d)
  | OAbort => reg_rootb iid tab d
  | _ => true
  end.

Lemma friendlyb_ok iid tab d o : friendlyb iid tab d o = true -> friendly iid tab d o.
Proof.
  destruct o; cbn [friendlyb friendly]; auto.
  - intros H _. now apply reg_rootb_ok.
  - intros H. now apply negb_true_iff, N.eqb_neq in H.
  - intros H E. subst. rewrite N.eqb_refl in H. cbn in H. apply andb_true_iff in H. destruct H as [A B].
    split; [destruct s; auto; discriminate|now apply reg_rootb_ok].
Qed.

Fixpoint friendly_runb (iid : N) (tab : nat) (d : db) (ops : list op) : bool :=
  match ops with [] => true | o :: r => friendlyb iid tab d o && friendly_runb iid tab (fst (step d o)) r end.

Lemma friendly_runb_ok iid tab ops : forall d, friendly_runb iid tab d ops = true -> friendly_run iid tab d ops.
Proof.
  induction ops as [|o r IH]; intros d H; cbn [friendly_runb friendly_run] in *; auto.
  apply andb_true_iff in H. destruct H as [A B]. split; [now apply friendlyb_ok|auto].
Qed.

(* a concrete run satisfying every hypothesis: insert a, b; Changes; commit; Next (partial);
   delete a; update b; collection scan; re-insert a; delete a again; collection apply; Next *)
Definition ex_a : payload := mkP [97] 1 [] [] [] [].
Definition ex_b : payload := mkP [98] 2 [] [] [] [].
Definition ex_pre : list op := [OBegin [0%nat]; OInsert 0 ex_a; OInsert 0 ex_b; OCommit 0; OBegin [0%nat]].
Definition ex_ops : list op :=
  [OCommit 1; ONext 7 SFresh (Some 1%nat);
   OBegin [0%nat]; ODelete 0 [97]; OInsert 0 (mkP [98] 5 [] [] [] []); OCommit 2;
   OResume 7 None; ONext 7 SFresh None; OGcScan;
   OBegin [0%nat]; OInsert 0 ex_a; OCommit 3; OBegin [0%nat]; ODelete 0 [97]; OCommit 4;
   OGcApply].

Example fresh_hypotheses_satisfiable :
  let d := fst (run (init_db 1) ex_pre) in
  let d0 := fst (step d (OChanges 7 0)) in
  let all := ex_ops ++ [ONext 7 SFresh None] in
  room_run (init_db 1) (ex_pre ++ OChanges 7 0 :: all) /\
  (exists t0, created d 7 0 t0) /\
  (forall cur, nth_error (d_root d) 0 = Some cur -> ~ reg 7 cur) /\
  friendly_run 7 0 d0 all /\
  (exists S, next_source (fst (run d0 ex_ops)) 7 SFresh = Some S) /\
  length (delivered 7 d0 all) = 5%nat /\
  replay (delivered 7 d0 all) = [([98], (5, 4))].
Proof.
  cbv zeta. split; [apply room_runb_ok; vm_compute; reflexivity|].
  split; [vm_compute; do 4 eexists; split; [reflexivity|split; reflexivity]|].
  split; [intros cur H; vm_compute in H; injection H as <-; vm_compute; tauto|].
  split; [apply friendly_runb_ok; vm_compute; reflexivity|].
  split; [vm_compute; eexists; reflexivity|].
  split; vm_compute; reflexivity.
Qed.
