(* Table/Agree.v — the Agree invariant (Table/InvDefs.v: every secondary index — unique,
   non-unique, unique LPM, non-unique LPM — describes exactly the live objects) is preserved by
   every write operation of the table: insert / Modify / CompareAndSwap (modify), Delete /
   CompareAndDelete (delete), DeleteAll, including the rejected ones (identity).
   The part-index side is Table/AgreeN.v, the LPM side Table/AgreeLpm.v. *)
From SV Require Import Base.Bytes Base.OrdMap KeyEnc.Model Table.Model Table.InvDefs Table.Proofs Table.Inv
  Table.AgreeDefs Table.AgreeLpm Table.AgreeN.
From Coq Require Import ZifyN ZifyNat ZifyBool.
Open Scope N_scope.

Lemma Agree_empty : Agree empty_table.
Proof.
  unfold Agree, u_agree, n_agree, l_agree, live. cbn. repeat split; auto; try tauto;
    try (intros [x [_ [_ []]]]); match goal with H : exists _, False /\ _ |- _ => destruct H as [? [[] _]] end.
Qed.

Lemma delete_ok_indexes g id t : 
  (fst (delete g id t) = t) \/
  (let t' := fst (delete g id t) in let oo := old_object id t in
   t_primary t' = om_delete id (t_primary t) /\
   t_u t' = reindex true p_u id oo noobj (t_u t) /\
   t_n t' = reindex false p_n id oo noobj (t_n t) /\
   t_lu t' = l_reindex true p_lu id oo noobj (t_lu t) /\
   t_ln t' = l_reindex false p_ln id oo noobj (t_ln t)).
Proof.
  unfold delete, delete_with, old_object.
  destruct (om_get id (t_primary t)) as [o|] eqn:E; [|left; reflexivity].
  destruct ((0 <? g) && negb (o_rev o =? g)); [left; reflexivity|]. right. cbn. auto 10.
Qed.

Lemma Agree_step t t' id oo no :
  step_ok (live t) (live t') id oo no ->
  (o_rev no <> 0 -> forall o k, live t' o -> In k (p_u (o_data no)) -> In k (p_u (o_data o)) -> o = no) ->
  (o_rev no <> 0 -> forall o k, live t' o -> In k (p_lu (o_data no)) -> In k (p_lu (o_data o)) -> o = no) ->
  t_u t' = reindex true p_u id oo no (t_u t) ->
  t_n t' = reindex false p_n id oo no (t_n t) ->
  t_lu t' = l_reindex true p_lu id oo no (t_lu t) ->
  t_ln t' = l_reindex false p_ln id oo no (t_ln t) ->
  Agree t -> Agree t'.
Proof.
  intros S Wu Wl Eu En Elu Eln [Au [An [Alu Aln]]].
  unfold Agree, u_agree, n_agree, l_agree in *.
  rewrite Eu, En, Elu, Eln. split; [|split; [|split]].
  - now apply (reindex_agree_u' (live t)).
  - now apply (reindex_agree_n (live t)).
  - now apply (l_reindex_agree_u' (live t)).
  - now apply (l_reindex_agree_n (live t)).
Qed.

(* the new object's unique keys are not keys of another object that stays live *)
Definition new_respects {A} (keys : payload -> list A) (no : object) (t : table) : Prop :=
  forall o k, live t o -> p_id (o_data o) <> p_id (o_data no) -> In k (keys (o_data no)) -> ~ In k (keys (o_data o)).

Lemma put_step_ok m p t : TInv t ->
  step_ok (live t) (live (put m p t)) (p_id p) (old_object (p_id p) t) (new_object m p t).
Proof.
  intros I. apply insert_step_ok; auto using new_object_id; [now rewrite put_eq|rewrite new_object_rev; lia].
Qed.

Lemma put_agree m p t : TInv t -> Agree t ->
  (forall o k, live (put m p t) o -> In k (p_u (o_data (new_object m p t))) -> In k (p_u (o_data o)) ->
               o = new_object m p t) ->
  (forall o k, live (put m p t) o -> In k (p_lu (o_data (new_object m p t))) -> In k (p_lu (o_data o)) ->
               o = new_object m p t) ->
  Agree (put m p t).
Proof.
  intros I A Wu Wl. eapply Agree_step; eauto using put_step_ok; now rewrite put_eq.
Qed.

Theorem modify_agree' g m p t : TInv t -> Agree t ->
  new_respects p_u (new_object m p t) t -> new_respects p_lu (new_object m p t) t ->
  Agree (fst (modify g m p t)).
Proof.
  intros I A Ru Rl. rewrite modify_eq. cbn [fst]. destruct (guard_err g _); auto.
  pose proof (put_step_ok m p t I) as S.
  apply put_agree; auto; intros o k HL K1 K2; apply (so_live _ _ _ _ _ S) in HL;
    destruct HL as [[_ ->]|[HL Hne]]; auto; exfalso; [apply (Ru o k HL)|apply (Rl o k HL)]; auto;
    now rewrite new_object_id.
Qed.

(* the same with the documented well-formedness of the resulting table as hypothesis *)
Theorem modify_agree g m p t : TInv t -> Agree t ->
  u_wf (fst (modify g m p t)) -> lu_wf (fst (modify g m p t)) ->
  Agree (fst (modify g m p t)).
Proof.
  intros I A. rewrite modify_eq. cbn [fst]. destruct (guard_err g _); auto. intros Wu Wl.
  assert (HLn : live (put m p t) (new_object m p t)).
  { apply (so_live _ _ _ _ _ (put_step_ok m p t I)). left. split; auto. rewrite new_object_rev. lia. }
  apply put_agree; auto; intros o k HL K1 K2; [apply (Wu o _ k)|apply (Wl o _ k)]; auto.
Qed.

(* delete: no well-formedness is needed, nothing is inserted *)
Theorem delete_agree g id t : TInv t -> Agree t -> Agree (fst (delete g id t)).
Proof.
  intros I A. destruct (delete_ok_indexes g id t) as [->|H]; auto. cbn zeta in H.
  destruct H as [Ep [Eu [En [Elu Eln]]]].
  pose proof (delete_step_ok t (fst (delete g id t)) id I Ep) as S.
  eapply Agree_step; eauto; cbn; congruence.
Qed.

(* deleting can only shrink the set of live objects, so well-formedness and the key-length
   guard survive *)
Lemma delete_live_sub g id t o : TInv t -> live (fst (delete g id t)) o -> live t o.
Proof.
  intros I. destruct (delete_ok_indexes g id t) as [->|H]; auto. cbn zeta in H. destruct H as [Ep _].
  unfold live. rewrite Ep. rewrite om_in_delete by apply (ti_sorted_primary _ I). tauto.
Qed.

Lemma delete_pk_short g id t : TInv t -> pk_short t -> pk_short (fst (delete g id t)).
Proof. intros I H o HL. apply H. eapply delete_live_sub; eauto. Qed.
Lemma delete_u_wf g id t : TInv t -> u_wf t -> u_wf (fst (delete g id t)).
Proof. intros I H o1 o2 k H1 H2. apply H; eapply delete_live_sub; eauto. Qed.
Lemma delete_lu_wf g id t : TInv t -> lu_wf t -> lu_wf (fst (delete g id t)).
Proof. intros I H o1 o2 k H1 H2. apply H; eapply delete_live_sub; eauto. Qed.

Lemma Agree_u_wf t : Agree t -> u_wf t.
Proof. intros [Au _]. exact (u_agree_on_wf (live t) p_u (t_u t) Au). Qed.
