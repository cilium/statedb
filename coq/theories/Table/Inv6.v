(* Table/Inv6.v — the number of tables is constant along histories (the key lists a collection
   pass applies were computed from a root of the same length), hence: every committed table
   persists and its revision never decreases. *)
From SV Require Import Base.Bytes Base.OrdMap KeyEnc.Model Table.Model Table.InvDefs
                       Table.Proofs Table.GcProofs Table.Inv Table.Inv2 Table.Inv3.
From Coq Require Import ZifyN ZifyNat ZifyBool.
Open Scope N_scope.

Theorem step_gate2 d o keys : d_gc (fst (step d o)) = GGate2 keys ->
  d_gc d = GGate2 keys \/ (o = OGcScan /\ keys = map (gc_scan_table (d_wm d)) (d_root d)).
Proof. apply step_frame. Qed.

Definition LenInv (d : db) : Prop := forall keys, d_gc d = GGate2 keys -> length keys = length (d_root d).

Lemma zip_with_length_eq {A B C} (f : A -> B -> C) : forall l1 l2, length l1 = length l2 ->
  length (zip_with f l1 l2) = length l2.
Proof. induction l1 as [|a r IH]; intros [|b l] H; simpl in *; auto; try discriminate. Qed.

Lemma Forall2_length_eq {A B} (R : A -> B -> Prop) l1 l2 : Forall2 R l1 l2 -> length l1 = length l2.
Proof. induction 1; simpl; auto. Qed.

Theorem root_length_const d o : TxnInv d -> LenInv d -> length (d_root (fst (step d o))) = length (d_root d).
Proof.
  intros HT HL. step_cases d o; rewrite Er; auto.
  - destruct (HT _ _ E1) as [_ HF]. apply zip_with_length_eq. eapply Forall2_length_eq; eauto.
  - apply length_upd_nth.
  - apply zip_with_length_eq. auto.
Qed.

Theorem LenInv_init n : LenInv (init_db n).
Proof. intros keys H. discriminate. Qed.

Theorem LenInv_step d o : TxnInv d -> LenInv d -> LenInv (fst (step d o)).
Proof.
  intros HT HL keys H. rewrite root_length_const by auto.
  destruct (step_gate2 _ _ _ H) as [H1|[_ ->]]; auto. apply map_length.
Qed.

Theorem LenInv_run ops : forall d, TxnInv d -> LenInv d -> LenInv (fst (run d ops)).
Proof.
  induction ops as [|o r IH]; intros d HT HL; [exact HL|]. rewrite run_cons_fst.
  apply IH; [now apply TxnInv_step|now apply LenInv_step].
Qed.

Theorem root_persist_step d o i t : TxnInv d -> LenInv d -> nth_error (d_root d) i = Some t ->
  exists t', nth_error (d_root (fst (step d o))) i = Some t' /\ t_rev t <= t_rev t'.
Proof.
  intros HT HL H1.
  destruct (nth_error (d_root (fst (step d o))) i) as [t'|] eqn:E.
  - exists t'. split; auto. eapply root_rev_mono_step; eauto.
  - exfalso. apply nth_error_None in E. rewrite root_length_const in E by auto.
    assert (i < length (d_root d))%nat by (apply nth_error_Some; congruence). lia.
Qed.

Theorem root_persist_run ops : forall d i t, TxnInv d -> LenInv d -> nth_error (d_root d) i = Some t ->
  exists t', nth_error (d_root (fst (run d ops))) i = Some t' /\ t_rev t <= t_rev t'.
Proof.
  induction ops as [|o r IH]; intros d i t HT HL H1.
  - exists t. split; auto. simpl. lia.
  - rewrite run_cons_fst. destruct (root_persist_step d o i t HT HL H1) as [t1 [H2 H3]].
    destruct (IH (fst (step d o)) i t1 (TxnInv_step _ _ HT) (LenInv_step _ _ HT HL) H2) as [t2 [H4 H5]].
    exists t2. split; auto. lia.
Qed.
