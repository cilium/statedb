(* Table/Inv5.v — table initialization along histories (C19): init watch channels are fresh
   and owned by one table, a watch closes at most once and only in a Commit whose new root
   shows the table initialized; Initialized is monotone except through RegisterInitializer. *)
From SV Require Import Base.Bytes Base.OrdMap KeyEnc.Model Table.Model Table.InvDefs
                       Table.Proofs Table.GcProofs Table.Inv Table.Inv2 Table.Inv3.
From Coq Require Import ZifyN ZifyNat ZifyBool.
Open Scope N_scope.

Definition init_watch (t : table) : option N :=
  match t_init t with Some (w, _) => Some w | None => None end.
Definition initialized (t : table) : bool := fst (fst (q_init t)).

Lemma tupd_init t t' : tupd t t' ->
  t_init t' = t_init t \/ exists w p name, t_init t = Some (w, p) /\ t_init t' = Some (w, filter (fun n => negb (n =? name)) p).
Proof.
  intros H; inversion H; subst; auto; try (left; first [apply modify_meta|apply delete_meta|apply delete_all_meta]).
  right. exists w, p, name. auto.
Qed.

Lemma tupd_init_watch t t' : tupd t t' -> init_watch t' = init_watch t.
Proof.
  intros H. unfold init_watch. destruct (tupd_init _ _ H) as [->|[w [p [name [-> ->]]]]]; reflexivity.
Qed.

Lemma tupd_initialized t t' : tupd t t' -> initialized t = true -> initialized t' = true.
Proof.
  intros H. unfold initialized, q_init. destruct (tupd_init _ _ H) as [->|[w [p [name [-> ->]]]]]; auto.
  destruct p as [|n p]; simpl; auto. discriminate.
Qed.

Lemma gc_apply_init keys t : t_init (gc_apply_table keys t) = t_init t.
Proof. apply (gc_apply_frame keys t). Qed.

(* every watch id handed out is below the counter, not yet closed, and owned by one table *)
Definition wl_ok (nextw : N) (closed : list N) (l : list (option N)) : Prop :=
  (forall i w, nth_error l i = Some (Some w) -> w < nextw /\ ~ In w closed) /\
  (forall i j w, nth_error l i = Some (Some w) -> nth_error l j = Some (Some w) -> i = j).

Definition watches (ts : list table) : list (option N) := map init_watch ts.

Definition WInv (d : db) : Prop :=
  (forall w, In w (d_closedw d) -> w < d_nextw d) /\
  NoDup (d_closedw d) /\
  wl_ok (d_nextw d) (d_closedw d) (watches (d_root d)) /\
  (forall es old, d_txn d = Some (es, old) -> wl_ok (d_nextw d) (d_closedw d) (watches (map fst es))).

(* fewer watches, a larger counter, and a larger closed set that closes none of the watches left *)
Lemma wl_ok_shrink nextw nextw' closed closed' l l' : nextw <= nextw' -> wl_ok nextw closed l ->
  (forall i w, nth_error l' i = Some (Some w) ->
               nth_error l i = Some (Some w) /\ (In w closed' -> In w closed)) ->
  wl_ok nextw' closed' l'.
Proof.
  intros Hn [H1 H2] Hs. split.
  - intros i w Hi. destruct (Hs _ _ Hi) as [Hl Hc]. destruct (H1 i w Hl). split; [lia|auto].
  - intros i j w Hi Hj. apply (H2 i j w); now apply Hs.
Qed.

Lemma wl_ok_sub nextw nextw' closed l l' : nextw <= nextw' ->
  (forall i w, nth_error l' i = Some (Some w) -> nth_error l i = Some (Some w)) ->
  wl_ok nextw closed l -> wl_ok nextw' closed l'.
Proof. intros Hn Hs H. apply (wl_ok_shrink nextw nextw' closed closed l l'); auto. Qed.

(* position i gets the next watch id (RegisterInitializer on a table that has no initializers) *)
Lemma wl_ok_fresh nextw closed l l' i : (forall w, In w closed -> w < nextw) -> wl_ok nextw closed l ->
  (forall j, nth_error l' j = if Nat.eqb j i then Some (Some nextw) else nth_error l j) ->
  wl_ok (nextw + 1) closed l'.
Proof.
  intros HC [X1 X2] Hnth. split.
  - intros j w. rewrite Hnth. destruct (Nat.eqb j i).
    + intros H; injection H as <-. split; [lia|]. intros Hc. specialize (HC _ Hc). lia.
    + intros H. destruct (X1 j w H). split; auto. lia.
  - intros j k w. rewrite !Hnth. destruct (Nat.eqb_spec j i) as [->|Hj], (Nat.eqb_spec k i) as [->|Hk]; auto.
    + intros H1 H2. injection H1 as <-. destruct (X1 k _ H2). lia.
    + intros H1 H2. injection H2 as <-. destruct (X1 j _ H1). lia.
    + apply X2.
Qed.

Lemma NoDup_app_ok {A} (l1 l2 : list A) : NoDup l1 -> NoDup l2 -> (forall x, In x l1 -> ~ In x l2) -> NoDup (l1 ++ l2).
Proof.
  induction l1 as [|a r IH]; simpl; auto. intros H1 H2 H. inversion H1; subst. constructor.
  - rewrite in_app_iff. intros [Hc|Hc]; [auto|]. apply (H a); auto.
  - apply IH; auto.
Qed.

Lemma map_upd_nth_same {A B} (g : A -> B) (f : A -> A) : forall n l,
  (forall x, nth_error l n = Some x -> g (f x) = g x) -> map g (upd_nth n f l) = map g l.
Proof.
  induction n as [|n IH]; intros [|y r] H; simpl; auto.
  - f_equal. apply H. reflexivity.
  - f_equal. apply IH. intros x Hx. apply H. exact Hx.
Qed.

Lemma nth_error_watches ts i : nth_error (watches ts) i = option_map init_watch (nth_error ts i).
Proof. unfold watches. apply nth_error_map. Qed.

Lemma watch_at (es : list (table * bool)) i t b : nth_error es i = Some (t, b) ->
  nth_error (watches (map fst es)) i = Some (init_watch t).
Proof. intros H. now rewrite nth_error_watches, nth_error_map, H. Qed.

Lemma watches_upd es tab t t' : nth_error es tab = Some (t, true) -> forall i,
  nth_error (watches (map fst (upd_nth tab (fun _ => (t', true)) es))) i =
  if Nat.eqb i tab then Some (init_watch t') else nth_error (watches (map fst es)) i.
Proof.
  intros E i. destruct (Nat.eqb_spec i tab) as [->|Hne].
  - apply (watch_at _ _ _ true), (nth_error_upd_nth_same (fun _ => (t', true)) _ _ _ E).
  - rewrite !nth_error_watches, !nth_error_map. now rewrite nth_error_upd_nth_other by congruence.
Qed.

Lemma watches_upd_same es tab t t' : nth_error es tab = Some (t, true) -> init_watch t' = init_watch t ->
  watches (map fst (upd_nth tab (fun _ => (t', true)) es)) = watches (map fst es).
Proof.
  intros E H. unfold watches. rewrite !map_map. apply map_upd_nth_same.
  intros x Hx. rewrite E in Hx. now injection Hx as <-.
Qed.

Lemma in_commit_closing es w : In w (commit_closing es) <->
  exists i t, nth_error es i = Some (t, true) /\ t_init t = Some (w, []).
Proof.
  induction es as [|[t b] r IH]; simpl.
  - split; [tauto|]. intros [[|i] [t [H _]]]; discriminate.
  - rewrite in_app_iff, IH. split.
    + intros [H|[i [t' [H1 H2]]]].
      * destruct b; [|destruct H]. destruct (t_init t) as [[w' [|n p]]|] eqn:E; try destruct H as [<-|[]]; try destruct H.
        exists O, t. auto.
      * exists (S i), t'. auto.
    + intros [[|i] [t' [H1 H2]]]; simpl in H1.
      * injection H1 as -> ->. left. rewrite H2. left; reflexivity.
      * right. exists i, t'. auto.
Qed.

Lemma closing_watch es w : In w (commit_closing es) ->
  exists i t, nth_error es i = Some (t, true) /\ t_init t = Some (w, []) /\
              nth_error (watches (map fst es)) i = Some (Some w).
Proof.
  intros H. apply in_commit_closing in H. destruct H as (i & t & H1 & H2). exists i, t. repeat split; auto.
  rewrite (watch_at _ _ _ _ H1). unfold init_watch. now rewrite H2.
Qed.

Lemma commit_closing_nodup es :
  (forall i j w, nth_error (watches (map fst es)) i = Some (Some w) ->
                 nth_error (watches (map fst es)) j = Some (Some w) -> i = j) ->
  NoDup (commit_closing es).
Proof.
  induction es as [|[t b] r IH]; intros Hd; simpl; [constructor|].
  assert (Hr : NoDup (commit_closing r)).
  { apply IH. intros i j w Hi Hj. specialize (Hd (S i) (S j) w Hi Hj). now injection Hd. }
  destruct b; auto. destruct (t_init t) as [[w [|n p]]|] eqn:E; auto. simpl. constructor; auto.
  intros Hin. destruct (closing_watch _ _ Hin) as (i & _ & _ & _ & Hi).
  assert (H0 : O = S i); [|discriminate].
  apply (Hd O (S i) w); simpl; auto. unfold init_watch. now rewrite E.
Qed.

Lemma fin_table_init t : t_init (fin_table t) = match t_init t with Some (w, []) => None | x => x end.
Proof. unfold fin_table. destruct (t_init t) as [[w [|n p]]|] eqn:E; simpl; auto. Qed.

(* an entry of the new root, its transaction entry and watch *)
Lemma commit_root_watch d es old i t' w : TxnInv d -> d_txn d = Some (es, old) ->
  nth_error (commit_root es (d_root d)) i = Some t' -> init_watch t' = Some w ->
  exists te b, nth_error es i = Some (te, b) /\ init_watch te = Some w /\
               ~ (b = true /\ t_init te = Some (w, [])).
Proof.
  intros HT E1 Hn Hw. destruct (HT _ _ E1) as [_ HF]. pose proof (Forall2_nth_error _ _ _ HF i) as Hi.
  unfold commit_root in Hn. rewrite nth_error_zip_with in Hn.
  destruct (nth_error es i) as [[te b]|]; [|discriminate].
  destruct (nth_error (d_root d) i) as [cur|]; [|destruct Hi]. destruct Hi as [_ R2]. simpl in R2.
  exists te, b. split; auto. destruct b; injection Hn as <-.
  - unfold init_watch in *. rewrite fin_table_init in Hw.
    destruct (t_init te) as [[w' [|n p]]|]; try discriminate; injection Hw as ->. split; auto.
    intros [_ H]. discriminate.
  - rewrite R2 by reflexivity. split; auto. intros [H _]. discriminate.
Qed.

(* the watches of the new root are those of the transaction's entries, minus the ones it closes *)
Lemma wl_ok_commit d es old nextw closed : TxnInv d -> d_txn d = Some (es, old) ->
  wl_ok nextw closed (watches (map fst es)) ->
  wl_ok nextw (commit_closing es ++ closed) (watches (commit_root es (d_root d))).
Proof.
  intros HT E1 HX. apply (wl_ok_shrink nextw nextw closed _ _ _ (N.le_refl _) HX). intros i w Hi.
  rewrite nth_error_watches in Hi. destruct (nth_error (commit_root es (d_root d)) i) as [t'|] eqn:Hn; [|discriminate].
  injection Hi as Hi. destruct (commit_root_watch d es old i t' w HT E1 Hn Hi) as (te & b & H1 & H2 & H3).
  assert (Hw : nth_error (watches (map fst es)) i = Some (Some w)) by (rewrite (watch_at _ _ _ _ H1); now rewrite H2).
  split; auto. intros Hin. apply in_app_iff in Hin. destruct Hin as [Hin|Hin]; auto.
  destruct (closing_watch _ _ Hin) as (j & tj & J1 & J2 & Hj).
  rewrite (proj2 HX i j w Hw Hj), J1 in H1. injection H1 as <- <-. destruct H3. auto.
Qed.

Theorem WInv_init n : WInv (init_db n).
Proof.
  unfold WInv, init_db. cbn [d_closedw d_nextw d_root d_txn].
  assert (Hw : forall i w, nth_error (watches (repeat empty_table n)) i = Some (Some w) -> False).
  { intros i w H. rewrite nth_error_watches in H. destruct (nth_error (repeat empty_table n) i) eqn:E; [|discriminate].
    apply nth_error_In, repeat_spec in E. subst. discriminate. }
  split; [intros w []|]. split; [constructor|]. split; [split|discriminate].
  - intros i w H. destruct (Hw _ _ H).
  - intros i j w H. destruct (Hw _ _ H).
Qed.

Theorem WInv_step d o : TxnInv d -> WInv d -> WInv (fst (step d o)).
Proof.
  intros HT [HC [HN [HR HX]]].
  assert (HC1 : forall w, In w (d_closedw d) -> w < d_nextw d + 1) by (intros w Hw; specialize (HC w Hw); lia).
  assert (HR1 : wl_ok (d_nextw d + 1) (d_closedw d) (watches (d_root d)))
    by (eapply wl_ok_sub; [|intros i w H; exact H|exact HR]; lia).
  step_cases d o; unfold WInv; rewrite Er, Et, Ec, En.
  - auto.
  - (split; [|split; [|split]]); auto. intros es0' old0' He. injection He as <- <-. now rewrite E2.
  - (split; [|split; [|split]]); auto. intros es0' old0' He. injection He as <- <-.
    rewrite (watches_upd_same _ _ _ _ E2 (tupd_init_watch _ _ Hu)). eauto.
  - (* RegisterInitializer *)
    (split; [|split; [|split]]); auto. intros es0' old0' He. injection He as <- <-. specialize (HX _ _ E1).
    inversion Hu as [tx|tx nm Hi|tx w p nm Hi]; subst.
    + rewrite (watches_upd_same _ _ _ _ E2 eq_refl). eapply wl_ok_sub; [|intros i w H; exact H|exact HX]. lia.
    + apply (wl_ok_fresh _ _ _ _ tab0 HC HX). intros j. now rewrite (watches_upd _ _ _ _ E2).
    + rewrite (watches_upd_same es0 tab0 t0 _ E2); [|unfold init_watch; cbn; now rewrite Hi].
      eapply wl_ok_sub; [|intros i w' H; exact H|exact HX]. lia.
  - (split; [|split; [|split]]); auto.
    intros es0' old0' He. eapply wl_ok_sub; [|intros i w H; exact H|eapply HX; eauto]. lia.
  - (* Commit *)
    specialize (HX _ _ E1).
    assert (Hcl : forall w, In w (commit_closing es0) -> w < d_nextw d /\ ~ In w (d_closedw d)).
    { intros w Hw. destruct (closing_watch _ _ Hw) as (i & _ & _ & _ & Hi). apply (proj1 HX i w Hi). }
    split; [|split; [|split]].
    + intros w Hw. apply in_app_iff in Hw. destruct Hw as [Hw|Hw]; auto. apply (Hcl w Hw).
    + apply NoDup_app_ok; auto; [apply commit_closing_nodup, HX|]. intros w Hw. apply (Hcl w Hw).
    + now apply (wl_ok_commit d es0 old0).
    + discriminate.
  - (split; [|split; [|split]]); auto. discriminate.
  - auto.
  - (split; [|split; [|split]]); auto; [|discriminate].
    unfold watches. rewrite map_upd_nth_same; auto.
  - (split; [|split; [|split]]); auto; [|discriminate].
    eapply wl_ok_sub; [| |exact HR]; [lia|]. intros i w. rewrite !nth_error_watches, nth_error_zip_with.
    destruct (nth_error keys0 i), (nth_error (d_root d) i); simpl; try discriminate.
    unfold init_watch. now rewrite gc_apply_init.
Qed.

Theorem WInv_run ops : forall d, TxnInv d -> WInv d -> WInv (fst (run d ops)).
Proof.
  induction ops as [|o r IH]; intros d HT HW; [exact HW|]. rewrite run_cons_fst.
  apply IH; [now apply TxnInv_step|now apply WInv_step].
Qed.

Corollary WInv_reachable n ops : WInv (fst (run (init_db n) ops)).
Proof. apply WInv_run; [apply TxnInv_init|apply WInv_init]. Qed.

(* it only grows, and only in a Commit (by the watches of the locked tables whose initializers are all done) *)
Theorem closedw_step d o :
  d_closedw (fst (step d o)) = d_closedw d \/
  exists sid es old, o = OCommit sid /\ d_txn d = Some (es, old) /\
                     d_closedw (fst (step d o)) = commit_closing es ++ d_closedw d.
Proof.
  step_cases d o; auto. right. exists sid0, es0, old0. auto.
Qed.

Theorem closedw_grows_run ops : forall d w, In w (d_closedw d) -> In w (d_closedw (fst (run d ops))).
Proof.
  induction ops as [|o r IH]; intros d w Hw; [exact Hw|]. rewrite run_cons_fst. apply IH.
  destruct (closedw_step d o) as [->|[sid [es [old [_ [_ ->]]]]]]; auto. apply in_app_iff. auto.
Qed.

(* a watch that a Commit newly closes (it was open before): it belonged to a locked table
   of the transaction whose initializers are all done, and the NEW root already shows that table
   initialized (a fresh snapshot taken after observing the close sees Initialized = true) *)
Theorem commit_closes_after_visible d sid es old w : TxnInv d -> WInv d -> d_txn d = Some (es, old) ->
  let d' := fst (step d (OCommit sid)) in
  In w (d_closedw d') -> ~ In w (d_closedw d) ->
  exists i t t', nth_error es i = Some (t, true) /\ t_init t = Some (w, []) /\
                 nth_error (d_root d') i = Some t' /\ t_init t' = None /\
                 snd (step d' (OQuery SFresh i QInit)) = OutInit true [] true.
Proof.
  intros HT HW E1 d' Hin Hnot. subst d'. simpl in *. rewrite E1 in *. simpl in *.
  apply in_app_iff in Hin. destruct Hin as [Hin|Hin]; [|contradiction].
  apply (in_commit_closing es w) in Hin. destruct Hin as [i [t [H1 H2]]].
  destruct (HT _ _ E1) as [_ HF]. pose proof (Forall2_nth_error _ _ _ HF i) as Hi. rewrite H1 in Hi.
  destruct (nth_error (d_root d) i) as [cur|] eqn:Hc; [|destruct Hi].
  exists i, t, (fin_table t).
  assert (Hn : nth_error (zip_with (fun e cur => match e with (t, true) => fin_table t | (_, false) => cur end) es (d_root d)) i
               = Some (fin_table t)) by (rewrite nth_error_zip_with, H1, Hc; reflexivity).
  assert (Hf : t_init (fin_table t) = None) by (rewrite fin_table_init, H2; reflexivity).
  repeat split; auto.
  unfold fin_table in Hn. unfold set_meta in Hn. rewrite Hn. simpl. unfold q_init. fold (set_meta t (t_trackers t) None).
  change (match t_init t with Some (w0, []) => set_meta t (t_trackers t) None | _ => t end) with (fin_table t).
  now rewrite Hf.
Qed.

(* the watches a Commit closes were all open, and are pairwise distinct *)
Theorem commit_closes_once d sid es old : TxnInv d -> WInv d -> d_txn d = Some (es, old) ->
  NoDup (d_closedw (fst (step d (OCommit sid)))) /\
  forall w, In w (commit_closing es) -> ~ In w (d_closedw d).
Proof.
  intros HT HW E1. split; [apply (WInv_step d (OCommit sid) HT HW)|].
  intros w Hw. destruct HW as [_ [_ [_ HX]]]. destruct (HX _ _ E1) as [X1 _].
  destruct (closing_watch _ _ Hw) as (i & _ & _ & _ & Hi). apply (X1 i w Hi).
Qed.

(* committed states: a table that shows initialized stays so, unless a Commit publishes a locked table
   entry with pending initializers (which only RegisterInitializer creates, see below) *)
Theorem initialized_monotone_step d o i t t' : TxnInv d ->
  nth_error (d_root d) i = Some t -> initialized t = true ->
  nth_error (d_root (fst (step d o))) i = Some t' ->
  initialized t' = true \/
  exists sid es old te w p, o = OCommit sid /\ d_txn d = Some (es, old) /\ nth_error es i = Some (te, true) /\
                            t_init te = Some (w, p) /\ p <> [].
Proof.
  intros HT. step_cases d o; rewrite Er; intros H1 Hi H2;
    try (rewrite H1 in H2; injection H2 as <-; auto; fail).
  - (* commit *)
    destruct (HT _ _ E1) as [_ HF]. pose proof (Forall2_nth_error _ _ _ HF i) as Hf.
    unfold commit_root in H2. rewrite nth_error_zip_with, H1 in H2. rewrite H1 in Hf.
    destruct (nth_error es0 i) as [[te [|]]|] eqn:Ee; try discriminate; injection H2 as <-.
    + unfold initialized, q_init. rewrite fin_table_init.
      destruct (t_init te) as [[w [|n p]]|] eqn:Ei; auto.
      right. exists sid0, es0, old0, te, w, (n :: p). repeat split; auto. discriminate.
    + auto.
  - (* close *)
    destruct (Nat.eq_dec tab0 i) as [->|Hne].
    + rewrite (nth_error_upd_nth_same _ _ _ _ H1) in H2. injection H2 as <-. auto.
    + rewrite nth_error_upd_nth_other in H2 by auto. rewrite H1 in H2; injection H2 as <-; auto.
  - (* gc *)
    rewrite nth_error_zip_with, H1 in H2. destruct (nth_error keys0 i); try discriminate. injection H2 as <-.
    left. unfold initialized, q_init. now rewrite gc_apply_init.
Qed.

(* inside a write transaction only RegisterInitializer on that table makes a table entry uninitialized *)
Theorem txn_uninit_only_by_reginit d o es old i t b es' old' t' b' :
  d_txn d = Some (es, old) -> nth_error es i = Some (t, b) -> initialized t = true ->
  d_txn (fst (step d o)) = Some (es', old') -> nth_error es' i = Some (t', b') ->
  initialized t' = true \/ exists name, o = ORegInit i name.
Proof.
  intros D1 D2 Hi. step_cases d o; rewrite Et; try discriminate; try congruence.
  - rewrite D1. intros H; injection H as <- <-. intros H. rewrite D2 in H. injection H as <- <-. auto.
  - rewrite D1 in E1. injection E1 as <- <-. intros H; injection H as <- <-.
    destruct (Nat.eq_dec tab0 i) as [->|Hne].
    + rewrite (nth_error_upd_nth_same _ _ _ _ E2). intros H; injection H as <- <-.
      rewrite D2 in E2. injection E2 as <- _. left. eapply tupd_initialized; eauto.
    + rewrite nth_error_upd_nth_other by auto. rewrite D2. intros H; injection H as <- <-. auto.
  - rewrite D1 in E1. injection E1 as <- <-. intros H; injection H as <- <-.
    destruct (Nat.eq_dec tab0 i) as [->|Hne]; [right; eauto|].
    rewrite nth_error_upd_nth_other by auto. rewrite D2. intros H; injection H as <- <-. auto.
  - rewrite D1. intros H; injection H as <- <-. intros H. rewrite D2 in H. injection H as <- <-. auto.
  - rewrite D1. intros H; injection H as <- <-. intros H. rewrite D2 in H. injection H as <- <-. auto.
Qed.

Theorem reachable_watch_facts n ops :
  WInv (fst (run (init_db n) ops)) /\ TxnInv (fst (run (init_db n) ops)) /\
  NoDup (d_closedw (fst (run (init_db n) ops))).
Proof.
  pose proof (WInv_reachable n ops) as H.
  exact (conj H (conj (TxnInv_run ops _ (TxnInv_init n)) (proj1 (proj2 H)))).
Qed.
