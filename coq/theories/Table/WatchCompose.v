(* Table/WatchCompose.v — C06 composed: table model (Table/Model.v) + radix-tree model (Part/Model.v).

   "The channel returned by a watch query is closed no later than the return of the Commit that changes the
    query's result."

   The table model abstracts every part index to the ordered map it denotes (idx = omap object); the tree model
   stores numbers. They are connected by a value code `code : object -> N` (the tree stores the object; only
   its identity matters): the tree T of an index represents the index map m when abs_tree T = cmap code m.
   `code` must tell apart the two objects bound to the same key before and after (e.g. code = o_rev: a
   revision is assigned once, Table/InvDefs.v ti_rev_distinct_live).

   changed_result_closes_query_channel (ONE write transaction, any number of writes, then Commit = Notify):
     result of Q on t  <>  result of Q on t' = twrun t ws
     ==> the channel Q's handle has on the tree of the queried index of t is in the set closed by the
         Notify of the part.Txn that turned that tree into the tree of t'.
   changed_result_closes_query_channel_chain: the same over any chain of committed transactions between
     the tree the handle was taken on and the tree of t' (some Notify of the chain closes it).
   write_txn_tree_ops: the tree operations that realise a table write transaction on an index exist. *)
From SV Require Import Base.Bytes Base.OrdMap.
From SV Require Import Part.Model Part.Refine Part.Watch Part.Fresh Part.Footprint.
From SV Require Import Table.Model Table.WatchFootprint.
From Coq Require Import ZifyN ZifyNat ZifyBool.
Open Scope N_scope.

Section Code.
Variable code : object -> N.

(* the map of numbers a tree holding the index denotes *)
Definition cmap (m : idx) : omap N := map (fun kv => (fst kv, code (snd kv))) m.

(* cmap is Base/OrdMap.v om_map code *)
Lemma cmap_get K m : om_get K (cmap m) = option_map code (om_get K m).
Proof. exact (om_map_get code K m). Qed.

Lemma cmap_insert K o m : cmap (om_insert K o m) = om_insert K (code o) (cmap m).
Proof. exact (om_map_insert code K o m). Qed.

Lemma cmap_delete K m : cmap (om_delete K m) = om_delete K (cmap m).
Proof. exact (om_map_delete code K m). Qed.

Lemma cmap_sorted m : om_sorted m -> om_sorted (cmap m).
Proof. exact (om_map_sorted code m). Qed.

(* the tree operation realising an index operation of the table model *)
Definition iop_wop (x : iop) : wop :=
  match x with IIns K o => WIns K (code o) | IDel K => WDel K end.

Lemma cmap_iops ops : forall m, cmap (fold_left iapply ops m) = fold_left mstep (map iop_wop ops) (cmap m).
Proof.
  induction ops as [|x ops IH]; intros m; cbn [fold_left map]; auto.
  rewrite IH. f_equal. destruct x; cbn [iapply iop_wop mstep]; [apply cmap_insert|apply cmap_delete].
Qed.

(* the code tells apart the objects bound to the same key in the two maps *)
Definition code_separates (m m' : idx) : Prop :=
  forall K o o', om_get K m = Some o -> om_get K m' = Some o' -> code o = code o' -> o = o'.

Lemma binding_change_cmap m m' K : code_separates m m' ->
  binding_change (om_get K m) (om_get K m') -> om_get K (cmap m') <> om_get K (cmap m).
Proof.
  intros Hs B. rewrite !cmap_get.
  destruct (om_get K m) as [o|] eqn:G; destruct (om_get K m') as [o'|] eqn:G'; inversion B; subst;
    cbn [option_map]; try discriminate.
  intros E. injection E as E. symmetry in E. apply (Hs K o o' G G') in E. congruence.
Qed.

(* t: the table a reader queried (Q, answer + handle h on the tree T of the index Q reads); ws: the writes of the
   next write transaction on the table; ops: the operations of the index's part.Txn during that transaction, which
   commits a tree denoting the index of t' = twrun t ws. If Q's answer on t' differs, h's channel is closed by the
   Notify of that part.Txn, i.e. by the Commit of the write transaction. *)
Theorem changed_result_closes_query_channel d d' tab tab' q ik h t ws T next ops :
  q_handle q = Some (ik, h) -> idx_sorted t ->
  tree_inv T next -> abs_tree T = cmap (index_of ik t) ->
  let xe := fold_left wstep ops (tree_txn T next) in
  abs_tree (snd (txn_commit xe)) = cmap (index_of ik (twrun t ws)) ->
  code_separates (index_of ik t) (index_of ik (twrun t ws)) ->
  run_query d tab q t <> run_query d' tab' q (twrun t ws) ->
  In (h_chan T h) (snd (txn_notify (fst (txn_commit xe)))).     (* write_txn.go Commit: tx.Commit(), then tx.Notify() *)
Proof.
  intros Hq S HI Ea. cbv zeta. intros Ea' Hs Hd. rewrite notify_after_commit.
  destruct (write_txn_result_change d d' tab tab' q ik h t ws Hq S Hd) as [K [F [C B]]].
  apply (changed_key_closes_handle T next ops h HI). exists K. split; [exact C|].
  rewrite Ea, Ea'. now apply binding_change_cmap.
Qed.

(* such operations exist: every write transaction of the table model acts on each index as a sequence of tree
   Inserts and Deletes *)
Theorem write_txn_tree_ops t ws ik : exists ops, forall T next,
  tree_ok T -> abs_tree T = cmap (index_of ik t) ->
  abs_tree (snd (txn_commit (fold_left wstep ops (tree_txn T next)))) = cmap (index_of ik (twrun t ws)).
Proof.
  destruct (twrun_iops ws t ik) as [iops E]. exists (map iop_wop iops). intros T next Hok Ea.
  destruct (tree_txn_ok T next Hok) as [Tok Ta].
  destruct (history_refines (map iop_wop iops) _ Tok) as [Xok Xa].
  destruct (txn_commit_ok _ Xok) as (_ & Ca & _).
  rewrite Ca, Xa, Ta, Ea, E. symmetry. apply cmap_iops.
Qed.

(* t, t': ANY two tables with sorted indexes (e.g. the table a reader queried and the committed table any number of
   write transactions later); txns: the chain of part.Txns committed on the index's tree in between *)
Theorem changed_result_closes_query_channel_chain d d' tab tab' q ik h t t' T next txns :
  q_handle q = Some (ik, h) -> om_sorted (index_of ik t) -> om_sorted (index_of ik t') ->
  tree_inv T next -> abs_tree T = cmap (index_of ik t) ->
  abs_tree (fst (chain_end T next txns)) = cmap (index_of ik t') ->
  code_separates (index_of ik t) (index_of ik t') ->
  run_query d tab q t <> run_query d' tab' q t' ->
  exists cl, In cl (chain_closed T next txns) /\ In (h_chan T h) cl.
Proof.
  intros Hq S S' HI Ea Ea' Hs Hd.
  destruct (query_result_change d d' tab tab' q ik h t t' Hq S S' Hd) as [K [F [C B]]].
  apply (chain_changed_key_closes_handle txns T next h HI). exists K. split; [exact C|].
  rewrite Ea, Ea'. now apply binding_change_cmap.
Qed.
End Code.

(* an injective code exists: with it no separation hypothesis is needed *)
Definition pairN (a b : N) : N := 2 ^ a * (2 * b + 1).
Lemma pairN_lt a a' b b' : a < a' -> pairN a b <> pairN a' b'.
Proof.
  unfold pairN. intros L E. replace a' with (a + N.succ (a' - a - 1)) in E by lia.
  rewrite N.pow_add_r, N.pow_succ_r', <- N.mul_assoc in E.
  apply N.mul_cancel_l in E; [|apply N.pow_nonzero; lia].
  set (d := 2 ^ (a' - a - 1)) in *. nia.
Qed.
Lemma pairN_inj a b a' b' : pairN a b = pairN a' b' -> a = a' /\ b = b'.
Proof.
  intros E. destruct (N.lt_trichotomy a a') as [L|[->|L]].
  - exfalso. exact (pairN_lt _ _ _ _ L E).
  - split; auto. unfold pairN in E. apply N.mul_cancel_l in E; [lia|apply N.pow_nonzero; lia].
  - exfalso. symmetry in E. exact (pairN_lt _ _ _ _ L E).
Qed.
Lemma pairN_pos a b : pairN a b <> 0.
Proof. unfold pairN. apply N.neq_mul_0. split; [apply N.pow_nonzero; lia|lia]. Qed.
Fixpoint listN {A} (f : A -> N) (l : list A) : N :=
  match l with [] => 0 | x :: r => pairN (f x) (listN f r) end.
Lemma listN_inj {A} (f : A -> N) : (forall a b, f a = f b -> a = b) ->
  forall l l', listN f l = listN f l' -> l = l'.
Proof.
  intros Hf. induction l as [|x l IH]; intros [|y l'] E; cbn [listN] in E; auto.
  - symmetry in E. now apply pairN_pos in E.
  - now apply pairN_pos in E.
  - apply pairN_inj in E. destruct E as [E1 E2]. f_equal; auto.
Qed.
Definition boolN (b : bool) : N := if b then 1 else 0.
Lemma boolN_inj a b : boolN a = boolN b -> a = b.
Proof. destruct a, b; cbn; intros H; auto; discriminate. Qed.
Definition idN (n : N) : N := n.
Lemma idN_inj a b : idN a = idN b -> a = b.
Proof. auto. Qed.

Definition payload_code (p : payload) : N :=
  pairN (listN idN (p_id p)) (pairN (p_val p) (pairN (listN (listN idN) (p_u p)) (pairN (listN (listN idN) (p_n p))
        (pairN (listN (listN boolN) (p_lu p)) (listN (listN boolN) (p_ln p)))))).
Definition obj_code (o : object) : N := pairN (payload_code (o_data o)) (o_rev o).

Lemma obj_code_inj a b : obj_code a = obj_code b -> a = b.
Proof.
  destruct a as [[i1 v1 u1 n1 lu1 ln1] r1], b as [[i2 v2 u2 n2 lu2 ln2] r2].
  unfold obj_code, payload_code. cbn [o_data o_rev p_id p_val p_u p_n p_lu p_ln]. intros E.
  apply pairN_inj in E. destruct E as [E ->].
  apply pairN_inj in E. destruct E as [E1 E].
  apply pairN_inj in E. destruct E as [-> E].
  apply pairN_inj in E. destruct E as [E3 E].
  apply pairN_inj in E. destruct E as [E4 E].
  apply pairN_inj in E. destruct E as [E5 E6].
  apply (listN_inj idN idN_inj) in E1.
  apply (listN_inj _ (listN_inj idN idN_inj)) in E3, E4.
  apply (listN_inj _ (listN_inj boolN boolN_inj)) in E5, E6.
  subst. reflexivity.
Qed.

Lemma obj_code_separates m m' : code_separates obj_code m m'.
Proof. intros K o o' _ _. apply obj_code_inj. Qed.

(* the composed theorems for the injective representation of objects as tree values: no side condition on the code *)
Corollary changed_result_closes_query_channel_inj d d' tab tab' q ik h t ws T next ops :
  q_handle q = Some (ik, h) -> idx_sorted t ->
  tree_inv T next -> abs_tree T = cmap obj_code (index_of ik t) ->
  let xe := fold_left wstep ops (tree_txn T next) in
  abs_tree (snd (txn_commit xe)) = cmap obj_code (index_of ik (twrun t ws)) ->
  run_query d tab q t <> run_query d' tab' q (twrun t ws) ->
  In (h_chan T h) (snd (txn_notify (fst (txn_commit xe)))).
Proof.
  intros Hq S HI Ea. cbv zeta. intros Ea' Hd.
  exact (changed_result_closes_query_channel obj_code d d' tab tab' q ik h t ws T next ops Hq S HI Ea Ea'
           (obj_code_separates _ _) Hd).
Qed.

Corollary changed_result_closes_query_channel_chain_inj d d' tab tab' q ik h t t' T next txns :
  q_handle q = Some (ik, h) -> om_sorted (index_of ik t) -> om_sorted (index_of ik t') ->
  tree_inv T next -> abs_tree T = cmap obj_code (index_of ik t) ->
  abs_tree (fst (chain_end T next txns)) = cmap obj_code (index_of ik t') ->
  run_query d tab q t <> run_query d' tab' q t' ->
  exists cl, In cl (chain_closed T next txns) /\ In (h_chan T h) cl.
Proof.
  intros Hq S S' HI Ea Ea' Hd.
  exact (changed_result_closes_query_channel_chain obj_code d d' tab tab' q ik h t t' T next txns Hq S S' HI Ea Ea'
           (obj_code_separates _ _) Hd).
Qed.

(* a table with a non-unique index: objects a (keys "x"), b (key "y"); a reader lists key "y" -> [b], handle =
   Prefix(enc "y") on the tree of the non-unique index. The next write transaction updates a so that it gains the key
   "y": a NEWLY QUALIFIES. The footprint key nuk "a" "y" is new in the index, the answer changes, and the Notify of
   the tree transaction closes the channel the reader holds. *)
(* ex_a1, ex_b, ex_a2, ex_t, ex_ws, ex_q: Table/WatchFootprint.v *)
(* the tree of the non-unique index of ex_t, built by one earlier tree transaction *)
Definition ex_T : tree :=
  snd (txn_commit (fold_left wstep (map (iop_wop o_rev) [IIns (nuk [97] [120]) (mkO ex_a1 1); IIns (nuk [98] [121]) (mkO ex_b 2)])
                             (tree_txn (fst (tree_new false 1)) 2))).
Definition ex_ops : list wop := map (iop_wop o_rev) [IIns (nuk [97] [120]) (mkO ex_a2 3); IIns (nuk [97] [121]) (mkO ex_a2 3)].

Example compose_nonvacuous :
  q_handle ex_q = Some (INn, HPrefix (enc [121])) /\
  idx_sorted ex_t /\ tree_inv ex_T 10 /\
  abs_tree ex_T = cmap o_rev (index_of INn ex_t) /\
  abs_tree (snd (txn_commit (fold_left wstep ex_ops (tree_txn ex_T 10)))) = cmap o_rev (index_of INn (twrun ex_t ex_ws)) /\
  code_separates o_rev (index_of INn ex_t) (index_of INn (twrun ex_t ex_ws)) /\
  q_list INn [121] ex_t = [mkO ex_b 2] /\
  q_list INn [121] (twrun ex_t ex_ws) = [mkO ex_a2 3; mkO ex_b 2] /\
  (* the footprint key of the newly qualifying object: absent before, bound after *)
  fp ex_q (nuk [97] [121]) = true /\
  om_get (nuk [97] [121]) (index_of INn ex_t) = None /\
  om_get (nuk [97] [121]) (index_of INn (twrun ex_t ex_ws)) = Some (mkO ex_a2 3) /\
  (* the channel the reader holds, and the set the commit closes *)
  h_chan ex_T (HPrefix (enc [121])) = 4 /\
  In 4 (snd (txn_notify (fst (txn_commit (fold_left wstep ex_ops (tree_txn ex_T 10)))))).
Proof.
  split; [reflexivity|]. split; [apply twrun_sorted, idx_sorted_empty|]. split.
  - assert (I0 : tree_inv (fst (tree_new false 1)) 2) by (apply (tree_inv_new false 1); lia).
    eapply tree_inv_mono; [|exact (proj1 (commit_tree_inv _ 2 _ I0))]. vm_compute. discriminate.
  - split; [vm_compute; reflexivity|]. split; [vm_compute; reflexivity|]. split.
    + intros K o o' G G'. apply om_get_Some_In in G, G'. vm_compute in G, G'.
      destruct G as [G|[G|[]]]; destruct G' as [G'|[G'|[G'|[]]]];
        inversion G; subst; inversion G'; subst; cbn [o_rev]; intros R; try discriminate R; reflexivity.
    + vm_compute. repeat split; auto.
Qed.

Print Assumptions changed_result_closes_query_channel.
Print Assumptions changed_result_closes_query_channel_chain.
Print Assumptions changed_result_closes_query_channel_chain_inj.
Print Assumptions write_txn_tree_ops.
