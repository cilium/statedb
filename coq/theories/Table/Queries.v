(* Table/Queries.v — exactness of the queries through the secondary part indexes, derived from
   the agreement invariants (Table/InvDefs.v): Get / List / Prefix / LowerBound through the
   non-unique index (composite keys, the de-duplicating iterators of part_index.go), through
   the unique and the primary index, Get / List / Prefix / LowerBound through the LPM indexes,
   and NumObjects. *)
From SV Require Import Base.Bytes Base.OrdMap KeyEnc.Model KeyEnc.Proofs
  Table.Model Table.InvDefs Table.Inv Table.AgreeDefs Table.AgreeLpm Table.AgreeN.
From Coq Require Import Sorted ZifyN ZifyNat ZifyBool.
Open Scope N_scope.

Section SSorted.
Context {A : Type} (R : A -> A -> Prop).

Lemma ssorted_filter (f : A -> bool) l : StronglySorted R l -> StronglySorted R (filter f l).
Proof.
  induction 1 as [|a l Hs IH Hf]; simpl; [constructor|].
  destruct (f a); auto. constructor; auto.
  rewrite Forall_forall in *. intros x Hx. apply filter_In in Hx. apply Hf. tauto.
Qed.

Lemma ssorted_map_impl {B} (R' : B -> B -> Prop) (g : A -> B) l :
  StronglySorted R l -> (forall x y, In x l -> In y l -> R x y -> R' (g x) (g y)) ->
  StronglySorted R' (map g l).
Proof.
  induction 1 as [|a l Hs IH Hf]; intros Himp; simpl; constructor.
  - apply IH. intros x y Hx Hy. apply Himp; simpl; auto.
  - rewrite Forall_forall in *. intros y Hy. apply in_map_iff in Hy. destruct Hy as [x [<- Hx]].
    apply Himp; simpl; auto.
Qed.

(* two strictly sorted lists with the same elements are the same list *)
Lemma ssorted_ext (Hasym : forall a b, R a b -> R b a -> False) l1 : forall l2,
  StronglySorted R l1 -> StronglySorted R l2 -> (forall x, In x l1 <-> In x l2) -> l1 = l2.
Proof.
  induction l1 as [|a l1 IH]; intros [|b l2] H1 H2 Hin; auto.
  - exfalso. apply (Hin b). simpl; auto.
  - exfalso. apply (Hin a). simpl; auto.
  - apply StronglySorted_inv in H1, H2. destruct H1 as [S1 F1], H2 as [S2 F2].
    rewrite Forall_forall in F1, F2.
    assert (a = b) as ->.
    { destruct (proj1 (Hin a) (or_introl eq_refl)) as [E|Ha]; auto.
      destruct (proj2 (Hin b) (or_introl eq_refl)) as [E|Hb]; auto.
      exfalso. eapply Hasym; [apply (F1 _ Hb)|apply (F2 _ Ha)]. }
    f_equal. apply IH; auto. intros x. split; intros Hx.
    + destruct (proj1 (Hin x) (or_intror Hx)) as [E|H]; auto. subst x. exfalso. exact (Hasym _ _ (F1 _ Hx) (F1 _ Hx)).
    + destruct (proj2 (Hin x) (or_intror Hx)) as [E|H]; auto. subst x. exfalso. exact (Hasym _ _ (F2 _ Hx) (F2 _ Hx)).
Qed.
Lemma ssorted_NoDup (Hirr : forall a, ~ R a a) l : StronglySorted R l -> NoDup l.
Proof.
  induction 1 as [|a l Hs IH Hf]; constructor; auto.
  intros Hin. rewrite Forall_forall in Hf. exact (Hirr _ (Hf _ Hin)).
Qed.
End SSorted.

Definition key_lt {V} (a b : bytes * V) : Prop := lex_lt (fst a) (fst b).

Lemma om_sorted_ssorted {V} (m : omap V) : om_sorted m <-> StronglySorted key_lt m.
Proof.
  induction m as [|[k v] r IH]; simpl.
  - split; [constructor|auto].
  - rewrite IH. split.
    + intros [Ha Hs]. constructor; auto.
    + intros H. apply StronglySorted_inv in H. destruct H as [Hs Hf]. split; auto.
Qed.

Lemma om_filter_sorted {V} (f : bytes * V -> bool) (m : omap V) : om_sorted m -> om_sorted (filter f m).
Proof. rewrite !om_sorted_ssorted. apply ssorted_filter. Qed.

Lemma om_prefix_In {V} p (m : omap V) kv : In kv (om_prefix p m) <-> In kv m /\ has_prefix (fst kv) p = true.
Proof. unfold om_prefix. apply filter_In. Qed.

(* by_pk (Table/AgreeLpm.v): objects compared by primary key *)
Lemma by_pk_asym a b : by_pk a b -> by_pk b a -> False.
Proof. unfold by_pk. intros H1 H2. exact (lex_lt_asym _ _ H1 H2). Qed.

Lemma vals_In t o : TInv t -> (In o (vals (t_primary t)) <-> live t o).
Proof.
  intros I. unfold vals, live. rewrite in_map_iff. split.
  - intros [[k o'] [E H]]. simpl in E. subst o'. destruct (ti_primary _ I _ _ H) as [-> _]. exact H.
  - intros H. exists (p_id (o_data o), o). auto.
Qed.

Lemma vals_primary_sorted t : TInv t -> StronglySorted by_pk (vals (t_primary t)).
Proof.
  intros I. unfold vals. apply ssorted_map_impl with (R := key_lt).
  - apply om_sorted_ssorted. apply (ti_sorted_primary _ I).
  - intros [k1 o1] [k2 o2] H1 H2 Hlt. unfold key_lt, by_pk in *. simpl in *.
    destruct (ti_primary _ I _ _ H1) as [<- _]. destruct (ti_primary _ I _ _ H2) as [<- _]. exact Hlt.
Qed.

Lemma has_prefix_length s p : has_prefix s p = true -> (length p <= length s)%nat.
Proof. rewrite has_prefix_spec. intros [r ->]. rewrite app_length. lia. Qed.

Lemma has_prefix_app_long a : forall b x, (length b <= length a)%nat -> has_prefix (a ++ x) b = has_prefix a b.
Proof.
  induction a as [|c a IH]; intros [|d b] x Hl; simpl in *; auto; try lia.
  - destruct x; reflexivity.
  - f_equal. apply IH. lia.
Qed.

Lemma has_prefix_same_length a b : has_prefix a b = true -> length a = length b -> a = b.
Proof.
  rewrite has_prefix_spec. intros [r ->]. rewrite app_length. destruct r; [now rewrite app_nil_r|simpl; lia].
Qed.

(* the escape code is a prefix code: prefixes are preserved and reflected *)
Ltac eqb_simp := repeat match goal with
  | |- context [?x =? ?x] => rewrite (N.eqb_refl x)
  | H : ?x <> ?y |- context [?x =? ?y] => rewrite (proj2 (N.eqb_neq x y) H)
  | H : ?x <> ?y |- context [?y =? ?x] => rewrite (proj2 (N.eqb_neq y x) (not_eq_sym H))
  end.

Lemma enc_has_prefix k : forall p, has_prefix (enc k) (enc p) = has_prefix k p.
Proof.
  induction k as [|c k IH]; intros [|d p]; cbn [enc has_prefix].
  - reflexivity.
  - destruct (d =? 0); [reflexivity|]. destruct (d =? 1); reflexivity.
  - destruct (c =? 0); [reflexivity|]. destruct (c =? 1); reflexivity.
  - assert (H01 : 0 <> 1) by lia. assert (H12 : 1 <> 2) by lia.
    destruct (N.eqb_spec c 0) as [->|Hc0]; [|destruct (N.eqb_spec c 1) as [->|Hc1]];
      (destruct (N.eqb_spec d 0) as [->|Hd0]; [|destruct (N.eqb_spec d 1) as [->|Hd1]]);
      cbn [has_prefix]; eqb_simp; cbn [andb]; rewrite ?IH; reflexivity.
Qed.

Lemma lex_lt_app_inv a x b : lex_lt (a ++ x) b -> lex_lt a b.
Proof.
  destruct x as [|y r]; [now rewrite app_nil_r|]. intros H.
  eapply lex_lt_trans; [apply lex_lt_prefix|exact H].
Qed.

Lemma existsb_eqb_In key ks : existsb (bytes_eqb key) ks = true <-> In key ks.
Proof. apply ks_exists_In. Qed.

Lemma n_entry t K o : n_agree t -> pk_short t -> In (K, o) (t_n t) ->
  exists k, In k (p_n (o_data o)) /\ K = nuk (p_id (o_data o)) k /\ live t o /\
            len (enc (p_id (o_data o))) < 256 /\
            secondaryLen K = Z.of_nat (length (enc k)) /\
            encodedSecondary K = Some (enc k) /\
            encodedPrimary K = Some (enc (p_id (o_data o))).
Proof.
  intros [_ Ha] Hsh Hin. apply Ha in Hin. destruct Hin as [k [Hk [-> HL]]].
  pose proof (Hsh _ HL) as Hlen.
  destruct (nuk_split (p_id (o_data o)) k) as [H1 [H2 H3]]; [lia|].
  exists k. repeat split; auto.
Qed.

Lemma n_entry_conv t o k : n_agree t -> live t o -> In k (p_n (o_data o)) ->
  In (nuk (p_id (o_data o)) k, o) (t_n t).
Proof. intros [_ Ha] HL Hk. apply Ha. eauto. Qed.

(* keys of entries of the same index compare as (secondary, primary) pairs *)
Lemma n_entries_order t K1 o1 K2 o2 k1 k2 : pk_short t -> live t o1 -> live t o2 ->
  K1 = nuk (p_id (o_data o1)) k1 -> K2 = nuk (p_id (o_data o2)) k2 ->
  (lex_lt K1 K2 <-> nuk_lt (p_id (o_data o1)) k1 (p_id (o_data o2)) k2).
Proof. intros Hsh H1 H2 -> ->. apply nuk_order; apply Hsh; auto. Qed.

Definition has_key (key : bytes) (o : object) : bool := existsb (bytes_eqb key) (p_n (o_data o)).

Theorem q_list_n_exact t key : TInv t -> n_agree t -> pk_short t ->
  q_list INn key t = filter (has_key key) (vals (t_primary t)).
Proof.
  intros I A Hsh. unfold q_list. cbn [is_unique index_of]. unfold vals at 1.
  set (E := filter _ (om_prefix (enc key) (t_n t))).
  assert (HE : forall K o, In (K, o) E <-> K = nuk (p_id (o_data o)) key /\ In key (p_n (o_data o)) /\ live t o).
  { intros K o. unfold E. rewrite filter_In, om_prefix_In. cbn [fst]. split.
    - intros [[Hin Hp] Hl]. destruct (n_entry _ _ _ A Hsh Hin) as [k [Hk [-> [HL [_ [Hsl _]]]]]].
      rewrite Hsl in Hl. apply Z.eqb_eq in Hl. unfold zlen in Hl. apply Nat2Z.inj in Hl.
      unfold nuk in Hp. rewrite has_prefix_app_long in Hp by lia.
      apply has_prefix_same_length in Hp; auto. apply enc_inj in Hp. subst k. auto.
    - intros [-> [Hk HL]]. pose proof (n_entry_conv _ _ _ A HL Hk) as Hin. split; [split; auto|].
      + unfold nuk. rewrite has_prefix_app_long by lia. apply has_prefix_refl.
      + destruct (n_entry _ _ _ A Hsh Hin) as [k [_ [E2 [_ [_ [Hsl _]]]]]].
        apply nuk_inj in E2. destruct E2 as [_ <-]. rewrite Hsl. apply Z.eqb_eq. reflexivity. }
  apply (ssorted_ext by_pk by_pk_asym).
  - apply ssorted_map_impl with (R := key_lt).
    + apply om_sorted_ssorted. unfold E. apply om_filter_sorted, om_prefix_sorted. apply A.
    + intros [K1 o1] [K2 o2] H1 H2 Hlt. apply HE in H1, H2. destruct H1 as [E1 [_ L1]], H2 as [E2 [_ L2]].
      unfold key_lt in Hlt. cbn [fst snd] in *.
      apply (n_entries_order t _ _ _ _ _ _ Hsh L1 L2 E1 E2) in Hlt.
      destruct Hlt as [Hc|[_ Hlt]]; [now apply lex_lt_irrefl in Hc|exact Hlt].
  - apply ssorted_filter. now apply vals_primary_sorted.
  - intros o. rewrite filter_In, (vals_In _ _ I). unfold has_key. rewrite existsb_eqb_In.
    rewrite in_map_iff. split.
    + intros [[K o'] [Eo Hin]]. simpl in Eo. subst o'. apply HE in Hin. tauto.
    + intros [HL Hk]. exists (nuk (p_id (o_data o)) key, o). split; auto. apply HE. auto.
Qed.

(* first-occurrence de-duplication (the `visited` set of the non-unique iterators) *)
Section Dedup.
Context {A : Type} (f : A -> bytes).

Fixpoint dedup_by (seen : list bytes) (l : list A) : list A :=
  match l with
  | [] => []
  | x :: r => if existsb (bytes_eqb (f x)) seen then dedup_by seen r
              else x :: dedup_by (f x :: seen) r
  end.

Lemma dedup_by_In l : forall seen x, In x (dedup_by seen l) -> In x l /\ ~ In (f x) seen.
Proof.
  induction l as [|a r IH]; intros seen x; simpl; [tauto|].
  destruct (existsb (bytes_eqb (f a)) seen) eqn:E.
  - intros H. apply IH in H. tauto.
  - intros [<-|H].
    + split; auto. intros Hc. apply existsb_eqb_In in Hc. congruence.
    + apply IH in H. simpl in H. tauto.
Qed.

(* every element not yet seen is represented *)
Lemma dedup_by_complete l : forall seen x, In x l -> ~ In (f x) seen ->
  exists y, In y (dedup_by seen l) /\ f y = f x.
Proof.
  induction l as [|a r IH]; intros seen x; simpl; [tauto|].
  destruct (existsb (bytes_eqb (f a)) seen) eqn:E.
  - intros [->|H] Hn; [apply existsb_eqb_In in E; contradiction|]. now apply IH.
  - intros [->|H] Hn; [exists x; simpl; auto|].
    destruct (bytes_eq_dec (f a) (f x)) as [Eq|Ne]; [exists a; simpl; auto|].
    destruct (IH (f a :: seen) x H) as [y [Hy Ey]]; [|exists y; simpl; auto]. intros [Hc|Hc]; contradiction.
Qed.

Lemma dedup_by_NoDup l : forall seen, NoDup (map f (dedup_by seen l)).
Proof.
  induction l as [|a r IH]; intros seen; simpl; [constructor|].
  destruct (existsb (bytes_eqb (f a)) seen); auto. simpl. constructor; auto.
  intros Hc. apply in_map_iff in Hc. destruct Hc as [y [Ey Hy]]. apply dedup_by_In in Hy.
  destruct Hy as [_ Hy]. apply Hy. simpl. auto.
Qed.

Lemma dedup_by_sorted (R : A -> A -> Prop) l : forall seen,
  StronglySorted R l -> StronglySorted R (dedup_by seen l).
Proof.
  induction l as [|a r IH]; intros seen Hs; simpl; [constructor|].
  apply StronglySorted_inv in Hs. destruct Hs as [Hs Hf].
  destruct (existsb (bytes_eqb (f a)) seen); auto. constructor; auto.
  rewrite Forall_forall in *. intros x Hx. apply dedup_by_In in Hx. apply Hf. tauto.
Qed.

(* the representative kept is the first one in list order *)
Lemma dedup_by_first (R : A -> A -> Prop) l : forall seen x, StronglySorted R l ->
  In x (dedup_by seen l) -> forall y, In y l -> f y = f x -> y = x \/ R x y.
Proof.
  induction l as [|a r IH]; intros seen x Hs; simpl; [tauto|].
  apply StronglySorted_inv in Hs. destruct Hs as [Hs Hf]. rewrite Forall_forall in Hf.
  destruct (existsb (bytes_eqb (f a)) seen) eqn:E.
  - intros Hx y [<-|Hy] Ey.
    + apply dedup_by_In in Hx. destruct Hx as [_ Hx]. apply existsb_eqb_In in E. rewrite Ey in E. contradiction.
    + eapply IH; eauto.
  - intros [<-|Hx] y [<-|Hy] Ey; auto.
    + apply dedup_by_In in Hx. destruct Hx as [_ Hx]. exfalso. apply Hx. simpl. auto.
    + eapply IH; eauto.
Qed.
End Dedup.

(* on well-formed composite keys the model's dedup_primary is first-occurrence de-duplication
   on the (escaped) primary key *)
Definition epk (kv : bytes * object) : bytes := enc (p_id (o_data (snd kv))).

Lemma dedup_primary_by l : forall seen,
  (forall K o, In (K, o) l -> encodedPrimary K = Some (enc (p_id (o_data o)))) ->
  dedup_primary seen l = dedup_by epk seen l.
Proof.
  induction l as [|[K o] r IH]; intros seen H; simpl; auto.
  rewrite (H K o) by (simpl; auto). unfold epk at 1. cbn [snd].
  destruct (existsb (bytes_eqb (enc (p_id (o_data o)))) seen); [|f_equal]; apply IH; intros; apply H; simpl; auto.
Qed.

(* k is the smallest key of the object that satisfies the query *)
Definition least_key (Q : bytes -> Prop) (ks : list bytes) (k : bytes) : Prop :=
  In k ks /\ Q k /\ forall k', In k' ks -> Q k' -> ~ lex_lt k' k.

Lemma least_key_unique Q ks k1 k2 : least_key Q ks k1 -> least_key Q ks k2 -> k1 = k2.
Proof.
  intros [I1 [Q1 M1]] [I2 [Q2 M2]]. destruct (lex_lt_total k1 k2) as [H|[H|H]]; auto.
  - exfalso. exact (M2 _ I1 Q1 H).
  - exfalso. exact (M1 _ I2 Q2 H).
Qed.

(* (query key of the entry, object): ascending secondary key, ties broken by primary key *)
Definition entry_lt (a b : bytes * object) : Prop :=
  nuk_lt (p_id (o_data (snd a))) (fst a) (p_id (o_data (snd b))) (fst b).

(* the specification of an iteration over the non-unique index for a key predicate Q:
   the result pairs every live object having a qualifying key with its smallest such key,
   once, in ascending (key, primary key) order *)
Definition nu_iter_spec (Q : bytes -> Prop) (t : table) (res : list object) : Prop :=
  exists L : list (bytes * object),
    res = map snd L /\
    NoDup res /\
    (forall o, In o res <-> live t o /\ exists k, In k (p_n (o_data o)) /\ Q k) /\
    (forall k o, In (k, o) L <-> live t o /\ least_key Q (p_n (o_data o)) k) /\
    StronglySorted entry_lt L.

(* secondary key of a composite key *)
Definition sec_of (K : bytes) : bytes := match encodedSecondary K with Some es => dec es | None => [] end.

(* An iteration over a selection E of the non-unique index: the entries of the index whose
   secondary key satisfies Q. *)
Section NuIter.
Variables (Q : bytes -> Prop) (t : table) (E : idx).
Hypotheses (I : TInv t) (A : n_agree t) (Hsh : pk_short t) (HsE : om_sorted E).
Hypothesis HE : forall K o,
  In (K, o) E <-> In (K, o) (t_n t) /\ exists k, K = nuk (p_id (o_data o)) k /\ Q k.
Local Notation D := (dedup_by epk [] E).

Lemma sel_entry K o : In (K, o) E ->
  exists k, In k (p_n (o_data o)) /\ K = nuk (p_id (o_data o)) k /\ live t o /\ Q k /\ sec_of K = k /\
            encodedPrimary K = Some (enc (p_id (o_data o))).
Proof.
  intros Hin. apply HE in Hin. destruct Hin as [Hin [k' [EK HQ]]].
  destruct (n_entry _ _ _ A Hsh Hin) as [k [Hk [EK2 [HL [_ [_ [Hes Hep]]]]]]].
  assert (k' = k) by (rewrite EK in EK2; apply nuk_inj in EK2; tauto). subst k'.
  exists k. repeat split; auto. unfold sec_of. rewrite Hes. apply dec_enc.
Qed.

Lemma sel_conv o k : live t o -> In k (p_n (o_data o)) -> Q k -> In (nuk (p_id (o_data o)) k, o) E.
Proof. intros HL Hk HQ. apply HE. split; [now apply n_entry_conv|eauto]. Qed.

Lemma kept_sel x : In x D -> In x E.
Proof. intros Hx. apply dedup_by_In in Hx. tauto. Qed.

(* every live object with a qualifying key keeps one entry *)
Lemma kept_members o : In o (vals D) <-> live t o /\ exists k, In k (p_n (o_data o)) /\ Q k.
Proof.
  unfold vals. rewrite in_map_iff. split.
  - intros [[K o'] [Eo Hin]]. simpl in Eo. subst o'. apply kept_sel in Hin.
    destruct (sel_entry _ _ Hin) as [k Hk]. split; [tauto|]. exists k. tauto.
  - intros [HL [k [Hk HQ]]]. pose proof (sel_conv _ _ HL Hk HQ) as Hin.
    destruct (dedup_by_complete epk E [] _ Hin) as [[K' o'] [Hy Ey]]; [simpl; tauto|].
    unfold epk in Ey. cbn [snd] in Ey. apply enc_inj in Ey.
    destruct (sel_entry _ _ (kept_sel _ Hy)) as [k' Hk'].
    assert (o' = o) by (apply (live_same_id t); tauto). subst o'. exists (K', o). auto.
Qed.

(* ... the one under its least qualifying key: entries of one object are ordered by secondary key *)
Lemma kept_least K o : In (K, o) D -> least_key Q (p_n (o_data o)) (sec_of K).
Proof.
  intros Hin. destruct (sel_entry _ _ (kept_sel _ Hin)) as [k [Hk [EK [HL [HQ [Hsec _]]]]]].
  rewrite Hsec. split; auto. split; auto. intros k' Hk' HQ' Hlt.
  pose proof (sel_conv _ _ HL Hk' HQ') as Hin'.
  assert (Hord : lex_lt (nuk (p_id (o_data o)) k') K).
  { rewrite EK. apply nuk_order_fwd; [now apply Hsh|]. left; auto. }
  destruct (dedup_by_first epk key_lt E [] (K, o) (proj1 (om_sorted_ssorted _) HsE) Hin _ Hin' eq_refl) as [Eq|Hgt].
  - injection Eq as Eq. rewrite Eq in Hord. now apply lex_lt_irrefl in Hord.
  - unfold key_lt in Hgt. cbn [fst] in Hgt. exact (lex_lt_asym _ _ Hord Hgt).
Qed.

Lemma nu_iter : nu_iter_spec Q t (vals (dedup_primary [] E)).
Proof.
  rewrite dedup_primary_by by (intros K o Hin; destruct (sel_entry _ _ Hin) as [k Hk]; tauto).
  exists (map (fun kv => (sec_of (fst kv), snd kv)) D).
  split; [unfold vals; rewrite map_map; reflexivity|]. split; [|split; [exact kept_members|split]].
  - pose proof (dedup_by_NoDup epk E []) as Hnd.
    replace (map epk D) with (map (fun o => enc (p_id (o_data o))) (vals D)) in Hnd
      by (unfold vals; rewrite map_map; reflexivity).
    now apply NoDup_map_inv in Hnd.
  - intros k o. rewrite in_map_iff. split.
    + intros [[K o'] [Eq Hin]]. cbn [fst snd] in Eq. injection Eq as <- ->.
      split; [|now apply kept_least]. destruct (sel_entry _ _ (kept_sel _ Hin)) as [k Hk]. tauto.
    + intros [HL Hlk]. assert (Ho : In o (vals D)).
      { apply kept_members. split; auto. destruct Hlk as [H1 [H2 _]]. eauto. }
      unfold vals in Ho. apply in_map_iff in Ho. destruct Ho as [[K o'] [Eo Hin]]. simpl in Eo. subst o'.
      exists (K, o). split; auto. cbn [fst snd]. f_equal.
      eapply least_key_unique; [apply kept_least; eauto|exact Hlk].
  - apply ssorted_map_impl with (R := key_lt); [apply dedup_by_sorted; now apply om_sorted_ssorted|].
    intros [K1 o1] [K2 o2] H1 H2 Hlt. apply kept_sel in H1, H2.
    destruct (sel_entry _ _ H1) as [k1 [_ [E1 [L1 [_ [S1 _]]]]]]. destruct (sel_entry _ _ H2) as [k2 [_ [E2 [L2 [_ [S2 _]]]]]].
    unfold entry_lt, key_lt in *. cbn [fst snd] in *. rewrite S1, S2.
    now apply (n_entries_order t _ _ _ _ _ _ Hsh L1 L2 E1 E2).
Qed.
End NuIter.

Theorem q_prefix_n_exact t p : TInv t -> n_agree t -> pk_short t ->
  nu_iter_spec (fun k => has_prefix k p = true) t (q_prefix INn p t).
Proof.
  intros I A Hsh. unfold q_prefix. cbn [is_unique index_of].
  apply nu_iter; auto.
  - apply om_filter_sorted, om_prefix_sorted. apply A.
  - intros K o. rewrite filter_In, om_prefix_In. cbn [fst]. split.
    + intros [[Hin Hp] Hl]. split; auto.
      destruct (n_entry _ _ _ A Hsh Hin) as [k [Hk [EK [HL [_ [Hsl _]]]]]]. exists k. split; auto.
      rewrite Hsl in Hl. apply negb_true_iff, Z.ltb_ge in Hl. unfold zlen in Hl.
      rewrite EK in Hp. unfold nuk in Hp. rewrite has_prefix_app_long in Hp by lia.
      now rewrite enc_has_prefix in Hp.
    + intros [Hin [k [EK HQ]]].
      destruct (n_entry _ _ _ A Hsh Hin) as [k' [_ [EK2 [_ [_ [Hsl _]]]]]].
      assert (k' = k) by (rewrite EK in EK2; apply nuk_inj in EK2; destruct EK2; congruence). subst k'.
      rewrite <- enc_has_prefix in HQ. pose proof (has_prefix_length _ _ HQ) as Hlen.
      split; [split; auto|].
      * rewrite EK. unfold nuk. rewrite has_prefix_app_long by lia. exact HQ.
      * rewrite Hsl. apply negb_true_iff, Z.ltb_ge. unfold zlen. lia.
Qed.

Theorem q_lower_bound_n_exact t key : TInv t -> n_agree t -> pk_short t ->
  nu_iter_spec (fun k => ~ lex_lt k key) t (q_lower_bound INn key t).
Proof.
  intros I A Hsh. unfold q_lower_bound. cbn [is_unique index_of].
  apply nu_iter; auto.
  - apply om_filter_sorted, om_lower_bound_sorted. apply A.
  - intros K o. rewrite filter_In, om_lower_bound_spec by apply A. cbn [fst]. split.
    + intros [[Hin Hlb] Hf]. split; auto.
      destruct (n_entry _ _ _ A Hsh Hin) as [k [Hk [EK [HL [_ [_ [Hes _]]]]]]]. exists k. split; auto.
      rewrite Hes in Hf. apply negb_true_iff, bytes_ltb_false in Hf.
      intros Hc. apply Hf. now apply enc_mono.
    + intros [Hin [k [EK HQ]]].
      destruct (n_entry _ _ _ A Hsh Hin) as [k' [_ [EK2 [_ [_ [_ [Hes _]]]]]]].
      assert (k' = k) by (rewrite EK in EK2; apply nuk_inj in EK2; destruct EK2; congruence). subst k'.
      assert (Hge : ~ lex_lt (enc k) (enc key)) by (intros Hc; apply HQ; now apply enc_mono_iff).
      split; [split; auto|].
      * apply bytes_ltb_false. intros Hc. apply Hge. rewrite EK in Hc. unfold nuk in Hc.
        now apply lex_lt_app_inv in Hc.
      * rewrite Hes. apply negb_true_iff, bytes_ltb_false. exact Hge.
Qed.

Theorem q_get_u_exact t k o : u_agree t ->
  (q_get IU k t = Some o <-> live t o /\ In k (p_u (o_data o))).
Proof.
  intros [Hs Ha]. unfold q_get. cbn [is_unique index_of]. rewrite <- om_in_get by assumption.
  rewrite Ha. tauto.
Qed.

Definition lpm_idx (u : bool) (t : table) : lidx := if u then t_lu t else t_ln t.
Definition lpm_keys (u : bool) : payload -> list lkey := if u then p_lu else p_ln.
(* Get / List through an LPM index (run_query QLGet / QLList on a full-length key) *)
Definition ql_list (u : bool) (q : lkey) (t : table) : list object :=
  match l_lookup q (lpm_idx u t) with Some e => map snd e | None => [] end.
Definition ql_get (u : bool) (q : lkey) (t : table) : option object :=
  match l_lookup q (lpm_idx u t) with Some ((_, o) :: _) => Some o | _ => None end.

Lemma Agree_lpm u t : Agree t -> l_agree_on (live t) (lpm_keys u) (lpm_idx u t).
Proof. intros [_ [_ [A1 A2]]]. destruct u; [exact A1|exact A2]. Qed.

(* k is a stored prefix (a key of a live object) covering q / the longest such *)
Definition covers (u : bool) (t : table) (q k : lkey) : Prop :=
  bits_prefix k q = true /\ exists o, live t o /\ In k (lpm_keys u (o_data o)).
Definition longest_cover (u : bool) (t : table) (q k : lkey) : Prop :=
  covers u t q k /\ forall k', covers u t q k' -> (length k' <= length k)%nat.

Lemma bits_prefix_same_len a : forall b q, bits_prefix a q = true -> bits_prefix b q = true ->
  length a = length b -> a = b.
Proof.
  induction a as [|x a IH]; intros [|y b] [|z q]; cbn [bits_prefix length]; try discriminate; auto.
  rewrite !andb_true_iff, !Bool.eqb_true_iff. intros [-> H1] [-> H2] Hl. f_equal. eapply IH; eauto.
Qed.

Definition has_lkey (u : bool) (k : lkey) (o : object) : bool := existsb (bits_eqb k) (lpm_keys u (o_data o)).
Lemma has_lkey_In u k o : has_lkey u k o = true <-> In k (lpm_keys u (o_data o)).
Proof. apply lks_exists_In. Qed.

Theorem ql_list_exact u q t : TInv t -> Agree t ->
  (forall k, longest_cover u t q k -> ql_list u q t = filter (has_lkey u k) (vals (t_primary t))) /\
  ((forall k, ~ covers u t q k) -> ql_list u q t = []) /\
  ql_get u q t = hd_error (ql_list u q t).
Proof.
  intros I A. pose proof (l_lookup_exact _ _ _ q (Agree_lpm u t A)) as Hx.
  unfold ql_list, ql_get. destruct (l_lookup q (lpm_idx u t)) as [e|].
  - destruct Hx as [k [Hp [Hmax [Hne [Hs Hin]]]]].
    assert (Hc : covers u t q k).
    { split; auto. destruct e as [|[pk o] r]; [congruence|]. exists o. apply Hin. simpl. auto. }
    split; [|split].
    + intros k0 [Hc0 Hmax0].
      assert (k0 = k).
      { destruct Hc0 as [Hp0 [o0 [HL0 Hk0]]]. eapply bits_prefix_same_len; eauto.
        apply Nat.le_antisymm; [eapply Hmax; eauto|now apply Hmax0]. }
      subst k0. apply (ssorted_ext by_pk by_pk_asym); auto.
      * apply ssorted_filter. now apply vals_primary_sorted.
      * intros o. rewrite Hin, filter_In, (vals_In _ _ I), has_lkey_In. tauto.
    + intros Hno. exfalso. exact (Hno _ Hc).
    + destruct e as [|[pk o] r]; reflexivity.
  - split; [|split]; auto.
    intros k [[Hp [o [HL Hk]]] _]. rewrite (Hx o k HL Hk) in Hp. discriminate.
Qed.

Theorem q_all_NoDup t : TInv t -> NoDup (q_all t).
Proof.
  intros I. apply (ssorted_NoDup by_pk); [intros a H; exact (by_pk_asym _ _ H H)|now apply vals_primary_sorted].
Qed.

(* NumObjects (the length of the revision index) is the number of live objects *)
Theorem q_num_exact t : TInv t -> q_num t = N.of_nat (length (q_all t)).
Proof.
  intros I. unfold q_num, q_all. f_equal.
  assert (Hin : forall o, In o (vals (t_revidx t)) <-> In o (vals (t_primary t))).
  { intros o. rewrite (vals_In _ _ I). unfold vals. rewrite in_map_iff. split.
    - intros [[k o'] [E H]]. simpl in E. subst o'. apply (ti_revidx _ I) in H. tauto.
    - intros HL. exists (rev_key (o_rev o), o). split; auto. apply (ti_revidx _ I). auto. }
  assert (Hnd : NoDup (vals (t_revidx t))).
  { apply (ssorted_NoDup (fun a b => lex_lt (rev_key (o_rev a)) (rev_key (o_rev b)))).
    - intros a. apply lex_lt_irrefl.
    - unfold vals. apply ssorted_map_impl with (R := key_lt).
      + apply om_sorted_ssorted. apply (ti_sorted_revidx _ I).
      + intros [k1 o1] [k2 o2] H1 H2 Hlt. unfold key_lt in Hlt. cbn [fst snd] in *.
        apply (ti_revidx _ I) in H1, H2. destruct H1 as [<- _], H2 as [<- _]. exact Hlt. }
  pose proof (q_all_NoDup t I) as Hnd2. unfold q_all in Hnd2.
  rewrite <- (map_length snd (t_revidx t)). change (map snd (t_revidx t)) with (vals (t_revidx t)).
  apply Nat.le_antisymm; apply NoDup_incl_length; auto; intros o Ho; now apply Hin.
Qed.
