(* Table/ChangesProofs.v — change iterators along arbitrary runs of the database model (C07):
   strictly increasing delivery, convergence of the replay to the snapshot, independence from
   uncommitted entries; the K4 exclusion as a refutation. The graveyard retention that the
   convergence theorem assumes per Next (`retained`) is discharged along histories in
   Table/ChangesHist.v (its table-level steps: Table/ChangesRet.v). *)
From SV Require Import Base.Bytes Base.OrdMap KeyEnc.Model KeyEnc.Proofs
                       Table.Model Table.InvDefs Table.Proofs Table.Inv
                       Table.ChangesStream Table.ChangesIter.
From Coq Require Import ZifyN ZifyNat ZifyBool.
Open Scope N_scope.
#[local] Opaque rev_key.

Lemma assoc_filter_other {A} k k' (l : list (N * A)) : k <> k' ->
  assoc k (filter (fun kv => negb (fst kv =? k')) l) = assoc k l.
Proof.
  intros Hne. induction l as [|[a b] r IH]; simpl; auto.
  destruct (N.eqb_spec a k'); simpl.
  - destruct (N.eqb_spec k a); [congruence|]. exact IH.
  - destruct (N.eqb_spec k a); auto.
Qed.

Lemma assoc_filter_same {A} k (l : list (N * A)) :
  assoc k (filter (fun kv => negb (fst kv =? k)) l) = None.
Proof.
  induction l as [|[a b] r IH]; simpl; auto.
  destruct (N.eqb_spec a k); simpl; auto. destruct (N.eqb_spec k a); [congruence|]. exact IH.
Qed.

Definition touches (iid : N) (o : op) : bool :=
  match o with
  | OChanges i _ | ONext i _ _ | OResume i _ | OClose i => i =? iid
  | _ => false
  end.

Lemma with_locked_iters d tab f a b : d_iters (fst (with_locked d tab f a b)) = d_iters d.
Proof.
  unfold with_locked. destruct (d_txn d) as [[es old]|]; auto.
  destruct (nth_error es tab) as [[t [|]]|]; auto. destruct (f t); auto.
Qed.

Definition out_changes (x : out) : list (object * bool) :=
  match x with OutChanges l _ => l | _ => [] end.

(* the committed table a Next of iid refreshes from; None: Next does not refresh (returns the open
   watch channel, or the call is not applicable) *)
Definition next_source (d : db) (iid : N) (s : source) : option table :=
  match assoc iid (d_iters d), src_committed d s with
  | Some it, Some r =>
    match nth_error r (it_tab it), nth_error (d_root d) (it_tab it) with
    | Some t, Some cur =>
      if match it_pending it with None => N.eqb (t_rev cur) (it_watchrev it) | Some _ => false end
      then None else Some t
    | _, _ => None
    end
  | _, _ => None
  end.

Lemma next_source_iter d j s T : next_source d j s = Some T -> exists it, assoc j (d_iters d) = Some it.
Proof. unfold next_source. destruct (assoc j (d_iters d)) as [it|]; [eauto|discriminate]. Qed.

Lemma next_iter_pending S it : exists l, it_pending (next_iter S it) = Some l.
Proof. cbn. eexists; reflexivity. Qed.

Lemma step_next_some d iid s take it S :
  assoc iid (d_iters d) = Some it -> next_source d iid s = Some S ->
  forall l, it_pending (next_iter S it) = Some l ->
  step d (ONext iid s take) =
    (let '(out, it2, d2) := consume take l (next_iter S it) d iid in
     (set_iters d2 (assoc_set iid it2 (d_iters d2)), OutChanges out true)).
Proof.
  intros Hi Hn l Hl. unfold next_source in Hn. cbn [step]. rewrite Hi in *.
  destruct (src_committed d s) as [r|]; [|discriminate].
  destruct (nth_error r (it_tab it)) as [t|]; [|discriminate].
  destruct (nth_error (d_root d) (it_tab it)) as [cur|]; [|discriminate].
  match goal with |- context [if ?c then _ else _] => destruct c end; [discriminate|].
  injection Hn as ->. cbn in Hl. injection Hl as <-. reflexivity.
Qed.

Lemma step_next_none d iid s take :
  next_source d iid s = None ->
  fst (step d (ONext iid s take)) = d /\ out_changes (snd (step d (ONext iid s take))) = [].
Proof.
  intros Hn. unfold next_source in Hn. cbn [step].
  destruct (assoc iid (d_iters d)) as [it|]; [|auto].
  destruct (src_committed d s) as [r|]; [|auto].
  destruct (nth_error r (it_tab it)) as [t|]; [|auto].
  destruct (nth_error (d_root d) (it_tab it)) as [cur|]; [|auto].
  match goal with |- context [if ?c then _ else _] => destruct c end; [auto|discriminate].
Qed.

(* ONext and OResume of iterator j end alike: consume from the state it1 holding l, store the result *)
Definition delivery (d : db) (j : N) (it1 : iter) (l : list (object * bool)) (r : db * out) : Prop :=
  exists out it2 d2, consumed j l it1 d out it2 d2 /\
    r = (set_iters d2 (assoc_set j it2 (d_iters d2)), OutChanges out true).

Lemma consume_delivery take l it1 d j :
  delivery d j it1 l (let '(out, it2, d2) := consume take l it1 d j in
                      (set_iters d2 (assoc_set j it2 (d_iters d2)), OutChanges out true)).
Proof.
  destruct (consume take l it1 d j) as [[out it2] d2] eqn:E. exists out, it2, d2.
  split; [exact (consume_consumed _ _ _ _ _ _ _ _ E)|reflexivity].
Qed.

Lemma step_next_cases d j s take :
  match next_source d j s with
  | None => fst (step d (ONext j s take)) = d /\ out_changes (snd (step d (ONext j s take))) = []
  | Some T => exists it l, assoc j (d_iters d) = Some it /\ it_pending (next_iter T it) = Some l /\
                           delivery d j (next_iter T it) l (step d (ONext j s take))
  end.
Proof.
  destruct (next_source d j s) as [T|] eqn:Hn; [|now apply step_next_none].
  destruct (next_source_iter _ _ _ _ Hn) as [it Hi].
  destruct (next_iter_pending T it) as [l Hl]. exists it, l. split; [exact Hi|]. split; [exact Hl|].
  rewrite (step_next_some d j s take it T Hi Hn l Hl). apply consume_delivery.
Qed.

Lemma step_resume_some d j take it l :
  assoc j (d_iters d) = Some it -> it_pending it = Some l -> it_seq it = true ->
  delivery d j it l (step d (OResume j take)).
Proof. intros Hi Hp Hs. cbn [step]. rewrite Hi, Hp, Hs. apply consume_delivery. Qed.

Lemma step_resume_cases d j take :
  (fst (step d (OResume j take)) = d /\ out_changes (snd (step d (OResume j take))) = []) \/
  exists it l, assoc j (d_iters d) = Some it /\ it_pending it = Some l /\ it_seq it = true /\
               delivery d j it l (step d (OResume j take)).
Proof.
  destruct (assoc j (d_iters d)) as [it|] eqn:Hi; [|cbn [step]; rewrite Hi; now left].
  destruct (it_pending it) as [l|] eqn:Hp; [|cbn [step]; rewrite Hi, Hp; now left].
  destruct (it_seq it) eqn:Hs; [|cbn [step]; rewrite Hi, Hp, Hs; now left].
  right. exists it, l. repeat split; auto. now apply step_resume_some.
Qed.

(* a delivery writes the iterator, its tracker's watermark and the collector's trigger, nothing else *)
Lemma delivery_frame d j it1 l r : delivery d j it1 l r ->
  d_root (fst r) = d_root d /\ d_txn (fst r) = d_txn d /\ d_snaps (fst r) = d_snaps d /\
  (forall i, i <> j -> assoc i (d_iters (fst r)) = assoc i (d_iters d)) /\
  (forall i, i <> j -> assoc i (d_wm (fst r)) = assoc i (d_wm d)) /\
  (forall keys, d_gc (fst r) = GGate2 keys -> d_gc d = GGate2 keys).
Proof.
  intros [out [it2 [d2 [Hc ->]]]]. destruct (consumed_frame _ _ _ _ _ _ _ Hc) as [A [B [C [D _]]]].
  destruct (consumed_marks _ _ _ _ _ _ _ Hc) as [G [W _]]. cbn [fst set_iters d_root d_txn d_snaps d_iters d_wm d_gc].
  repeat split; auto. intros i Hi. rewrite D. now apply assoc_set_other.
Qed.

(* ... and, for an iterator satisfying its invariant, leaves it so with the delivered changes appended *)
Lemma delivery_inv G d j it1 l r acc : delivery d j it1 l r ->
  oinv G it1 acc -> it_pending it1 = Some l -> it_seq it1 = true ->
  exists it2, assoc j (d_iters (fst r)) = Some it2 /\
    oinv G it2 (acc ++ out_changes (snd r)) /\ (cinv G it1 acc -> cinv G it2 (acc ++ out_changes (snd r))) /\
    it_tab it2 = it_tab it1 /\ it_delrev it1 <= it_delrev it2 /\
    (assoc j (d_wm d) = Some (it_delrev it1) -> assoc j (d_wm (fst r)) = Some (it_delrev it2)).
Proof.
  intros [out [it2 [d2 [Hc ->]]]] HO Hp Hs. exists it2. split; [apply assoc_set_same|].
  destruct (consumed_inv G _ _ _ _ _ _ _ Hc acc HO Hp Hs) as [A [B [C D]]].
  split; [exact A|]. split; [exact B|]. split; [exact C|]. split; [exact D|]. apply (consumed_marks _ _ _ _ _ _ _ Hc).
Qed.

(* closing an iterator removes it (or the call is not applicable) *)
Lemma step_close_self d j :
  fst (step d (OClose j)) = d \/ assoc j (d_iters (fst (step d (OClose j)))) = None.
Proof.
  cbn [step]. destruct (assoc j (d_iters d)); [|now left]. destruct (d_txn d); [now left|]. right. cbn [fst].
  match goal with |- context [gc_trigger ?x] => destruct (gc_trigger_frame x) as [_ [_ [_ [-> _]]]] end.
  apply assoc_filter_same.
Qed.

Lemma step_iters_frame d o iid : touches iid o = false ->
  assoc iid (d_iters (fst (step d o))) = assoc iid (d_iters d).
Proof.
  intros Ht.
  assert (Hne : forall j, (j =? iid) = false -> iid <> j) by (intros j H ->; now rewrite N.eqb_refl in H).
  destruct o; cbn [touches] in Ht; try (cbn [step]; rewrite with_locked_iters; reflexivity).
  - cbn [step]. destruct (d_txn d); reflexivity.
  - cbn [step]. destruct (d_txn d) as [[es old]|] eqn:E; auto.
    destruct (nth_error es tab) as [[t [|]]|] eqn:E2; try (rewrite with_locked_iters; reflexivity).
    destruct (t_primary t); reflexivity.
  - cbn [step]. destruct (d_txn d) as [[es old]|]; reflexivity.
  - cbn [step]. destruct (d_txn d); reflexivity.
  - reflexivity.
  - cbn [step]. destruct (src_root d s); [|reflexivity]. destruct (nth_error l tab); reflexivity.
  - (* OChanges *)
    cbn [step]. destruct (d_txn d) as [[es old]|]; [|reflexivity].
    destruct (nth_error es tab) as [[t [|]]|]; try reflexivity. destruct (nth_error old tab); [|reflexivity].
    apply assoc_set_other; auto.
  - (* ONext *)
    pose proof (step_next_cases d iid0 s take) as Hc. destruct (next_source d iid0 s).
    + destruct Hc as [it [l [_ [_ Hd]]]]. apply (delivery_frame _ _ _ _ _ Hd); auto.
    + now destruct Hc as [-> _].
  - (* OResume *)
    destruct (step_resume_cases d iid0 take) as [[-> _]|[it [l [_ [_ [_ Hd]]]]]]; [reflexivity|].
    apply (delivery_frame _ _ _ _ _ Hd); auto.
  - (* OClose *)
    cbn [step]. destruct (assoc iid0 (d_iters d)) as [it|]; [|reflexivity]. destruct (d_txn d); [reflexivity|]. cbn [fst].
    match goal with |- context [gc_trigger ?x] => destruct (gc_trigger_frame x) as [_ [_ [_ [-> _]]]] end.
    apply assoc_filter_other; auto.
  - cbn [step]. destruct (d_gc d); reflexivity.
  - cbn [step]. destruct (d_gc d); try reflexivity. destruct (d_txn d); [reflexivity|].
    cbn [fst]. unfold gc_settle. cbn. destruct (d_gcchan d); reflexivity.
  - cbn [step]. match goal with |- context [with_locked d tab ?f ?a ?b] =>
      pose proof (with_locked_iters d tab f a b) as Hw; destruct (with_locked d tab f a b) as [d' x] end.
    cbn [fst d_iters] in *. now rewrite Hw.
Qed.

(* ghost state of iterator iid along a run: the table last refreshed from, everything delivered *)
Definition ghost := (table * list (object * bool))%type.

Definition gstep (iid : N) (g : ghost) (d : db) (o : op) : ghost :=
  match o with
  | ONext i s _ =>
    if i =? iid then (match next_source d iid s with Some T => T | None => fst g end,
                      snd g ++ out_changes (snd (step d o)))
    else g
  | OResume i _ => if i =? iid then (fst g, snd g ++ out_changes (snd (step d o))) else g
  | _ => g
  end.

Fixpoint grun (iid : N) (g : ghost) (d : db) (ops : list op) : ghost :=
  match ops with
  | [] => g
  | o :: r => grun iid (gstep iid g d o) (fst (step d o)) r
  end.

(* everything iterator iid is handed along a run *)
Fixpoint delivered (iid : N) (d : db) (ops : list op) : list (object * bool) :=
  match ops with
  | [] => []
  | o :: r =>
    (match o with
     | ONext i _ _ | OResume i _ => if i =? iid then out_changes (snd (step d o)) else []
     | _ => []
     end) ++ delivered iid (fst (step d o)) r
  end.

Lemma grun_delivered iid ops : forall g d, snd (grun iid g d ops) = snd g ++ delivered iid d ops.
Proof.
  induction ops as [|o r IH]; intros g d; cbn [grun delivered]; [now rewrite app_nil_r|].
  rewrite IH. rewrite app_assoc. f_equal.
  destruct o; cbn [gstep]; try (now rewrite app_nil_r);
    destruct (iid0 =? iid); cbn [snd]; auto; now rewrite app_nil_r.
Qed.

(* what the user of the iterator owes at each step (c = true: also what convergence needs):
   the iterator id is not re-used for a new iterator, and every snapshot handed to Next is a
   later-or-equal state (tab_le) of the one handed before, with the table invariant and revision
   room; for convergence the graveyard of that snapshot has retained what the iterator may still
   need (C08, discharged in Table/ChangesRet.v) *)
Definition good_step (c : bool) (iid : N) (G : table) (d : db) (o : op) : Prop :=
  match o with
  | OChanges i _ => i <> iid
  | ONext i s _ => i = iid -> forall S it, next_source d iid s = Some S -> assoc iid (d_iters d) = Some it ->
                   tab_le G S /\ TInv S /\ rev_room S /\ (c = true -> retained G S (it_delrev it))
  | _ => True
  end.

Fixpoint good_run (c : bool) (iid : N) (g : ghost) (d : db) (ops : list op) : Prop :=
  match ops with
  | [] => True
  | o :: r => good_step c iid (fst g) d o /\ good_run c iid (gstep iid g d o) (fst (step d o)) r
  end.

Lemma good_run_weaken iid ops : forall g d, good_run true iid g d ops -> good_run false iid g d ops.
Proof.
  induction ops as [|o r IH]; intros g d; cbn [good_run]; auto. intros [H1 H2]. split; auto.
  destruct o; cbn [good_step] in *; auto. intros E S it Hn Hi. destruct (H1 E S it Hn Hi) as [A [B [C _]]].
  split; [|split; [|split]]; auto. discriminate.
Qed.

Definition sinv (c : bool) (iid : N) (g : ghost) (d : db) : Prop :=
  asc (map crev (snd g)) /\
  forall it, assoc iid (d_iters d) = Some it ->
             oinv (fst g) it (snd g) /\ (c = true -> cinv (fst g) it (snd g)).

Lemma gstep_other iid g d o : touches iid o = false -> gstep iid g d o = g.
Proof. destruct o; cbn [gstep touches]; auto; intros ->; reflexivity. Qed.

Lemma sinv_step c iid g d o :
  sinv c iid g d -> good_step c iid (fst g) d o -> sinv c iid (gstep iid g d o) (fst (step d o)).
Proof.
  intros [Ha Hinv] Hg. unfold sinv.
  destruct (touches iid o) eqn:Ht.
  2:{ rewrite gstep_other by auto. split; auto. intros it Hi. rewrite step_iters_frame in Hi; auto. }
  destruct o; cbn [touches] in Ht; try discriminate; apply N.eqb_eq in Ht; subst iid0;
    cbn [gstep good_step] in *; rewrite ?N.eqb_refl; cbn [fst snd].
  - (* a second OChanges with the same id: excluded *) congruence.
  - (* ONext: refresh, then deliver *)
    specialize (Hg eq_refl). pose proof (step_next_cases d iid s take) as Hc.
    destruct (next_source d iid s) as [T|].
    + destruct Hc as [it [l [Hi [Hl Hd]]]]. destruct (Hg T it eq_refl Hi) as [Hle [HIS [HRS Hret]]].
      destruct (Hinv it Hi) as [HO HC].
      destruct (delivery_inv T _ _ _ _ _ _ Hd (oinv_refresh _ _ _ _ HO Hle HIS HRS) Hl eq_refl)
        as [it2 [Hi2 [HO2 [HC2 _]]]].
      split; [apply (oi_asc _ _ _ HO2)|]. intros it' Hi'. rewrite Hi2 in Hi'. injection Hi' as <-.
      split; [exact HO2|]. intros Hcc. apply HC2, (cinv_refresh (fst g)); auto.
    + destruct Hc as [-> ->]. rewrite app_nil_r. split; auto.
  - (* OResume: deliver *)
    destruct (step_resume_cases d iid take) as [[-> ->]|[it [l [Hi [Hp [Hs Hd]]]]]]; [rewrite app_nil_r; split; auto|].
    destruct (Hinv it Hi) as [HO HC].
    destruct (delivery_inv (fst g) _ _ _ _ _ _ Hd HO Hp Hs) as [it2 [Hi2 [HO2 [HC2 _]]]].
    split; [apply (oi_asc _ _ _ HO2)|]. intros it' Hi'. rewrite Hi2 in Hi'. injection Hi' as <-. auto.
  - (* OClose *)
    split; auto. destruct (step_close_self d iid) as [->|Hn]; [exact Hinv|]. intros it' Hi'. congruence.
Qed.

Theorem sinv_run c iid ops : forall g d,
  sinv c iid g d -> good_run c iid g d ops -> sinv c iid (grun iid g d ops) (fst (run d ops)).
Proof.
  induction ops as [|o r IH]; intros g d Hs Hg; cbn [grun run]; auto.
  destruct Hg as [Hg1 Hg2]. pose proof (sinv_step c iid g d o Hs Hg1) as H1.
  specialize (IH _ _ H1 Hg2).
  destruct (step d o) as [d1 x]. cbn [fst] in *. destruct (run d1 r) as [d2 xs]. exact IH.
Qed.

(* OChanges succeeded on transaction table t0 *)
Definition created (d : db) (iid : N) (tab : nat) (t0 : table) : Prop :=
  exists es old told, d_txn d = Some (es, old) /\ nth_error es tab = Some (t0, true) /\
                      nth_error old tab = Some told.

Lemma sinv_created c d iid tab t0 :
  created d iid tab t0 -> TInv t0 -> rev_room t0 ->
  sinv c iid (t0, []) (fst (step d (OChanges iid tab))).
Proof.
  intros [es [old [told [Ht [He Ho]]]]] HI HR. unfold sinv. cbn [step]. rewrite Ht, He, Ho.
  cbn [fst snd set_iters d_iters]. split; [exact I|].
  intros it Hi. rewrite assoc_set_same in Hi. injection Hi as <-.
  split.
  - constructor; cbn [refresh it_rev it_delrev it_seq it_pending it_watchrev map]; auto.
    + exact I.
    + intros c0 [].
    + intros o c0 _ _ [].
    + intros o c0 _ _ [].
    + unfold rev_room, B64 in *. lia.
    + lia.
    + discriminate.
    + intros [H|H]; discriminate.
    + discriminate.
  - intros _. constructor; cbn [refresh it_rev it_delrev].
    + lia.
    + intros o Hl Hle. apply (live_rev t0 HI) in Hl. lia.
    + intros k v r Hg. cbn in Hg. discriminate.
Qed.

(* along a run from creation: the invariant, of the table last refreshed from and everything delivered *)
Lemma created_run c d iid tab t0 ops :
  created d iid tab t0 -> TInv t0 -> rev_room t0 ->
  let d0 := fst (step d (OChanges iid tab)) in
  good_run c iid (t0, []) d0 ops ->
  sinv c iid (fst (grun iid (t0, []) d0 ops), delivered iid d0 ops) (fst (run d0 ops)).
Proof.
  intros Hc HI HR d0 Hg. pose proof (sinv_run c iid ops _ _ (sinv_created c d iid tab t0 Hc HI HR) Hg) as H.
  unfold sinv in *. now rewrite grun_delivered in H.
Qed.

Theorem changes_strictly_increasing d iid tab t0 ops :
  created d iid tab t0 -> TInv t0 -> rev_room t0 ->
  let d0 := fst (step d (OChanges iid tab)) in
  good_run false iid (t0, []) d0 ops ->
  asc (map crev (delivered iid d0 ops)).
Proof. intros Hc HI HR d0 Hg. apply (created_run false d iid tab t0 ops Hc HI HR Hg). Qed.

(* from any state satisfying the invariant (e.g. in the middle of a run) *)
Theorem delivery_strictly_increasing c iid g d ops :
  sinv c iid g d -> good_run c iid g d ops -> asc (map crev (snd g ++ delivered iid d ops)).
Proof.
  intros Hs Hg. pose proof (sinv_run c iid ops _ _ Hs Hg) as [Ha _].
  now rewrite grun_delivered in Ha.
Qed.

(* whenever the iterator is exhausted (the sequence returned by the last refreshing Next has been
   consumed to its end, directly or through resumed partial consumption), replaying everything
   delivered since creation yields exactly the objects and revisions of the table that Next
   refreshed from *)
Theorem changes_converge d iid tab t0 ops :
  created d iid tab t0 -> TInv t0 -> rev_room t0 ->
  let d0 := fst (step d (OChanges iid tab)) in
  good_run true iid (t0, []) d0 ops ->
  forall it, assoc iid (d_iters (fst (run d0 ops))) = Some it -> it_pending it = None ->
  replay (delivered iid d0 ops) = abs_of (fst (grun iid (t0, []) d0 ops)).
Proof.
  intros Hc HI HR d0 Hg it Hi Hp. destruct (created_run true d iid tab t0 ops Hc HI HR Hg) as [_ Hs].
  destruct (Hs it Hi) as [HO HC]. exact (drained_replay_is_table _ _ _ HO (HC eq_refl) Hp).
Qed.

Lemma grun_snoc iid ops o : forall g d,
  grun iid g d (ops ++ [o]) = gstep iid (grun iid g d ops) (fst (run d ops)) o.
Proof.
  induction ops as [|o1 r IH]; intros g d; cbn [grun app run]; auto.
  rewrite IH. destruct (step d o1) as [dd x]. cbn [fst]. destruct (run dd r); reflexivity.
Qed.

Lemma consume_none_pending l iid : forall it d out it' d',
  consume None l it d iid = (out, it', d') -> it_pending it' = None.
Proof.
  induction l as [|c r IH]; intros it d out it' d' Ec.
  - cbn in Ec. injection Ec as _ <- _. reflexivity.
  - rewrite consume_cons in Ec. destruct (consume None r _ _ iid) as [[o2 i2] dd2] eqn:E2.
    injection Ec as _ <- _. eapply IH; eauto.
Qed.

(* the run ends with a Next consumed to completion against table S: replay = S *)
Theorem changes_converge_next d iid tab t0 ops s S :
  created d iid tab t0 -> TInv t0 -> rev_room t0 ->
  let d0 := fst (step d (OChanges iid tab)) in
  good_run true iid (t0, []) d0 (ops ++ [ONext iid s None]) ->
  next_source (fst (run d0 ops)) iid s = Some S ->
  replay (delivered iid d0 (ops ++ [ONext iid s None])) = abs_of S.
Proof.
  intros Hc HI HR d0 Hg Hn.
  destruct (created_run true d iid tab t0 _ Hc HI HR Hg) as [_ Hs]. fold d0 in Hs.
  rewrite run_app, run_single, grun_snoc in Hs. cbn [gstep] in Hs. rewrite N.eqb_refl, Hn in Hs. cbn [fst] in Hs.
  set (d1 := fst (run d0 ops)) in *.
  destruct (next_source_iter _ _ _ _ Hn) as [it Hi]. destruct (next_iter_pending S it) as [l Hl].
  rewrite (step_next_some d1 iid s None it S Hi Hn l Hl) in Hs.
  destruct (consume None l (next_iter S it) d1 iid) as [[out it2] d2] eqn:Ec.
  cbn [fst set_iters d_iters] in Hs. destruct (Hs it2 (assoc_set_same _ _ _)) as [HO HC].
  exact (drained_replay_is_table _ _ _ HO (HC eq_refl) (consume_none_pending _ _ _ _ _ _ _ Ec)).
Qed.

(* what a sequence hands out is a prefix of the pending stream *)
Lemma consumed_prefix iid l it d out it' d' : consumed iid l it d out it' d' -> exists rest, l = out ++ rest.
Proof.
  induction 1 as [it d|l it d|c r it d out it' d' _ [rest ->]]; [exists []|exists l|exists rest]; reflexivity.
Qed.

Lemma gc_trigger_set_txn d x : gc_trigger (set_txn d x) = set_txn (gc_trigger d) x.
Proof. unfold gc_trigger, gc_settle, set_txn. cbn. destruct (d_gc d); reflexivity. Qed.

Lemma consume_set_txn l iid x : forall take it d,
  consume take l it (set_txn d x) iid =
  let '(out, it', d') := consume take l it d iid in (out, it', set_txn d' x).
Proof.
  induction l as [|c r IH]; intros take it d; [reflexivity|].
  assert (E : mark iid (set_txn d x) c = set_txn (mark iid d c) x).
  { unfold mark. destruct (snd c); [|reflexivity]. now rewrite <- gc_trigger_set_txn. }
  rewrite !consume_cons, E. destruct take as [[|[|n]]|]; try reflexivity;
    rewrite IH; destruct (consume _ r _ _ iid) as [[o2 i2] dd2]; reflexivity.
Qed.

(* Next never looks at the open write transaction's own (uncommitted) entries: replacing them by
   anything changes neither what is delivered nor the iterator, watermarks or collector state *)
Theorem next_ignores_uncommitted d iid s take es es' old :
  d_txn d = Some (es, old) ->
  step (set_txn d (Some (es', old))) (ONext iid s take) =
  (set_txn (fst (step d (ONext iid s take))) (Some (es', old)), snd (step d (ONext iid s take))).
Proof.
  intros Ht. cbn [step].
  assert (Hs : src_committed (set_txn d (Some (es', old))) s = src_committed d s).
  { destruct s; cbn; auto. now rewrite Ht. }
  rewrite Hs. cbn [set_txn d_iters d_root].
  destruct (assoc iid (d_iters d)) as [it|]; [|reflexivity].
  destruct (src_committed d s) as [r|]; [|reflexivity].
  destruct (nth_error r (it_tab it)) as [t|]; [|reflexivity].
  destruct (nth_error (d_root d) (it_tab it)) as [cur|]; [|reflexivity].
  match goal with |- context [if ?c then _ else _] => destruct c end; [reflexivity|].
  fold (set_txn d (Some (es', old))). rewrite consume_set_txn.
  match goal with |- context [consume ?t ?l ?a d iid] => destruct (consume t l a d iid) as [[o2 i2] dd2] end.
  reflexivity.
Qed.

(* along a good run the watched revision of an exhausted iterator is the revision of the table it
   last refreshed from *)
Theorem exhausted_watches_last_source c iid g d it :
  sinv c iid g d -> assoc iid (d_iters d) = Some it -> it_pending it = None ->
  it_watchrev it = t_rev (fst g).
Proof. intros [_ H] Hi Hp. destruct (H it Hi) as [HO _]. apply (oi_watch _ _ _ HO). now right. Qed.

(* known finding K4: Changes after a delete in the same transaction, then Next(that transaction) *)
Definition k4_ops : list op :=
  [OBegin [0%nat]; OInsert 0 (mkP [97] 1 [] [] [] []); OCommit 0;
   OBegin [0%nat]; ODelete 0 [97]; OChanges 1 0; ONext 1 STxn None; OCommit 1; ONext 1 SFresh None].

Theorem changes_after_delete_refuted :
  exists ops, let d := fst (run (init_db 1) ops) in
    (exists it, assoc 1 (d_iters d) = Some it /\ it_pending it = None) /\
    om_get [97] (replay (delivered 1 (init_db 1) ops)) = Some (1, 1) /\
    (forall t, nth_error (d_root d) 0 = Some t -> t_primary t = [] /\ abs_of t = []).
Proof.
  exists k4_ops. vm_compute. split; [eexists; split; reflexivity|]. split; [reflexivity|].
  intros t H. injection H as <-. split; reflexivity.
Qed.

