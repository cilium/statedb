(* Table/ClientsProofs2.v — the loop invariant of a MIRROR Derive, on the flattened operations of a
   run (Table/ClientsProofs.v crun_is_run), composed with the C07 convergence theorem. *)
From Coq Require Import List NArith Bool Lia.
Import ListNotations.
From SV Require Import Base.Bytes Base.OrdMap KeyEnc.Model Table.Model Table.Proofs Table.InvDefs Table.Inv Table.Inv2
                       Table.ChangesStream Table.ChangesIter Table.ChangesProofs Table.ChangesRet Table.ChangesHist
                       Table.ChangesFromInit Table.Clients Table.ClientsProofs.
Local Open Scope N_scope.

Lemma delivered_app iid l1 : forall d l2,
  delivered iid d (l1 ++ l2) = delivered iid d l1 ++ delivered iid (fst (run d l1)) l2.
Proof.
  induction l1 as [|o r IH]; intros d l2; cbn [app delivered run fst]; [reflexivity|].
  rewrite IH, app_assoc. destruct (step d o) as [d1 x]. cbn [fst]. destruct (run d1 r) as [d2 xs]. reflexivity.
Qed.

Lemma delivered_untouched iid ops : forall d,
  forallb (fun o => negb (touches iid o)) ops = true -> delivered iid d ops = [].
Proof.
  induction ops as [|o r IH]; intros d H; cbn [delivered]; [reflexivity|].
  cbn [forallb] in H. apply andb_true_iff in H. destruct H as [Ho Hr]. rewrite (IH _ Hr), app_nil_r.
  destruct o; cbn [touches] in Ho; try reflexivity; apply negb_true_iff in Ho; rewrite Ho; reflexivity.
Qed.

Lemma dwrite_untouched iid out ops :
  forallb (dwrite out) ops = true -> forallb (fun o => negb (touches iid o)) ops = true.
Proof.
  intros H. rewrite forallb_forall in *. intros o Ho. specialize (H o Ho). destruct o; try discriminate; reflexivity.
Qed.

Definition cproj (m : absmap) : list (bytes * N) := map (fun kv => (fst kv, fst (snd kv))) m.

Lemma cproj_apply_change m c : cproj (apply_change m c) = apply_c (cproj m) c.
Proof.
  unfold apply_change, apply_c, cproj. destruct (snd c).
  - apply (om_map_delete (fun v : N * N => fst v)).
  - apply (om_map_insert (fun v : N * N => fst v)).
Qed.

Lemma cproj_fold l : forall m, cproj (fold_left apply_change l m) = fold_left apply_c l (cproj m).
Proof. induction l as [|c r IH]; intros m; cbn [fold_left]; [reflexivity|]. now rewrite IH, cproj_apply_change. Qed.

Lemma cproj_abs_of t : cproj (abs_of t) = contents t.
Proof. unfold cproj, abs_of, contents. rewrite map_map. reflexivity. Qed.

Lemma replay_app l1 l2 : replay (l1 ++ l2) = fold_left apply_change l2 (replay l1).
Proof. unfold replay. apply fold_left_app. Qed.

Lemma derive_iter_delivered tr ds d d' ds' ops :
  derive_iter tr ds d = (d', ds', ops) ->
  delivered (dv_iid ds) d ops =
    match ops with
    | [] => []
    | _ => out_changes (snd (step (fst (step d (OBegin [dv_out ds]))) (ONext (dv_iid ds) STxn None)))
    end /\
  (ops <> [] -> exists l w,
     snd (step (fst (step d (OBegin [dv_out ds]))) (ONext (dv_iid ds) STxn None)) = OutChanges l w).
Proof.
  intros H. destruct (derive_iter_shape _ _ _ _ _ _ H) as [_ _ -> _|x l w d2 o2 o3 initw H1 H2 Hw H3 H4 H6].
  { split; [reflexivity|congruence]. }
  assert (Hl : snd (step (fst (step d (OBegin [dv_out ds]))) (ONext (dv_iid ds) STxn None)) = OutChanges l w).
  { pose proof (run_two_outs d (OBegin [dv_out ds]) (ONext (dv_iid ds) STxn None)) as R.
    rewrite H1 in R. cbn [snd] in R. injection R as _ R. symmetry. exact R. }
  assert (Hrest : forallb (fun o => negb (touches (dv_iid ds) o)) (o2 ++ o3 ++ [OCommit (dv_sid ds)]) = true).
  { rewrite !forallb_app.
    rewrite (dwrite_untouched _ _ _ Hw). cbn [andb].
    destruct (init_ops_cases _ _ _ _ _ H3) as [[_ [_ ->]]|[[_ [_ ->]]|[_ [_ [-> _]]]]]; reflexivity. }
  split.
  - subst ops. rewrite delivered_app, (delivered_untouched _ _ _ Hrest), app_nil_r.
    cbn [app delivered]. rewrite N.eqb_refl, app_nil_r. cbn [app]. reflexivity.
  - intros _. exists l, w. exact Hl.
Qed.

Section MirrorLoop.
Variables (ds : dstate) (d0 : db) (ops : list op).
Let iid := dv_iid ds.
Let out := dv_out ds.
Let d := fst (run d0 ops).

Theorem derive_mirror_step tout d' ds' ops_i :
  d_txn d = None ->
  nth_error (d_root d) out = Some tout -> om_sorted (t_primary tout) ->
  contents tout = cproj (replay (delivered iid d0 ops)) ->
  derive_iter (tr_std 0) ds d = (d', ds', ops_i) ->
  d' = fst (run d0 (ops ++ ops_i)) /\ d_txn d' = None /\
  (exists tout', nth_error (d_root d') out = Some tout' /\ om_sorted (t_primary tout') /\
                 contents tout' = cproj (replay (delivered iid d0 (ops ++ ops_i)))) /\
  (forall i, i <> out -> nth_error (d_root d') i = nth_error (d_root d) i).
Proof.
  intros Hn Hout Hs Hc H.
  split; [rewrite run_app; fold d; eapply derive_iter_run; eauto|].
  destruct (derive_iter_delivered _ _ _ _ _ _ H) as [Hd Hne].
  destruct ops_i as [|a r].
  - destruct (derive_iter_shape _ _ _ _ _ _ H) as [-> _ _ _|x l w d2 o2 o3 initw _ _ _ _ _ C]; [|discriminate].
    rewrite app_nil_r. split; [exact Hn|]. split; [exists tout; auto|auto].
  - destruct (Hne ltac:(discriminate)) as [l [w Hl]].
    destruct (derive_mirror_iter ds d d' ds' (a :: r) tout l w Hn Hout Hs H Hl) as [[tout' [A [B C]]] [F T]].
    split; [exact T|]. split; [|exact F].
    exists tout'. split; [exact A|]. split; [exact B|].
    rewrite C, Hc, delivered_app, replay_app, cproj_fold. fold d. fold iid in Hd. rewrite Hd.
    cbv iota. unfold iid, out. rewrite Hl. reflexivity.
Qed.
End MirrorLoop.

(* composed with C07 (Table/ChangesFromInit.v init_converge_next): an iteration whose Next refreshes from the
   committed table S leaves the derived table with exactly the contents of S; S is the input table of the
   root the iteration started from (next_source_begin below), which the iteration does not change *)
Theorem derive_mirror_converges n pre t0 ops ds tout d' ds' ops_i S :
  let iid := dv_iid ds in let out := dv_out ds in
  let dc := fst (run (init_db n) pre) in
  let d0 := fst (step dc (OChanges iid (dv_in ds))) in
  let d := fst (run d0 ops) in
  (* the loop invariant so far *)
  d_txn d = None ->
  nth_error (d_root d) out = Some tout -> om_sorted (t_primary tout) ->
  contents tout = cproj (replay (delivered iid d0 ops)) ->
  (* this iteration *)
  derive_iter (tr_std 0) ds d = (d', ds', ops_i) ->
  next_source (fst (step d (OBegin [out]))) iid STxn = Some S ->
  (* the hypotheses of C07_from_init_converges, on the flattened operations *)
  room_run (init_db n) (pre ++ OChanges iid (dv_in ds) :: (ops ++ [OBegin [out]]) ++ [ONext iid STxn None]) ->
  created dc iid (dv_in ds) t0 ->
  (forall cur, nth_error (d_root dc) (dv_in ds) = Some cur -> ~ reg iid cur) ->
  friendly_run iid (dv_in ds) d0 ((ops ++ [OBegin [out]]) ++ [ONext iid STxn None]) ->
  exists tout', nth_error (d_root d') out = Some tout' /\ contents tout' = contents S.
Proof.
  intros iid out dc d0 d Hn Hout Hs Hc H HS Hroom Hcr Hfresh Hfr.
  destruct (derive_mirror_step ds d0 ops tout d' ds' ops_i Hn Hout Hs Hc H) as [_ [_ [[tout' [A [_ C]]] _]]].
  exists tout'. split; [exact A|]. rewrite C. fold iid.
  assert (HdB : fst (run d0 (ops ++ [OBegin [out]])) = fst (step d (OBegin [out]))) by (now rewrite run_app, run_single).
  pose proof (init_converge_next n pre iid (dv_in ds) t0 (ops ++ [OBegin [out]]) STxn S Hroom Hcr Hfresh Hfr) as Hconv.
  cbv zeta in Hconv. fold dc d0 in Hconv. rewrite HdB in Hconv. specialize (Hconv HS).
  (* what this iteration was handed is what that Next delivered *)
  destruct (derive_iter_delivered _ _ _ _ _ _ H) as [Hd _].
  assert (Hops : ops_i <> []).
  { intros ->. destruct (derive_iter_shape _ _ _ _ _ _ H) as [_ _ _ C'|x l w d2 o2 o3 initw _ _ _ _ _ C']; [|discriminate].
    rewrite run_two_outs in C'. change (dv_iid ds) with iid in C'. change (dv_out ds) with out in C'.
    assert (exists it, assoc iid (d_iters (fst (step d (OBegin [out])))) = Some it) as [it Hit].
    { unfold next_source in HS. destruct (assoc iid (d_iters (fst (step d (OBegin [out]))))) as [it|]; [eauto|discriminate]. }
    destruct (next_iter_pending S it) as [l2 Hl2].
    rewrite (step_next_some _ _ _ None it S Hit HS l2 Hl2) in C'.
    destruct (consume None l2 (next_iter S it) (fst (step d (OBegin [out]))) iid) as [[o i2] dd2].
    cbn [snd] in C'. eapply C'. reflexivity. }
  assert (Hdel : delivered iid d0 (ops ++ ops_i) = delivered iid d0 ((ops ++ [OBegin [out]]) ++ [ONext iid STxn None])).
  { rewrite <- app_assoc. rewrite !delivered_app, run_single. f_equal. fold d. fold iid in Hd. rewrite Hd.
    destruct ops_i; [congruence|]. cbn [app delivered]. rewrite N.eqb_refl, !app_nil_r. reflexivity. }
  rewrite Hdel, Hconv. apply cproj_abs_of.
Qed.

Lemma next_source_begin d tabs iid S : d_txn d = None ->
  next_source (fst (step d (OBegin tabs))) iid STxn = Some S ->
  exists it, assoc iid (d_iters d) = Some it /\ nth_error (d_root d) (it_tab it) = Some S.
Proof.
  intros Hn. cbn [step]. rewrite Hn. cbn [fst]. unfold next_source. cbn [set_txn d_iters src_committed d_txn d_root].
  destruct (assoc iid (d_iters d)) as [it|]; [|discriminate].
  destruct (nth_error (d_root d) (it_tab it)) as [t|] eqn:Et; [|discriminate].
  match goal with |- context [if ?c then _ else _] => destruct c end; [discriminate|].
  intros E. injection E as <-. exists it. auto.
Qed.

Corollary derive_mirror_equals_input n pre t0 ops ds tout d' ds' ops_i S it :
  let iid := dv_iid ds in let out := dv_out ds in
  let dc := fst (run (init_db n) pre) in
  let d0 := fst (step dc (OChanges iid (dv_in ds))) in
  let d := fst (run d0 ops) in
  d_txn d = None ->
  nth_error (d_root d) out = Some tout -> om_sorted (t_primary tout) ->
  contents tout = cproj (replay (delivered iid d0 ops)) ->
  derive_iter (tr_std 0) ds d = (d', ds', ops_i) ->
  next_source (fst (step d (OBegin [out]))) iid STxn = Some S ->
  assoc iid (d_iters d) = Some it -> it_tab it = dv_in ds -> dv_in ds <> dv_out ds ->
  room_run (init_db n) (pre ++ OChanges iid (dv_in ds) :: (ops ++ [OBegin [out]]) ++ [ONext iid STxn None]) ->
  created dc iid (dv_in ds) t0 ->
  (forall cur, nth_error (d_root dc) (dv_in ds) = Some cur -> ~ reg iid cur) ->
  friendly_run iid (dv_in ds) d0 ((ops ++ [OBegin [out]]) ++ [ONext iid STxn None]) ->
  exists tin' tout', nth_error (d_root d') (dv_in ds) = Some tin' /\ nth_error (d_root d') out = Some tout' /\
                     contents tout' = contents tin'.
Proof.
  intros iid out dc d0 d Hn Hout Hs Hc H HS Hit Htab Hio Hroom Hcr Hfresh Hfr.
  destruct (derive_mirror_converges n pre t0 ops ds tout d' ds' ops_i S Hn Hout Hs Hc H HS Hroom Hcr Hfresh Hfr)
    as [tout' [A B]].
  destruct (derive_mirror_step ds d0 ops tout d' ds' ops_i Hn Hout Hs Hc H) as [_ [_ [_ F]]].
  destruct (next_source_begin d [out] iid S Hn HS) as [it' [Hit' HS']].
  fold d in Hit. rewrite Hit in Hit'. injection Hit' as <-. rewrite Htab in HS'.
  exists S, tout'. split; [|split; auto]. rewrite F by exact Hio. exact HS'.
Qed.

(* the hypotheses of derive_mirror_equals_input are satisfiable: the run cx_pre of Table/ClientsProofs.v, flattened
   (crun_is_run) and split at the loop's OChanges; the iteration about to run mirrors an insert and a delete *)
Example derive_mirror_converges_nonvacuous :
  let flat := snd (crun (init_csys 2 0) cx_pre) in
  let pre := firstn 8 flat in let ops := skipn 9 flat in
  let dc := fst (run (init_db 2) pre) in
  let d0 := fst (step dc (OChanges derive_iid 0)) in
  let d := fst (run d0 ops) in
  flat = pre ++ OChanges derive_iid 0 :: ops /\ d = cs_db cx_s /\ d_txn d = None /\
  (exists tout, nth_error (d_root d) 1 = Some tout /\ om_sorted (t_primary tout) /\
                contents tout = cproj (replay (delivered derive_iid d0 ops)) /\ contents tout = [([97], 1)]) /\
  (exists S, next_source (fst (step d (OBegin [1%nat]))) derive_iid STxn = Some S /\ contents S = [([98], 2)]) /\
  (exists it, assoc derive_iid (d_iters d) = Some it /\ it_tab it = 0%nat) /\
  room_run (init_db 2) (pre ++ OChanges derive_iid 0 :: (ops ++ [OBegin [1%nat]]) ++ [ONext derive_iid STxn None]) /\
  (exists t0, created dc derive_iid 0 t0) /\
  (forall cur, nth_error (d_root dc) 0 = Some cur -> ~ reg derive_iid cur) /\
  friendly_run derive_iid 0 d0 ((ops ++ [OBegin [1%nat]]) ++ [ONext derive_iid STxn None]).
Proof.
  cbv zeta. split; [vm_compute; reflexivity|]. split; [vm_compute; reflexivity|]. split; [vm_compute; reflexivity|].
  split; [eexists; split; [vm_compute; reflexivity|]; split; [cbn; repeat constructor|split; vm_compute; reflexivity]|].
  split; [eexists; split; vm_compute; reflexivity|].
  split; [eexists; split; vm_compute; reflexivity|].
  split; [apply room_runb_ok; vm_compute; reflexivity|].
  split; [vm_compute; do 4 eexists; split; [reflexivity|split; reflexivity]|].
  split; [intros cur H; vm_compute in H; injection H as <-; vm_compute; tauto|].
  apply friendly_runb_ok; vm_compute; reflexivity.
Qed.
