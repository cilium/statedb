(* Table/LpmWatch.v — C06, the watch-channel mechanism of LPM indexes (lpm_index.go).

   An LPM index hands out ONE channel per committed index version: every query on `lpmIndex` returns
   `l.watch`, every query on an `lpmIndexTxn` (the same index inside an open WriteTxn) returns `l.index.watch`,
   the channel of the committed version the transaction started from.

   write_txn.go: `indexWriteTxn(meta, pos)` replaces the table's entry `indexes[pos]` by `indexEntry.txn()`;
   for an `lpmIndex` this creates an `lpmIndexTxn{index: l}` (created = true), for an `lpmIndexTxn` it returns
   itself.  It is called for the LPM (secondary) indexes exactly in the `for _, indexer := range meta.secondary()`
   loops of `modify` and `delete`, i.e. by a write operation that gets past its guard (Insert, Modify, a
   CompareAndSwap whose revision matches, a Delete / CompareAndDelete of an existing object whose revision
   matches): [tw_touches].  A failed CompareAndSwap / CompareAndDelete and a Delete of an absent object return
   before the loop: the index entry stays an `lpmIndex`.

   Commit: `idx.commit()` of an `lpmIndex` returns (l, nil): same version, same channel, nothing to notify;
   of an `lpmIndexTxn` it returns a NEW lpmIndex with `watch: make(chan struct{})` and itself as the
   tableIndexTxnNotify; `notify()` (after the root store) closes `l.index.watch`, the channel of the PREVIOUS
   version — unconditionally, whether or not the trie changed.   Abort drops the table entries: closes nothing.

   Model: [lver] a committed table version with the channels of its two LPM indexes; [ltxn] an open write
   transaction on it (current table, "index entries are lpmIndexTxn" flag); [lx_commit]/[lstep]/[lrun] commit,
   one transaction, a history of transactions, with the lists of channels closed by each transaction's notify.

   Proved: NO MISSED CHANGE over histories (lpm_watch_no_missed_change), also for a query made inside a write
   transaction (lpm_watch_inside_txn); an aborted transaction closes nothing and leaves version and channels
   as they were (lpm_abort_closes_nothing); a channel is closed only by a committed transaction that touched
   the index (lpm_closed_only_by_touching_commit); the channels of the current version are never closed, and no
   channel is closed twice (lpm_published_open, lpm_closed_nodup: close of a closed channel would panic). *)
From SV Require Import Base.Bytes Base.OrdMap KeyEnc.Model Table.Model Table.Queries Table.WatchFootprint.
From Coq Require Import ZifyN ZifyNat ZifyBool.
Open Scope N_scope.

(* which write operations reach the reindex loop over the secondary indexes *)
Definition modify_proceeds (g : N) (id : bytes) (t : table) : bool :=
  if 0 <? g then match om_get id (t_primary t) with Some o => o_rev o =? g | None => false end else true.
Definition delete_proceeds (g : N) (id : bytes) (t : table) : bool :=
  match om_get id (t_primary t) with
  | None => false
  | Some o => negb ((0 <? g) && negb (o_rev o =? g))
  end.
Fixpoint delete_all_touches (l : list (bytes * object)) (t : table) : bool :=
  match l with
  | [] => false
  | kv :: r => let id := p_id (o_data (snd kv)) in
               delete_proceeds 0 id t || delete_all_touches r (fst (delete 0 id t))
  end.

Definition tw_touches (t : table) (w : twrite) : bool :=
  match w with
  | TWInsert p | TWModify p => true
  | TWCas g p => modify_proceeds g (p_id p) t
  | TWDelete id => delete_proceeds 0 id t
  | TWCad g id => delete_proceeds g id t
  | TWDeleteAll => delete_all_touches (t_primary t) t
  end.

Lemma modify_not_proceeds g mg p t : modify_proceeds g (p_id p) t = false -> fst (modify g mg p t) = t.
Proof.
  unfold modify_proceeds, modify, modify_with. destruct (0 <? g); [|discriminate].
  destruct (om_get (p_id p) (t_primary t)) as [o|]; [|reflexivity].
  intros E. rewrite E. reflexivity.
Qed.

Lemma delete_not_proceeds g id t : delete_proceeds g id t = false -> fst (delete g id t) = t.
Proof.
  unfold delete_proceeds, delete, delete_with.
  destruct (om_get id (t_primary t)) as [o|]; [|reflexivity].
  intros E. apply negb_false_iff in E. rewrite E. reflexivity.
Qed.

Lemma delete_all_not_touches l : forall t, delete_all_touches l t = false ->
  fold_left (fun t kv => fst (delete 0 (p_id (o_data (snd kv))) t)) l t = t.
Proof.
  induction l as [|kv l IH]; intros t H; cbn [fold_left delete_all_touches] in *; [reflexivity|].
  apply orb_false_iff in H. destruct H as [H1 H2].
  rewrite (delete_not_proceeds _ _ _ H1) in *. now apply IH.
Qed.

(* an operation that does not reach the loop leaves the whole table entry as it was *)
Lemma tw_not_touches t w : tw_touches t w = false -> twapply t w = t.
Proof.
  destruct w; cbn [tw_touches twapply]; try discriminate.
  - apply modify_not_proceeds.
  - apply delete_not_proceeds.
  - apply delete_not_proceeds.
  - apply delete_all_not_touches.
Qed.

(* a committed table entry: the table (with its LPM indexes t_lu, t_ln) and the `watch` fields of the two
   lpmIndex values *)
Record lver := mkLV { lv_tab : table; lv_wu : N; lv_wn : N }.
Definition lv_chan (u : bool) (v : lver) : N := if u then lv_wu v else lv_wn v.

(* an open WriteTxn that has the table locked: the version it started from, the current table, and whether the
   entries of the LPM indexes are lpmIndexTxn (created by indexWriteTxn) or still the committed lpmIndex *)
Record ltxn := mkLX { lx_base : lver; lx_cur : table; lx_touched : bool }.

Definition lx_begin (v : lver) : ltxn := mkLX v (lv_tab v) false.
Definition lx_write (x : ltxn) (w : twrite) : ltxn :=
  mkLX (lx_base x) (twapply (lx_cur x) w) (lx_touched x || tw_touches (lx_cur x) w).
Definition lx_writes (x : ltxn) (ws : list twrite) : ltxn := fold_left lx_write ws x.

(* a query through LPM index u on the WriteTxn: answer from the current trie, channel `l.watch` (entry still an
   lpmIndex) or `l.index.watch` (entry an lpmIndexTxn): the committed version's channel either way *)
Definition lx_watch (u : bool) (x : ltxn) : N := lv_chan u (lx_base x).

(* Commit: (new committed version, allocator, channels closed by the notify() calls after the root store) *)
Definition lx_commit (next : N) (x : ltxn) : lver * N * list N :=
  if lx_touched x
  then (mkLV (lx_cur x) next (next + 1), next + 2, [lv_wu (lx_base x); lv_wn (lx_base x)])
  else (mkLV (lx_cur x) (lv_wu (lx_base x)) (lv_wn (lx_base x)), next, []).
(* Abort: the committed version stays, no notify *)
Definition lx_abort (next : N) (x : ltxn) : lver * N * list N := (lx_base x, next, []).

(* one write transaction: the writes, then Commit (true) or Abort (false) *)
Definition lstep (vn : lver * N) (tx : list twrite * bool) : lver * N * list N :=
  let x := lx_writes (lx_begin (fst vn)) (fst tx) in
  if snd tx then lx_commit (snd vn) x else lx_abort (snd vn) x.

(* a history of write transactions: final version and allocator; the closed lists, one per transaction *)
Fixpoint lrun (vn : lver * N) (txs : list (list twrite * bool)) : lver * N :=
  match txs with [] => vn | tx :: r => lrun (fst (lstep vn tx)) r end.
Fixpoint lclosed (vn : lver * N) (txs : list (list twrite * bool)) : list (list N) :=
  match txs with [] => [] | tx :: r => snd (lstep vn tx) :: lclosed (fst (lstep vn tx)) r end.

Lemma lx_writes_base ws : forall x, lx_base (lx_writes x ws) = lx_base x.
Proof. induction ws as [|w ws IH]; intros x; [reflexivity|]. exact (IH (lx_write x w)). Qed.

Lemma lx_writes_cur ws : forall x, lx_cur (lx_writes x ws) = twrun (lx_cur x) ws.
Proof. induction ws as [|w ws IH]; intros x; [reflexivity|]. exact (IH (lx_write x w)). Qed.

Lemma lx_writes_touched_mono ws : forall x, lx_touched x = true -> lx_touched (lx_writes x ws) = true.
Proof.
  induction ws as [|w ws IH]; intros x H; [exact H|]. apply (IH (lx_write x w)). cbn [lx_write lx_touched]. now rewrite H.
Qed.

(* while the index entries are still the committed lpmIndex, the table entry is unchanged *)
Lemma lx_untouched_same ws : forall x, lx_touched (lx_writes x ws) = false -> lx_cur (lx_writes x ws) = lx_cur x.
Proof.
  induction ws as [|w ws IH]; intros x H; [reflexivity|]. change (lx_writes x (w :: ws)) with (lx_writes (lx_write x w) ws) in *.
  destruct (lx_touched (lx_write x w)) eqn:T.
  - rewrite (lx_writes_touched_mono ws _ T) in H. discriminate.
  - rewrite (IH _ H). cbn [lx_write lx_touched lx_cur] in *. apply orb_false_iff in T.
    apply tw_not_touches. tauto.
Qed.

(* a query made INSIDE the write transaction (after the writes ws1) returns the committed version's channel; if
   later writes ws2 of the same transaction change the query's answer, the transaction has created the
   lpmIndexTxn, and its Commit closes that channel *)
Theorem lpm_watch_inside_txn d d' tab tab' q u v next ws1 ws2 : lq_index q = Some u ->
  let x1 := lx_writes (lx_begin v) ws1 in
  let x2 := lx_writes x1 ws2 in
  run_query d tab q (lx_cur x1) <> run_query d' tab' q (lx_cur x2) ->
  In (lx_watch u x1) (snd (lx_commit next x2)) /\
  lv_tab (fst (fst (lx_commit next x2))) = lx_cur x2.
Proof.
  intros Hq x1 x2 Hne. unfold lx_commit.
  destruct (lx_touched x2) eqn:T.
  - split; [|reflexivity]. cbn [snd]. unfold x2, lx_watch. rewrite lx_writes_base. unfold lv_chan.
    destruct u; cbn [In]; auto.
  - exfalso. apply Hne. unfold x2 in *. rewrite (lx_untouched_same ws2 x1 T).
    eapply lpm_query_result_local; eauto.
Qed.

(* an aborted transaction closes nothing; the committed version, its channels and the allocator stay *)
Theorem lpm_abort_closes_nothing v next ws :
  lstep (v, next) (ws, false) = (v, next, []).
Proof. unfold lstep, lx_abort. cbn [fst snd]. now rewrite lx_writes_base. Qed.

(* a transaction either closes nothing and leaves version, channels and allocator as they were (aborted, or no
   write got past its guard), or it is committed and touched the index: it closes exactly the two channels of the
   version it started from and the new version gets fresh ones *)
Lemma lstep_cases v next ws c :
  lstep (v, next) (ws, c) = (v, next, []) \/
  (c = true /\ lx_touched (lx_writes (lx_begin v) ws) = true /\
   lstep (v, next) (ws, c) = (mkLV (twrun (lv_tab v) ws) next (next + 1), next + 2, [lv_wu v; lv_wn v])).
Proof.
  destruct c; [|left; apply lpm_abort_closes_nothing].
  unfold lstep, lx_commit. cbn [fst snd]. destruct (lx_touched _) eqn:T; [right|left].
  - now rewrite lx_writes_base, lx_writes_cur.
  - rewrite lx_writes_base, (lx_untouched_same ws _ T). now destruct v.
Qed.

(* NO MISSED CHANGE. v: a committed version; a reader ran the LPM query q on it and holds the channel of the queried
   index; v': the committed version any number of write transactions (committed or aborted) later. If q's answer on
   v' differs, the notify of one of the transactions in between closed the reader's channel. *)
Theorem lpm_watch_no_missed_change d d' tab tab' q u : lq_index q = Some u ->
  forall txs v next,
  run_query d tab q (lv_tab v) <> run_query d' tab' q (lv_tab (fst (lrun (v, next) txs))) ->
  exists cl, In cl (lclosed (v, next) txs) /\ In (lv_chan u v) cl.
Proof.
  intros Hq. induction txs as [|[ws c] txs IH]; intros v next Hne; cbn [lrun lclosed] in *.
  - exfalso. apply Hne. eapply lpm_query_result_local; eauto.
  - destruct (lstep_cases v next ws c) as [E|(_ & _ & E)]; rewrite E in *; cbn [fst snd] in *.
    + destruct (IH v next Hne) as [cl [H1 H2]]. exists cl. split; [right; exact H1|exact H2].
    + exists [lv_wu v; lv_wn v]. split; [now left|]. unfold lv_chan. destruct u; cbn [In]; auto.
Qed.

(* NO SPURIOUS WAKE-UP: a channel is closed only by the notify of a COMMITTED transaction that created the
   lpmIndexTxn (some write operation of it got past its guard); in particular never by an aborted one *)
Theorem lpm_closed_only_by_touching_commit : forall txs v next w,
  In w (concat (lclosed (v, next) txs)) ->
  exists pre ws post, txs = pre ++ (ws, true) :: post /\
    let vn := lrun (v, next) pre in
    lx_touched (lx_writes (lx_begin (fst vn)) ws) = true /\ (w = lv_wu (fst vn) \/ w = lv_wn (fst vn)).
Proof.
  induction txs as [|[ws c] txs IH]; intros v next w H; cbn [lclosed concat] in H; [destruct H|].
  apply in_app_or in H. destruct H as [H|H].
  - destruct (lstep_cases v next ws c) as [E|(-> & T & E)]; rewrite E in H; cbn [snd] in H; [destruct H|].
    exists [], ws, txs. split; [reflexivity|]. cbn [lrun fst]. split; [exact T|].
    destruct H as [<-|[<-|[]]]; auto.
  - destruct (lstep (v, next) (ws, c)) as [[v1 n1] cl] eqn:E. cbn [fst] in H.
    destruct (IH v1 n1 w H) as (pre & ws' & post & -> & T & W).
    exists ((ws, c) :: pre), ws', post. split; [reflexivity|]. cbn [lrun]. rewrite E. cbn [fst]. auto.
Qed.

Corollary lpm_all_aborted_closes_nothing : forall txs v next, (forall tx, In tx txs -> snd tx = false) ->
  lrun (v, next) txs = (v, next) /\ concat (lclosed (v, next) txs) = [].
Proof.
  induction txs as [|[ws c] txs IH]; intros v next H; cbn [lrun lclosed concat]; auto.
  assert (c = false) by (apply (H (ws, c)); now left). subst c.
  rewrite lpm_abort_closes_nothing. cbn [fst snd app]. apply IH. intros tx Hin. apply H. now right.
Qed.

(* closed: the channels closed so far. The channels of the committed version are allocated, distinct and open;
   closed channels are allocated; no channel was closed twice *)
Definition LInv (vn : lver * N) (closed : list N) : Prop :=
  lv_wu (fst vn) < snd vn /\ lv_wn (fst vn) < snd vn /\ lv_wu (fst vn) <> lv_wn (fst vn) /\
  (forall w, In w closed -> w < snd vn /\ w <> lv_wu (fst vn) /\ w <> lv_wn (fst vn)) /\
  NoDup closed.

Lemma NoDup_snoc {A} (a : A) l : NoDup l -> ~ In a l -> NoDup (l ++ [a]).
Proof.
  induction l as [|b l IH]; intros N H; cbn [app].
  - constructor; [intros []|constructor].
  - inversion N as [|? ? Hb Hl]; subst. constructor.
    + intros Hin. apply in_app_or in Hin. destruct Hin as [Hin|[->|[]]]; [auto|]. apply H. now left.
    + apply IH; auto. intros Hin. apply H. now right.
Qed.

Lemma lstep_inv v next tx closed : LInv (v, next) closed ->
  LInv (fst (lstep (v, next) tx)) (closed ++ snd (lstep (v, next) tx)).
Proof.
  intros I. destruct tx as [ws c]. destruct (lstep_cases v next ws c) as [E|(_ & _ & E)]; rewrite E; cbn [fst snd].
  - now rewrite app_nil_r.
  - destruct I as (W1 & W2 & W3 & C & ND). cbn [fst snd] in *.
    unfold LInv. cbn [fst snd lv_wu lv_wn]. split; [lia|]. split; [lia|]. split; [lia|]. split.
    + intros w Hin. apply in_app_or in Hin. destruct Hin as [Hin|[<-|[<-|[]]]]; try lia.
      destruct (C w Hin) as (H1 & H2 & H3). lia.
    + change [lv_wu v; lv_wn v] with ([lv_wu v] ++ [lv_wn v]). rewrite app_assoc.
      apply NoDup_snoc; [apply NoDup_snoc; auto|].
      * intros Hin. destruct (C _ Hin) as (_ & H2 & _). now apply H2.
      * intros Hin. apply in_app_or in Hin. destruct Hin as [Hin|[Hin|[]]]; [|now apply W3].
        destruct (C _ Hin) as (_ & _ & H3). now apply H3.
Qed.

(* after any history from a version whose two channels are allocated and distinct, with nothing closed yet *)
Lemma lrun_inv txs v next : lv_wu v < next -> lv_wn v < next -> lv_wu v <> lv_wn v ->
  LInv (lrun (v, next) txs) (concat (lclosed (v, next) txs)).
Proof.
  intros W1 W2 W3.
  assert (G : forall txs v next closed, LInv (v, next) closed ->
                LInv (lrun (v, next) txs) (closed ++ concat (lclosed (v, next) txs))).
  { clear. induction txs as [|tx txs IH]; intros v next closed I; cbn [lrun lclosed concat].
    - now rewrite app_nil_r.
    - pose proof (lstep_inv v next tx closed I) as I1.
      destruct (lstep (v, next) tx) as [[v1 n1] cl]. cbn [fst snd] in *.
      rewrite app_assoc. now apply IH. }
  apply (G txs v next []). unfold LInv. cbn [fst snd]. split; [exact W1|]. split; [exact W2|]. split; [exact W3|].
  split; [intros x []|constructor].
Qed.

(* PUBLISHED CHANNELS ARE OPEN: after any history, no channel closed by a notify is a channel of the committed
   version (a new reader never gets a closed channel) *)
Theorem lpm_published_open txs v next u w :
  lv_wu v < next -> lv_wn v < next -> lv_wu v <> lv_wn v ->
  In w (concat (lclosed (v, next) txs)) -> w <> lv_chan u (fst (lrun (v, next) txs)).
Proof.
  intros W1 W2 W3 Hin. destruct (lrun_inv txs v next W1 W2 W3) as (_ & _ & _ & C & _).
  destruct (C w Hin) as (_ & H2 & H3). unfold lv_chan. now destruct u.
Qed.

(* NO DOUBLE CLOSE: no channel is closed by two notifies (close of a closed channel panics) *)
Theorem lpm_closed_nodup txs v next :
  lv_wu v < next -> lv_wn v < next -> lv_wu v <> lv_wn v -> NoDup (concat (lclosed (v, next) txs)).
Proof. intros W1 W2 W3. apply (lrun_inv txs v next W1 W2 W3). Qed.

(* objects with LPM keys: a: 10.0/16 -> bits of [10;0]; b: [10;1] *)
Definition lx_a : payload := mkP [97] 1 [] [] [key_bits [10; 0] 16] [key_bits [10; 0] 16].
Definition lx_b : payload := mkP [98] 2 [] [] [key_bits [10; 1] 16] [key_bits [10; 0] 16].
Definition lx_v0 : lver := mkLV (twrun empty_table [TWInsert lx_a]) 1 2.
Definition lx_q : query := QLList false (key_bits [10; 0] 16).
(* history: an aborted insert of b; a committed failed CompareAndSwap (touches nothing); a committed insert of b;
   a committed delete of an absent object *)
Definition lx_hist : list (list twrite * bool) :=
  [([TWInsert lx_b], false); ([TWCas 7 lx_b], true); ([TWInsert lx_b], true); ([TWDelete [120]], true)].

Example lpm_watch_nonvacuous :
  lq_index lx_q = Some false /\
  run_query (init_db 1) 0 lx_q (lv_tab lx_v0) = OutObjs [mkO lx_a 1] /\
  run_query (init_db 1) 0 lx_q (lv_tab (fst (lrun (lx_v0, 3) lx_hist))) = OutObjs [mkO lx_a 1; mkO lx_b 2] /\
  lclosed (lx_v0, 3) lx_hist = [[]; []; [1; 2]; []] /\
  lv_chan false lx_v0 = 2 /\
  lv_chan false (fst (lrun (lx_v0, 3) lx_hist)) = 4 /\ snd (lrun (lx_v0, 3) lx_hist) = 5.
Proof. vm_compute. repeat split; reflexivity. Qed.

(* inside a write transaction: List after the first write, then a second write that changes the answer *)
Example lpm_watch_inside_nonvacuous :
  let x1 := lx_writes (lx_begin lx_v0) [TWDelete [120]] in
  let x2 := lx_writes x1 [TWInsert lx_b] in
  lx_touched x1 = false /\ lx_watch false x1 = 2 /\
  run_query (init_db 1) 0 lx_q (lx_cur x1) <> run_query (init_db 1) 0 lx_q (lx_cur x2) /\
  snd (lx_commit 3 x2) = [1; 2].
Proof. vm_compute. repeat split; try reflexivity. discriminate. Qed.

Print Assumptions lpm_watch_no_missed_change.
Print Assumptions lpm_watch_inside_txn.
Print Assumptions lpm_abort_closes_nothing.
Print Assumptions lpm_closed_only_by_touching_commit.
Print Assumptions lpm_all_aborted_closes_nothing.
Print Assumptions lpm_published_open.
Print Assumptions lpm_closed_nodup.
