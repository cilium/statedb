(* Table/ClientsRun4.v — the observer, composed with the C07 convergence theorem: whenever the observer
   is in its select, what the returned callbacks have reported replays to the observed table of the current root. *)
From Coq Require Import List NArith Bool Lia.
Import ListNotations.
From SV Require Import Base.Bytes Base.OrdMap KeyEnc.Model Table.Model Table.Proofs Table.InvDefs Table.Inv Table.Inv2
                       Table.GcProofs Table.ChangesStream Table.ChangesIter Table.ChangesProofs Table.ChangesRet
                       Table.ChangesHist Table.ChangesFromInit Table.AgreeN Table.Clients Table.ClientsProofs
                       Table.ClientsProofs2 Table.ClientsRun Table.ClientsRun3.
From Coq Require Import ZifyN ZifyNat ZifyBool.
Local Open Scope N_scope.

(* an exhausted iterator whose watch channel is that of the committed table's current revision has been refreshed
   from a table with the same live objects as the committed one (the committed table may since have lost graveyard
   entries, trackers, initializers: nothing `abs_of` reads) *)
Lemma exhausted_same_table iid tab G cur it acc d :
  oinv G it acc -> rinv iid tab G d it cur -> TInv cur -> reg iid cur ->
  it_pending it = None -> t_rev cur = it_watchrev it -> abs_of G = abs_of cur.
Proof.
  intros HO HR HIc Hreg Hp Hw.
  pose proof (oi_tinv _ _ _ HO) as HIG.
  pose proof (oi_watch _ _ _ HO (or_intror Hp)) as HwG.
  destruct (oi_done _ _ _ HO Hp) as [_ Hdd].
  destruct (ri_phase _ _ _ _ _ _ HR) as [[_ [[_ [L1 D1]] [Hret _]]]|[Hn _]]; [|contradiction].
  assert (Hrev : t_rev cur = t_rev G) by congruence.
  assert (A : forall o, live cur o -> live G o).
  { intros o Ho. apply L1; auto. destruct (ti_primary cur HIc _ _ Ho) as [_ Hb]. lia. }
  assert (B : forall o, live G o -> live cur o).
  { intros o Ho. destruct (has_live_dec cur (pk o) HIc) as [[o2 [Ho2 Hk]]|Hnl].
    - pose proof (live_same_id G o2 o HIG (A _ Ho2) Ho Hk). now subst.
    - exfalso. destruct (Hret (pk o)) as [o' [Hd [_ Hlt]]]; auto.
      { left. exists o. auto. }
      assert (Hd' : dead G o').
      { apply D1; auto. destruct (ti_grave cur HIc _ _ Hd) as [_ [Hb _]]. lia. }
      specialize (Hdd _ Hd'). lia. }
  apply om_ext; [now apply abs_of_sorted|now apply abs_of_sorted|]. intros k. rewrite !abs_of_get. f_equal.
  (* tables with the same live objects answer Get alike *)
  assert (Hget : forall t1 t2, TInv t1 -> TInv t2 -> (forall o, live t1 o -> live t2 o) ->
                 forall o, om_get k (t_primary t1) = Some o -> om_get k (t_primary t2) = Some o).
  { intros t1 t2 H1 H2 Hl o E. destruct (get_live t1 H1 _ _ E) as [<- Ho]. now apply (live_get t2 H2), Hl. }
  destruct (om_get k (t_primary G)) as [o|] eqn:E1; [symmetry; exact (Hget G cur HIG HIc B o E1)|].
  destruct (om_get k (t_primary cur)) as [o2|] eqn:E2; [|reflexivity].
  rewrite (Hget cur G HIc HIG A o2 E2) in E1. discriminate.
Qed.

Lemma ok_run_end ops : forall d, ok_run d ops -> tables_ok (fst (run d ops)).
Proof.
  intros d H. rewrite <- (app_nil_r ops) in H. destruct (ok_run_app _ _ _ H) as [_ [K _]]. exact K.
Qed.

(* in a run that satisfies the hypotheses of C07_from_init_converges: an exhausted iterator that waits on the watch
   channel of the committed table's current revision, its tracker still registered, has been handed changes that
   replay to that table *)
Lemma exhausted_replay n pre iid tab t0 post it cur :
  let dc := fst (run (init_db n) pre) in
  let d0 := fst (step dc (OChanges iid tab)) in
  let d := fst (run d0 post) in
  room_run (init_db n) (pre ++ OChanges iid tab :: post) -> created dc iid tab t0 ->
  (forall cur, nth_error (d_root dc) tab = Some cur -> ~ reg iid cur) -> friendly_run iid tab d0 post ->
  assoc iid (d_iters d) = Some it -> nth_error (d_root d) (it_tab it) = Some cur -> (it_tab it = tab -> reg iid cur) ->
  it_pending it = None -> t_rev cur = it_watchrev it ->
  it_tab it = tab /\ replay (delivered iid d0 post) = abs_of cur.
Proof.
  intros dc d0 d Hroom Hcr Hfresh Hfr Hit Hcur Hreg Hp Hw.
  destruct (from_init_facts n pre iid tab post Hroom) as [A [B C]]. fold dc d0 in A, B, C.
  destruct (discharged_facts iid tab dc t0 post Hcr A Hfresh (conj B C) Hfr) as [Hg [R [HI0 HR0]]]. fold d0 in Hg, R.
  pose proof (sinv_run true iid post _ _ (sinv_created true dc iid tab t0 Hcr HI0 HR0) Hg) as [_ Hs].
  fold d0 d in Hs, R. destruct (Hs it Hit) as [HO _]. destruct (R it Hit) as [cur' [Hc' HR]].
  pose proof (ri_tab _ _ _ _ _ _ HR) as Ht. split; [exact Ht|]. rewrite Ht in Hcur.
  assert (cur' = cur) by congruence. subst cur'.
  etransitivity; [exact (init_converge n pre iid tab t0 post Hroom Hcr Hfresh Hfr it Hit Hp)|].
  eapply exhausted_same_table; eauto.
  pose proof (ok_run_end _ _ C) as [[T _] _]. fold d in T. rewrite Forall_forall in T. apply T. eapply nth_error_In; eauto.
Qed.

(* `ops` split at the observer's OChanges. Residual hypotheses of C07_from_init (revision room, the usage
   conditions `friendly`, not registered before) on the flattened operations, plus: the observer's delete
   tracker is (still) registered in the observed table of the root. *)
Theorem observer_converges n cs s outs pre tab post os wr t0 :
  forallb (cop_ok' n) cs = true ->
  crun (init_csys n 0) cs = (s, outs, pre ++ OChanges observe_iid tab :: post) ->
  forallb (fun o => negb (touches observe_iid o)) pre = true ->
  cs_o s = Some os -> ov_phase os = OWait wr ->
  let dc := fst (run (init_db n) pre) in
  let d0 := fst (step dc (OChanges observe_iid tab)) in
  room_run (init_db n) (pre ++ OChanges observe_iid tab :: post) ->
  created dc observe_iid tab t0 ->
  (forall cur, nth_error (d_root dc) tab = Some cur -> ~ reg observe_iid cur) ->
  friendly_run observe_iid tab d0 post ->
  (forall cur, nth_error (d_root (cs_db s)) tab = Some cur -> reg observe_iid cur) ->
  tab = ov_tab os /\
  exists cur, nth_error (d_root (cs_db s)) tab = Some cur /\ t_rev cur = wr /\
              replay (reported outs) = abs_of cur.
Proof.
  intros Hc Hrun Hpre Eo Eph dc d0 Hroom Hcr Hfresh Hfr Hreg.
  destruct (observer_run_invariant n cs s outs _ os Hc Hrun Eo) as [Hdb K]. cbv zeta in K. rewrite Eph in K.
  destruct K as [Hdlv [it [cur [Hit [Htab [Hp [Hw [Hcur Hrev]]]]]]]].
  assert (Hdb' : cs_db s = fst (run d0 post)).
  { rewrite Hdb, run_app. change (OChanges observe_iid tab :: post) with ([OChanges observe_iid tab] ++ post).
    rewrite run_app, run_single. reflexivity. }
  rewrite delivered_split in Hdlv by exact Hpre. fold dc d0 in Hdlv.
  assert (Hcur' : nth_error (d_root (fst (run d0 post))) (it_tab it) = Some cur) by (rewrite <- Hdb', Htab; exact Hcur).
  rewrite Hdb' in Hit.
  destruct (exhausted_replay n pre observe_iid tab t0 post it cur Hroom Hcr Hfresh Hfr Hit Hcur') as [Ht Hrep]; auto.
  { intros Ht. apply Hreg. rewrite Hdb', <- Ht. exact Hcur'. }
  { congruence. }
  assert (Etab : tab = ov_tab os) by congruence. split; [exact Etab|].
  exists cur. rewrite Etab. split; [exact Hcur|]. split; [exact Hrev|]. now rewrite <- Hdlv.
Qed.

(* the hypotheses are satisfiable: the run hx_run of Table/ClientsRun3.v, split at the observer's OChanges *)
Example observer_converges_nonvacuous :
  let r := crun (init_csys 1 0) hx_run in
  let flat := snd r in let s := fst (fst r) in
  let pre := firstn 4 flat in let post := skipn 5 flat in
  let dc := fst (run (init_db 1) pre) in
  let d0 := fst (step dc (OChanges observe_iid 0)) in
  forallb (cop_ok' 1) hx_run = true /\
  flat = pre ++ OChanges observe_iid 0 :: post /\
  forallb (fun o => negb (touches observe_iid o)) pre = true /\
  option_map ov_phase (cs_o s) = Some (OWait 3) /\
  room_run (init_db 1) (pre ++ OChanges observe_iid 0 :: post) /\
  (exists t0, created dc observe_iid 0 t0) /\
  (forall cur, nth_error (d_root dc) 0 = Some cur -> ~ reg observe_iid cur) /\
  friendly_run observe_iid 0 d0 post /\
  (forall cur, nth_error (d_root (cs_db s)) 0 = Some cur -> reg observe_iid cur) /\
  replay (reported (snd (fst r))) = [([98], (2, 2))] /\
  map abs_of (d_root (cs_db s)) = [[([98], (2, 2))]].
Proof.
  cbv zeta. split; [vm_compute; reflexivity|]. split; [vm_compute; reflexivity|]. split; [vm_compute; reflexivity|].
  split; [vm_compute; reflexivity|].
  split; [apply room_runb_ok; vm_compute; reflexivity|].
  split; [vm_compute; do 4 eexists; split; [reflexivity|split; reflexivity]|].
  split; [intros cur H; vm_compute in H; injection H as <-; vm_compute; tauto|].
  split; [apply friendly_runb_ok; vm_compute; reflexivity|].
  split; [intros cur H; vm_compute in H; injection H as <-; vm_compute; tauto|].
  split; vm_compute; reflexivity.
Qed.
