(* Table/Inv3.v — the open transaction versus the committed root (TxnInv), committed
   revisions never decrease, what DInv says about every reachable table, and the revision
   index as an ordered change log (LowerBound on the revision index). *)
From SV Require Import Base.Bytes Base.OrdMap KeyEnc.Model Table.Model Table.InvDefs
                       Table.Proofs Table.GcProofs Table.Inv Table.Inv2 Table.ChangesStream.
From Coq Require Import ZifyN ZifyNat ZifyBool.
Open Scope N_scope.

Lemma Forall2_upd_nth_l {A B} (R : A -> B -> Prop) (f : A -> A) : forall n l1 l2,
  Forall2 R l1 l2 ->
  (forall a b, nth_error l1 n = Some a -> nth_error l2 n = Some b -> R a b -> R (f a) b) ->
  Forall2 R (upd_nth n f l1) l2.
Proof.
  induction n as [|n IH]; intros l1 l2 H Hf; destruct H as [|a b r1 r2 Hab Hr]; simpl; constructor; auto.
  all: try (apply (Hf a b); auto; fail).
  all: try (apply IH; auto; intros a' b' Ha Hb; apply (Hf a' b'); auto).
Qed.

Lemma Forall2_nth_error {A B} (R : A -> B -> Prop) : forall l1 l2, Forall2 R l1 l2 ->
  forall i, match nth_error l1 i, nth_error l2 i with
            | Some a, Some b => R a b
            | None, None => True
            | _, _ => False
            end.
Proof.
  induction 1 as [|a b r1 r2 Hab Hr IH]; intros [|i]; simpl; auto.
  apply IH.
Qed.

Lemma Forall2_weaken {A B} (R R' : A -> B -> Prop) l1 l2 :
  (forall a b, R a b -> R' a b) -> Forall2 R l1 l2 -> Forall2 R' l1 l2.
Proof. intros H. induction 1; constructor; auto. Qed.

Lemma Forall2_map_fst_eq {A B} : forall (es : list (A * B)) (l : list A), map fst es = l ->
  Forall2 (fun e x => fst e = x) es l.
Proof. induction es as [|e r IH]; intros [|x l] H; simpl in *; try discriminate; constructor; injection H; auto. Qed.

Lemma tupd_rev_mono t t' : tupd t t' -> t_rev t <= t_rev t'.
Proof.
  intros H; inversion H; subst; simpl; try lia.
  - apply modify_rev_mono.
  - apply delete_rev_mono.
  - apply delete_all_rev_mono.
Qed.

Lemma treg_rev nw t t' : treg nw t t' -> t_rev t' = t_rev t.
Proof. intros H; inversion H; subst; reflexivity. Qed.

Lemma fin_table_rev t : t_rev (fin_table t) = t_rev t.
Proof. unfold fin_table. destruct (t_init t) as [[w [|n p]]|]; reflexivity. Qed.

(* oldRoot is the current root (nothing commits while the write transaction is open); every entry
   is at least as new as the committed table; unlocked entries ARE the committed tables *)
Definition txn_rel (e : table * bool) (cur : table) : Prop :=
  t_rev cur <= t_rev (fst e) /\ (snd e = false -> fst e = cur).
Definition TxnInv (d : db) : Prop :=
  forall es old, d_txn d = Some (es, old) -> old = d_root d /\ Forall2 txn_rel es (d_root d).

Theorem TxnInv_init n : TxnInv (init_db n).
Proof. intros es old H. discriminate. Qed.

Theorem TxnInv_step d o : TxnInv d -> TxnInv (fst (step d o)).
Proof.
  intros HT. step_cases d o; unfold TxnInv; rewrite Er, Et; try discriminate; auto.
  - intros es' old' He. injection He as <- <-. split; auto.
    apply Forall2_map_fst_eq in E2. eapply Forall2_weaken; [|exact E2].
    intros e x Hx. unfold txn_rel. rewrite Hx. split; auto. lia.
  - intros es' old' He. injection He as <- <-. destruct (HT _ _ E1) as [H1 H2]. split; auto.
    apply Forall2_upd_nth_l; auto. intros a b Ha Hb [R1 R2]. rewrite E2 in Ha. injection Ha as <-.
    unfold txn_rel in *. simpl in *. split; [|discriminate]. apply tupd_rev_mono in Hu. lia.
  - intros es' old' He. injection He as <- <-. destruct (HT _ _ E1) as [H1 H2]. split; auto.
    apply Forall2_upd_nth_l; auto. intros a b Ha Hb [R1 R2]. rewrite E2 in Ha. injection Ha as <-.
    unfold txn_rel in *. simpl in *. split; [|discriminate]. apply treg_rev in Hu. lia.
Qed.

Theorem TxnInv_run ops : forall d, TxnInv d -> TxnInv (fst (run d ops)).
Proof.
  induction ops as [|o r IH]; intros d H; [exact H|]. rewrite run_cons_fst. apply IH. now apply TxnInv_step.
Qed.

(* committed revisions never decrease; tables never vanish from the root except by a collection
   pass applied with too short a key list (excluded in Table/Inv6.v by LenInv) *)
Theorem root_rev_mono_step d o i t t' : TxnInv d ->
  nth_error (d_root d) i = Some t -> nth_error (d_root (fst (step d o))) i = Some t' -> t_rev t <= t_rev t'.
Proof.
  intros HT. step_cases d o; rewrite Er; intros H1 H2;
    try (rewrite H1 in H2; injection H2 as <-; lia).
  - (* commit *)
    destruct (HT _ _ E1) as [_ HF]. pose proof (Forall2_nth_error _ _ _ HF i) as Hi.
    unfold commit_root in H2. rewrite nth_error_zip_with, H1 in H2. rewrite H1 in Hi.
    destruct (nth_error es0 i) as [[te [|]]|]; try discriminate; injection H2 as <-; destruct Hi as [R1 R2]; simpl in *.
    + rewrite fin_table_rev. exact R1.
    + lia.
  - (* close *)
    destruct (Nat.eq_dec tab0 i) as [->|Hne].
    + rewrite (nth_error_upd_nth_same _ _ _ _ H1) in H2. injection H2 as <-. simpl. lia.
    + rewrite nth_error_upd_nth_other in H2 by auto. rewrite H1 in H2; injection H2 as <-; lia.
  - (* gc *)
    rewrite nth_error_zip_with, H1 in H2. destruct (nth_error keys0 i); try discriminate. injection H2 as <-.
    rewrite gc_apply_rev. lia.
Qed.

Lemma root_length_step d o : TxnInv d -> (length (d_root (fst (step d o))) <= length (d_root d))%nat.
Proof.
  intros HT. step_cases d o; rewrite Er; auto.
  - unfold commit_root. generalize (d_root d). clear. induction es0 as [|e r IH]; intros [|c l]; simpl; auto with arith.
  - rewrite length_upd_nth. auto.
  - generalize (d_root d). clear. induction keys0 as [|e r IH]; intros [|c l]; simpl; auto with arith.
Qed.

Theorem root_rev_mono_run ops : forall d i t t', TxnInv d ->
  nth_error (d_root d) i = Some t -> nth_error (d_root (fst (run d ops))) i = Some t' -> t_rev t <= t_rev t'.
Proof.
  induction ops as [|o r IH]; intros d i t t' HT H1 H2.
  - simpl in H2. rewrite H1 in H2. injection H2 as <-. lia.
  - rewrite run_cons_fst in H2. pose proof (TxnInv_step d o HT) as HT1.
    destruct (nth_error (d_root (fst (step d o))) i) as [t1|] eqn:E1.
    + transitivity (t_rev t1); [apply (root_rev_mono_step d o i t t1); auto|apply (IH (fst (step d o)) i t1 t'); auto].
    + exfalso. apply nth_error_None in E1.
      assert (Hl : (length (d_root (fst (run (fst (step d o)) r))) <= length (d_root (fst (step d o))))%nat).
      { clear -HT1. revert HT1. generalize (fst (step d o)). induction r as [|o' r' IHr]; intros d0 H0; [simpl; lia|].
        rewrite run_cons_fst. etransitivity; [apply IHr; now apply TxnInv_step|]. now apply root_length_step. }
      assert (Hi : (i < length (d_root (fst (run (fst (step d o)) r))))%nat) by (apply nth_error_Some; congruence).
      lia.
Qed.

Definition in_db (d : db) (t : table) : Prop :=
  In t (d_root d) \/
  (exists es old, d_txn d = Some (es, old) /\ (In t (map fst es) \/ In t old)) \/
  (exists sid r, In (sid, r) (d_snaps d) /\ In t r).

Lemma all_tables_in_db P d t : all_tables P d -> in_db d t -> P t.
Proof.
  intros [HR [HT HS]] [H|[[es [old [E [H|H]]]]|[sid [r [H1 H2]]]]].
  - rewrite Forall_forall in HR. auto.
  - destruct (HT _ _ E) as [H1 _]. rewrite Forall_forall in H1. apply in_map_iff in H.
    destruct H as [e [<- He]]. auto.
  - destruct (HT _ _ E) as [_ H1]. rewrite Forall_forall in H1. auto.
  - specialize (HS _ _ H1). rewrite Forall_forall in HS. auto.
Qed.

Definition rev_facts (t : table) : Prop :=
  (forall o1 o2, live t o1 -> live t o2 -> o_rev o1 = o_rev o2 -> o1 = o2) /\
  (forall o, live t o \/ dead t o -> 1 <= o_rev o <= t_rev t) /\
  (forall o1 o2, dead t o1 -> dead t o2 -> o_rev o1 = o_rev o2 -> o1 = o2) /\
  (forall o1 o2, live t o1 -> dead t o2 -> o_rev o1 <> o_rev o2).

Lemma TInv_rev_facts t : TInv t -> rev_facts t.
Proof.
  intros HI. repeat split; try apply HI.
  - destruct H as [H|H]; [apply (live_rev t HI o H)|apply (dead_rev t HI o H)].
  - destruct H as [H|H]; [apply (live_rev t HI o H)|apply (dead_rev t HI o H)].
Qed.

Fixpoint rev_ascending (l : list object) : Prop :=
  match l with
  | [] => True
  | o :: r => Forall (fun o' => o_rev o < o_rev o') r /\ rev_ascending r
  end.

Lemma rev_ascending_asc l : rev_ascending l <-> asc (map o_rev l).
Proof. induction l as [|o r IH]; simpl; [tauto|]. rewrite IH, Forall_map. tauto. Qed.

Lemma in_vals (m : idx) o : In o (vals m) <-> exists k, In (k, o) m.
Proof.
  unfold vals. rewrite in_map_iff. split.
  - intros [[k o'] [<- H]]. exists k. exact H.
  - intros [k H]. exists (k, o). auto.
Qed.

(* LowerBound(ByRevision(r)): exactly the live objects with revision >= r, in ascending revision order *)
Theorem lower_bound_revision t r : TInv t -> rev_bound t -> r < B64 ->
  q_lower_bound IRevision (rev_key r) t = vals (om_lower_bound (rev_key r) (t_revidx t)) /\
  rev_ascending (q_lower_bound IRevision (rev_key r) t) /\
  (forall o, In o (q_lower_bound IRevision (rev_key r) t) <-> (live t o /\ r <= o_rev o)).
Proof.
  intros HI HB Hr. split; [reflexivity|]. destruct (upd_stream_spec t HI HB r Hr) as [A M].
  split; [apply rev_ascending_asc; exact A|exact M].
Qed.

Lemma delete_no_trackers g id t : t_trackers t = [] ->
  t_trackers (fst (delete g id t)) = [] /\
  t_grave (fst (delete g id t)) = t_grave t /\ t_graverev (fst (delete g id t)) = t_graverev t.
Proof.
  intros Hn. unfold delete, delete_with. destruct (om_get id (t_primary t)) as [o|]; auto.
  destruct ((0 <? g) && negb (o_rev o =? g)); auto. rewrite Hn. simpl. auto.
Qed.

Lemma dead_not_live_value t o k : TInv t -> dead t o -> ~ In (k, o) (t_primary t).
Proof.
  intros HI Hd Hin. destruct (ti_primary t HI _ _ Hin) as [-> _].
  apply om_in_get in Hin; [|apply HI]. rewrite (dead_not_live_key t HI o Hd) in Hin. discriminate.
Qed.

Theorem dead_not_in_queries t o : TInv t -> dead t o ->
  (forall k, q_get IPrimary k t <> Some o) /\ (forall k, ~ In o (q_list IPrimary k t)) /\
  ~ In o (q_all t) /\
  (forall k, q_get IRevision k t <> Some o) /\ (forall k, ~ In o (q_list IRevision k t)) /\
  (forall k, ~ In o (q_prefix IPrimary k t)) /\ (forall k, ~ In o (q_lower_bound IPrimary k t)) /\
  (forall k, ~ In o (q_prefix IRevision k t)) /\ (forall k, ~ In o (q_lower_bound IRevision k t)).
Proof.
  intros HI Hd.
  assert (HP : forall k, ~ In (k, o) (t_primary t)) by (intros k; now apply dead_not_live_value).
  assert (HR : forall k, ~ In (k, o) (t_revidx t)).
  { intros k Hin. apply (ti_revidx t HI) in Hin. destruct Hin as [_ Hl]. exact (HP _ Hl). }
  assert (HgP : forall k, om_get k (t_primary t) <> Some o).
  { intros k H. apply om_in_get in H; [|apply HI]. exact (HP _ H). }
  assert (HgR : forall k, om_get k (t_revidx t) <> Some o).
  { intros k H. apply om_in_get in H; [|apply HI]. exact (HR _ H). }
  unfold q_get, q_list, q_all, q_prefix, q_lower_bound. cbn [is_unique index_of].
  repeat split; intros k; try apply HgP; try apply HgR.
  - intros H. destruct (om_get k (t_primary t)) eqn:E; simpl in H; [|tauto]. destruct H as [->|[]]. exact (HgP _ E).
  - revert k. change (~ In o (vals (t_primary t))). rewrite in_vals. intros [k H]. exact (HP _ H).
  - intros H. destruct (om_get k (t_revidx t)) eqn:E; simpl in H; [|tauto]. destruct H as [->|[]]. exact (HgR _ E).
  - rewrite in_vals. intros [k' H]. apply filter_In in H. exact (HP _ (proj1 H)).
  - rewrite in_vals. intros [k' H]. apply om_lower_bound_spec in H; [|apply HI]. exact (HP _ (proj1 H)).
  - rewrite in_vals. intros [k' H]. apply filter_In in H. exact (HR _ (proj1 H)).
  - rewrite in_vals. intros [k' H]. apply om_lower_bound_spec in H; [|apply HI]. exact (HR _ (proj1 H)).
Qed.
