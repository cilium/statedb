(* Table/Inv.v — the core table invariant TInv (Table/InvDefs.v): it holds for the empty
   table and is preserved by every table transformer of the model (modify, delete,
   delete_all, gc_apply_table, tracker / initializer field updates), as long as the
   resulting revision stays below 2^64 (rev_bound; rev_key = be64 is injective only there).
   Also: membership lemmas for the ordered-map specification. *)
From SV Require Import Base.Bytes Base.OrdMap KeyEnc.Model KeyEnc.Proofs
                       Table.Model Table.InvDefs Table.Proofs Table.GcProofs.
From Coq Require Import ZifyN ZifyNat ZifyBool.
Open Scope N_scope.

Section OM.
Context {V : Type}.
Implicit Types m : omap V.

Lemma om_in_fun k v1 v2 m : om_sorted m -> In (k, v1) m -> In (k, v2) m -> v1 = v2.
Proof. intros Hs H1 H2. apply om_in_get in H1, H2; auto. congruence. Qed.

Lemma om_get_none_notin k m : om_sorted m -> om_get k m = None -> forall v, ~ In (k, v) m.
Proof. intros Hs H v Hin. apply om_in_get in Hin; auto. congruence. Qed.

Lemma om_in_insert k v k' v' m : om_sorted m ->
  (In (k', v') (om_insert k v m) <-> (k' = k /\ v' = v) \/ (k' <> k /\ In (k', v') m)).
Proof.
  intros Hs. rewrite om_in_get by now apply om_insert_sorted.
  destruct (bytes_eq_dec k' k) as [->|Hne].
  - rewrite om_get_insert_same. split.
    + intros H; injection H as ->; auto.
    + intros [[_ ->]|[H _]]; congruence.
  - rewrite om_get_insert_other by auto. rewrite <- om_in_get by auto. tauto.
Qed.

Lemma om_in_delete k k' v' m : om_sorted m ->
  (In (k', v') (om_delete k m) <-> k' <> k /\ In (k', v') m).
Proof.
  intros Hs. rewrite om_in_get by now apply om_delete_sorted.
  destruct (bytes_eq_dec k' k) as [->|Hne].
  - rewrite om_get_delete_same by auto. split; [discriminate|tauto].
  - rewrite om_get_delete_other by auto. rewrite <- om_in_get by auto. tauto.
Qed.

Lemma om_insert_delete k v m : om_sorted m -> om_insert k v (om_delete k m) = om_insert k v m.
Proof.
  intros Hs. apply om_ext; try apply om_insert_sorted; auto using om_delete_sorted.
  intros k2. destruct (bytes_eq_dec k2 k) as [->|Hne].
  - now rewrite !om_get_insert_same.
  - rewrite !om_get_insert_other by auto using om_delete_sorted. now apply om_get_delete_other.
Qed.

End OM.

Definition B64 : N := 18446744073709551616.

Lemma rev_key_inj a b : a < B64 -> b < B64 -> rev_key a = rev_key b -> a = b.
Proof. unfold rev_key, B64. apply be64_inj. Qed.

Lemma rev_key_mono a b : a < B64 -> b < B64 -> (a < b <-> lex_lt (rev_key a) (rev_key b)).
Proof. unfold rev_key, B64. apply be64_mono. Qed.

(* One half of TInv: objects indexed by primary key (P) and the same objects by revision (R),
   all revisions assigned so far (<= r) and pairwise distinct. TInv says this of the live
   indexes and of the graveyard, and that no key and no revision occurs on both sides. *)
Record Half (r : N) (P R : idx) : Prop := mkHalf {
  hf_sortedP : om_sorted P;
  hf_sortedR : om_sorted R;
  hf_key : forall k o, In (k, o) P -> k = p_id (o_data o) /\ 1 <= o_rev o <= r;
  hf_rev : forall k o, In (k, o) R <-> (k = rev_key (o_rev o) /\ In (p_id (o_data o), o) P);
  hf_distinct : forall o1 o2, In (p_id (o_data o1), o1) P -> In (p_id (o_data o2), o2) P ->
      o_rev o1 = o_rev o2 -> o1 = o2
}.
Definition Apart (P G : idx) : Prop :=
  forall k1 o1 k2 o2, In (k1, o1) P -> In (k2, o2) G -> k1 <> k2 /\ o_rev o1 <> o_rev o2.
Definition Core (r : N) (P R G GR : idx) : Prop := Half r P R /\ Half r G GR /\ Apart P G.

Lemma TInv_Core t : TInv t <-> Core (t_rev t) (t_primary t) (t_revidx t) (t_grave t) (t_graverev t).
Proof.
  split.
  - intros []. split; [|split].
    + constructor; auto.
    + constructor; auto. intros k o H. destruct (ti_grave _ _ H) as (? & ? & _). auto.
    + intros k1 o1 k2 o2 H1 H2. destruct (ti_primary _ _ H1) as [-> _].
      destruct (ti_grave _ _ H2) as (-> & _ & Hn). split; [|now apply ti_rev_distinct_cross].
      intros E. rewrite E in H1. apply om_in_get in H1; auto. congruence.
  - intros ([] & [] & HA). constructor; auto.
    + intros k o H. destruct (hf_key1 _ _ H) as [-> Hr]. repeat split; try apply Hr.
      destruct (om_get (p_id (o_data o)) (t_primary t)) as [o'|] eqn:E; auto.
      apply om_in_get in E; auto. now destruct (HA _ _ _ _ E H).
    + intros o1 o2 H1 H2. now destruct (HA _ _ _ _ H1 H2).
Qed.

Section Halves.
Variables (r : N) (P R : idx).
Hypothesis H : Half r P R.

Lemma Half_mono r' : r <= r' -> Half r' P R.
Proof.
  intros Hr. destruct H. constructor; auto. intros k o Hin. destruct (hf_key0 _ _ Hin). split; auto. lia.
Qed.

(* an object leaves both indexes *)
Lemma Half_remove id o0 : r < B64 -> om_get id P = Some o0 ->
  Half r (om_delete id P) (om_delete (rev_key (o_rev o0)) R).
Proof.
  intros Hb Hg. destruct H as [sP sR hk hr hd]. pose proof Hg as H0. apply om_in_get in H0; auto.
  constructor; auto using om_delete_sorted.
  - intros k o. rewrite om_in_delete by auto. intros [_ Hin]. auto.
  - intros k o. rewrite !om_in_delete, hr by auto. split.
    + intros (Hne & -> & Hin). repeat split; auto. intros E. rewrite E in Hin.
      apply Hne. now rewrite (om_in_fun _ _ _ _ sP Hin H0).
    + intros (-> & Hne & Hin). repeat split; auto. intros E.
      destruct (hk _ _ Hin) as [_ B1]. destruct (hk _ _ H0) as [Hid B2]. rewrite Hid in H0.
      apply rev_key_inj in E; try lia. apply Hne. now rewrite (hd _ _ Hin H0 E).
  - intros o1 o2. rewrite !om_in_delete by auto. intros [_ H1] [_ H2]. auto.
Qed.

(* an object with a brand-new revision (larger than all assigned so far) and a new key enters *)
Lemma Half_add obj : o_rev obj < B64 -> om_get (p_id (o_data obj)) P = None -> r < o_rev obj ->
  Half (o_rev obj) (om_insert (p_id (o_data obj)) obj P) (om_insert (rev_key (o_rev obj)) obj R).
Proof.
  intros Hb Hn Hlt. destruct H as [sP sR hk hr hd].
  assert (Hold : forall o, In (p_id (o_data o), o) P -> o_rev o <= r /\ p_id (o_data o) <> p_id (o_data obj)).
  { intros o Hin. split; [apply (hk _ _ Hin)|]. intros E. rewrite E in Hin. apply om_in_get in Hin; auto. congruence. }
  constructor; auto using om_insert_sorted.
  - intros k o. rewrite om_in_insert by auto. intros [[-> ->]|[_ Hin]]; [split; auto; lia|].
    destruct (hk _ _ Hin). split; auto. lia.
  - intros k o. rewrite !om_in_insert, hr by auto. split.
    + intros [[-> ->]|(_ & -> & Hin)]; auto. split; auto. right. split; auto. apply (Hold _ Hin).
    + intros (-> & [[_ ->]|[_ Hin]]); auto. right. repeat split; auto. intros E.
      apply rev_key_inj in E; destruct (Hold _ Hin); lia.
  - intros o1 o2. rewrite !om_in_insert by auto. intros [[_ ->]|[_ H1]] [[_ ->]|[_ H2]] E; auto.
    + destruct (Hold _ H2). lia.
    + destruct (Hold _ H1). lia.
Qed.
End Halves.

Section Cores.
Variables (r : N) (P R G GR : idx).
Hypothesis H : Core r P R G GR.

Lemma Core_swap : Core r G GR P R.
Proof.
  destruct H as (HP & HG & HA). split; [|split]; auto.
  intros k1 o1 k2 o2 H1 H2. destruct (HA _ _ _ _ H2 H1). auto.
Qed.

Lemma Core_mono r' : r <= r' -> Core r' P R G GR.
Proof. destruct H as (HP & HG & HA). intros Hr. split; [|split]; auto; eapply Half_mono; eauto. Qed.

Lemma Core_get id o : om_get id P = Some o -> om_get id G = None.
Proof.
  destruct H as (HP & HG & HA). intros E. apply om_in_get in E; [|apply HP].
  destruct (om_get id G) as [g|] eqn:Eg; auto. apply om_in_get in Eg; [|apply HG].
  now destruct (HA _ _ _ _ E Eg).
Qed.

Lemma Core_remove id o0 : r < B64 -> om_get id P = Some o0 ->
  Core r (om_delete id P) (om_delete (rev_key (o_rev o0)) R) G GR.
Proof.
  destruct H as (HP & HG & HA). intros Hb Hg. split; [|split]; auto using Half_remove.
  intros k1 o1 k2 o2 H1. apply om_in_delete in H1; [|apply HP]. apply HA, H1.
Qed.

Lemma Core_add obj : o_rev obj < B64 ->
  om_get (p_id (o_data obj)) P = None -> om_get (p_id (o_data obj)) G = None -> r < o_rev obj ->
  Core (o_rev obj) (om_insert (p_id (o_data obj)) obj P) (om_insert (rev_key (o_rev obj)) obj R) G GR.
Proof.
  destruct H as (HP & HG & HA). intros Hb Hn1 Hn2 Hlt.
  split; [now apply (Half_add r)|]. split; [apply (Half_mono _ _ _ HG); lia|].
  intros k1 o1 k2 o2 H1 H2. apply om_in_insert in H1; [|apply HP]. destruct H1 as [[-> ->]|[_ H1]]; [|eauto].
  split.
  - intros E. rewrite <- E in H2. apply om_in_get in H2; [|apply HG]. congruence.
  - destruct (hf_key _ _ _ HG _ _ H2). lia.
Qed.
End Cores.

Theorem TInv_empty : TInv empty_table.
Proof.
  constructor; unfold live, dead; simpl; auto; tauto.
Qed.

Section Reading.
Variable t : table.
Hypothesis HI : TInv t.

Lemma live_get o : live t o <-> om_get (p_id (o_data o)) (t_primary t) = Some o.
Proof. unfold live. apply om_in_get. apply HI. Qed.

Lemma dead_get o : dead t o <-> om_get (p_id (o_data o)) (t_grave t) = Some o.
Proof. unfold dead. apply om_in_get. apply HI. Qed.

Lemma get_live id o : om_get id (t_primary t) = Some o -> p_id (o_data o) = id /\ live t o.
Proof.
  intros H. apply om_in_get in H; [|apply HI]. destruct (ti_primary t HI _ _ H) as [E _].
  unfold live. rewrite <- E. auto.
Qed.

Lemma live_rev o : live t o -> 1 <= o_rev o <= t_rev t.
Proof. intros H. now destruct (ti_primary t HI _ _ H). Qed.

Lemma dead_rev o : dead t o -> 1 <= o_rev o <= t_rev t.
Proof. intros H. now destruct (ti_grave t HI _ _ H) as [_ [H1 _]]. Qed.

Lemma dead_not_live_key o : dead t o -> om_get (p_id (o_data o)) (t_primary t) = None.
Proof. intros H. now destruct (ti_grave t HI _ _ H) as [_ [_ H1]]. Qed.
End Reading.

Lemma live_same_id t o1 o2 : TInv t -> live t o1 -> live t o2 ->
  p_id (o_data o1) = p_id (o_data o2) -> o1 = o2.
Proof.
  intros I H1 H2 E. apply (live_get _ I) in H1, H2. rewrite E in H1. congruence.
Qed.

Lemma new_object_id m p t : p_id (o_data (new_object m p t)) = p_id p.
Proof. unfold new_object. destruct m; [destruct (om_get (p_id p) (t_primary t))|]; reflexivity. Qed.

Lemma new_object_rev m p t : o_rev (new_object m p t) = t_rev t + 1.
Proof. unfold new_object. destruct m; [destruct (om_get (p_id p) (t_primary t))|]; reflexivity. Qed.

Lemma modify_ok_core g m p t t' old e : modify g m p t = (t', (old, e)) -> e = EOk ->
  old = om_get (p_id p) (t_primary t) /\
  t_rev t' = t_rev t + 1 /\
  t_primary t' = om_insert (p_id p) (new_object m p t) (t_primary t) /\
  t_revidx t' = om_insert (rev_key (t_rev t + 1)) (new_object m p t)
                  (match old with Some o => om_delete (rev_key (o_rev o)) (t_revidx t) | None => t_revidx t end) /\
  t_grave t' = match old, om_get (p_id p) (t_grave t) with
               | None, Some g => om_delete (p_id p) (t_grave t) | _, _ => t_grave t end /\
  t_graverev t' = match old, om_get (p_id p) (t_grave t) with
                  | None, Some g => om_delete (rev_key (o_rev g)) (t_graverev t) | _, _ => t_graverev t end.
Proof.
  intros H ->. destruct (modify_inv _ _ _ _ _ _ _ H) as (-> & _ & ->). rewrite put_eq. repeat split.
Qed.

(* the write replaces a live object, revives a key held in the graveyard, or adds a fresh key *)
Lemma TInv_put m p t : TInv t -> rev_bound (put m p t) -> TInv (put m p t).
Proof.
  intros HI Hb. apply TInv_Core. apply TInv_Core in HI. unfold rev_bound in Hb. revert Hb.
  rewrite put_eq. cbn [t_rev t_primary t_revidx t_grave t_graverev].
  rewrite <- (new_object_rev m p t), <- (new_object_id m p t). set (obj := new_object m p t).
  fold B64. intros Hb.
  assert (Hbt : t_rev t < B64) by (unfold obj in Hb; rewrite new_object_rev in Hb; lia).
  assert (Hlt : t_rev t < o_rev obj) by (unfold obj; rewrite new_object_rev; lia).
  destruct (om_get (p_id (o_data obj)) (t_primary t)) as [o0|] eqn:Ho.
  - rewrite <- (om_insert_delete _ obj (t_primary t)) by apply HI.
    apply (Core_add (t_rev t)); auto using Core_remove.
    + apply om_get_delete_same, HI.
    + apply (Core_get _ _ _ _ _ HI _ _ Ho).
  - destruct (om_get (p_id (o_data obj)) (t_grave t)) as [g|] eqn:Hg; [|now apply (Core_add (t_rev t))].
    apply (Core_add (t_rev t)); auto using Core_swap, Core_remove. apply om_get_delete_same, HI.
Qed.

Theorem TInv_modify g m p t : TInv t -> rev_bound (fst (modify g m p t)) -> TInv (fst (modify g m p t)).
Proof.
  rewrite modify_eq. cbn [fst]. destruct (guard_err g _); auto using TInv_put.
Qed.

Definition has_trackers (t : table) : bool := match t_trackers t with [] => false | _ => true end.

Lemma delete_ok_core g id t t' old e o : delete g id t = (t', (old, e)) ->
  om_get id (t_primary t) = Some o -> (0 <? g) && negb (o_rev o =? g) = false ->
  old = Some o /\ e = EOk /\
  t_rev t' = t_rev t + 1 /\
  t_primary t' = om_delete id (t_primary t) /\
  t_revidx t' = om_delete (rev_key (o_rev o)) (t_revidx t) /\
  t_grave t' = (if has_trackers t then om_insert id (mkO (o_data o) (t_rev t + 1)) (t_grave t) else t_grave t) /\
  t_graverev t' = (if has_trackers t then om_insert (rev_key (t_rev t + 1)) (mkO (o_data o) (t_rev t + 1)) (t_graverev t)
                   else t_graverev t) /\
  t_trackers t' = t_trackers t /\ t_init t' = t_init t.
Proof.
  unfold delete, delete_with, has_trackers. intros H Hg Hc. rewrite Hg, Hc in H.
  injection H as <- <- <-. simpl. repeat split; auto.
Qed.

Lemma delete_cases g id t :
  fst (delete g id t) = t \/
  exists o, om_get id (t_primary t) = Some o /\ (0 <? g) && negb (o_rev o =? g) = false.
Proof.
  unfold delete, delete_with. destruct (om_get id (t_primary t)) as [o|]; auto.
  destruct ((0 <? g) && negb (o_rev o =? g)) eqn:E; auto. right. exists o. auto.
Qed.

(* the object leaves the live indexes and, if a delete tracker is registered, enters the
   graveyard under the new revision *)
Theorem TInv_delete g id t : TInv t -> rev_bound (fst (delete g id t)) -> TInv (fst (delete g id t)).
Proof.
  intros HI Hb. destruct (delete_cases g id t) as [->|[o [Ho Hc]]]; auto.
  destruct (delete g id t) as [t' [old e]] eqn:H. cbn [fst] in *.
  destruct (delete_ok_core _ _ _ _ _ _ _ H Ho Hc) as (_ & _ & E1 & E2 & E3 & E4 & E5 & _).
  destruct (get_live t HI _ _ Ho) as [Hid _]. unfold rev_bound in Hb. fold B64 in Hb.
  apply TInv_Core. rewrite E1, E2, E3, E4, E5, <- Hid in *. apply TInv_Core in HI.
  assert (HR : Core (t_rev t) (om_delete (p_id (o_data o)) (t_primary t))
                    (om_delete (rev_key (o_rev o)) (t_revidx t)) (t_grave t) (t_graverev t))
    by (apply Core_remove; auto; lia).
  destruct (has_trackers t); [|apply (Core_mono _ _ _ _ _ HR); lia].
  apply Core_swap. apply (Core_add _ _ _ _ _ (Core_swap _ _ _ _ _ HR) (mkO (o_data o) (t_rev t + 1))); cbn; auto; try lia.
  - apply (Core_get _ _ _ _ _ HI _ _ Ho).
  - apply om_get_delete_same, HI.
Qed.

Lemma fold_delete_rev_mono (l : list (bytes * object)) : forall t,
  t_rev t <= t_rev (fold_left (fun t kv => fst (delete 0 (p_id (o_data (snd kv))) t)) l t).
Proof.
  induction l as [|kv r IH]; intros t; simpl; [lia|].
  etransitivity; [|apply IH]. apply delete_rev_mono.
Qed.

(* DeleteAll is a sequence of deletes: what every delete preserves, it preserves; `rev_bound` of
   the end state bounds every state on the way *)
Lemma delete_all_ind (P : table -> Prop) :
  (forall id t, P t -> P (fst (delete 0 id t))) -> forall t, P t -> P (delete_all t).
Proof.
  intros Hd t. unfold delete_all. generalize (t_primary t). intros l. revert t.
  induction l as [|kv r IH]; intros t HP; simpl; auto.
Qed.

Lemma delete_all_inv (P : table -> Prop) :
  (forall id t, P t -> rev_bound (fst (delete 0 id t)) -> P (fst (delete 0 id t))) ->
  forall t, P t -> rev_bound (delete_all t) -> P (delete_all t).
Proof.
  intros Hd t. unfold delete_all. generalize (t_primary t). intros l. revert t.
  induction l as [|kv r IH]; intros t HP Hb; simpl in *; auto.
  apply IH; auto. apply Hd; auto.
  pose proof (fold_delete_rev_mono r (fst (delete 0 (p_id (o_data (snd kv))) t))). unfold rev_bound in *. lia.
Qed.

(* the write operations leave the delete trackers and the initializers alone *)
Lemma modify_meta g m p t :
  t_trackers (fst (modify g m p t)) = t_trackers t /\ t_init (fst (modify g m p t)) = t_init t.
Proof. rewrite modify_eq. cbn [fst]. destruct (guard_err g _); auto. now rewrite put_eq. Qed.

Lemma delete_meta g id t :
  t_trackers (fst (delete g id t)) = t_trackers t /\ t_init (fst (delete g id t)) = t_init t.
Proof.
  destruct (delete_cases g id t) as [->|[o [Ho Hc]]]; [auto|].
  destruct (delete g id t) as [t' [old e]] eqn:H. cbn [fst].
  now destruct (delete_ok_core _ _ _ _ _ _ _ H Ho Hc) as [_ [_ [_ [_ [_ [_ [_ R]]]]]]].
Qed.

Lemma delete_all_meta t : t_trackers (delete_all t) = t_trackers t /\ t_init (delete_all t) = t_init t.
Proof.
  apply (delete_all_ind (fun t' => t_trackers t' = t_trackers t /\ t_init t' = t_init t)); auto.
  intros id t' [<- <-]. apply delete_meta.
Qed.

Theorem TInv_delete_all t : TInv t -> rev_bound (delete_all t) -> TInv (delete_all t).
Proof. apply delete_all_inv. intros. now apply TInv_delete. Qed.

Lemma delete_all_rev_mono t : t_rev t <= t_rev (delete_all t).
Proof. unfold delete_all. apply fold_delete_rev_mono. Qed.

Theorem TInv_gc_apply keys : forall t, TInv t -> rev_bound t -> TInv (gc_apply_table keys t).
Proof.
  unfold gc_apply_table. induction keys as [|k r IH]; intros t HI Hb; simpl; auto.
  destruct (om_get k (t_graverev t)) as [old|] eqn:E; [|apply IH; auto].
  apply IH; [|exact Hb].
  apply om_in_get in E; [|apply HI]. apply (ti_graverev t HI) in E. destruct E as [-> Hd].
  apply (dead_get t HI) in Hd. apply TInv_Core. apply TInv_Core in HI.
  now apply Core_swap, Core_remove; [apply Core_swap| |].
Qed.

Definition set_meta (t : table) (trk : list N) (ini : option (N * list N)) : table :=
  mkT (t_rev t) (t_primary t) (t_revidx t) (t_grave t) (t_graverev t) (t_u t) (t_n t) (t_lu t) (t_ln t) trk ini.

Theorem TInv_set_meta t trk ini : TInv t -> TInv (set_meta t trk ini).
Proof. rewrite !TInv_Core. auto. Qed.
