(* Table/ClientsRun6.v — the observer converges (Table/ClientsRun4.v), continued: the usage hypotheses of the C07 theorem (`created`, not registered
   before, `friendly_run`, tracker registered in the root) discharged for the OBSERVER in runs of the system in which
   the harness obeys cop_ok' (never uses the observer's iterator id; observes a table that exists); what remains is
   revision room on the flattened operations. The lemmas about registered iterators are those of Table/ClientsRun5.v. *)
From Coq Require Import List NArith Bool Lia.
Import ListNotations.
From SV Require Import Base.Bytes Base.OrdMap KeyEnc.Model Table.Model Table.Proofs Table.InvDefs Table.Inv Table.Inv2
                       Table.GcProofs Table.ChangesStream Table.ChangesIter Table.ChangesProofs Table.ChangesRet
                       Table.ChangesHist Table.ChangesFromInit Table.Clients Table.ClientsProofs Table.ClientsProofs2
                       Table.ClientsRun Table.ClientsRun2 Table.ClientsRun3 Table.ClientsRun4 Table.ClientsRun5.
Local Open Scope N_scope.

Definition NTo (l : list N) : Prop := ~ In observe_iid l.
Definition TRo (l : list N) : Prop := In observe_iid l.
Definition untouched_o (l : list op) : bool := forallb (fun o => negb (touches observe_iid o)) l.

Definition ocl (ph : ophase) : nat := match ph with OReg => 0 | OHold _ | OWait _ => 1 | ODone => 2 end.

Definition unreg_o (d : db) (ops : list op) : Prop := untouched_o ops = true /\ forall i, tentryP i NTo d.
Definition registered_o (n tab : nat) (d : db) (ops : list op) : Prop :=
  exists pre post t0, ops = pre ++ OChanges observe_iid tab :: post /\ untouched_o pre = true /\
    created (fst (run (init_db n) pre)) observe_iid tab t0 /\
    (forall cur, nth_error (d_root (fst (run (init_db n) pre))) tab = Some cur -> ~ reg observe_iid cur) /\
    friendly_run observe_iid tab (fst (step (fst (run (init_db n) pre)) (OChanges observe_iid tab))) post /\
    tentryP tab TRo d.

(* before its registration nothing has used the observer's iterator id; from then until cancellation the id is
   registered on the observed table (Table/ClientsRun5.v `registered`, for observe_iid) *)
Definition ost (n : nat) (so : option ostate) (d : db) (ops : list op) : Prop :=
  match so with
  | None => unreg_o d ops
  | Some os => ov_iid os = observe_iid /\ (ov_tab os < n)%nat /\
               match ocl (ov_phase os) with
               | O => unreg_o d ops
               | S O => registered_o n (ov_tab os) d ops
               | _ => True
               end
  end.

Lemma ost_class n os os' d ops :
  ov_iid os' = ov_iid os -> ov_tab os' = ov_tab os -> ocl (ov_phase os') = ocl (ov_phase os) ->
  ost n (Some os) d ops -> ost n (Some os') d ops.
Proof. intros A B C. cbn [ost]. rewrite A, B, C. auto. Qed.

Lemma ost_quiet n so d ops l : d = fst (run (init_db n) ops) -> ost n so d ops -> untouched_o l = true ->
  ost n so (fst (run d l)) (ops ++ l).
Proof.
  intros Hd H Hu.
  assert (Hun : unreg_o d ops -> unreg_o (fst (run d l)) (ops ++ l)).
  { intros [U T]. split; [unfold untouched_o in *; rewrite forallb_app, U, Hu; reflexivity|].
    intros i. exact (run_untracked observe_iid i l d Hu (T i)). }
  destruct so as [os|]; cbn [ost] in *; [|auto]. destruct H as [A [B C]]. split; [exact A|]. split; [exact B|].
  destruct (ocl (ov_phase os)) as [|[|k]]; auto.
  apply (registered_leg n observe_iid); auto. exact (forallb_impl _ _ _ (untouched_gop observe_iid) Hu).
Qed.

Lemma observe_run_class fuel os d acc : ocl (ov_phase os) = 1%nat ->
  ocl (ov_phase (snd (fst (observe_run fuel os d acc)))) = 1%nat.
Proof.
  intros H. destruct (observe_run_spec (fun _ => true) fuel os d acc eq_refl eq_refl) as [ops1 [_ [_ [_ K]]]]. cbv zeta in K.
  destruct K as [[c [-> _]]|[_ [->|[wr ->]]]]; auto.
Qed.

(* one run of the goroutine of a registered observer that ends in a callback or in the select: its Next and Resume
   may follow the registration *)
Lemma registered_observe_run n os ph d ops acc d' os' l : ov_iid os = observe_iid -> (ov_tab os < n)%nat ->
  fst (run d acc) = fst (run (init_db n) (ops ++ acc)) -> registered_o n (ov_tab os) (fst (run d acc)) (ops ++ acc) ->
  observe_run 4 (oset os ph) (fst (run d acc)) acc = (d', os', l) -> ocl (ov_phase os') = 1%nat ->
  ost n (Some os') d' (ops ++ l).
Proof.
  intros Hid Hlt Hd Hreg H H5.
  destruct (observe_run_ops (gop observe_iid) 4 (oset os ph) (fst (run d acc)) acc) as [ops1 [H1 [H2 [H3 H4]]]];
    [reflexivity|reflexivity|].
  rewrite H in H1, H3, H4. cbn [fst snd oset ov_iid ov_tab] in *. subst l.
  cbn [ost]. rewrite H3, H4, H5. split; [exact Hid|]. split; [exact Hlt|].
  rewrite (observe_run_run' _ _ _ d acc _ _ _ eq_refl H), run_app, app_assoc.
  now apply (registered_leg n observe_iid).
Qed.

Lemma ost_oleg n s ops os os' d' l r :
  creach n s ops -> ost n (cs_o s) (cs_db s) ops -> cs_o s = Some os -> oleg (cs_db s) os os' d' l r ->
  ost n (Some os') d' (ops ++ l).
Proof.
  intros HR H Eo Ho. rewrite Eo in H. destruct H as [Hid [Hlt Hst]]. pose proof (r_db _ _ _ HR) as I1.
  assert (Hcl : forall ph d1 os1 l1, ocl ph = 1%nat -> observe_run 4 (oset os ph) (cs_db s) [] = (d1, os1, l1) ->
            ocl (ov_phase os1) = 1%nat).
  { intros ph d1 os1 l1 Hph E. pose proof (observe_run_class 4 (oset os ph) (cs_db s) [] Hph) as K. now rewrite E in K. }
  destruct Ho as [d1 os1 l1 Etx Eph E|c d1 os1 l1 Etx Eph E|Etx Hn1 Hn2|wr d1 os1 l1 Eph E].
  - (* registration, then the first run; it ends in a callback or in the select (observe_go_ends) *)
    rewrite Eph in Hst. destruct Hst as [U Hnt].
    assert (Hcl1 : ocl (ov_phase os1) = 1%nat).
    { destruct (observe_go_ends n os (cs_db s) d1 os1 l1 None (creach_LInv _ _ _ HR) Hlt) as [[c' ->]|[it' [cur [-> _]]]]; auto;
        [congruence|]. unfold observe_go. now rewrite Etx, Eph, E. }
    rewrite <- (oset_same _ _ Eph) in E at 1. unfold observe_reg_ops in E. rewrite Hid in E.
    apply (registered_observe_run n os OReg (cs_db s) ops [OBegin [ov_tab os]; OChanges observe_iid (ov_tab os); OCommit (ov_sid os)]
             d1 os1 l1); auto; [now rewrite run_app, <- I1|apply registered_reg; auto].
  - rewrite Eph in Hst. apply (registered_observe_run n os (OWait 0) (cs_db s) ops [] d1 os1 l1); auto;
      [| |exact (Hcl (OWait 0) _ _ _ eq_refl E)]; cbn [run fst]; now rewrite app_nil_r.
  - cbn [ost oset ov_iid ov_tab ov_phase ocl]. auto.
  - rewrite Eph in Hst. rewrite <- (oset_same _ _ Eph) in E at 1.
    apply (registered_observe_run n os (OWait wr) (cs_db s) ops [] d1 os1 l1); auto;
      [| |exact (Hcl (OWait wr) _ _ _ eq_refl E)]; cbn [run fst]; now rewrite app_nil_r.
Qed.

Lemma ost_leg n s ops c s' r l :
  creach n s ops -> ost n (cs_o s) (cs_db s) ops -> cop_ok' n c = true -> leg s c s' r l ->
  ost n (cs_o s') (cs_db s') (ops ++ l).
Proof.
  intros HR H Hc Hl. pose proof (r_db _ _ _ HR) as I1. revert Hc.
  destruct Hl as [c0|o|c0 sd' d' l0 Hd|tab Eo|c0 os os' d' l0 r0 _ Eo Ho]; intros Hc; cbn [cs_db cs_o].
  - now rewrite app_nil_r.
  - rewrite <- run_single. apply ost_quiet; auto. unfold untouched_o. cbn [forallb cop_ok'] in *. now rewrite Hc.
  - destruct (dleg_run_dop _ _ _ _ _ _ _ Hd (fun ds E => proj1 (r_d _ _ _ HR ds E))) as [-> Hp].
    apply ost_quiet; auto. exact (forallb_impl _ _ _ dop_untouched_o Hp).
  - rewrite app_nil_r. rewrite Eo in H. apply Nat.ltb_lt in Hc. cbn [ost ov_iid ov_tab ov_phase ocl]. auto.
  - now apply (ost_oleg n s ops os os' d' l0 r0).
Qed.

Lemma ost_crun n cs s outs ops : forallb (cop_ok' n) cs = true -> crun (init_csys n 0) cs = (s, outs, ops) ->
  ost n (cs_o s) (cs_db s) ops.
Proof.
  intros Hc H.
  apply (crun_invariant n (cop_ok' n) (fun s _ ops => ost n (cs_o s) (cs_db s) ops) (fun s _ ops => ost n (cs_o s) (cs_db s) ops)
           ) with (cs := cs) (outs := outs); auto.
  - split; [reflexivity|]. intros i. split; cbn; [|discriminate].
    intros t Ht. apply nth_error_In, repeat_spec in Ht. subst t. intros [].
  - intros s0 outs0 ops0 c s' x r l HR HI Hc0 Hl _. eapply ost_leg; eauto.
  - intros s0 outs0 ops0 s' l HR HI [_|os os' d' l0 Eo Ho]; [now rewrite app_nil_r|].
    now apply (ost_oleg n s0 ops0 os os' d' l0 None).
Qed.

(* the C07 usage hypotheses for the observer, in every run in which the harness obeys cop_ok' *)
Theorem observer_run_c07_hypotheses n cs s outs ops os :
  forallb (cop_ok' n) cs = true -> crun (init_csys n 0) cs = (s, outs, ops) ->
  cs_o s = Some os -> ocl (ov_phase os) = 1%nat ->
  exists pre post t0, ops = pre ++ OChanges observe_iid (ov_tab os) :: post /\
    forallb (fun o => negb (touches observe_iid o)) pre = true /\
    let dc := fst (run (init_db n) pre) in
    created dc observe_iid (ov_tab os) t0 /\
    (forall cur, nth_error (d_root dc) (ov_tab os) = Some cur -> ~ reg observe_iid cur) /\
    friendly_run observe_iid (ov_tab os) (fst (step dc (OChanges observe_iid (ov_tab os)))) post /\
    (forall cur, nth_error (d_root (cs_db s)) (ov_tab os) = Some cur -> reg observe_iid cur).
Proof.
  intros Hc H Eo Hcl. pose proof (ost_crun n cs s outs ops Hc H) as I3.
  rewrite Eo in I3. cbn [ost] in I3. destruct I3 as [_ [_ Hst]]. rewrite Hcl in Hst.
  destruct Hst as [pre [post [t0 [E [U [C [F [R [T _]]]]]]]]]. exists pre, post, t0. cbv zeta. auto 10.
Qed.

(* with them C07_observer_run_converges needs revision room only; such a run: *)
Example observer_converges'_nonvacuous :
  let r := crun (init_csys 1 0) hx_run in
  forallb (cop_ok' 1) hx_run = true /\
  option_map ov_phase (cs_o (fst (fst r))) = Some (OWait 3) /\
  room_run (init_db 1) (snd r) /\
  replay (reported (snd (fst r))) = [([98], (2, 2))] /\
  map abs_of (d_root (cs_db (fst (fst r)))) = [[([98], (2, 2))]] /\
  map t_rev (d_root (cs_db (fst (fst r)))) = [3].
Proof.
  cbv zeta. split; [vm_compute; reflexivity|]. split; [vm_compute; reflexivity|].
  split; [apply room_runb_ok; vm_compute; reflexivity|]. repeat split; vm_compute; reflexivity.
Qed.
