(* Table/WatchFootprint.v — C06, the table-level step between "a query's result changed" and
   "a key of the index changed whose watch channel the query returned".

   part_index.go picks the channel of a watch query as follows (partGet / partList / partPrefix /
   lowerBound / all):  Get/List on a unique index -> tree.Get(key);  Get/List on a non-unique index
   and Prefix on any index -> tree.Prefix(search key), search key = the escaped key on a non-unique
   index;  LowerBound and All -> the tree's root channel.  The part.Tree side (Part/*.v, C12) says
   which KEYS of the tree close such a channel when they are inserted, replaced or deleted:
   Get(k): k;  Prefix(q): every key with prefix q;  root: every key.  This set is the handle's
   coverage [h_covers].

   Here: for every query kind of run_query on a part index
     - its FOOTPRINT [fp q] : the set of index keys the answer is a function of (exact, for arbitrary
       sorted index maps; contained in the coverage of the handle the code returns: fp_covered),
     - LOCALITY: two sorted index maps that bind every footprint key alike give the same answer
       (iq_local / query_result_local), and its constructive contrapositive: if the answers differ,
       some footprint key was inserted, removed or re-bound (iq_change / query_result_change),
     - the lifting to write transactions of the model (any sequence of Insert / Modify /
       CompareAndSwap / Delete / CompareAndDelete / DeleteAll on a table: [twrun]).
   The composition with the radix tree is Table/WatchCompose.v. *)
From SV Require Import Base.Bytes Base.OrdMap KeyEnc.Model KeyEnc.Proofs Table.Model Table.Proofs
  Table.InvDefs Table.Inv3 Table.AgreeN Table.Queries Table.AgreeRun.
(* handle, h_covers (and h_chan, used in Table/WatchCompose.v) *)
From SV Require Import Part.Footprint.
From Coq Require Import ZifyN ZifyNat ZifyBool.
Open Scope N_scope.

Lemma option_ext {A} (a b : option A) : (forall v, a = Some v <-> b = Some v) -> a = b.
Proof.
  intros H. destruct a as [x|]; destruct b as [y|]; auto.
  - symmetry. apply H. reflexivity.
  - symmetry. apply H. reflexivity.
  - apply H. reflexivity.
Qed.

Lemma om_ext_In {V} (m1 m2 : omap V) : om_sorted m1 -> om_sorted m2 ->
  (forall kv, In kv m1 <-> In kv m2) -> m1 = m2.
Proof.
  intros S1 S2 H. apply om_ext; auto. intros k. apply option_ext. intros v.
  rewrite <- !om_in_get by assumption. apply H.
Qed.

Definition onkey {V} (f : bytes -> bool) (kv : bytes * V) : bool := f (fst kv).

Lemma filter_local {V} (f : bytes -> bool) (m m' : omap V) : om_sorted m -> om_sorted m' ->
  (forall K, f K = true -> om_get K m = om_get K m') ->
  filter (onkey f) m = filter (onkey f) m'.
Proof.
  intros S S' H. apply om_ext_In; try now apply om_filter_sorted.
  intros [K v]. rewrite !filter_In. unfold onkey. cbn [fst]. split; intros [Hin Hf]; split; auto.
  - apply om_in_get; auto. rewrite <- H by assumption. now apply om_in_get.
  - apply om_in_get; auto. rewrite H by assumption. now apply om_in_get.
Qed.

Lemma filter_filter {A} (f g : A -> bool) l : filter g (filter f l) = filter (fun x => f x && g x) l.
Proof.
  induction l as [|a l IH]; simpl; auto. destruct (f a); simpl; [|exact IH].
  destruct (g a); simpl; now rewrite IH.
Qed.

Lemma om_lower_bound_filter {V} k (m : omap V) : om_sorted m ->
  om_lower_bound k m = filter (onkey (fun K => negb (bytes_ltb K k))) m.
Proof.
  intros S. apply om_ext_In.
  - now apply om_lower_bound_sorted.
  - now apply om_filter_sorted.
  - intros kv. rewrite om_lower_bound_spec, filter_In by assumption. unfold onkey.
    rewrite negb_true_iff. tauto.
Qed.

Lemma om_get_notin {V} K (m : omap V) : ~ In K (map fst m) -> om_get K m = None.
Proof.
  intros H. destruct (om_get K m) as [v|] eqn:E; auto. exfalso. apply H.
  apply om_get_Some_In in E. apply in_map_iff. exists (K, v). auto.
Qed.

(* decidable equality of bindings (objects are finite data) *)
Lemma payload_eq_dec (a b : payload) : {a = b} + {a <> b}.
Proof.
  decide equality; try apply N.eq_dec;
    repeat (apply list_eq_dec; intros); try apply N.eq_dec; apply Bool.bool_dec.
Qed.
Lemma object_eq_dec (a b : object) : {a = b} + {a <> b}.
Proof. decide equality; [apply N.eq_dec|apply payload_eq_dec]. Qed.
Lemma binding_eq_dec (a b : option object) : {a = b} + {a <> b}.
Proof. decide equality. apply object_eq_dec. Qed.

Lemma agree_on_dec (f : bytes -> bool) (m m' : idx) :
  (forall K, f K = true -> om_get K m = om_get K m') \/
  (exists K, f K = true /\ om_get K m <> om_get K m').
Proof.
  assert (G : forall l : list bytes,
             (forall K, In K l -> f K = true -> om_get K m = om_get K m') \/
             (exists K, f K = true /\ om_get K m <> om_get K m')).
  { induction l as [|k l IH]; [left; intros K []|].
    destruct IH as [IH|IH]; [|right; exact IH].
    destruct (f k) eqn:Fk.
    - destruct (binding_eq_dec (om_get k m) (om_get k m')) as [E|E].
      + left. intros K [<-|Hin] HK; auto.
      + right. exists k. auto.
    - left. intros K [<-|Hin] HK; [congruence|auto]. }
  destruct (G (map fst m ++ map fst m')) as [H|H]; [left|right; exact H].
  intros K HK. destruct (in_dec (list_eq_dec N.eq_dec) K (map fst m ++ map fst m')) as [Hin|Hn]; auto.
  rewrite !om_get_notin; auto; intros Hc; apply Hn, in_or_app; auto.
Qed.

(* how a binding can differ: the key was inserted, removed, or re-bound to another object
   (another payload or another revision) *)
Inductive binding_change : option object -> option object -> Prop :=
| BInserted o : binding_change None (Some o)
| BRemoved o : binding_change (Some o) None
| BRebound o o' : o <> o' -> binding_change (Some o) (Some o').

Lemma binding_change_iff a b : a <> b <-> binding_change a b.
Proof.
  split.
  - intros H. destruct a as [o|]; destruct b as [o'|]; try constructor; [congruence|congruence].
  - intros H. destruct H; congruence.
Qed.

(* the queries of run_query as functions of the index map they read *)
Definition nu_list_f (sk K : bytes) : bool := has_prefix K sk && Z.eqb (secondaryLen K) (zlen sk).
Definition nu_prefix_f (sk K : bytes) : bool := has_prefix K sk && negb (Z.ltb (secondaryLen K) (zlen sk)).
Definition nu_lb_f (sk K : bytes) : bool :=
  negb (bytes_ltb K sk) && match encodedSecondary K with Some es => negb (bytes_ltb es sk) | None => false end.

Definition iq_get (unique : bool) (key : bytes) (m : idx) : option object :=
  if unique then om_get key m
  else let sk := enc key in
       match filter (fun kv => Z.eqb (secondaryLen (fst kv)) (zlen sk)) (om_prefix sk m) with
       | kv :: _ => Some (snd kv)
       | [] => None
       end.
Definition iq_list (unique : bool) (key : bytes) (m : idx) : list object :=
  if unique then match om_get key m with Some o => [o] | None => [] end
  else let sk := enc key in
       vals (filter (fun kv => Z.eqb (secondaryLen (fst kv)) (zlen sk)) (om_prefix sk m)).
Definition iq_prefix (unique : bool) (key : bytes) (m : idx) : list object :=
  if unique then vals (om_prefix key m)
  else let sk := enc key in
       vals (dedup_primary [] (filter (fun kv => negb (Z.ltb (secondaryLen (fst kv)) (zlen sk)))
                                       (om_prefix sk m))).
Definition iq_lower_bound (unique : bool) (key : bytes) (m : idx) : list object :=
  if unique then vals (om_lower_bound key m)
  else let sk := enc key in
       vals (dedup_primary [] (filter (fun kv => match encodedSecondary (fst kv) with
                                                 | Some es => negb (bytes_ltb es sk)
                                                 | None => false end)
                                       (om_lower_bound sk m))).

(* the watch queries through part indexes: the answer as a function of the index map *)
Definition iq (q : query) (m : idx) : out :=
  match q with
  | QGet k key => OutGet (iq_get (is_unique k) key m)
  | QList k key => OutObjs (iq_list (is_unique k) key m)
  | QPrefix k key => OutObjs (iq_prefix (is_unique k) key m)
  | QLowerBound k key => OutObjs (iq_lower_bound (is_unique k) key m)
  | QAll => OutObjs (vals m)
  | _ => OutNone
  end.

(* the handle part_index.go returns with the answer (Part/Footprint.v handle): the channel of tree.Get(key),
   of tree.Prefix(search key), or the root channel of the tree *)

(* which index a query reads, and which handle it returns on that index's tree
   (partGet, partList, partPrefix, partIndex.lowerBound, partIndex.all on the primary index) *)
Definition q_handle (q : query) : option (ikind * handle) :=
  match q with
  | QGet k key | QList k key => Some (k, if is_unique k then HGet key else HPrefix (enc key))
  | QPrefix k key => Some (k, HPrefix (if is_unique k then key else enc key))
  | QLowerBound k key => Some (k, HRoot)
  | QAll => Some (IPrimary, HRoot)
  | _ => None
  end.

(* h_covers h (Part/Footprint.v): the keys whose insertion, replacement or deletion closes the handle's
   channel: HGet k: k; HPrefix q: the keys with prefix q; HRoot: all *)

Lemma run_query_iq d tab q t ik h : q_handle q = Some (ik, h) -> run_query d tab q t = iq q (index_of ik t).
Proof.
  destruct q; cbn [q_handle]; intros H; try discriminate; injection H as <- _; reflexivity.
Qed.

(* the set of index keys the answer depends on *)
Definition fp (q : query) (K : bytes) : bool :=
  match q with
  | QGet k key | QList k key => if is_unique k then bytes_eqb K key else nu_list_f (enc key) K
  | QPrefix k key => if is_unique k then has_prefix K key else nu_prefix_f (enc key) K
  | QLowerBound k key => if is_unique k then negb (bytes_ltb K key) else nu_lb_f (enc key) K
  | QAll => true
  | _ => false
  end.

(* the footprints as property C06 names them: predicates on index keys *)
Definition fp_get_unique (idKey k : bytes) : bytes -> Prop := fun K => K = ikey true idKey k.
Definition fp_nonunique (k : bytes) : bytes -> Prop := fun K => has_prefix K (enc k ++ [0]) = true.
Definition fp_prefix (unique : bool) (q : bytes) : bytes -> Prop :=
  fun K => has_prefix K (if unique then q else enc q) = true.
Definition fp_lb : bytes -> Prop := fun _ => True.
Definition fp_all : bytes -> Prop := fun _ => True.

(* the footprint of every query lies inside the coverage of the handle returned with it *)
Theorem fp_covered q ik h K : q_handle q = Some (ik, h) -> fp q K = true -> h_covers h K = true.
Proof.
  destruct q; cbn [q_handle fp]; intros H; try discriminate; injection H as <- <-;
    try (destruct (is_unique k); cbn [h_covers]; auto;
         unfold nu_list_f, nu_prefix_f; intros F; apply andb_true_iff in F; tauto); auto.
Qed.

(* unique index: Get/List depend on the key itself only (the footprint C06 names) *)
Lemma fp_get_unique_spec k key K idKey : is_unique k = true ->
  (fp (QGet k key) K = true <-> fp_get_unique idKey key K) /\
  (fp (QList k key) K = true <-> fp_get_unique idKey key K).
Proof.
  intros U. cbn [fp]. rewrite U. unfold fp_get_unique, ikey.
  split; (split; [apply bytes_eqb_spec|intros ->; apply bytes_eqb_refl]).
Qed.

Lemma fp_prefix_spec k key K : fp (QPrefix k key) K = true -> fp_prefix (is_unique k) key K.
Proof.
  cbn [fp]. unfold fp_prefix. destruct (is_unique k); auto.
  unfold nu_prefix_f. intros F. apply andb_true_iff in F. tauto.
Qed.

(* non-unique index: on composite keys (every entry of a table's non-unique index is one:
   Table/InvDefs.v n_agree) the footprint of Get/List is "escaped key, then the separator" *)
Lemma app_has_prefix a : forall x, has_prefix (a ++ x) a = true.
Proof. induction a as [|c a IH]; intros x; simpl; [now destruct x|]. now rewrite N.eqb_refl, IH. Qed.

Lemma has_prefix_app_both a : forall b x y, length a = length b ->
  has_prefix (a ++ x) (b ++ y) = has_prefix a b && has_prefix x y.
Proof.
  induction a as [|c a IH]; intros [|d b] x y Hl; simpl in *; try discriminate.
  - reflexivity.
  - rewrite IH by lia. now rewrite andb_assoc.
Qed.

Lemma sep_prefix_eq a : forall b x, ~ In 0 a -> ~ In 0 b -> has_prefix (a ++ 0 :: x) (b ++ [0]) = true -> a = b.
Proof.
  induction a as [|c a IH]; intros [|d b] x Na Nb; cbn [app has_prefix]; intros H.
  - reflexivity.
  - apply andb_true_iff in H. destruct H as [H _]. apply N.eqb_eq in H. subst d. exfalso. apply Nb. simpl; auto.
  - apply andb_true_iff in H. destruct H as [H _]. apply N.eqb_eq in H. subst c. exfalso. apply Na. simpl; auto.
  - apply andb_true_iff in H. destruct H as [H1 H2]. apply N.eqb_eq in H1. subst d. f_equal.
    apply (IH b x); auto; intros Hc; [apply Na|apply Nb]; simpl; auto.
Qed.

Lemma fp_nonunique_spec key pk s : len (enc pk) < 65536 ->
  (nu_list_f (enc key) (nuk pk s) = true <-> fp_nonunique key (nuk pk s)).
Proof.
  intros Hl. destruct (nuk_split pk s Hl) as (_ & _ & Hs). unfold nu_list_f, fp_nonunique. rewrite Hs.
  unfold zlen. split.
  - intros F. apply andb_true_iff in F. destruct F as [Hp Hz]. apply Z.eqb_eq, Nat2Z.inj in Hz.
    unfold nuk in *. rewrite has_prefix_app_long in Hp by lia.
    apply has_prefix_same_length in Hp; auto. rewrite Hp. rewrite has_prefix_app_both by reflexivity.
    rewrite has_prefix_refl. cbn [app has_prefix]. now destruct (enc pk ++ be16 (len (enc pk) mod 65536)).
  - intros Hp. unfold nuk in *.
    assert (E : enc s = enc key) by (eapply sep_prefix_eq; [apply enc_no_zero|apply enc_no_zero|exact Hp]).
    rewrite E. rewrite app_has_prefix. rewrite Z.eqb_refl. reflexivity.
Qed.

Section Locality.
Variables m m' : idx.
Hypothesis S : om_sorted m.
Hypothesis S' : om_sorted m'.

Lemma nu_list_filter sk (x : idx) :
  filter (fun kv => Z.eqb (secondaryLen (fst kv)) (zlen sk)) (om_prefix sk x) = filter (onkey (nu_list_f sk)) x.
Proof. unfold om_prefix. rewrite filter_filter. reflexivity. Qed.
Lemma nu_prefix_filter sk (x : idx) :
  filter (fun kv => negb (Z.ltb (secondaryLen (fst kv)) (zlen sk))) (om_prefix sk x) = filter (onkey (nu_prefix_f sk)) x.
Proof. unfold om_prefix. rewrite filter_filter. reflexivity. Qed.
Lemma nu_lb_filter sk (x : idx) : om_sorted x ->
  filter (fun kv => match encodedSecondary (fst kv) with Some es => negb (bytes_ltb es sk) | None => false end)
         (om_lower_bound sk x) = filter (onkey (nu_lb_f sk)) x.
Proof. intros Sx. rewrite om_lower_bound_filter by assumption. rewrite filter_filter. reflexivity. Qed.

(* LOCALITY, all query kinds: index maps that bind the footprint keys alike (same presence, same object
   including its revision) give the same answer. Each answer is a function of the restriction of the map to
   the footprint (filter_local), but for Get/List on a unique index, which look the key up. *)
Theorem iq_local q : (forall K, fp q K = true -> om_get K m = om_get K m') -> iq q m = iq q m'.
Proof.
  destruct q; cbn [iq fp]; intros H; auto; f_equal.
  - unfold iq_get. destruct (is_unique k); [apply H, bytes_eqb_refl|].
    cbv zeta. now rewrite !nu_list_filter, (filter_local _ m m').
  - unfold iq_list. destruct (is_unique k); [now rewrite (H key) by apply bytes_eqb_refl|].
    cbv zeta. now rewrite !nu_list_filter, (filter_local _ m m').
  - unfold iq_prefix. destruct (is_unique k); cbv zeta.
    + f_equal. exact (filter_local (fun K => has_prefix K key) m m' S S' H).
    + now rewrite !nu_prefix_filter, (filter_local _ m m').
  - unfold iq_lower_bound. destruct (is_unique k); cbv zeta.
    + now rewrite !om_lower_bound_filter, (filter_local _ m m').
    + now rewrite !nu_lb_filter, (filter_local _ m m').
  - now rewrite (om_ext m m' S S') by auto.
Qed.

(* contrapositive, constructively: a changed answer exhibits a footprint key that was inserted, removed
   or re-bound *)
Theorem iq_change q : iq q m <> iq q m' ->
  exists K, fp q K = true /\ binding_change (om_get K m) (om_get K m').
Proof.
  intros H. destruct (agree_on_dec (fp q) m m') as [A|[K [F D]]].
  - exfalso. apply H. now apply iq_local.
  - exists K. split; auto. now apply binding_change_iff.
Qed.
End Locality.

(* in terms of the footprints C06 names (weaker hypotheses are implied by them):
   Get/List on a unique index *)
Corollary iq_get_unique_local m m' k key idKey : is_unique k = true ->
  (forall K, fp_get_unique idKey key K -> om_get K m = om_get K m') ->
  iq (QGet k key) m = iq (QGet k key) m' /\ iq (QList k key) m = iq (QList k key) m'.
Proof.
  intros U H. cbn [iq]. unfold iq_get, iq_list. rewrite U. rewrite (H key) by reflexivity. auto.
Qed.

(* Get/List on a non-unique index whose entries are composite keys *)
Definition composite_keys (m : idx) : Prop :=
  forall K o, In (K, o) m -> exists pk s, K = nuk pk s /\ len (enc pk) < 65536.

Corollary iq_nonunique_local m m' k key : is_unique k = false -> om_sorted m -> om_sorted m' ->
  composite_keys m -> composite_keys m' ->
  (forall K, fp_nonunique key K -> om_get K m = om_get K m') ->
  iq (QGet k key) m = iq (QGet k key) m' /\ iq (QList k key) m = iq (QList k key) m'.
Proof.
  intros U S S' C C' H.
  assert (A : forall K, nu_list_f (enc key) K = true -> om_get K m = om_get K m').
  { intros K F.
    destruct (om_get K m) as [o|] eqn:G.
    - pose proof (om_get_Some_In _ _ _ G) as Hin. destruct (C _ _ Hin) as (pk & s & -> & Hl).
      rewrite <- G. apply H. now apply fp_nonunique_spec.
    - destruct (om_get K m') as [o'|] eqn:G'; auto.
      pose proof (om_get_Some_In _ _ _ G') as Hin. destruct (C' _ _ Hin) as (pk & s & -> & Hl).
      rewrite <- G, <- G'. apply H. now apply fp_nonunique_spec. }
  split; apply iq_local; auto; cbn [fp]; rewrite U; exact A.
Qed.

(* Prefix on any index *)
Corollary iq_prefix_fp_local m m' k key : om_sorted m -> om_sorted m' ->
  (forall K, fp_prefix (is_unique k) key K -> om_get K m = om_get K m') ->
  iq (QPrefix k key) m = iq (QPrefix k key) m'.
Proof. intros S S' H. apply iq_local; auto. intros K F. apply H. now apply fp_prefix_spec. Qed.

(* LowerBound and All: the whole index *)
Corollary iq_lb_all_local m m' k key : om_sorted m -> om_sorted m' ->
  (forall K, fp_lb K -> om_get K m = om_get K m') ->
  iq (QLowerBound k key) m = iq (QLowerBound k key) m' /\ iq QAll m = iq QAll m'.
Proof. intros S S' H. split; apply iq_local; auto; intros K _; now apply H. Qed.

Theorem query_result_local d d' tab tab' q ik h t t' : q_handle q = Some (ik, h) ->
  om_sorted (index_of ik t) -> om_sorted (index_of ik t') ->
  (forall K, fp q K = true -> om_get K (index_of ik t) = om_get K (index_of ik t')) ->
  run_query d tab q t = run_query d' tab' q t'.
Proof.
  intros Hq S S' H. rewrite (run_query_iq d tab q t ik h Hq), (run_query_iq d' tab' q t' ik h Hq).
  now apply iq_local.
Qed.

Theorem query_result_change d d' tab tab' q ik h t t' : q_handle q = Some (ik, h) ->
  om_sorted (index_of ik t) -> om_sorted (index_of ik t') ->
  run_query d tab q t <> run_query d' tab' q t' ->
  exists K, fp q K = true /\ h_covers h K = true /\
            binding_change (om_get K (index_of ik t)) (om_get K (index_of ik t')).
Proof.
  intros Hq S S' H. rewrite (run_query_iq d tab q t ik h Hq), (run_query_iq d' tab' q t' ik h Hq) in H.
  destruct (iq_change _ _ S S' q H) as [K [F B]]. exists K. split; auto. split; auto.
  eapply fp_covered; eauto.
Qed.

(* LPM indexes (lpm_index.go) hand out ONE channel per index: the footprint of every query is the whole
   index, and locality is trivial: same index, same answer *)
Definition lq_index (q : query) : option bool :=
  match q with QLGet u _ | QLList u _ | QLPrefix u _ | QLLowerBound u _ => Some u | _ => None end.

Theorem lpm_query_result_local d d' tab tab' q u t t' : lq_index q = Some u ->
  lpm_idx u t = lpm_idx u t' -> run_query d tab q t = run_query d' tab' q t'.
Proof.
  unfold lpm_idx. destruct q; cbn [lq_index]; intros H; try discriminate; injection H as ->;
    intros E; cbn [run_query]; rewrite E; reflexivity.
Qed.

Theorem lpm_query_result_change d d' tab tab' q u t t' : lq_index q = Some u ->
  run_query d tab q t <> run_query d' tab' q t' -> lpm_idx u t <> lpm_idx u t'.
Proof. intros Hq H E. apply H. eapply lpm_query_result_local; eauto. Qed.

(* the write operations of a WriteTxn on one (locked) table: Table/Model.v step, cases OInsert, OModify,
   OCas, ODelete, OCad, ODeleteAll *)
Inductive twrite :=
| TWInsert (p : payload) | TWModify (p : payload) | TWCas (guard : N) (p : payload)
| TWDelete (id : bytes) | TWCad (guard : N) (id : bytes) | TWDeleteAll.

Definition twapply (t : table) (w : twrite) : table :=
  match w with
  | TWInsert p => fst (modify 0 false p t)
  | TWModify p => fst (modify 0 true p t)
  | TWCas g p => fst (modify g false p t)
  | TWDelete id => fst (delete 0 id t)
  | TWCad g id => fst (delete g id t)
  | TWDeleteAll => delete_all t
  end.
Definition twrun (t : table) (ws : list twrite) : table := fold_left twapply ws t.

Definition twop (tab : nat) (w : twrite) : op :=
  match w with
  | TWInsert p => OInsert tab p | TWModify p => OModify tab p | TWCas g p => OCas tab g p
  | TWDelete id => ODelete tab id | TWCad g id => OCad tab g id | TWDeleteAll => ODeleteAll tab
  end.

(* twapply is what the model's step does to the locked table of the open write transaction *)
Lemma with_locked_txn d es old tab t f c n : d_txn d = Some (es, old) -> nth_error es tab = Some (t, true) ->
  d_txn (fst (with_locked d tab f c n)) = Some (upd_nth tab (fun _ => (fst (f t), true)) es, old).
Proof. intros Hx Hn. unfold with_locked. rewrite Hx, Hn. now destruct (f t). Qed.

Lemma step_twrite d es old tab t w : d_txn d = Some (es, old) -> nth_error es tab = Some (t, true) ->
  d_txn (fst (step d (twop tab w))) = Some (upd_nth tab (fun _ => (twapply t w, true)) es, old).
Proof.
  intros Hx Hn. destruct w; cbn [twop step twapply]; rewrite ?Hx, ?Hn, (with_locked_txn d es old tab t) by assumption;
    now rewrite ?fst_wr.
Qed.

(* what a write transaction does to one index: a sequence of tree inserts and deletes *)
Inductive iop := IIns (K : bytes) (o : object) | IDel (K : bytes).
Definition iapply (m : idx) (x : iop) : idx :=
  match x with IIns K o => om_insert K o m | IDel K => om_delete K m end.

Lemma iops_nil (m : idx) : m = fold_left iapply [] m.
Proof. reflexivity. Qed.

(* m' is m after some sequence of tree Inserts and Deletes *)
Definition iops_to (m m' : idx) : Prop := exists ops, m' = fold_left iapply ops m.

Lemma iops_refl m : iops_to m m.
Proof. exists []. reflexivity. Qed.
Lemma iops_step m m' x : iops_to m m' -> iops_to m (iapply m' x).
Proof. intros [ops ->]. exists (ops ++ [x]). now rewrite fold_left_app. Qed.
Lemma iops_trans m1 m2 m3 : iops_to m1 m2 -> iops_to m2 m3 -> iops_to m1 m3.
Proof. intros [o1 ->] [o2 ->]. exists (o1 ++ o2). now rewrite fold_left_app. Qed.
Lemma iops_ins m m' K o : iops_to m m' -> iops_to m (om_insert K o m').
Proof. apply (iops_step m m' (IIns K o)). Qed.
Lemma iops_del m m' K : iops_to m m' -> iops_to m (om_delete K m').
Proof. apply (iops_step m m' (IDel K)). Qed.

Lemma iops_sorted m m' : iops_to m m' -> om_sorted m -> om_sorted m'.
Proof.
  intros [ops ->]. revert m. induction ops as [|x ops IH]; intros m S; cbn [fold_left]; auto.
  apply IH. destruct x; [now apply om_insert_sorted|now apply om_delete_sorted].
Qed.

Lemma fold_insert_iops (f : bytes -> bytes) (v : object) ks : forall m m',
  iops_to m m' -> iops_to m (fold_left (fun t k => om_insert (f k) v t) ks m').
Proof. induction ks as [|k ks IH]; intros m m' H; cbn [fold_left]; auto using iops_ins. Qed.

Lemma fold_delete_iops (f : bytes -> bytes) (c : bytes -> bool) ks : forall m m' : idx,
  iops_to m m' -> iops_to m (fold_left (fun t k => if c k then t else om_delete (f k) t) ks m').
Proof.
  induction ks as [|k ks IH]; intros m m' H; cbn [fold_left]; auto. apply IH. destruct (c k); auto using iops_del.
Qed.

Lemma reindex_iops unique keys idKey old new m m' :
  iops_to m m' -> iops_to m (reindex unique keys idKey old new m').
Proof.
  intros H. unfold reindex, reindex_with. destruct (o_rev old =? 0); auto using fold_insert_iops, fold_delete_iops.
Qed.

(* the same for every part index of a table *)
Definition tbl_iops (t t' : table) : Prop := forall ik, iops_to (index_of ik t) (index_of ik t').

Lemma tbl_iops_refl t : tbl_iops t t.
Proof. intros ik. apply iops_refl. Qed.
Lemma tbl_iops_trans t1 t2 t3 : tbl_iops t1 t2 -> tbl_iops t2 t3 -> tbl_iops t1 t3.
Proof. intros H1 H2 ik. exact (iops_trans _ _ _ (H1 ik) (H2 ik)). Qed.

Lemma mkT_iops t r P R g gr U N lu ln tr ini :
  iops_to (t_primary t) P -> iops_to (t_revidx t) R -> iops_to (t_u t) U -> iops_to (t_n t) N ->
  tbl_iops t (mkT r P R g gr U N lu ln tr ini).
Proof. intros H1 H2 H3 H4 ik. now destruct ik. Qed.

(* a write either leaves the table as it is or rebuilds each index from the old one by inserts, deletes
   and reindex *)
Lemma modify_iops g mg p t : tbl_iops t (fst (modify g mg p t)).
Proof.
  unfold modify, modify_with. cbv zeta.
  destruct (om_get (p_id p) (t_primary t)) as [o|]; [|destruct (om_get (p_id p) (t_grave t))];
    destruct (0 <? g); try destruct (o_rev o =? g); cbn [fst]; try apply tbl_iops_refl;
    apply mkT_iops; auto using iops_refl, iops_ins, iops_del, reindex_iops.
Qed.

Lemma delete_iops g id t : tbl_iops t (fst (delete g id t)).
Proof.
  unfold delete, delete_with.
  destruct (om_get id (t_primary t)) as [o|]; [|apply tbl_iops_refl].
  destruct ((0 <? g) && negb (o_rev o =? g)); cbn [fst]; [apply tbl_iops_refl|].
  apply mkT_iops; auto using iops_refl, iops_del, reindex_iops.
Qed.

Lemma delete_all_iops t : tbl_iops t (delete_all t).
Proof.
  unfold delete_all. generalize (t_primary t) as l. intros l. revert t.
  induction l as [|kv l IH]; intros t; cbn [fold_left]; [apply tbl_iops_refl|].
  eapply tbl_iops_trans; [apply delete_iops|apply IH].
Qed.

Lemma twapply_iops t w : tbl_iops t (twapply t w).
Proof. destruct w; cbn [twapply]; auto using modify_iops, delete_iops, delete_all_iops. Qed.

(* each index of the table after a write transaction is the index before it, after a sequence of
   tree Inserts and Deletes: the operations of ONE part.Txn on that index's tree *)
Theorem twrun_iops ws : forall t ik, exists ops, index_of ik (twrun t ws) = fold_left iapply ops (index_of ik t).
Proof.
  induction ws as [|w ws IH]; intros t ik; cbn [twrun fold_left]; [apply iops_refl|].
  exact (iops_trans _ _ _ (twapply_iops t w ik) (IH (twapply t w) ik)).
Qed.

(* every part index of the table is a sorted map; kept by every write *)
Definition idx_sorted (t : table) : Prop := forall ik, om_sorted (index_of ik t).

Lemma idx_sorted_empty : idx_sorted empty_table.
Proof. intros ik; destruct ik; exact I. Qed.

(* it is part of the invariants of every table reachable in the model (Table/AgreeRun.v) *)
Lemma TInv_Agree_idx_sorted t : TInv t -> Agree t -> idx_sorted t.
Proof.
  intros I [[Su _] [[Sn _] _]] ik. destruct ik; cbn [index_of]; auto.
  - apply (ti_sorted_primary _ I).
  - apply (ti_sorted_revidx _ I).
Qed.

Corollary reachable_idx_sorted n ops t :
  run_wf (init_db n) ops -> in_db (fst (run (init_db n) ops)) t -> idx_sorted t.
Proof. intros Hw Hin. destruct (reachable_agree n ops t Hw Hin). now apply TInv_Agree_idx_sorted. Qed.

Lemma twrun_sorted ws t : idx_sorted t -> idx_sorted (twrun t ws).
Proof. intros S ik. exact (iops_sorted _ _ (twrun_iops ws t ik) (S ik)). Qed.

(* (4) a write transaction that changes the answer of a query changes the binding of a key in the query's
   footprint — a key covered by the handle returned with the answer — in the index the query reads *)
Theorem write_txn_result_change d d' tab tab' q ik h t ws : q_handle q = Some (ik, h) -> idx_sorted t ->
  run_query d tab q t <> run_query d' tab' q (twrun t ws) ->
  exists K, fp q K = true /\ h_covers h K = true /\
            binding_change (om_get K (index_of ik t)) (om_get K (index_of ik (twrun t ws))).
Proof.
  intros Hq S H. eapply query_result_change; eauto. now apply twrun_sorted.
Qed.

(* objects a (non-unique key "x"), b (key "y"), c (key "z"); a2 = a updated to the keys "x" and "y" *)
Definition ex_a1 : payload := mkP [97] 1 [] [[120]] [] [].
Definition ex_b : payload := mkP [98] 2 [] [[121]] [] [].
Definition ex_c : payload := mkP [99] 5 [] [[122]] [] [].
Definition ex_a2 : payload := mkP [97] 3 [] [[120]; [121]] [] [].
Definition ex_t : table := twrun empty_table [TWInsert ex_a1; TWInsert ex_b].
Definition ex_ws : list twrite := [TWInsert ex_a2].
Definition ex_q : query := QList INn [121].

(* locality: inserting c changes the non-unique index, but no key of the footprint of List("y"): same answer *)
Example locality_nonvacuous :
  let t2 := twrun ex_t [TWInsert ex_c] in
  q_handle ex_q = Some (INn, HPrefix (enc [121])) /\
  idx_sorted ex_t /\ idx_sorted t2 /\ index_of INn ex_t <> index_of INn t2 /\
  (forall K, fp ex_q K = true -> om_get K (index_of INn ex_t) = om_get K (index_of INn t2)) /\
  run_query (init_db 1) 0 ex_q ex_t = run_query (init_db 1) 0 ex_q t2.
Proof.
  cbv zeta.
  assert (S1 : idx_sorted ex_t) by apply twrun_sorted, idx_sorted_empty.
  assert (S2 : idx_sorted (twrun ex_t [TWInsert ex_c])) by now apply twrun_sorted.
  assert (E : index_of INn (twrun ex_t [TWInsert ex_c]) = om_insert (nuk [99] [122]) (mkO ex_c 3) (index_of INn ex_t))
    by (vm_compute; reflexivity).
  assert (A : forall K, fp ex_q K = true ->
                om_get K (index_of INn ex_t) = om_get K (index_of INn (twrun ex_t [TWInsert ex_c]))).
  { intros K F. rewrite E. symmetry. apply om_get_insert_other; [|apply (S1 INn)].
    intros ->. vm_compute in F. discriminate. }
  split; [reflexivity|]. split; [exact S1|]. split; [exact S2|]. split; [vm_compute; discriminate|].
  split; [exact A|].
  exact (query_result_local _ _ _ _ ex_q INn _ ex_t _ eq_refl (S1 INn) (S2 INn) A).
Qed.

(* change: updating a so that it gains the key "y" (a newly qualifies) changes the answer of List("y"), and the
   footprint key exhibited is the new composite key of a under "y" *)
Example change_nonvacuous :
  idx_sorted ex_t /\
  run_query (init_db 1) 0 ex_q ex_t = OutObjs [mkO ex_b 2] /\
  run_query (init_db 1) 0 ex_q (twrun ex_t ex_ws) = OutObjs [mkO ex_a2 3; mkO ex_b 2] /\
  fp ex_q (nuk [97] [121]) = true /\ h_covers (HPrefix (enc [121])) (nuk [97] [121]) = true /\
  binding_change (om_get (nuk [97] [121]) (index_of INn ex_t))
                 (om_get (nuk [97] [121]) (index_of INn (twrun ex_t ex_ws))).
Proof.
  split; [apply twrun_sorted, idx_sorted_empty|]. vm_compute. repeat split; auto. constructor.
Qed.

Print Assumptions query_result_local.
Print Assumptions write_txn_result_change.
Print Assumptions twrun_iops.
