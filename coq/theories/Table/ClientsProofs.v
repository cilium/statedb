(* Table/ClientsProofs.v — the clients of Table/Clients.v, leg by leg: a step of the system is one leg of one client and
   then perhaps the observer's wake-up (cstep_legs), each leg returning exactly the operations it ran (crun_is_run);
   Derive's initialization safety and the operations each client issues; one iteration of a mirror Derive. *)
From Coq Require Import List NArith Bool Lia.
Import ListNotations.
From SV Require Import Base.Bytes Base.OrdMap KeyEnc.Model Table.Model Table.Proofs Table.InvDefs Table.Inv Table.Inv2
                       Table.ChangesStream Table.ChangesIter Table.ChangesProofs Table.Clients.
Local Open Scope N_scope.


Lemma run_fst_eq d ops d' outs : run d ops = (d', outs) -> d' = fst (run d ops).
Proof. intros H. rewrite H. reflexivity. Qed.

Definition dwrite (out : nat) (o : op) : bool :=
  match o with OInsert t _ | ODelete t _ => Nat.eqb t out | _ => false end.

Lemma change_ops_dwrite tr out d c : forallb (dwrite out) (change_ops tr out d c) = true.
Proof.
  unfold change_ops. destruct (tr (fst c) (snd c)) as [p [| | |]]; cbn [forallb dwrite]; try reflexivity.
  - now rewrite Nat.eqb_refl.
  - destruct (src_root d STxn) as [root|]; [|reflexivity].
    destruct (nth_error root out) as [t|]; [|reflexivity].
    destruct (q_get IPrimary (p_id p) t); cbn [forallb dwrite]; [now rewrite Nat.eqb_refl|reflexivity].
  - now rewrite Nat.eqb_refl.
Qed.

Lemma apply_changes_spec tr out l : forall d d2 o2,
  apply_changes tr out d l = (d2, o2) -> d2 = fst (run d o2) /\ forallb (dwrite out) o2 = true.
Proof.
  induction l as [|c r IH]; intros d d2 o2; cbn [apply_changes]; [intros H; injection H as <- <-; auto|].
  destruct (apply_changes tr out (fst (run d (change_ops tr out d c))) r) as [d3 o3] eqn:E.
  intros H; injection H as <- <-. destruct (IH _ _ _ E) as [-> Hw].
  now rewrite run_app, forallb_app, change_ops_dwrite, Hw.
Qed.

(* an iteration either finds its iterator unregistered and does nothing, or is Begin, Next, the writes the delivered
   changes turn into, the initializer check, Commit *)
Inductive iter_shape (tr : transform) (ds : dstate) (d d' : db) (ds' : dstate) (ops : list op) : Prop :=
| is_none : d' = d -> ds' = ds -> ops = [] ->
    (forall x l w, snd (run d [OBegin [dv_out ds]; ONext (dv_iid ds) STxn None]) <> [x; OutChanges l w]) ->
    iter_shape tr ds d d' ds' ops
| is_some x l wclosed d2 o2 o3 initw :
    run d [OBegin [dv_out ds]; ONext (dv_iid ds) STxn None] =
      (fst (run d [OBegin [dv_out ds]; ONext (dv_iid ds) STxn None]), [x; OutChanges l wclosed]) ->
    apply_changes tr (dv_out ds) (fst (run d [OBegin [dv_out ds]; ONext (dv_iid ds) STxn None])) l = (d2, o2) ->
    forallb (dwrite (dv_out ds)) o2 = true ->
    init_ops ds d2 = (o3, dv_marked ds', initw) ->
    d' = fst (run (fst (run d2 o3)) [OCommit (dv_sid ds)]) ->
    ops = [OBegin [dv_out ds]; ONext (dv_iid ds) STxn None] ++ o2 ++ o3 ++ [OCommit (dv_sid ds)] ->
    iter_shape tr ds d d' ds' ops.

Lemma derive_iter_shape tr ds d d' ds' ops : derive_iter tr ds d = (d', ds', ops) -> iter_shape tr ds d d' ds' ops.
Proof.
  unfold derive_iter.
  destruct (run d [OBegin [dv_out ds]; ONext (dv_iid ds) STxn None]) as [d1 outs] eqn:E1.
  assert (Hdef : (forall x l w, outs <> [x; OutChanges l w]) -> (d, ds, @nil op) = (d', ds', ops) ->
                 iter_shape tr ds d d' ds' ops).
  { intros Hne H. injection H as <- <- <-. apply is_none; auto. now rewrite E1. }
  destruct outs as [|x [|y [|z outs]]]; try (apply Hdef; discriminate); try (destruct y; apply Hdef; discriminate).
  destruct y; try (apply Hdef; discriminate).
  destruct (apply_changes tr (dv_out ds) d1 l) as [d2 o2] eqn:E2.
  destruct (init_ops ds d2) as [[o3 marked] initw] eqn:E3.
  intros H. injection H as <- <- <-.
  apply (is_some _ _ _ _ _ _ x l watch_closed d2 o2 o3 initw); rewrite ?E1; auto.
  exact (proj2 (apply_changes_spec _ _ _ _ _ _ E2)).
Qed.

Lemma derive_iter_run tr ds d d' ds' ops :
  derive_iter tr ds d = (d', ds', ops) -> d' = fst (run d ops).
Proof.
  intros H. destruct (derive_iter_shape _ _ _ _ _ _ H) as [-> _ -> _|x l w d2 o2 o3 initw H1 H2 _ H3 H4 H6].
  - reflexivity.
  - subst ops d'. rewrite !run_app. now rewrite <- (proj1 (apply_changes_spec _ _ _ _ _ _ H2)).
Qed.

Lemma consume_take1 l it d iid : (length (fst (fst (consume (Some 1%nat) l it d iid))) <= 1)%nat.
Proof. destruct l as [|[o del] r]; cbn [consume fst length]; lia. Qed.

Lemma step_next_take1 d iid s : (length (out_changes (snd (step d (ONext iid s (Some 1%nat))))) <= 1)%nat.
Proof.
  cbn [step]. destruct (assoc iid (d_iters d)) as [it|]; [|cbn; lia].
  destruct (src_committed d s) as [r|]; [|cbn; lia].
  destruct (nth_error r (it_tab it)) as [t|]; [|cbn; lia].
  destruct (nth_error (d_root d) (it_tab it)) as [cur|]; [|cbn; lia].
  match goal with |- context [if ?c then _ else _] => destruct c end; [cbn; lia|].
  match goal with |- context [consume ?a ?b ?c ?dd ?e] =>
    pose proof (consume_take1 b c dd e) as Hc; destruct (consume a b c dd e) as [[x y] z] end.
  cbn [fst snd out_changes] in *. exact Hc.
Qed.

Lemma step_resume_take1 d iid : (length (out_changes (snd (step d (OResume iid (Some 1%nat))))) <= 1)%nat.
Proof.
  cbn [step]. destruct (assoc iid (d_iters d)) as [it|]; [|cbn; lia].
  destruct (it_pending it) as [l|]; [|cbn; lia]. destruct (it_seq it); [|cbn; lia].
  match goal with |- context [consume ?a ?b ?c ?dd ?e] =>
    pose proof (consume_take1 b c dd e) as Hc; destruct (consume a b c dd e) as [[x y] z] end.
  cbn [fst snd out_changes] in *. exact Hc.
Qed.

(* one run of the goroutine: it appends to its accumulator exactly what it runs, its own Next and Resume only, and
   is handed at most one change, the one it then holds in its callback; otherwise it is in the select, or (out of
   fuel, operation not applicable) where it was *)
Lemma observe_run_spec (P : op -> bool) fuel : forall os d acc,
  P (OResume (ov_iid os) (Some 1%nat)) = true -> P (ONext (ov_iid os) SFresh (Some 1%nat)) = true ->
  exists ops1, snd (observe_run fuel os d acc) = acc ++ ops1 /\
    fst (fst (observe_run fuel os d acc)) = fst (run d ops1) /\ forallb P ops1 = true /\
    let os' := snd (fst (observe_run fuel os d acc)) in
    (exists c, os' = oset os (OHold c) /\ delivered (ov_iid os) d ops1 = [c]) \/
    (delivered (ov_iid os) d ops1 = [] /\ (os' = os \/ exists wr, os' = oset os (OWait wr))).
Proof.
  induction fuel as [|f IH]; intros os d acc P1 P2; cbn [observe_run].
  - exists []. rewrite app_nil_r. cbn. auto 10.
  - set (b := match assoc (ov_iid os) (d_iters d) with
              | Some it => it_seq it && match it_pending it with Some _ => true | None => false end
              | None => false end).
    set (o := if b then OResume (ov_iid os) (Some 1%nat) else ONext (ov_iid os) SFresh (Some 1%nat)).
    assert (Po : P o = true) by (unfold o; destruct b; assumption).
    assert (Hlen : (length (out_changes (snd (step d o))) <= 1)%nat).
    { unfold o. destruct b; [apply step_resume_take1|apply step_next_take1]. }
    assert (Hdel : forall r, delivered (ov_iid os) d (o :: r) =
                             out_changes (snd (step d o)) ++ delivered (ov_iid os) (fst (step d o)) r).
    { intros r. unfold o. destruct b; cbn [delivered]; rewrite N.eqb_refl; reflexivity. }
    destruct (step d o) as [d1 out] eqn:E. cbn [fst snd] in Hlen, Hdel.
    assert (Hone : forall os', out_changes out = [] -> (os' = os \/ exists wr, os' = oset os (OWait wr)) ->
              exists ops1, snd (d1, os', acc ++ [o]) = acc ++ ops1 /\ fst (fst (d1, os', acc ++ [o])) = fst (run d ops1) /\
                forallb P ops1 = true /\
                ((exists c, os' = oset os (OHold c) /\ delivered (ov_iid os) d ops1 = [c]) \/
                 (delivered (ov_iid os) d ops1 = [] /\ (os' = os \/ exists wr, os' = oset os (OWait wr))))).
    { intros os' Hoc Hos. exists [o]. cbn [fst snd forallb]. rewrite run_single, E, Po, Hdel, Hoc. auto 10. }
    destruct out; try (apply Hone; auto; fail).
    cbn [out_changes] in Hlen, Hdel, Hone. destruct l as [|c l].
    + destruct watch_closed; [|apply Hone; [reflexivity|right; eexists; reflexivity]].
      destruct (IH os d1 (acc ++ [o]) P1 P2) as [ops1 [H1 [H2 [H3 H4]]]]. exists (o :: ops1).
      rewrite H1, H2, <- app_assoc, Hdel. cbn [forallb app]. rewrite Po, H3.
      change (o :: ops1) with ([o] ++ ops1). rewrite run_app, run_single, E. auto.
    + exists [o]. cbn [fst snd forallb]. rewrite run_single, E, Po, Hdel. repeat (split; [reflexivity|]). left. exists c.
      split; [reflexivity|]. destruct l; [reflexivity|cbn in Hlen; lia].
Qed.

Lemma observe_run_run' fuel os d d0 acc d' os' ops :
  d = fst (run d0 acc) -> observe_run fuel os d acc = (d', os', ops) -> d' = fst (run d0 ops).
Proof.
  intros Hd H. destruct (observe_run_spec (fun _ => true) fuel os d acc eq_refl eq_refl) as [ops1 [H1 [H2 _]]].
  rewrite H in H1, H2. cbn [fst snd] in *. subst ops d'. rewrite run_app, <- Hd. reflexivity.
Qed.

Lemma observe_run_ops (P : op -> bool) fuel os d acc :
  P (OResume (ov_iid os) (Some 1%nat)) = true -> P (ONext (ov_iid os) SFresh (Some 1%nat)) = true ->
  exists ops1, snd (observe_run fuel os d acc) = acc ++ ops1 /\ forallb P ops1 = true /\
               ov_iid (snd (fst (observe_run fuel os d acc))) = ov_iid os /\
               ov_tab (snd (fst (observe_run fuel os d acc))) = ov_tab os.
Proof.
  intros P1 P2. destruct (observe_run_spec P fuel os d acc P1 P2) as [ops1 [H1 [_ [H3 H4]]]]. exists ops1.
  split; [exact H1|]. split; [exact H3|]. cbv zeta in H4. destruct H4 as [[c [-> _]]|[_ [->|[wr ->]]]]; auto.
Qed.

Definition derive_init (inn out : nat) : dstate := mkDS inn out derive_iid derive_name derive_sid false DReg.

Inductive dleg (tr : transform) (d : db) (c : cop) (sd : option dstate) : option dstate -> db -> list op -> Prop :=
| dl_start inn out : c = CDeriveStart inn out -> sd = None -> d_txn d = None ->
    dleg tr d c sd (Some (derive_init inn out)) (fst (run d (derive_start_ops (derive_init inn out))))
         (derive_start_ops (derive_init inn out))
| dl_reg ds : c = CDeriveGo -> sd = Some ds -> d_txn d = None -> dv_phase ds = DReg ->
    dleg tr d c sd (Some (set_phase ds (dv_marked ds) DReady)) (fst (run d (derive_reg_ops ds))) (derive_reg_ops ds)
| dl_iter ds d' ds' l : c = CDeriveGo -> sd = Some ds -> d_txn d = None -> d_ready ds d = true -> dv_phase ds <> DReg ->
    derive_iter tr ds d = (d', ds', l) -> dleg tr d c sd (Some ds') d' l.

(* a leg of the observer goroutine; last component: the change whose callback returns *)
Inductive oleg (d : db) (os : ostate) : ostate -> db -> list op -> option (object * bool) -> Prop :=
| ol_reg d' os' l : d_txn d = None -> ov_phase os = OReg ->
    observe_run 4 os (fst (run d (observe_reg_ops os))) (observe_reg_ops os) = (d', os', l) -> oleg d os os' d' l None
| ol_release c d' os' l : d_txn d = None -> ov_phase os = OHold c ->
    observe_run 4 (oset os (OWait 0)) d [] = (d', os', l) -> oleg d os os' d' l (Some c)
| ol_cancel : d_txn d = None -> ov_phase os <> OReg -> ov_phase os <> ODone ->
    oleg d os (oset os ODone) (fst (run d [OClose (ov_iid os)])) [OClose (ov_iid os)] None
| ol_wake wr d' os' l : ov_phase os = OWait wr -> observe_run 4 os d [] = (d', os', l) -> oleg d os os' d' l None.

Inductive leg (s : csys) : cop -> csys -> option (object * bool) -> list op -> Prop :=
| leg_idle c : leg s c s None []
| leg_user o : leg s (CUser o) (mkCS (fst (step (cs_db s) o)) (cs_d s) (cs_o s) (cs_mode s)) None [o]
| leg_derive c sd' d' l : dleg (tr_std (cs_mode s)) (cs_db s) c (cs_d s) sd' d' l ->
    leg s c (mkCS d' sd' (cs_o s) (cs_mode s)) None l
| leg_ostart tab : cs_o s = None ->
    leg s (CObserveStart tab) (mkCS (cs_db s) (cs_d s) (Some (mkOS tab observe_iid observe_sid OReg)) (cs_mode s)) None []
| leg_observe c os os' d' l r : c = CObserveGo \/ c = CObserveCancel -> cs_o s = Some os -> oleg (cs_db s) os os' d' l r ->
    leg s c (mkCS d' (cs_d s) (Some os') (cs_mode s)) r l.

Inductive wake (s : csys) : csys -> list op -> Prop :=
| wake_no : (forall os, cs_o s = Some os -> o_woken os (cs_db s) = false) -> wake s s []
| wake_run os os' d' l : cs_o s = Some os -> oleg (cs_db s) os os' d' l None ->
    wake s (mkCS d' (cs_d s) (Some os') (cs_mode s)) l.

Definition xchange (x : cout) : option (object * bool) :=
  match x with CoDelivered _ c _ => c | _ => None end.

Lemma cstep0_leg s c s' x l : cstep0 s c = (s', x, l) -> leg s c s' (xchange x) l.
Proof.
  assert (Hidle : forall y, xchange y = None -> (s, y, @nil op) = (s', x, l) -> leg s c s' (xchange x) l).
  { intros y Hy H. injection H as <- <- <-. rewrite Hy. constructor. }
  assert (Hidle' : forall sd so y, cs_d s = sd -> cs_o s = so -> xchange y = None ->
            (mkCS (cs_db s) sd so (cs_mode s), y, @nil op) = (s', x, l) -> leg s c s' (xchange x) l).
  { intros sd so y <- <-. destruct s. exact (Hidle y). }
  destruct c; cbn [cstep0].
  - destruct (step (cs_db s) o) as [d' y] eqn:E. intros H; injection H as <- <- <-.
    replace d' with (fst (step (cs_db s) o)) by now rewrite E. constructor.
  - destruct (cs_d s) eqn:Ed; [now apply Hidle|]. destruct (d_txn (cs_db s)) eqn:Et; [now apply Hidle|].
    intros H; injection H as <- <- <-. apply leg_derive. now apply (dl_start _ _ _ _ inn out).
  - destruct (cs_d s) as [ds|] eqn:Ed; [|now apply Hidle]. unfold derive_go.
    destruct (d_txn (cs_db s)) eqn:Et; [now apply Hidle'|].
    destruct (d_ready ds (cs_db s)) eqn:Er; cbn [negb]; [|now apply Hidle'].
    destruct (dv_phase ds) eqn:Eph.
    + intros H; injection H as <- <- <-. apply leg_derive. now apply (dl_reg _ _ _ _ ds).
    + destruct (derive_iter (tr_std (cs_mode s)) ds (cs_db s)) as [[d' ds'] ops] eqn:E.
      intros H; injection H as <- <- <-. apply leg_derive. apply (dl_iter _ _ _ _ ds); auto. congruence.
    + destruct (derive_iter (tr_std (cs_mode s)) ds (cs_db s)) as [[d' ds'] ops] eqn:E.
      intros H; injection H as <- <- <-. apply leg_derive. apply (dl_iter _ _ _ _ ds); auto. congruence.
  - destruct (cs_d s); now apply Hidle.
  - destruct (cs_o s) eqn:Eo; [now apply Hidle|]. intros H; injection H as <- <- <-. now constructor.
  - destruct (cs_o s) as [os|] eqn:Eo; [|now apply Hidle]. unfold observe_go.
    destruct (d_txn (cs_db s)) eqn:Et; [now apply Hidle'|]. destruct (ov_phase os) eqn:Eph; try now apply Hidle'.
    + destruct (observe_run 4 os (fst (run (cs_db s) (observe_reg_ops os))) (observe_reg_ops os)) as [[d' os'] ops] eqn:E.
      intros H; injection H as <- <- <-. apply (leg_observe s _ os); auto. now apply ol_reg.
    + destruct (observe_run 4 (oset os (OWait 0)) (cs_db s) []) as [[d' os'] ops] eqn:E.
      intros H; injection H as <- <- <-. apply (leg_observe s _ os); auto. now apply ol_release.
  - destruct (cs_o s) as [os|] eqn:Eo; [|now apply Hidle]. unfold observe_cancel.
    destruct (d_txn (cs_db s)) eqn:Et; [now apply Hidle'|]. destruct (ov_phase os) eqn:Eph; try now apply Hidle'.
    + intros H; injection H as <- <- <-. apply (leg_observe s _ os); auto. apply ol_cancel; auto; congruence.
    + intros H; injection H as <- <- <-. apply (leg_observe s _ os); auto. apply ol_cancel; auto; congruence.
  - destruct (cs_o s); now apply Hidle.
Qed.

Lemma cstep_wake s c s' x l : cstep s c = (s', x, l) ->
  exists s1 l1 l2, cstep0 s c = (s1, x, l1) /\ wake s1 s' l2 /\ l = l1 ++ l2.
Proof.
  unfold cstep. destruct (cstep0 s c) as [[s1 y] l1] eqn:E0.
  destruct (cs_o s1) as [os|] eqn:Eo.
  - unfold observe_wake. destruct (o_woken os (cs_db s1)) eqn:Ew.
    + destruct (observe_run 4 os (cs_db s1) []) as [[d' os'] l2] eqn:E. intros H; injection H as <- <- <-.
      exists s1, l1, l2. split; [reflexivity|]. split; [|reflexivity]. apply (wake_run s1 os); [exact Eo|].
      unfold o_woken in Ew. destruct (ov_phase os) eqn:Eph; try discriminate. now apply (ol_wake _ _ watchrev).
    + intros H; injection H as <- <- <-. exists s1, l1, []. split; [reflexivity|]. split; [|reflexivity].
      replace (mkCS (cs_db s1) (cs_d s1) (Some os) (cs_mode s1)) with s1 by (destruct s1; cbn in *; congruence).
      constructor. intros os0 E. congruence.
  - intros H; injection H as <- <- <-. exists s1, l1, []. rewrite app_nil_r. split; [reflexivity|]. split; [|reflexivity].
    constructor. congruence.
Qed.

Lemma cstep_legs s c s' x l : cstep s c = (s', x, l) ->
  exists s1 l1 l2, leg s c s1 (xchange x) l1 /\ wake s1 s' l2 /\ l = l1 ++ l2.
Proof.
  intros H. destruct (cstep_wake _ _ _ _ _ H) as [s1 [l1 [l2 [E0 K]]]]. exists s1, l1, l2. split; [|exact K].
  now apply cstep0_leg.
Qed.

Lemma dleg_run tr d c sd sd' d' l : dleg tr d c sd sd' d' l -> d' = fst (run d l).
Proof. intros [inn out _ _ _|ds _ _ _ _|ds d1 ds1 l1 _ _ _ _ _ Hi]; try reflexivity. eapply derive_iter_run; eauto. Qed.

Lemma oleg_run d os os' d' l r : oleg d os os' d' l r -> d' = fst (run d l).
Proof.
  intros [d1 os1 l1 _ _ E|c d1 os1 l1 _ _ E| |wr d1 os1 l1 _ E]; try reflexivity;
    eapply observe_run_run'; try exact E; reflexivity.
Qed.

Lemma cstep_run s c s' x ops :
  cstep s c = (s', x, ops) -> cs_db s' = fst (run (cs_db s) ops).
Proof.
  intros H. destruct (cstep_legs _ _ _ _ _ H) as [s1 [l1 [l2 [Hl [Hw ->]]]]]. rewrite run_app.
  assert (H1 : cs_db s1 = fst (run (cs_db s) l1)).
  { destruct Hl as [c0|o|c0 sd' d' l0 Hd|tab _|c0 os os' d' l0 r0 _ _ Ho]; cbn [cs_db]; try reflexivity.
    - now rewrite run_single.
    - exact (dleg_run _ _ _ _ _ _ _ Hd).
    - exact (oleg_run _ _ _ _ _ _ Ho). }
  rewrite <- H1. destruct Hw as [_|os os' d' l0 _ Ho]; [reflexivity|exact (oleg_run _ _ _ _ _ _ Ho)].
Qed.

Theorem crun_is_run cs : forall s s' outs ops,
  crun s cs = (s', outs, ops) -> cs_db s' = fst (run (cs_db s) ops).
Proof.
  induction cs as [|c r IH]; intros s s' outs ops; cbn [crun].
  - intros H; injection H as <- <- <-. reflexivity.
  - destruct (cstep s c) as [[s1 x] ops1] eqn:E1.
    destruct (crun s1 r) as [[s2 xs] ops2] eqn:E2.
    intros H; injection H as <- <- <-. rewrite run_app, <- (cstep_run _ _ _ _ _ E1).
    eapply IH; eauto.
Qed.

Corollary crun_is_run' s cs :
  cs_db (fst (fst (crun s cs))) = fst (run (cs_db s) (snd (crun s cs))).
Proof. destruct (crun s cs) as [[s' outs] ops] eqn:E. eapply crun_is_run; eauto. Qed.


Definition tentry (d : db) (i : nat) : option (table * bool) :=
  match d_txn d with Some (es, _) => nth_error es i | None => None end.

Lemma with_locked_tentry_other d tab f a b i : i <> tab ->
  tentry (fst (with_locked d tab f a b)) i = tentry d i.
Proof.
  intros Hi. unfold with_locked, tentry. destruct (d_txn d) as [[es old]|] eqn:E; cbn [fst]; [|now rewrite E].
  destruct (nth_error es tab) as [[t [|]]|]; cbn [fst]; try now rewrite E.
  destruct (f t) as [t' o]. cbn [fst set_txn d_txn]. apply nth_error_upd_nth_other. congruence.
Qed.

Lemma step_dwrite_frame out o d i : dwrite out o = true -> i <> out ->
  tentry (fst (step d o)) i = tentry d i /\ d_root (fst (step d o)) = d_root d.
Proof.
  intros Hw Hi. destruct o; cbn [dwrite] in Hw; try discriminate; apply Nat.eqb_eq in Hw; subst tab; cbn [step];
    (split; [now apply with_locked_tentry_other|apply with_locked_root]).
Qed.

Lemma run_dwrite_frame out ops : forall d i, forallb (dwrite out) ops = true -> i <> out ->
  tentry (fst (run d ops)) i = tentry d i /\ d_root (fst (run d ops)) = d_root d.
Proof.
  induction ops as [|o r IH]; intros d i Hw Hi; cbn [run]; [auto|].
  cbn [forallb] in Hw. apply andb_true_iff in Hw. destruct Hw as [Ho Hr].
  destruct (step_dwrite_frame out o d i Ho Hi) as [A B].
  destruct (step d o) as [d1 x]. cbn [fst] in A, B.
  destruct (IH d1 i Hr Hi) as [A1 B1]. destruct (run d1 r) as [d2 xs]. cbn [fst] in *. split; congruence.
Qed.

Lemma step_next_frame d iid s take :
  d_root (fst (step d (ONext iid s take))) = d_root d /\ d_txn (fst (step d (ONext iid s take))) = d_txn d.
Proof.
  cbn [step]. destruct (assoc iid (d_iters d)) as [it|]; [|auto].
  destruct (src_committed d s) as [r|]; [|auto].
  destruct (nth_error r (it_tab it)) as [t|]; [|auto].
  destruct (nth_error (d_root d) (it_tab it)) as [cur|]; [|auto].
  match goal with |- context [if ?c then _ else _] => destruct c end; [auto|].
  match goal with |- context [consume ?a ?b ?c ?dd ?e] =>
    pose proof (consume_frame b a c dd e) as Hc; destruct (consume a b c dd e) as [[x y] z] end.
  cbn [fst snd set_iters d_root d_txn] in *. destruct Hc as [A [B _]]. auto.
Qed.

(* the entries of WriteTxn(tab): tab locked, every other entry the root's, unlocked *)
Definition lock1 (tab : nat) (root : list table) : list (table * bool) :=
  upd_nth tab (fun e => (fst e, true)) (map (fun t => (t, false)) root).

Lemma step_begin1 d tab : d_txn d = None ->
  fst (step d (OBegin [tab])) = set_txn d (Some (lock1 tab (d_root d), d_root d)).
Proof. intros H. cbn [step]. now rewrite H. Qed.

Lemma lock1_same tab root t : nth_error root tab = Some t -> nth_error (lock1 tab root) tab = Some (t, true).
Proof.
  intros H. unfold lock1. rewrite (nth_error_upd_nth_same (fun e => (fst e, true)) tab _ (t, false)); [reflexivity|].
  now rewrite nth_error_map, H.
Qed.

Lemma lock1_other tab root i : i <> tab -> nth_error (lock1 tab root) i = option_map (fun t => (t, false)) (nth_error root i).
Proof. intros H. unfold lock1. rewrite nth_error_upd_nth_other by congruence. apply nth_error_map. Qed.

Lemma derive_begin_next d out iid : d_txn d = None ->
  let d1 := fst (run d [OBegin [out]; ONext iid STxn None]) in
  d_root d1 = d_root d /\ d_txn d1 = Some (lock1 out (d_root d), d_root d).
Proof.
  intros Hn. cbv zeta. change [OBegin [out]; ONext iid STxn None] with ([OBegin [out]] ++ [ONext iid STxn None]).
  rewrite run_app, !run_single, (step_begin1 d out Hn).
  destruct (step_next_frame (set_txn d (Some (lock1 out (d_root d), d_root d))) iid STxn None) as [A B].
  rewrite A, B. auto.
Qed.

Lemma derive_begin_next_tentry d out iid i : d_txn d = None -> i <> out ->
  tentry (fst (run d [OBegin [out]; ONext iid STxn None])) i = option_map (fun t => (t, false)) (nth_error (d_root d) i).
Proof.
  intros Hn Hi. destruct (derive_begin_next d out iid Hn) as [_ B]. unfold tentry. rewrite B. now apply lock1_other.
Qed.

Lemma init_ops_cases ds d2 o3 marked initw : init_ops ds d2 = (o3, marked, initw) ->
  (dv_marked ds = true /\ marked = true /\ o3 = []) \/
  (dv_marked ds = false /\ marked = false /\ o3 = []) \/
  (dv_marked ds = false /\ marked = true /\ o3 = [OInitDone (dv_out ds) (dv_name ds)] /\
   exists t b, tentry d2 (dv_in ds) = Some (t, b) /\ fst (fst (q_init t)) = true).
Proof.
  unfold init_ops. destruct (dv_marked ds); [intros H; injection H as <- <- <-; auto|].
  unfold src_root, tentry. destruct (d_txn d2) as [[es old]|]; [|intros H; injection H as <- <- <-; auto].
  rewrite nth_error_map. destruct (nth_error es (dv_in ds)) as [[t b]|]; cbn [option_map fst];
    [|intros H; injection H as <- <- <-; auto].
  destruct (q_init t) as [[i p] w] eqn:Eq. destruct i; intros H; injection H as <- <- <-; auto.
  right. right. repeat split; auto. exists t, b. rewrite Eq. auto.
Qed.

Lemma fin_table_primary t : t_primary (fin_table t) = t_primary t.
Proof. unfold fin_table. destruct (t_init t) as [[w [|]]|]; reflexivity. Qed.

Lemma step_commit_root d es old sid : d_txn d = Some (es, old) ->
  d_root (fst (step d (OCommit sid))) = commit_root es (d_root d) /\ d_txn (fst (step d (OCommit sid))) = None.
Proof. intros H. cbn [step]. rewrite H. split; reflexivity. Qed.

(* whatever the transform: inside an iteration the other tables keep the entries WriteTxn gave them, so the iteration
   changes no other table of the root; and it leaves no transaction open *)
Lemma derive_iter_entries tr ds d l d2 o2 i : d_txn d = None -> i <> dv_out ds ->
  apply_changes tr (dv_out ds) (fst (run d [OBegin [dv_out ds]; ONext (dv_iid ds) STxn None])) l = (d2, o2) ->
  tentry d2 i = option_map (fun t => (t, false)) (nth_error (d_root d) i) /\ d_root d2 = d_root d.
Proof.
  intros Hn Hi H2. destruct (apply_changes_spec _ _ _ _ _ _ H2) as [-> Hw].
  destruct (run_dwrite_frame _ o2 (fst (run d [OBegin [dv_out ds]; ONext (dv_iid ds) STxn None])) i Hw Hi) as [-> ->].
  split; [now apply derive_begin_next_tentry|apply (derive_begin_next d (dv_out ds) (dv_iid ds) Hn)].
Qed.

Theorem derive_iter_others tr ds d d' ds' ops : d_txn d = None -> derive_iter tr ds d = (d', ds', ops) ->
  d_txn d' = None /\ forall i, i <> dv_out ds -> nth_error (d_root d') i = nth_error (d_root d) i.
Proof.
  intros Hn H. destruct (derive_iter_shape _ _ _ _ _ _ H) as [-> _ _ _|x l w d2 o2 o3 initw H1 H2 Hw H3 H4 _]; [auto|].
  assert (K : d_root (fst (run d2 o3)) = d_root d /\ forall i, i <> dv_out ds ->
              tentry (fst (run d2 o3)) i = option_map (fun t => (t, false)) (nth_error (d_root d) i)).
  { assert (K0 : forall i, i <> dv_out ds -> _) by (intros i Hi; exact (derive_iter_entries tr ds d l d2 o2 i Hn Hi H2)).
    destruct (init_ops_cases _ _ _ _ _ H3) as [[_ [_ ->]]|[[_ [_ ->]]|[_ [_ [-> _]]]]].
    1,2: cbn [run fst]; split; [exact (proj2 (K0 (S (dv_out ds)) (Nat.neq_succ_diag_l _)))|intros i Hi; exact (proj1 (K0 i Hi))].
    rewrite run_single. cbn [step]. rewrite with_locked_root. split; [exact (proj2 (K0 (S (dv_out ds)) (Nat.neq_succ_diag_l _)))|].
    intros i Hi. rewrite with_locked_tentry_other by exact Hi. exact (proj1 (K0 i Hi)). }
  destruct K as [R3 T3]. rewrite run_single in H4. subst d'. revert T3. unfold tentry.
  destruct (d_txn (fst (run d2 o3))) as [[es old]|] eqn:E3; intros T3.
  - destruct (step_commit_root _ es old (dv_sid ds) E3) as [-> ->]. split; [reflexivity|]. intros i Hi.
    unfold commit_root. rewrite nth_error_zip_with, (T3 i Hi), R3. destruct (nth_error (d_root d) i); reflexivity.
  - cbn [step]. rewrite E3. cbn [fst]. now rewrite E3, R3.
Qed.

(* the loop marks its initializer done only in an iteration whose transaction saw the INPUT table
   initialized in the committed root it started from *)
Theorem derive_marks_only_when_input_initialized tr ds d d' ds' ops :
  derive_iter tr ds d = (d', ds', ops) ->
  dv_marked ds = false -> dv_marked ds' = true -> d_txn d = None -> dv_in ds <> dv_out ds ->
  exists t, nth_error (d_root d) (dv_in ds) = Some t /\ fst (fst (q_init t)) = true.
Proof.
  intros H Hm Hm' Hn Hio. destruct (derive_iter_shape _ _ _ _ _ _ H) as [_ -> _ _|x l w d2 o2 o3 initw H1 H2 Hw H3 H4 H6]; [congruence|].
  destruct (init_ops_cases _ _ _ _ _ H3) as [[C _]|[[_ [C _]]|[_ [_ [_ [t [b [Ht Hi]]]]]]]]; try congruence.
  destruct (derive_iter_entries tr ds d l d2 o2 (dv_in ds) Hn Hio H2) as [A _]. rewrite Ht in A.
  destruct (nth_error (d_root d) (dv_in ds)) as [t0|]; [|discriminate].
  cbn [option_map] in A. injection A as -> _. exists t0. auto.
Qed.

(* where the OInitDone sits: after all the writes, immediately before the Commit *)
Theorem derive_initdone_position tr ds d d' ds' ops :
  derive_iter tr ds d = (d', ds', ops) -> dv_marked ds = false -> dv_marked ds' = true ->
  exists o2, ops = [OBegin [dv_out ds]; ONext (dv_iid ds) STxn None] ++ o2 ++
                   [OInitDone (dv_out ds) (dv_name ds); OCommit (dv_sid ds)] /\
             forallb (dwrite (dv_out ds)) o2 = true.
Proof.
  intros H Hm Hm'. destruct (derive_iter_shape _ _ _ _ _ _ H) as [_ -> _ _|x l w d2 o2 o3 initw H1 H2 Hw H3 H4 H6]; [congruence|].
  destruct (init_ops_cases _ _ _ _ _ H3) as [[C _]|[[_ [C _]]|[_ [_ [-> _]]]]]; try congruence.
  exists o2. split; [exact H6|].
  exact Hw.
Qed.

Corollary derive_initdone_in_ops tr ds d d' ds' ops :
  derive_iter tr ds d = (d', ds', ops) -> dv_marked ds = false -> dv_marked ds' = true ->
  In (OInitDone (dv_out ds) (dv_name ds)) ops.
Proof.
  intros H Hm Hm'. destruct (derive_initdone_position _ _ _ _ _ _ H Hm Hm') as [o2 [-> _]].
  apply in_or_app. right. apply in_or_app. right. left. reflexivity.
Qed.

Lemma dwrite_not_initdone out o2 a b : forallb (dwrite out) o2 = true -> ~ In (OInitDone a b) o2.
Proof.
  intros Hw Hin. rewrite forallb_forall in Hw. specialize (Hw _ Hin). discriminate.
Qed.

(* in every other iteration no OInitDone is issued: the initializer is marked at most once *)
Theorem derive_no_initdone tr ds d d' ds' ops :
  derive_iter tr ds d = (d', ds', ops) -> (dv_marked ds' = false \/ dv_marked ds = true) ->
  (dv_marked ds = true -> dv_marked ds' = true) /\ forall a b, ~ In (OInitDone a b) ops.
Proof.
  intros H Hm. destruct (derive_iter_shape _ _ _ _ _ _ H) as [_ -> -> _|x l w d2 o2 o3 initw H1 H2 Hw H3 H4 H6]; [split; auto|].
  assert (Ho3 : o3 = [] /\ (dv_marked ds = true -> dv_marked ds' = true)).
  { destruct (init_ops_cases _ _ _ _ _ H3) as [[C [C' ->]]|[[C [C' ->]]|[C [C' _]]]]; auto.
    - split; auto. congruence.
    - destruct Hm; congruence. }
  destruct Ho3 as [-> Hk]. split; [exact Hk|]. intros a b Hin. subst ops.
  cbn [app] in Hin. destruct Hin as [Hin|[Hin|Hin]]; try discriminate.
  apply in_app_or in Hin. destruct Hin as [Hin|[Hin|[]]]; [|discriminate].
  exact (dwrite_not_initdone _ _ _ _ Hw Hin).
Qed.

Definition dop (o : op) : bool :=
  match o with
  | OBegin _ | OCommit _ | ORegInit _ _ | OInitDone _ _ | OInsert _ _ | ODelete _ _ => true
  | OChanges i _ | ONext i STxn None => i =? derive_iid
  | _ => false
  end.
Definition oop (o : op) : bool :=
  match o with
  | OBegin _ | OCommit _ => true
  | OChanges i _ | OClose i | OResume i _ | ONext i SFresh _ => i =? observe_iid
  | _ => false
  end.

Lemma forallb_impl {A} (P Q : A -> bool) l : (forall a, P a = true -> Q a = true) -> forallb P l = true -> forallb Q l = true.
Proof. rewrite !forallb_forall. auto. Qed.

Lemma derive_iter_ops (P : op -> bool) tr ds d d' ds' l : derive_iter tr ds d = (d', ds', l) ->
  (forall o, dwrite (dv_out ds) o = true -> P o = true) ->
  P (OInitDone (dv_out ds) (dv_name ds)) = true -> P (OCommit (dv_sid ds)) = true ->
  (d' = d /\ ds' = ds /\ l = []) \/
  exists rest, l = [OBegin [dv_out ds]; ONext (dv_iid ds) STxn None] ++ rest /\ forallb P rest = true.
Proof.
  intros H Pw Pi Pc. destruct (derive_iter_shape _ _ _ _ _ _ H) as [-> -> -> _|x l0 w d2 o2 o3 initw H1 H2 Hw H3 H4 ->]; [auto|right].
  eexists. split; [reflexivity|]. rewrite !forallb_app.
  rewrite (forallb_impl _ _ _ Pw Hw). cbn [forallb]. rewrite Pc.
  destruct (init_ops_cases _ _ _ _ _ H3) as [[_ [_ ->]]|[[_ [_ ->]]|[_ [_ [-> _]]]]]; cbn [forallb]; rewrite ?Pi; reflexivity.
Qed.

Lemma dleg_run_dop tr d c sd sd' d' l : dleg tr d c sd sd' d' l ->
  (forall ds, sd = Some ds -> dv_iid ds = derive_iid) -> d' = fst (run d l) /\ forallb dop l = true.
Proof.
  intros [inn out _ _ _|ds _ E _ _|ds d1 ds1 l1 _ E _ _ _ Hi] Hid.
  - split; reflexivity.
  - split; [reflexivity|]. cbn. now rewrite (Hid _ E).
  - split; [eapply derive_iter_run; eauto|].
    destruct (derive_iter_ops dop _ _ _ _ _ _ Hi) as [[_ [_ ->]]|[rest [-> Hr]]]; try reflexivity.
    { intros o Ho. destruct o; try discriminate; reflexivity. }
    cbn [app forallb dop]. now rewrite (Hid _ E), Hr.
Qed.

Lemma oset_same os ph : ov_phase os = ph -> oset os ph = os.
Proof. intros <-. now destruct os. Qed.

Lemma oleg_run_oop d os os' d' l r : oleg d os os' d' l r -> ov_iid os = observe_iid ->
  d' = fst (run d l) /\ forallb oop l = true /\ ov_iid os' = observe_iid /\ ov_tab os' = ov_tab os.
Proof.
  intros Hl Hid.
  assert (Hrun : forall ph d1 acc, d1 = fst (run d acc) -> forallb oop acc = true ->
            observe_run 4 (oset os ph) d1 acc = (d', os', l) ->
            d' = fst (run d l) /\ forallb oop l = true /\ ov_iid os' = observe_iid /\ ov_tab os' = ov_tab os).
  { intros ph d1 acc Hd Ha E.
    destruct (observe_run_ops oop 4 (oset os ph) d1 acc) as [ops1 [H1 [H2 [H3 H4]]]];
      [cbn; now rewrite Hid|cbn; now rewrite Hid|].
    rewrite E in H1, H3, H4. cbn [fst snd oset ov_iid ov_tab] in *. subst l.
    split; [eapply observe_run_run'; eauto|]. rewrite forallb_app, Ha, H2. split; [reflexivity|]. split; congruence. }
  destruct Hl as [d1 os1 l1 _ Eph E|c d1 os1 l1 _ _ E| |wr d1 os1 l1 Eph E].
  - rewrite <- (oset_same _ _ Eph) in E at 1. apply (Hrun _ _ _ eq_refl) in E; [exact E|]. cbn. now rewrite Hid.
  - exact (Hrun _ d [] eq_refl eq_refl E).
  - cbn. rewrite Hid. auto.
  - rewrite <- (oset_same _ _ Eph) in E at 1. exact (Hrun _ d [] eq_refl eq_refl E).
Qed.

Lemma wake_quiet s s' l : (forall os, cs_o s = Some os -> ov_iid os = observe_iid) -> wake s s' l ->
  cs_d s' = cs_d s /\ cs_db s' = fst (run (cs_db s) l) /\ forallb oop l = true.
Proof.
  intros Hid [_|os os' d' l0 Eo Ho]; [auto|]. destruct (oleg_run_oop _ _ _ _ _ _ Ho (Hid _ Eo)) as [A [B _]]. auto.
Qed.

From SV Require Import Table.Inv4.

Definition contents (t : table) : list (bytes * N) :=
  map (fun kv => (fst kv, p_val (o_data (snd kv)))) (t_primary t).
Definition apply_c (m : list (bytes * N)) (c : object * bool) : list (bytes * N) :=
  if snd c then om_delete (pk (fst c)) m else om_insert (pk (fst c)) (p_val (o_data (fst c))) m.

(* unguarded modify always proceeds *)
Lemma modify0_primary m p t :
  t_primary (fst (modify 0 m p t)) = om_insert (p_id p) (new_object m p t) (t_primary t).
Proof.
  destruct (modify 0 m p t) as [t' [old e]] eqn:H. cbn [fst].
  assert (He : e = EOk).
  { revert H. unfold modify, modify_with. change (0 <? 0) with false. cbv iota.
    destruct (om_get (p_id p) (t_primary t)); [|destruct (om_get (p_id p) (t_grave t))];
      intros H; injection H as _ _ <-; reflexivity. }
  destruct (modify_ok_spec _ _ _ _ _ _ _ H He) as [_ [E _]]. exact E.
Qed.

Lemma delete0_primary id t : om_sorted (t_primary t) ->
  t_primary (fst (delete 0 id t)) = om_delete id (t_primary t).
Proof.
  intros Hs. destruct (delete 0 id t) as [t' [old e]] eqn:H. cbn [fst].
  destruct (delete_spec _ _ _ _ _ _ H) as [_ Hd].
  destruct (om_get id (t_primary t)) as [o|] eqn:Eg.
  - change (0 <? 0) with false in Hd. cbn [andb] in Hd. destruct Hd as [_ [_ E]]. exact E.
  - destruct Hd as [_ ->]. symmetry. now apply om_delete_absent.
Qed.

Definition mirror_payload (o : object) : payload := mkP (p_id (o_data o)) (p_val (o_data o)) [] [] [] [].
Definition mirror_wop (c : object * bool) : wop :=
  if snd c then WDelete (p_id (o_data (fst c))) else WInsert (mirror_payload (fst c)).

Lemma change_ops_mirror out d c : change_ops (tr_std 0) out d c = [op_of_wop out (mirror_wop c)].
Proof.
  unfold change_ops, tr_std, mirror_wop, mirror_payload. change (0 =? 0) with true. cbv iota.
  destruct (snd c); reflexivity.
Qed.

Lemma apply_changes_mirror out l : forall d,
  apply_changes (tr_std 0) out d l =
  (fst (run d (map (op_of_wop out) (map mirror_wop l))), map (op_of_wop out) (map mirror_wop l)).
Proof.
  induction l as [|c r IH]; intros d; cbn [apply_changes map]; [reflexivity|].
  rewrite change_ops_mirror, IH.
  change (op_of_wop out (mirror_wop c) :: map (op_of_wop out) (map mirror_wop r))
    with ([op_of_wop out (mirror_wop c)] ++ map (op_of_wop out) (map mirror_wop r)).
  rewrite run_app. reflexivity.
Qed.

Lemma mirror_wop_contents c t : om_sorted (t_primary t) ->
  om_sorted (t_primary (fst (apply_wop (mirror_wop c) t))) /\
  contents (fst (apply_wop (mirror_wop c) t)) = apply_c (contents t) c.
Proof.
  intros Hs. unfold mirror_wop, apply_c, contents, pk. destruct (snd c); cbn [apply_wop].
  - rewrite delete0_primary by exact Hs. split; [now apply om_delete_sorted|].
    apply (om_map_delete (fun o => p_val (o_data o))).
  - rewrite modify0_primary. cbn [mirror_payload p_id]. split; [now apply om_insert_sorted|].
    etransitivity; [exact (om_map_insert (fun o => p_val (o_data o)) _ _ _)|reflexivity].
Qed.

Lemma mirror_wops_contents l : forall t, om_sorted (t_primary t) ->
  om_sorted (t_primary (fst (run_wops t (map mirror_wop l)))) /\
  contents (fst (run_wops t (map mirror_wop l))) = fold_left apply_c l (contents t).
Proof.
  induction l as [|c r IH]; intros t Hs; cbn [map run_wops fold_left fst]; [auto|].
  destruct (mirror_wop_contents c t Hs) as [Hs1 Hc1].
  destruct (apply_wop (mirror_wop c) t) as [t1 x]. cbn [fst] in *.
  destruct (IH t1 Hs1) as [Hs2 Hc2]. destruct (run_wops t1 (map mirror_wop r)) as [t2 xs]. cbn [fst] in *.
  rewrite <- Hc1. auto.
Qed.

Lemma step_initdone_locked d es old tab name t : d_txn d = Some (es, old) -> nth_error es tab = Some (t, true) ->
  exists t', d_txn (fst (step d (OInitDone tab name))) = Some (upd_nth tab (fun _ => (t', true)) es, old) /\
             t_primary t' = t_primary t /\ d_root (fst (step d (OInitDone tab name))) = d_root d.
Proof.
  intros E1 E2. cbn [step]. unfold with_locked. rewrite E1, E2.
  destruct (t_init t) as [[w p]|]; cbn [fst set_txn d_txn d_root]; eexists; split; try reflexivity; split; reflexivity.
Qed.

Lemma run_two_outs d a b : snd (run d [a; b]) = [snd (step d a); snd (step (fst (step d a)) b)].
Proof. cbn [run]. destruct (step d a) as [d1 x]. cbn [fst snd]. destruct (step d1 b) as [d2 y]. reflexivity. Qed.

Theorem derive_mirror_iter ds d d' ds' ops tout l w :
  d_txn d = None ->
  nth_error (d_root d) (dv_out ds) = Some tout -> om_sorted (t_primary tout) ->
  derive_iter (tr_std 0) ds d = (d', ds', ops) ->
  snd (step (fst (step d (OBegin [dv_out ds]))) (ONext (dv_iid ds) STxn None)) = OutChanges l w ->
  (exists tout', nth_error (d_root d') (dv_out ds) = Some tout' /\ om_sorted (t_primary tout') /\
                 contents tout' = fold_left apply_c l (contents tout)) /\
  (forall i, i <> dv_out ds -> nth_error (d_root d') i = nth_error (d_root d) i) /\
  d_txn d' = None.
Proof.
  intros Hn Hout Hs H Hl. destruct (derive_iter_others _ _ _ _ _ _ Hn H) as [T4 F]. split; [|auto].
  destruct (derive_iter_shape _ _ _ _ _ _ H) as [_ _ _ C|x l0 w0 d2 o2 o3 initw H1 H2 Hw H3 H4 H6].
  { exfalso. rewrite run_two_outs, Hl in C. eapply C. reflexivity. }
  assert (l0 = l).
  { pose proof (run_two_outs d (OBegin [dv_out ds]) (ONext (dv_iid ds) STxn None)) as R.
    rewrite H1, Hl in R. cbn [snd] in R. injection R as _ -> _. reflexivity. }
  subst l0. clear H1 Hl.
  (* the entry of the derived table: locked by Begin, written by the mirrored changes, its primary index untouched by
     the mark, committed *)
  destruct (derive_begin_next d (dv_out ds) (dv_iid ds) Hn) as [R1 T1].
  set (d1 := fst (run d [OBegin [dv_out ds]; ONext (dv_iid ds) STxn None])) in *.
  rewrite apply_changes_mirror in H2. injection H2 as Hd2 Ho2.
  destruct (txn_wops (map mirror_wop l) d1 (dv_out ds) (lock1 (dv_out ds) (d_root d)) (d_root d) tout T1
              (lock1_same _ _ _ Hout)) as [es2 [T2 [E2 [_ [R2 _]]]]].
  rewrite Hd2 in T2, R2.
  destruct (mirror_wops_contents l tout Hs) as [Hs2 Hc2].
  set (t2 := fst (run_wops tout (map mirror_wop l))) in *.
  assert (H3' : exists es3 t3, d_txn (fst (run d2 o3)) = Some (es3, d_root d) /\
                  nth_error es3 (dv_out ds) = Some (t3, true) /\ t_primary t3 = t_primary t2 /\
                  d_root (fst (run d2 o3)) = d_root d2).
  { destruct (init_ops_cases _ _ _ _ _ H3) as [[_ [_ ->]]|[[_ [_ ->]]|[_ [_ [-> _]]]]].
    1,2: exists es2, t2; cbn [run fst]; auto.
    rewrite run_single.
    destruct (step_initdone_locked d2 es2 (d_root d) (dv_out ds) (dv_name ds) t2 T2 E2) as [t3 [A [B C]]].
    exists (upd_nth (dv_out ds) (fun _ => (t3, true)) es2), t3. split; [exact A|]. split; [|auto].
    erewrite nth_error_upd_nth_same; [reflexivity|exact E2]. }
  destruct H3' as [es3 [t3 [T3 [E3 [P3 R3]]]]].
  rewrite run_single in H4.
  destruct (step_commit_root (fst (run d2 o3)) es3 (d_root d) (dv_sid ds) T3) as [R4 _].
  rewrite <- H4 in R4. rewrite R3, R2, R1 in R4.
  exists (fin_table t3). unfold commit_root in R4. rewrite R4, nth_error_zip_with, E3, Hout.
  split; [reflexivity|]. unfold contents. rewrite fin_table_primary, P3. auto.
Qed.

(* table 0 has a pending initializer (5) when Derive(0 -> 1) starts; the loop registers, runs one iteration
   that sees the input uninitialized (does not mark), the user inserts b, deletes a, finishes the initializer;
   the next iteration mirrors both changes and marks Derive's own initializer *)
Definition cx_pa (v : N) := mkP [97] v [] [] [] [].
Definition cx_pb (v : N) := mkP [98] v [] [] [] [].
Definition cx_pre : list cop :=
  [CUser (OBegin [0%nat]); CUser (ORegInit 0 5); CUser (OInsert 0 (cx_pa 1)); CUser (OCommit 1);
   CDeriveStart 0 1; CDeriveGo; CDeriveGo;
   CUser (OBegin [0%nat]); CUser (OInsert 0 (cx_pb 2)); CUser (ODelete 0 [97]); CUser (OInitDone 0 5); CUser (OCommit 2)].
Definition cx_s : csys := fst (fst (crun (init_csys 2 0) cx_pre)).
Definition cx_ds : dstate := mkDS 0 1 derive_iid derive_name derive_sid false DReady.

Example crun_is_run_nonvacuous :
  length (snd (crun (init_csys 2 0) (cx_pre ++ [CDeriveGo; CDeriveGo]))) = 28%nat /\
  cs_db (fst (fst (crun (init_csys 2 0) (cx_pre ++ [CDeriveGo; CDeriveGo])))) =
  fst (run (init_db 2) (snd (crun (init_csys 2 0) (cx_pre ++ [CDeriveGo; CDeriveGo])))).
Proof. vm_compute. split; reflexivity. Qed.

Example derive_init_nonvacuous :
  cs_d cx_s = Some cx_ds /\ d_txn (cs_db cx_s) = None /\ dv_in cx_ds <> dv_out cx_ds /\ dv_marked cx_ds = false /\
  (* the iteration before: input not initialized, not marked, no OInitDone *)
  (let s0 := fst (fst (crun (init_csys 2 0) (firstn 6 cx_pre))) in
   match cs_d s0 with
   | Some ds0 => dv_marked (snd (fst (derive_iter (tr_std 0) ds0 (cs_db s0)))) = false /\
                 snd (derive_iter (tr_std 0) ds0 (cs_db s0)) =
                   [OBegin [1%nat]; ONext derive_iid STxn None; OInsert 1 (cx_pa 1); OCommit derive_sid]
   | None => False end) /\
  (* this iteration: marks, OInitDone after the writes and before the Commit *)
  dv_marked (snd (fst (derive_iter (tr_std 0) cx_ds (cs_db cx_s)))) = true /\
  snd (derive_iter (tr_std 0) cx_ds (cs_db cx_s)) =
    [OBegin [1%nat]; ONext derive_iid STxn None; OInsert 1 (cx_pb 2); ODelete 1 [97];
     OInitDone 1 derive_name; OCommit derive_sid] /\
  option_map (fun t => fst (fst (q_init t))) (nth_error (d_root (cs_db cx_s)) 0) = Some true.
Proof. vm_compute. repeat split; try reflexivity. discriminate. Qed.

Example derive_mirror_iter_nonvacuous :
  d_txn (cs_db cx_s) = None /\
  (exists tout, nth_error (d_root (cs_db cx_s)) (dv_out cx_ds) = Some tout /\ om_sorted (t_primary tout) /\
                contents tout = [([97], 1)]) /\
  map (fun c => (pk (fst c), p_val (o_data (fst c)), snd c))
      (match snd (step (fst (step (cs_db cx_s) (OBegin [dv_out cx_ds]))) (ONext (dv_iid cx_ds) STxn None)) with
       | OutChanges l _ => l | _ => [] end) = [([98], 2, false); ([97], 1, true)] /\
  map contents (d_root (fst (fst (derive_iter (tr_std 0) cx_ds (cs_db cx_s))))) = [[([98], 2)]; [([98], 2)]].
Proof.
  split; [vm_compute; reflexivity|]. split; [|split; vm_compute; reflexivity].
  eexists. split; [vm_compute; reflexivity|]. split; [|vm_compute; reflexivity].
  cbn. repeat constructor.
Qed.
