(* Table/ClientsRun7.v — C19 at run level: Derive hands over the initialization signal safely. The leg of the loop
   that completes the derived table's initializer (dv_marked flips) runs against a root whose input table is
   initialized, issues OInitDone out derive_name, and (refreshing case) commits it together with a derived table
   that has exactly the contents of the input table. Combines the leg-level theorems of Table/ClientsProofs.v with ClientsRun5.v. *)
From Coq Require Import List NArith Bool Lia.
Import ListNotations.
From SV Require Import Base.Bytes Base.OrdMap KeyEnc.Model Table.Model Table.Proofs Table.InvDefs Table.Inv Table.Inv2
                       Table.GcProofs Table.ChangesStream Table.ChangesIter Table.ChangesProofs Table.ChangesRet
                       Table.ChangesHist Table.ChangesFromInit Table.Clients Table.ClientsProofs Table.ClientsProofs2
                       Table.ClientsRun Table.ClientsRun2 Table.ClientsRun3 Table.ClientsRun4 Table.ClientsRun5.
Local Open Scope N_scope.

Lemma marking_step n s ops ds s' x ops1 ds' : creach n s ops ->
  cstep s CDeriveGo = (s', x, ops1) -> cs_d s = Some ds -> dv_marked ds = false -> cs_d s' = Some ds' -> dv_marked ds' = true ->
  exists d1 og o2, d_txn (cs_db s) = None /\ d_ready ds (cs_db s) = true /\ dv_phase ds <> DReg /\
    derive_iter (tr_std 0) ds (cs_db s) = (d1, ds', og) /\ ops1 = og ++ o2 /\
    cs_db s' = fst (run d1 o2) /\ forallb oop o2 = true.
Proof.
  intros HR Hstep Ed Hm Ed' Hm'. destruct (cstep_legs _ _ _ _ _ Hstep) as [s1 [l1 [l2 [Hl [Hw ->]]]]].
  destruct (wake_quiet _ _ _ (r_o _ _ _ (creach_leg _ _ _ _ _ _ _ HR Hl)) Hw) as [Hd [Hdb Hp]]. rewrite Ed' in Hd.
  remember CDeriveGo as c eqn:Ec.
  destruct Hl as [c0|o|c0 sd' d' l0 Hdl|tab Eo|c0 os os' d' l0 r0 [->| ->] Eo Ho]; try discriminate; cbn [cs_d cs_db] in *;
    try congruence.
  destruct Hdl as [i o -> _ _|ds0 _ E _ _|ds0 d1 ds1 l1 _ E Et Er Eph Hi]; try discriminate;
    rewrite Ed in E; injection E as <-; injection Hd as ->; [cbn in Hm'; congruence|].
  rewrite (r_mode _ _ _ HR) in Hi. exists d1, l1, l2. auto 10.
Qed.

Theorem derive_init_handover n inn out cs s outs ops ds s' x ops1 ds' :
  (out < n)%nat -> (inn < n)%nat -> inn <> out -> forallb (cop_okG inn out) cs = true ->
  crun (init_csys n 0) cs = (s, outs, ops) ->
  cstep s CDeriveGo = (s', x, ops1) ->
  (* this is the leg that completes the derived table's initializer *)
  cs_d s = Some ds -> dv_marked ds = false -> cs_d s' = Some ds' -> dv_marked ds' = true ->
  (* (a) it ran against a root whose input table is initialized *)
  (exists tin, nth_error (d_root (cs_db s)) inn = Some tin /\ fst (fst (q_init tin)) = true) /\
  (* (b) it issued the OInitDone of the derived table's initializer, in its own transaction *)
  In (OInitDone out derive_name) ops1 /\
  d_txn (cs_db s) = None /\ dv_phase ds <> DReg /\ d_ready ds (cs_db s) = true /\
  (* (c) if its Next refreshed, the derived table it committed together with the mark has exactly the contents
         of the input table of the root it leaves behind *)
  (forall S, next_source (fst (step (cs_db s) (OBegin [out]))) derive_iid STxn = Some S ->
             room_run (init_db n) (ops ++ [OBegin [out]; ONext derive_iid STxn None]) ->
             exists tin' tout', nth_error (d_root (cs_db s')) inn = Some tin' /\
                                nth_error (d_root (cs_db s')) out = Some tout' /\
                                contents tout' = contents tin' /\ contents tin' = contents S).
Proof.
  intros Hout Hinn Hio Hc Hrun Hstep Ed Hm Ed' Hm'.
  destruct (GInv_crun n inn out cs s outs ops Hinn Hc Hrun) as [HR HI].
  destruct (g_ids _ _ _ _ _ HI _ Ed) as [Din Do]. destruct (r_d _ _ _ HR _ Ed) as [_ [Hname _]].
  destruct (marking_step n s ops ds s' x ops1 ds' HR Hstep Ed Hm Ed' Hm') as [d1 [og [o2 [Htx [Hrdy [Hph [Hit [-> _]]]]]]]].
  split; [|split; [|split; [exact Htx|split; [exact Hph|split; [exact Hrdy|]]]]].
  - destruct (derive_marks_only_when_input_initialized _ _ _ _ _ _ Hit Hm Hm' Htx) as [t [T1 T2]]; [congruence|].
    exists t. rewrite <- Din. auto.
  - apply in_or_app. left. pose proof (derive_initdone_in_ops _ _ _ _ _ _ Hit Hm Hm') as K.
    rewrite Do, Hname in K. exact K.
  - intros S HS Hroom.
    exact (derive_run_converges' n inn out cs s outs ops ds S s' x _ Hout Hinn Hio Hc Hrun Ed Hph Htx Hrdy HS Hroom Hstep).
Qed.

(* the hypotheses are satisfiable: cx_pre of Table/ClientsProofs.v ends right before the marking leg *)
Example derive_init_handover_nonvacuous :
  let r := crun (init_csys 2 0) cx_pre in
  let s := fst (fst r) in
  let r' := cstep s CDeriveGo in
  forallb (cop_okG 0 1) cx_pre = true /\
  option_map dv_marked (cs_d s) = Some false /\
  option_map dv_marked (cs_d (fst (fst r'))) = Some true /\
  snd r' = [OBegin [1%nat]; ONext derive_iid STxn None; OInsert 1 (cx_pb 2); ODelete 1 [97];
            OInitDone 1 derive_name; OCommit derive_sid] /\
  option_map (fun t => fst (fst (q_init t))) (nth_error (d_root (cs_db s)) 0) = Some true /\
  (exists S, next_source (fst (step (cs_db s) (OBegin [1%nat]))) derive_iid STxn = Some S) /\
  room_run (init_db 2) (snd r ++ [OBegin [1%nat]; ONext derive_iid STxn None]) /\
  map contents (d_root (cs_db (fst (fst r')))) = [[([98], 2)]; [([98], 2)]] /\
  (* before the leg the derived table is not initialized, after it it is *)
  option_map (fun t => fst (fst (q_init t))) (nth_error (d_root (cs_db s)) 1) = Some false /\
  option_map (fun t => fst (fst (q_init t))) (nth_error (d_root (cs_db (fst (fst r')))) 1) = Some true.
Proof.
  cbv zeta. split; [vm_compute; reflexivity|]. split; [vm_compute; reflexivity|]. split; [vm_compute; reflexivity|].
  split; [vm_compute; reflexivity|]. split; [vm_compute; reflexivity|]. split; [eexists; vm_compute; reflexivity|].
  split; [apply room_runb_ok; vm_compute; reflexivity|]. repeat split; vm_compute; reflexivity.
Qed.

Lemma next_idle d iid s take l w :
  next_source d iid s = None -> snd (step d (ONext iid s take)) = OutChanges l w ->
  l = [] /\ exists it cur, assoc iid (d_iters d) = Some it /\ nth_error (d_root d) (it_tab it) = Some cur /\
                           it_pending it = None /\ t_rev cur = it_watchrev it.
Proof.
  unfold next_source. cbn [step]. intros H1 H2. destruct (assoc iid (d_iters d)) as [it|]; [|discriminate H2].
  destruct (src_committed d s) as [r|]; [|discriminate H2].
  destruct (nth_error r (it_tab it)) as [t|]; [|discriminate H2].
  destruct (nth_error (d_root d) (it_tab it)) as [cur|] eqn:Ec; [|discriminate H2].
  destruct (it_pending it) as [p|] eqn:Ep; [discriminate H1|].
  destruct (t_rev cur =? it_watchrev it) eqn:Er; [|discriminate H1].
  cbn [snd] in H2. injection H2 as <- _. split; [reflexivity|]. exists it, cur.
  apply N.eqb_eq in Er. repeat split; auto.
Qed.

(* whenever the loop's iterator is exhausted and its watch channel is that of the input table's current revision,
   the derived table has exactly the contents of the input table (no step needed) *)
Theorem derive_exhausted_equals_input n inn out cs s outs ops ds it cur :
  (out < n)%nat -> (inn < n)%nat -> forallb (cop_okG inn out) cs = true ->
  crun (init_csys n 0) cs = (s, outs, ops) -> cs_d s = Some ds -> dv_phase ds <> DReg ->
  d_txn (cs_db s) = None -> room_run (init_db n) ops ->
  assoc derive_iid (d_iters (cs_db s)) = Some it -> nth_error (d_root (cs_db s)) (it_tab it) = Some cur ->
  it_pending it = None -> t_rev cur = it_watchrev it ->
  it_tab it = inn /\
  exists tout, nth_error (d_root (cs_db s)) out = Some tout /\ om_sorted (t_primary tout) /\
               contents tout = contents cur /\
               contents tout = cproj (replay (delivered derive_iid (init_db n) ops)).
Proof.
  intros Hout Hinn Hc Hrun Ed Hph Htx Hroom Hit Hcur Hp Hw.
  destruct (derive_run_c07_hypotheses n inn out cs s outs ops ds Hinn Hc Hrun Ed Hph)
    as [pre [post [t0 [E [U [C [F [R Rn]]]]]]]]. subst ops.
  destruct (derive_run_invariant n out cs s outs _ Hout (cop_okG_ok _ _ _ Hc) Hrun) as [Hdb0 [tout [T1 [T2 T3]]]].
  destruct (derive_run_invariant_split n out cs s outs pre inn post Hout (cop_okG_ok _ _ _ Hc) Hrun U) as [Hdb _].
  cbv zeta in Hdb. rewrite (delivered_split _ _ _ _ _ U) in T3.
  set (dc := fst (run (init_db n) pre)) in *. set (d0 := fst (step dc (OChanges derive_iid inn))) in *.
  rewrite Hdb in Hit, Hcur.
  destruct (exhausted_replay n pre derive_iid inn t0 post it cur Hroom C F R Hit Hcur) as [Ht Hrep]; auto.
  { (* the tracker is registered in the root *)
    intros Ht. specialize (Rn Htx). apply friendly_run_app in Rn. destruct Rn as [_ Rn]. cbn [friendly_run friendly] in Rn.
    destruct Rn as [Rn _]. destruct (Rn eq_refl) as [_ [c [Hc1 Hc2]]].
    rewrite run_app, run_single in Hc1. fold dc d0 in Hc1. rewrite <- Hdb in Hc1. cbn [step] in Hc1. rewrite Htx in Hc1.
    cbn [fst set_txn d_root] in Hc1. rewrite Hdb, <- Ht in Hc1. congruence. }
  split; [exact Ht|]. exists tout. split; [exact T1|]. split; [exact T2|]. split.
  - rewrite T3. fold dc d0 in Hrep. rewrite Hrep. apply cproj_abs_of.
  - now rewrite T3, (delivered_split _ _ _ _ _ U).
Qed.

Theorem derive_init_handover_idle n inn out cs s outs ops ds s' x ops1 ds' :
  (out < n)%nat -> (inn < n)%nat -> inn <> out -> forallb (cop_okG inn out) cs = true ->
  crun (init_csys n 0) cs = (s, outs, ops) ->
  cstep s CDeriveGo = (s', x, ops1) ->
  cs_d s = Some ds -> dv_marked ds = false -> cs_d s' = Some ds' -> dv_marked ds' = true ->
  (* the leg's Next does not refresh *)
  next_source (fst (step (cs_db s) (OBegin [out]))) derive_iid STxn = None ->
  room_run (init_db n) ops ->
  exists tin tout tin' tout',
    nth_error (d_root (cs_db s)) inn = Some tin /\ nth_error (d_root (cs_db s)) out = Some tout /\
    nth_error (d_root (cs_db s')) inn = Some tin' /\ nth_error (d_root (cs_db s')) out = Some tout' /\
    (* the derived table already equalled the input table, and the leg changes neither *)
    contents tout = contents tin /\ contents tin' = contents tin /\ contents tout' = contents tout.
Proof.
  intros Hout Hinn Hio Hc Hrun Hstep Ed Hm Ed' Hm' HS Hroom.
  destruct (GInv_crun n inn out cs s outs ops Hinn Hc Hrun) as [HR HI]. pose proof (r_db _ _ _ HR) as Hdb.
  destruct (g_ids _ _ _ _ _ HI _ Ed) as [Din Do]. destruct (r_d _ _ _ HR _ Ed) as [Di _].
  destruct (marking_step n s ops ds s' x ops1 ds' HR Hstep Ed Hm Ed' Hm') as [d1 [og [o2 [Htx [Hrdy [Hph [Hit [_ [Hs' Hoop]]]]]]]]].
  (* the leg's Next was idle *)
  destruct (derive_iter_delivered _ _ _ _ _ _ Hit) as [Hdel Hne].
  assert (Hog : og <> []).
  { intros ->. pose proof (derive_initdone_in_ops _ _ _ _ _ _ Hit Hm Hm') as K. destruct K. }
  destruct (Hne Hog) as [l [w Hl]]. rewrite Do, Di in Hl.
  destruct (next_idle _ _ _ _ _ _ HS Hl) as [-> [it [cur [Hi [Hcur [Hp Hw]]]]]].
  rewrite (step_begin1 _ out Htx) in Hi, Hcur. cbn [set_txn d_iters d_root] in Hi, Hcur.
  destruct (derive_exhausted_equals_input n inn out cs s outs ops ds it cur Hout Hinn Hc Hrun Ed Hph Htx Hroom Hi Hcur Hp Hw)
    as [Htab [tout [T1 [T2 [T3 T4]]]]].
  rewrite Htab in Hcur.
  (* the leg *)
  rewrite Hdb in Htx, T1, Hit.
  destruct (derive_mirror_step ds (init_db n) ops tout d1 ds' og Htx) as [Hd1 [Tn [[tout1 [C1 [C2 C3]]] Fr]]];
    rewrite ?Do, ?Di; auto.
  assert (Hdl : delivered derive_iid (init_db n) (ops ++ og) = delivered derive_iid (init_db n) ops).
  { rewrite delivered_app, <- Hdb. rewrite Di in Hdel. rewrite Hdel. destruct og; [congruence|].
    rewrite Do, Hl. cbn [out_changes]. now rewrite app_nil_r. }
  rewrite Di in C3. rewrite Do in C1. rewrite Do in Fr. rewrite Hdl, <- T4 in C3.
  assert (Hin1 : nth_error (d_root d1) inn = Some cur).
  { rewrite Fr by exact Hio. rewrite <- Hdb. exact Hcur. }
  (* the observer's wake-up writes no table *)
  assert (L : LInv n d1) by (rewrite Hd1; apply LInv_run, LInv_init).
  destruct (oop_contents n inn d1 o2 cur L Hinn Tn Hin1 Hoop) as [tin2 [E1 Q1]].
  destruct (oop_contents n out d1 o2 tout1 L Hout Tn C1 Hoop) as [tout2 [E2 Q2]].
  rewrite <- Hs' in E1, E2. rewrite <- Hdb in T1.
  exists cur, tout, tin2, tout2. repeat (split; [assumption|]). now rewrite Q2.
Qed.

(* the idle sub-case is not vacuous: the input table's initializer finishes in a transaction that changes no object;
   the loop is woken through the initialization watch channel, its Next finds the table's watch channel open *)
Definition ix_run : list cop :=
  [CUser (OBegin [0%nat]); CUser (ORegInit 0 5); CUser (OInsert 0 (cx_pa 1)); CUser (OCommit 1);
   CDeriveStart 0 1; CDeriveGo; CDeriveGo; CDeriveGo;
   CUser (OBegin [0%nat]); CUser (OInitDone 0 5); CUser (OCommit 2)].

Example derive_init_handover_idle_nonvacuous :
  let r := crun (init_csys 2 0) ix_run in
  let s := fst (fst r) in
  let r' := cstep s CDeriveGo in
  forallb (cop_okG 0 1) ix_run = true /\
  option_map dv_marked (cs_d s) = Some false /\ option_map dv_phase (cs_d s) = Some (DWait 1 (Some 0)) /\
  option_map dv_marked (cs_d (fst (fst r'))) = Some true /\
  snd r' = [OBegin [1%nat]; ONext derive_iid STxn None; OInitDone 1 derive_name; OCommit derive_sid] /\
  next_source (fst (step (cs_db s) (OBegin [1%nat]))) derive_iid STxn = None /\
  room_run (init_db 2) (snd r) /\
  map contents (d_root (cs_db s)) = [[([97], 1)]; [([97], 1)]] /\
  map contents (d_root (cs_db (fst (fst r')))) = [[([97], 1)]; [([97], 1)]] /\
  option_map (fun t => fst (fst (q_init t))) (nth_error (d_root (cs_db s)) 0) = Some true /\
  option_map (fun t => fst (fst (q_init t))) (nth_error (d_root (cs_db s)) 1) = Some false /\
  option_map (fun t => fst (fst (q_init t))) (nth_error (d_root (cs_db (fst (fst r')))) 1) = Some true.
Proof.
  cbv zeta. split; [vm_compute; reflexivity|]. split; [vm_compute; reflexivity|]. split; [vm_compute; reflexivity|].
  split; [vm_compute; reflexivity|]. split; [vm_compute; reflexivity|]. split; [vm_compute; reflexivity|].
  split; [apply room_runb_ok; vm_compute; reflexivity|]. repeat split; vm_compute; reflexivity.
Qed.
