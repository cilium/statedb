(* Table/ChangesRet.v — graveyard retention at table level (C08): how the write operations,
   tracker registration and graveyard collection act on `tab_le` (later state of the same
   history) and on `retained` (what an iterator may still need is in the graveyard).
   Database histories: Table/ChangesHist.v. *)
From SV Require Import Base.Bytes Base.OrdMap KeyEnc.Model KeyEnc.Proofs
                       Table.Model Table.InvDefs Table.Proofs Table.GcProofs Table.Inv Table.Queries
                       Table.ChangesStream Table.ChangesIter.
From Coq Require Import ZifyN ZifyNat ZifyBool.
Open Scope N_scope.
#[local] Opaque rev_key.

(* tables that differ only outside revision / primary / graveyard *)
Definition sem_eq (t t' : table) : Prop :=
  t_rev t' = t_rev t /\ t_primary t' = t_primary t /\ t_grave t' = t_grave t.

Lemma sem_eq_refl t : sem_eq t t.
Proof. repeat split. Qed.

Lemma tab_le_sem_r A B B' : sem_eq B B' -> tab_le A B -> tab_le A B'.
Proof. intros [E1 [E2 E3]]. unfold tab_le, live, dead. now rewrite E1, E2, E3. Qed.

Lemma tab_le_sem_l A A' B : sem_eq A A' -> tab_le A B -> tab_le A' B.
Proof. intros [E1 [E2 E3]]. unfold tab_le, live, dead. now rewrite E1, E2, E3. Qed.

Lemma retained_sem_r A B B' D : sem_eq B B' -> retained A B D -> retained A B' D.
Proof. intros [E1 [E2 E3]]. unfold retained, has_live, has_dead_above, live, dead. now rewrite E2, E3. Qed.

Lemma retained_sem_l A A' B D : sem_eq A A' -> retained A B D -> retained A' B D.
Proof. intros [E1 [E2 E3]]. unfold retained, has_live, has_dead_above, live, dead. now rewrite E2, E3. Qed.

Lemma retained_refl A D : retained A A D.
Proof. intros k [H|H] Hn; [contradiction|exact H]. Qed.

Lemma retained_trans A B C D : TInv B -> retained A B D -> retained B C D -> retained A C D.
Proof.
  intros HB H1 H2 k Hs Hn. destruct (has_live_dec B k HB) as [Hl|Hl].
  - apply H2; auto.
  - apply H2; auto.
Qed.

(* the delete cursor moves up (never beyond the revision of the state it was taken from) *)
Lemma retained_raise A B D D' : TInv A -> tab_le A B -> D <= D' -> D' <= t_rev A ->
  retained A B D -> retained A B D'.
Proof.
  intros HA [_ [_ Ld]] Hle Hr H k Hs Hn.
  assert (Hs0 : has_live A k \/ has_dead_above A k D).
  { destruct Hs as [Hs|[o [H1 [H2 H3]]]]; [now left|right]. exists o. repeat split; auto. lia. }
  destruct (H k Hs0 Hn) as [g [G1 [G2 G3]]]. exists g. repeat split; auto.
  destruct (N.le_gt_cases (o_rev g) (t_rev A)) as [Hb|Hb]; [|lia].
  pose proof (Ld _ G1 Hb) as GA.
  destruct Hs as [[o [H1 H2]]|[o [H1 [H2 H3]]]].
  - exfalso. apply (live_dead_pk A o g HA); auto. congruence.
  - assert (o = g) by (eapply dead_pk_fun; eauto; congruence). subst o. exact H3.
Qed.

(* one table transformer step: trackers kept, later state, retention kept while some tracker is
   registered *)
Definition tstep (t t' : table) : Prop :=
  t_trackers t' = t_trackers t /\ tab_le t t' /\
  forall A D, t_trackers t <> [] -> D <= t_rev t -> retained A t D -> retained A t' D.

Lemma tstep_refl t : tstep t t.
Proof. split; [reflexivity|]. split; [apply tab_le_refl|auto]. Qed.

Lemma tstep_trans t1 t2 t3 : tstep t1 t2 -> tstep t2 t3 -> tstep t1 t3.
Proof.
  intros [E1 [L1 R1]] [E2 [L2 R2]]. split; [congruence|]. split; [eapply tab_le_trans; eauto|].
  intros A D Hn Hd Hr. apply R2; [congruence|destruct L1; lia|]. apply R1; auto.
Qed.

Lemma tstep_sem t t' : sem_eq t t' -> t_trackers t' = t_trackers t -> tstep t t'.
Proof.
  intros Hs Ht. split; auto. split; [eapply tab_le_sem_r; eauto; apply tab_le_refl|].
  intros A D _ _ H. eapply retained_sem_r; eauto.
Qed.

(* insert / Modify / CompareAndSwap *)
Lemma tstep_modify g m p t : TInv t -> tstep t (fst (modify g m p t)).
Proof.
  intros HI. destruct (modify g m p t) as [t' [old e]] eqn:H. cbn [fst].
  destruct e; try (rewrite (modify_rejected_identity _ _ _ _ _ _ _ H); [apply tstep_refl|discriminate]).
  destruct (modify_ok_core _ _ _ _ _ _ _ H eq_refl) as [Ho [E1 [E2 [_ [E4 _]]]]].
  destruct (modify_ok_spec _ _ _ _ _ _ _ H eq_refl) as [_ [_ [_ [Etr _]]]].
  set (obj := new_object m p t) in *.
  assert (Hid : p_id (o_data obj) = p_id p) by apply new_object_id.
  assert (Hrev : o_rev obj = t_rev t + 1) by apply new_object_rev.
  assert (Hlive : forall o, live t' o <-> (o = obj \/ (pk o <> p_id p /\ live t o))).
  { intros o. unfold live. rewrite E2, om_in_insert by apply HI. unfold pk. split.
    - intros [[_ ->]|[H1 H2]]; auto.
    - intros [->|[H1 H2]]; [left; split; auto|right; auto]. }
  assert (Hdead1 : forall o, dead t' o -> dead t o).
  { intros o. unfold dead. rewrite E4. destruct old; [auto|].
    destruct (om_get (p_id p) (t_grave t)); auto. rewrite om_in_delete by apply HI. tauto. }
  assert (Hdead2 : forall o, dead t o -> pk o <> p_id p -> dead t' o).
  { intros o Hd Hne. unfold dead. rewrite E4. destruct old; [auto|].
    destruct (om_get (p_id p) (t_grave t)); auto. rewrite om_in_delete by apply HI. split; auto. }
  split; [exact Etr|]. split.
  - split; [lia|]. split; auto.
    intros o Hl Hr. apply Hlive in Hl. destruct Hl as [->|[_ Hl]]; auto. lia.
  - intros A D _ _ Hret k Hs Hn.
    destruct (bytes_eq_dec k (p_id p)) as [->|Hne].
    + exfalso. apply Hn. exists obj. split; [apply Hlive; now left|exact Hid].
    + assert (Hn0 : ~ has_live t k).
      { intros [o [H1 H2]]. apply Hn. exists o. split; auto. apply Hlive. right. split; auto. congruence. }
      destruct (Hret k Hs Hn0) as [g0 [G1 [G2 G3]]]. exists g0. repeat split; auto.
      apply Hdead2; auto. congruence.
Qed.

(* Delete / CompareAndDelete *)
Lemma tstep_delete g id t : TInv t -> tstep t (fst (delete g id t)).
Proof.
  intros HI. destruct (delete_cases g id t) as [->|[o [Ho Hc]]]; [apply tstep_refl|].
  destruct (delete g id t) as [t' [old e]] eqn:H. cbn [fst].
  destruct (delete_ok_core _ _ _ _ _ _ _ H Ho Hc) as [_ [_ [E1 [E2 [_ [E4 [_ [Etr _]]]]]]]].
  destruct (get_live t HI _ _ Ho) as [Hid Hlo].
  set (dd := mkO (o_data o) (t_rev t + 1)) in *.
  assert (Hlive : forall o', live t' o' <-> (pk o' <> id /\ live t o')).
  { intros o'. unfold live. rewrite E2, om_in_delete by apply HI. reflexivity. }
  split; [exact Etr|]. split.
  - split; [lia|]. split.
    + intros o' Hl _. apply Hlive in Hl. tauto.
    + intros o' Hd Hr. unfold dead in *. rewrite E4 in Hd. destruct (has_trackers t); auto.
      apply om_in_insert in Hd; [|apply HI]. destruct Hd as [[_ ->]|[_ Hd]]; auto. cbn in Hr. lia.
  - intros A D Hne HD Hret k Hs Hn.
    assert (Htr : has_trackers t = true) by (unfold has_trackers; destruct (t_trackers t); congruence).
    rewrite Htr in E4.
    destruct (bytes_eq_dec k id) as [->|Hk].
    + exists dd. split; [|split; [exact Hid|cbn; lia]].
      unfold dead. rewrite E4. apply om_in_insert; [apply HI|]. left. split; auto.
    + assert (Hn0 : ~ has_live t k).
      { intros [o' [H1 H2]]. apply Hn. exists o'. split; auto. apply Hlive. split; auto. congruence. }
      destruct (Hret k Hs Hn0) as [g0 [G1 [G2 G3]]]. exists g0. repeat split; auto.
      unfold dead. rewrite E4. apply om_in_insert; [apply HI|]. right. split; [unfold pk in G2; congruence|exact G1].
Qed.

(* DeleteAll *)
Lemma tstep_fold_delete (l : list (bytes * object)) : forall t, TInv t ->
  rev_bound (fold_left (fun t kv => fst (delete 0 (p_id (o_data (snd kv))) t)) l t) ->
  tstep t (fold_left (fun t kv => fst (delete 0 (p_id (o_data (snd kv))) t)) l t).
Proof.
  induction l as [|kv r IH]; intros t HI Hb; cbn [fold_left] in *; [apply tstep_refl|].
  eapply tstep_trans; [apply tstep_delete; auto|]. apply IH; auto. apply TInv_delete; auto.
  pose proof (fold_delete_rev_mono r (fst (delete 0 (p_id (o_data (snd kv))) t))). unfold rev_bound in *. lia.
Qed.

Lemma tstep_delete_all t : TInv t -> rev_bound (delete_all t) -> tstep t (delete_all t).
Proof. unfold delete_all. apply tstep_fold_delete. Qed.

Definition gc_apply1 (t : table) (key : bytes) : table :=
  match om_get key (t_graverev t) with
  | Some old => mkT (t_rev t) (t_primary t) (t_revidx t)
                    (om_delete (p_id (o_data old)) (t_grave t)) (om_delete key (t_graverev t))
                    (t_u t) (t_n t) (t_lu t) (t_ln t) (t_trackers t) (t_init t)
  | None => t
  end.

Lemma gc_apply_cons k ks t : gc_apply_table (k :: ks) t = gc_apply_table ks (gc_apply1 t k).
Proof. reflexivity. Qed.

Lemma gc_apply_sem_live ks t :
  t_rev (gc_apply_table ks t) = t_rev t /\ t_primary (gc_apply_table ks t) = t_primary t /\
  t_trackers (gc_apply_table ks t) = t_trackers t.
Proof. destruct (gc_apply_frame ks t) as [A [B [_ [_ [_ [_ [_ [C _]]]]]]]]. auto. Qed.

Lemma gc_apply1_TInv t k : TInv t -> rev_bound t -> TInv (gc_apply1 t k).
Proof. intros HI HB. exact (TInv_gc_apply [k] t HI HB). Qed.

(* collection only removes graveyard entries *)
Lemma gc_apply_dead_sub ks : forall t o, dead (gc_apply_table ks t) o -> dead t o.
Proof.
  induction ks as [|k r IH]; intros t o Hd; auto. rewrite gc_apply_cons in Hd. apply IH in Hd.
  unfold gc_apply1, dead in *. destruct (om_get k (t_graverev t)); auto. cbn in Hd.
  eapply om_delete_in_weak; eauto.
Qed.

(* a scanned key list below watermark D never removes a deletion above D — whatever happened to the
   table between scan and apply (the revision key of a re-deleted object is new) *)
Lemma gc_apply_keeps D ks : forall t o, TInv t -> rev_bound t ->
  (forall k, In k ks -> exists r, r < B64 /\ k = rev_key r /\ r <= D) ->
  dead t o -> D < o_rev o -> dead (gc_apply_table ks t) o.
Proof.
  induction ks as [|k r IH]; intros t o HI HB Hks Hd Hlt; auto.
  rewrite gc_apply_cons. apply IH; auto.
  - now apply gc_apply1_TInv.
  - unfold rev_bound. rewrite (proj1 (gc_apply_sem_live [k] t : t_rev (gc_apply1 t k) = _ /\ _)). exact HB.
  - intros k' Hk'. apply Hks. now right.
  - unfold gc_apply1. destruct (om_get k (t_graverev t)) as [old|] eqn:E; auto.
    unfold dead. cbn [t_grave]. apply om_in_delete; [apply HI|]. split; auto.
    apply om_in_get in E; [|apply HI]. apply (ti_graverev t HI) in E. destruct E as [Ek Hold].
    intros Epk. assert (o = old) by (eapply dead_pk_fun; eauto). subst old.
    destruct (Hks k (or_introl eq_refl)) as [r0 [Hr0 [Ek0 Hle]]].
    rewrite Ek in Ek0. apply rev_key_inj in Ek0; auto; [lia|].
    pose proof (dead_rev t HI _ Hd). unfold rev_bound, B64 in *. lia.
Qed.

Lemma tab_le_gc_apply ks A t : tab_le A t -> tab_le A (gc_apply_table ks t).
Proof.
  intros [R [L Dd]]. destruct (gc_apply_sem_live ks t) as [E1 [E2 _]].
  split; [lia|]. split.
  - intros o Hl. unfold live in Hl. rewrite E2 in Hl. auto.
  - intros o Hd. apply gc_apply_dead_sub in Hd. auto.
Qed.

Lemma retained_gc_apply ks A t D : TInv t -> rev_bound t ->
  (forall k, In k ks -> exists r, r < B64 /\ k = rev_key r /\ r <= D) ->
  retained A t D -> retained A (gc_apply_table ks t) D.
Proof.
  intros HI HB Hks Hret k Hs Hn. destruct (gc_apply_sem_live ks t) as [_ [E2 _]].
  assert (Hn0 : ~ has_live t k).
  { intros [o [H1 H2]]. apply Hn. exists o. split; auto. unfold live. now rewrite E2. }
  destruct (Hret k Hs Hn0) as [g0 [G1 [G2 G3]]]. exists g0. repeat split; auto.
  eapply gc_apply_keeps; eauto.
Qed.

(* collectable: once every registered tracker has caught up, one scan + apply empties the graveyard *)
Lemma gc_low_ge wm ids x : forall low, x <= low ->
  (forall id r, In id ids -> assoc id wm = Some r -> x <= r) ->
  x <= fold_left (fun low id => match assoc id wm with Some r => N.min low r | None => low end) ids low.
Proof.
  induction ids as [|i l IH]; intros low Hl Hall; cbn [fold_left]; auto.
  apply IH; [|intros id r Hin; apply Hall; now right].
  destruct (assoc i wm) as [r|] eqn:E; auto. specialize (Hall i r (or_introl eq_refl) E). lia.
Qed.

Lemma take_while_all low (m : idx) : (forall k o, In (k, o) m -> o_rev o <= low) ->
  take_while_rev low m = map fst m.
Proof.
  induction m as [|[k o] r IH]; intros H; cbn [take_while_rev map fst]; auto.
  destruct (N.ltb_spec low (o_rev o)) as [Hlt|_].
  - specialize (H k o (or_introl eq_refl)). lia.
  - f_equal. apply IH. intros k' o' Hin. apply (H k' o'). now right.
Qed.

Lemma gc_apply_all_keys (m : idx) : forall t, t_graverev t = m -> t_graverev (gc_apply_table (map fst m) t) = [].
Proof.
  induction m as [|[k v] r IH]; intros t E; cbn [map fst]; [exact E|].
  rewrite gc_apply_cons. apply IH. unfold gc_apply1. rewrite E. cbn [om_get].
  rewrite bytes_eqb_refl. cbn [t_graverev om_delete]. now rewrite bytes_eqb_refl.
Qed.

Theorem gc_collects_caught_up wm t : TInv t -> rev_bound t ->
  (forall o id r, dead t o -> In id (t_trackers t) -> assoc id wm = Some r -> o_rev o <= r) ->
  let t' := gc_apply_table (gc_scan_table wm t) t in
  t_grave t' = [] /\ t_graverev t' = [].
Proof.
  intros HI HB Hall t'.
  assert (Hscan : gc_scan_table wm t = map fst (t_graverev t)).
  { unfold gc_scan_table. apply take_while_all. intros k o Hin.
    apply (ti_graverev t HI) in Hin. destruct Hin as [_ Hd].
    unfold gc_low. apply gc_low_ge; [apply (dead_rev t HI _ Hd)|].
    intros id r Hid Hr. eapply Hall; eauto. }
  assert (Hgr : t_graverev t' = []) by (unfold t'; rewrite Hscan; now apply gc_apply_all_keys).
  split; auto.
  assert (HI' : TInv t') by (apply TInv_gc_apply; auto).
  destruct (t_grave t') as [|[k o] r] eqn:Eg; auto. exfalso.
  assert (Hin : In (k, o) (t_grave t')) by (rewrite Eg; now left).
  destruct (ti_grave t' HI' _ _ Hin) as [Ek _].
  assert (Hd : dead t' o) by (unfold dead; now rewrite <- Ek).
  assert (Hx : In (rev_key (o_rev o), o) (t_graverev t')) by (apply (ti_graverev t' HI'); auto).
  rewrite Hgr in Hx. exact Hx.
Qed.

(* the object count (NumObjects = length of the revision index) is the number of live objects *)
Theorem q_num_counts_live t : TInv t -> q_num t = N.of_nat (length (t_primary t)) /\
  forall o, In o (q_all t) <-> live t o.
Proof.
  intros HI. split; [|intros o; now apply vals_In].
  rewrite (q_num_exact t HI). unfold q_all, vals. now rewrite map_length.
Qed.
