(* Table/Inv4.v — write operations at the level of histories (C03): a transaction reads its
   own writes; the primary contents evolve as the keyed-map specification under any list of
   write operations (refinement to Base/OrdMap). Properties/C03.v states the property and
   proves its smaller parts from the lemmas here. *)
From SV Require Import Base.Bytes Base.OrdMap KeyEnc.Model Table.Model Table.InvDefs
                       Table.Proofs Table.GcProofs Table.Inv Table.Inv2.
From Coq Require Import ZifyN ZifyNat ZifyBool.
Open Scope N_scope.

Definition write_op (o : op) : option (nat * N * bool * payload) :=
  match o with
  | OInsert tab p => Some (tab, 0, false, p)
  | OModify tab p => Some (tab, 0, true, p)
  | OCas tab g p => Some (tab, g, false, p)
  | _ => None
  end.
Definition write_tab (o : op) : option nat :=
  match o with
  | OInsert tab _ | OModify tab _ | OCas tab _ _ | ODelete tab _ | OCad tab _ _ => Some tab
  | _ => None
  end.

Lemma step_write_locked d o tab g m p es old t : write_op o = Some (tab, g, m, p) ->
  d_txn d = Some (es, old) -> nth_error es tab = Some (t, true) ->
  step d o = (set_txn d (Some (upd_nth tab (fun _ => (fst (modify g m p t), true)) es, old)),
              OutWrite (fst (snd (modify g m p t))) (snd (snd (modify g m p t)))).
Proof.
  destruct o; simpl; try discriminate; intros H; injection H as <- <- <- <-; intros E1 E2;
    unfold with_locked; rewrite E1, E2;
    match goal with |- context [modify ?a ?b ?c ?d] => destruct (modify a b c d) as [t' [old' e]] end; reflexivity.
Qed.

Lemma query_txn d es old tab t q : d_txn d = Some (es, old) -> nth_error es tab = Some (t, true) ->
  step d (OQuery STxn tab q) = (d, run_query d tab q t).
Proof.
  intros E1 E2. simpl. rewrite E1. rewrite nth_error_map, E2. reflexivity.
Qed.

Theorem read_own_write d o tab g m p es old t prev : write_op o = Some (tab, g, m, p) ->
  d_txn d = Some (es, old) -> nth_error es tab = Some (t, true) ->
  snd (step d o) = OutWrite prev EOk ->
  let d' := fst (step d o) in
  let obj := new_object m p t in
  prev = om_get (p_id p) (t_primary t) /\
  o_rev obj = t_rev t + 1 /\
  snd (step d' (OQuery STxn tab (QGet IPrimary (p_id p)))) = OutGet (Some obj) /\
  snd (step d' (OQuery STxn tab QRev)) = OutNum (o_rev obj) /\
  d_root d' = d_root d.
Proof.
  intros Hw E1 E2 Ho. rewrite (step_write_locked _ _ _ _ _ _ _ _ _ Hw E1 E2) in *. cbn [fst snd] in *.
  destruct (modify g m p t) as [t' [old' e]] eqn:Hm. cbn [fst snd] in *. injection Ho as -> ->.
  destruct (modify_ok_spec _ _ _ _ _ _ _ Hm eq_refl) as [R1 [R2 [R3 _]]].
  destruct (modify_result _ _ _ _ _ _ _ Hm) as [Hp|[Hc _]]; [|discriminate].
  assert (E2' : nth_error (upd_nth tab (fun _ => (t', true)) es) tab = Some (t', true))
    by (apply (nth_error_upd_nth_same (fun _ => (t', true)) _ _ _ E2)).
  repeat split; auto.
  - rewrite R3. auto.
  - erewrite query_txn; [|reflexivity|exact E2']. simpl. unfold q_get. simpl. rewrite R2. now rewrite om_get_insert_same.
  - erewrite query_txn; [|reflexivity|exact E2']. simpl. now rewrite R3.
Qed.

Definition absobj (o : object) : N * N := (p_val (o_data o), o_rev o).
Definition abs_table (t : table) : omap (N * N) :=
  map (fun kv => (fst kv, (p_val (o_data (snd kv)), o_rev (snd kv)))) (t_primary t).


Lemma abs_table_eq t : abs_table t = om_map absobj (t_primary t).
Proof. reflexivity. Qed.

(* the specification: a keyed map id -> (value, revision) with a revision counter *)
Definition sstate := (N * omap (N * N))%type.
Definition sres := (option (N * N) * werr)%type.

Definition spec_put (g : N) (merge : bool) (id : bytes) (v : N) (s : sstate) : sstate * sres :=
  let '(rev, m) := s in
  let old := om_get id m in
  let nv := match merge, old with true, Some (ov, _) => ov + v | _, _ => v end in
  let ok := ((rev + 1, om_insert id (nv, rev + 1) m), (old, EOk)) in
  if 0 <? g then
    match old with
    | None => (s, (None, ENotFound))
    | Some (ov, orev) => if orev =? g then ok else (s, (old, ERevMismatch))
    end
  else ok.
Definition spec_del (g : N) (id : bytes) (s : sstate) : sstate * sres :=
  let '(rev, m) := s in
  match om_get id m with
  | None => (s, (None, EOk))
  | Some (ov, orev) => if (0 <? g) && negb (orev =? g) then (s, (Some (ov, orev), ERevMismatch))
                       else ((rev + 1, om_delete id m), (Some (ov, orev), EOk))
  end.
(* DeleteAll: one revision per deleted object *)
Definition spec_del_all (s : sstate) : sstate * sres :=
  let '(rev, m) := s in ((rev + N.of_nat (length m), []), (None, EOk)).

Inductive wop := WInsert (p : payload) | WModify (p : payload) | WCas (g : N) (p : payload)
               | WDelete (id : bytes) | WCad (g : N) (id : bytes) | WDeleteAll.
Definition apply_wop (w : wop) (t : table) : table * (option object * werr) :=
  match w with
  | WInsert p => modify 0 false p t
  | WModify p => modify 0 true p t
  | WCas g p => modify g false p t
  | WDelete id => delete 0 id t
  | WCad g id => delete g id t
  | WDeleteAll => (delete_all t, (None, EOk))
  end.
Definition spec_wop (w : wop) (s : sstate) : sstate * sres :=
  match w with
  | WInsert p => spec_put 0 false (p_id p) (p_val p) s
  | WModify p => spec_put 0 true (p_id p) (p_val p) s
  | WCas g p => spec_put g false (p_id p) (p_val p) s
  | WDelete id => spec_del 0 id s
  | WCad g id => spec_del g id s
  | WDeleteAll => spec_del_all s
  end.
Fixpoint run_wops (t : table) (ws : list wop) : table * list (option object * werr) :=
  match ws with
  | [] => (t, [])
  | w :: r => let '(t1, x) := apply_wop w t in let '(t2, xs) := run_wops t1 r in (t2, x :: xs)
  end.
Fixpoint spec_run (s : sstate) (ws : list wop) : sstate * list sres :=
  match ws with
  | [] => (s, [])
  | w :: r => let '(s1, x) := spec_wop w s in let '(s2, xs) := spec_run s1 r in (s2, x :: xs)
  end.

Definition abs_state (t : table) : sstate := (t_rev t, abs_table t).
Definition abs_res (x : option object * werr) : sres := (option_map absobj (fst x), snd x).

(* primary entries are keyed by the object's own key (part of TInv; all DeleteAll needs) *)
Definition keys_ok (t : table) : Prop := forall k o, In (k, o) (t_primary t) -> k = p_id (o_data o).

Lemma TInv_keys_ok t : TInv t -> keys_ok t.
Proof. intros HI k o H. now destruct (ti_primary t HI k o H). Qed.

Lemma modify_refines g m p t :
  spec_put g m (p_id p) (p_val p) (abs_state t) =
  (abs_state (fst (modify g m p t)), abs_res (snd (modify g m p t))).
Proof.
  unfold modify, modify_with, spec_put, abs_state, abs_res. rewrite abs_table_eq, om_map_get.
  destruct (0 <? g).
  - destruct (om_get (p_id p) (t_primary t)) as [o|] eqn:E; simpl; auto.
    destruct (o_rev o =? g); simpl; auto.
    rewrite abs_table_eq. simpl. rewrite om_map_insert. destruct m; reflexivity.
  - destruct (om_get (p_id p) (t_primary t)) as [o|] eqn:E; simpl.
    + rewrite abs_table_eq. simpl. rewrite om_map_insert. destruct m; reflexivity.
    + destruct (om_get (p_id p) (t_grave t)); simpl; rewrite abs_table_eq; simpl; rewrite om_map_insert;
        destruct m; reflexivity.
Qed.

Lemma delete_refines g id t :
  spec_del g id (abs_state t) = (abs_state (fst (delete g id t)), abs_res (snd (delete g id t))).
Proof.
  unfold delete, delete_with, spec_del, abs_state, abs_res. rewrite abs_table_eq, om_map_get.
  destruct (om_get id (t_primary t)) as [o|] eqn:E; simpl; auto.
  destruct ((0 <? g) && negb (o_rev o =? g)); simpl; auto.
  rewrite abs_table_eq. simpl. now rewrite om_map_delete.
Qed.

Lemma modify_keys_ok g m p t : keys_ok t -> keys_ok (fst (modify g m p t)).
Proof.
  intros HK. destruct (modify g m p t) as [t' [old e]] eqn:Hm. simpl.
  destruct e; try (rewrite (modify_rejected_identity _ _ _ _ _ _ _ Hm); [exact HK|discriminate]).
  destruct (modify_ok_spec _ _ _ _ _ _ _ Hm eq_refl) as [_ [R2 _]]. intros k o. rewrite R2. intros H.
  apply om_insert_in_weak in H. destruct H as [H|H]; auto. injection H as -> ->. now rewrite new_object_id.
Qed.

Lemma delete_keys_ok g id t : keys_ok t -> keys_ok (fst (delete g id t)).
Proof.
  intros HK. destruct (delete_cases g id t) as [->|[o [Ho Hc]]]; auto.
  destruct (delete g id t) as [t' [old e]] eqn:H. simpl.
  destruct (delete_ok_core _ _ _ _ _ _ _ H Ho Hc) as [_ [_ [_ [E2 _]]]].
  intros k o'. rewrite E2. intros Hin. apply om_delete_in_weak in Hin. auto.
Qed.

Lemma fold_delete_all (l : list (bytes * object)) : forall t, t_primary t = l -> keys_ok t ->
  let t' := fold_left (fun t kv => fst (delete 0 (p_id (o_data (snd kv))) t)) l t in
  t_primary t' = [] /\ t_rev t' = t_rev t + N.of_nat (length l).
Proof.
  induction l as [|[k o] r IH]; intros t Hp HK; cbn zeta.
  - simpl. split; auto. lia.
  - cbn [fold_left snd].
    assert (Hk : k = p_id (o_data o)) by (apply HK; rewrite Hp; left; reflexivity). subst k.
    assert (Hg : om_get (p_id (o_data o)) (t_primary t) = Some o) by (rewrite Hp; simpl; now rewrite bytes_eqb_refl).
    destruct (delete 0 (p_id (o_data o)) t) as [t1 [old e]] eqn:Hd.
    destruct (delete_ok_core _ _ _ _ _ _ _ Hd Hg eq_refl) as [_ [_ [E1 [E2 _]]]]. cbn [fst].
    assert (Hp1 : t_primary t1 = r) by (rewrite E2, Hp; simpl; now rewrite bytes_eqb_refl).
    assert (HK1 : keys_ok t1).
    { intros k' o' Hin. apply HK. rewrite Hp. right. now rewrite <- Hp1. }
    destruct (IH t1 Hp1 HK1) as [I1 I2]. split; auto. rewrite I2, E1. cbn [length]. lia.
Qed.

Lemma delete_all_spec t : keys_ok t ->
  t_primary (delete_all t) = [] /\ t_rev (delete_all t) = t_rev t + N.of_nat (length (t_primary t)).
Proof. intros HK. unfold delete_all. now apply fold_delete_all. Qed.

Lemma apply_wop_keys_ok w t : keys_ok t -> keys_ok (fst (apply_wop w t)).
Proof.
  intros HK. destruct w; simpl; auto using modify_keys_ok, delete_keys_ok.
  intros k o. rewrite (proj1 (delete_all_spec t HK)). intros [].
Qed.

Theorem wop_refines w t : keys_ok t ->
  spec_wop w (abs_state t) = (abs_state (fst (apply_wop w t)), abs_res (snd (apply_wop w t))).
Proof.
  intros HK. destruct w; cbn [spec_wop apply_wop fst snd]; try apply modify_refines; try apply delete_refines.
  destruct (delete_all_spec t HK) as [E1 E2]. unfold spec_del_all, abs_state, abs_res, abs_table. cbn [fst snd option_map].
  rewrite E1, E2, map_length. reflexivity.
Qed.

(* the same for the operations of a write transaction on one of its locked tables *)
Definition op_of_wop (tab : nat) (w : wop) : op :=
  match w with
  | WInsert p => OInsert tab p | WModify p => OModify tab p | WCas g p => OCas tab g p
  | WDelete id => ODelete tab id | WCad g id => OCad tab g id | WDeleteAll => ODeleteAll tab
  end.
Definition out_of_wop (w : wop) (x : option object * werr) : out :=
  match w with WDeleteAll => OutErr (snd x) | _ => OutWrite (fst x) (snd x) end.

Lemma step_wop d tab w es old t : d_txn d = Some (es, old) -> nth_error es tab = Some (t, true) ->
  step d (op_of_wop tab w) =
  (set_txn d (Some (upd_nth tab (fun _ => (fst (apply_wop w t), true)) es, old)), out_of_wop w (snd (apply_wop w t))).
Proof.
  intros E1 E2. destruct w; simpl; try rewrite E1, E2; unfold with_locked; rewrite E1, E2;
    try match goal with |- context [modify ?a ?b ?c ?d] => destruct (modify a b c d) as [t' [old' e]] end;
    try match goal with |- context [delete ?a ?b ?c] => destruct (delete a b c) as [t' [old' e]] end; reflexivity.
Qed.

Theorem txn_wops ws : forall d tab es old t, d_txn d = Some (es, old) -> nth_error es tab = Some (t, true) ->
  let t' := fst (run_wops t ws) in
  let d' := fst (run d (map (op_of_wop tab) ws)) in
  exists es', d_txn d' = Some (es', old) /\ nth_error es' tab = Some (t', true) /\
    (forall i, i <> tab -> nth_error es' i = nth_error es i) /\ d_root d' = d_root d /\
    snd (run d (map (op_of_wop tab) ws)) = map (fun wx => out_of_wop (fst wx) (snd wx)) (combine ws (snd (run_wops t ws))).
Proof.
  induction ws as [|w r IH]; intros d tab es old t E1 E2; cbn zeta.
  - simpl. exists es. auto.
  - cbn [map run run_wops]. rewrite (step_wop d tab w es old t E1 E2).
    destruct (apply_wop w t) as [t1 x] eqn:Ha. cbn [fst snd].
    set (d1 := set_txn d (Some (upd_nth tab (fun _ => (t1, true)) es, old))).
    assert (E1' : d_txn d1 = Some (upd_nth tab (fun _ => (t1, true)) es, old)) by reflexivity.
    assert (E2' : nth_error (upd_nth tab (fun _ => (t1, true)) es) tab = Some (t1, true))
      by (apply (nth_error_upd_nth_same (fun _ => (t1, true)) _ _ _ E2)).
    destruct (IH d1 tab _ old t1 E1' E2') as [es' [H1 [H2 [H3 [H4 H5]]]]].
    destruct (run d1 (map (op_of_wop tab) r)) as [d2 xs]. destruct (run_wops t1 r) as [t2 ys].
    cbn [fst snd] in *. exists es'. repeat split; auto.
    + intros i Hi. rewrite (H3 i Hi). apply nth_error_upd_nth_other. congruence.
    + simpl. now rewrite H5.
Qed.
