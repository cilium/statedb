(* Table/Refuted.v — statements that are FALSE for the faithful model of the code as it was
   before a fix in /repo, each with its witness. *)
From SV Require Import Base.Bytes Base.OrdMap KeyEnc.Model Table.Model Table.InvDefs.
Open Scope N_scope.

(* index/keyset.go before fix 00118b6: KeySet{}.Exists(emptyKey) = true (the nil head compares
   equal to the empty key). Deleting an object whose non-unique key set is {""} then finds
   its only old key "in" the (empty) new key set and leaves the index entry behind. *)
Definition rk_payload : payload := mkP [97] 1 [] [[]] [] [].
Definition rk_table : table := fst (modify 0 false rk_payload empty_table).
Definition rk_obj : object := mkO rk_payload 1.

Lemma rk_table_n : t_n rk_table = [(nuk [97] [], rk_obj)] /\ t_primary rk_table = [([97], rk_obj)].
Proof. vm_compute. split; reflexivity. Qed.

Lemma rk_table_agree : n_agree rk_table.
Proof.
  destruct rk_table_n as [Hn Hp]. unfold n_agree, live. rewrite Hn, Hp. split.
  - simpl. split; [constructor|exact I].
  - intros K o. split.
    + intros [H|[]]. injection H as <- <-. exists []. cbn. auto.
    + intros [k [Hk [HK [HL|[]]]]]. injection HL as Hid <-. cbn in Hk. destruct Hk as [<-|[]]. left. now rewrite HK.
Qed.

Lemma rk_deleted :
  t_n (fst (delete_with reindex_old 0 [97] rk_table)) = [(nuk [97] [], rk_obj)] /\
  t_primary (fst (delete_with reindex_old 0 [97] rk_table)) = [].
Proof. vm_compute. split; reflexivity. Qed.

(* the stale entry remains although no object is live any more *)
Theorem reindex_empty_key_refuted :
  exists t id, n_agree t /\ ~ n_agree (fst (delete_with reindex_old 0 id t)).
Proof.
  exists rk_table, [97]. split; [exact rk_table_agree|].
  destruct rk_deleted as [Hn Hp]. unfold n_agree, live. rewrite Hn, Hp. intros [_ H].
  destruct (proj1 (H (nuk [97] []) rk_obj) (or_introl eq_refl)) as [k [_ [_ []]]].
Qed.

(* ... and a query observes it: List("") on the non-unique index still returns the deleted object *)
Theorem reindex_empty_key_stale_list :
  q_list INn [] (fst (delete_with reindex_old 0 [97] rk_table)) = [rk_obj] /\
  q_all (fst (delete_with reindex_old 0 [97] rk_table)) = [].
Proof. vm_compute. split; reflexivity. Qed.

(* the fixed Exists does not have the problem on the same witness *)
Example reindex_empty_key_fixed :
  t_n (fst (delete 0 [97] rk_table)) = [] /\ q_list INn [] (fst (delete 0 [97] rk_table)) = [].
Proof. vm_compute. split; reflexivity. Qed.

Print Assumptions reindex_empty_key_refuted.
Print Assumptions reindex_empty_key_stale_list.
