(* Table/ClientsRun3.v — the observer (observable.go), at the level of one run of its goroutine and at
   the level of whole runs of the system. *)
From Coq Require Import List NArith Bool Lia.
Import ListNotations.
From SV Require Import Base.Bytes Base.OrdMap KeyEnc.Model Table.Model Table.Proofs Table.InvDefs Table.Inv Table.Inv2
                       Table.GcProofs Table.ChangesStream Table.ChangesIter Table.ChangesProofs Table.ChangesRet
                       Table.ChangesHist Table.ChangesFromInit Table.Clients Table.ClientsProofs Table.ClientsProofs2
                       Table.ClientsRun.
Local Open Scope N_scope.

Definition in_seq (it : iter) : bool :=
  it_seq it && match it_pending it with Some _ => true | None => false end.
Definition idle (it : iter) (cur : table) : bool :=
  match it_pending it with None => t_rev cur =? it_watchrev it | Some _ => false end.
(* how many turns are needed at most before the goroutine stops: finish the sequence in flight (2), refresh (1),
   find the watch channel open (0) *)
Definition rank (it : iter) (cur : table) : nat := if in_seq it then 2 else if idle it cur then 0 else 1.

Definition drained_at (it : iter) (wr : N) : iter := mkI (it_tab it) (it_rev it) (it_delrev it) None wr false.

Lemma consume1_frame o del r it d iid :
  let '(out, it1, d1) := consume (Some 1%nat) ((o, del) :: r) it d iid in
  out = [(o, del)] /\ it_tab it1 = it_tab it /\ d_root d1 = d_root d /\ d_txn d1 = d_txn d.
Proof.
  cbn [consume]. split; [reflexivity|]. split; [destruct del; reflexivity|].
  destruct del; [|auto]. destruct (gc_trigger_frame (set_wm d (assoc_set iid (o_rev o) (d_wm d)))) as [A [B _]]. auto.
Qed.

Lemma step_resume1 d iid it : assoc iid (d_iters d) = Some it -> in_seq it = true ->
  (exists c d1 it1, step d (OResume iid (Some 1%nat)) = (d1, OutChanges [c] true) /\
                    d_root d1 = d_root d /\ d_txn d1 = d_txn d /\
                    assoc iid (d_iters d1) = Some it1 /\ it_tab it1 = it_tab it) \/
  step d (OResume iid (Some 1%nat)) =
    (set_iters d (assoc_set iid (drained_at it (it_watchrev it)) (d_iters d)), OutChanges [] true).
Proof.
  intros Hit Hs. unfold in_seq in Hs. apply andb_true_iff in Hs. destruct Hs as [Hs Hp].
  cbn [step]. rewrite Hit, Hs. destruct (it_pending it) as [l|]; [|discriminate].
  destruct l as [|[o del] r]; [right; reflexivity|left].
  pose proof (consume1_frame o del r it d iid) as Hc.
  destruct (consume (Some 1%nat) ((o, del) :: r) it d iid) as [[out it1] d1]. destruct Hc as [-> [A [B C]]].
  exists (o, del), (set_iters d1 (assoc_set iid it1 (d_iters d1))), it1.
  cbn [set_iters d_root d_txn d_iters]. rewrite assoc_set_same. auto.
Qed.

Lemma step_next1 d iid it cur : assoc iid (d_iters d) = Some it -> nth_error (d_root d) (it_tab it) = Some cur ->
  if idle it cur then step d (ONext iid SFresh (Some 1%nat)) = (d, OutChanges [] false)
  else
    (exists c d1 it1, step d (ONext iid SFresh (Some 1%nat)) = (d1, OutChanges [c] true) /\
                      d_root d1 = d_root d /\ d_txn d1 = d_txn d /\
                      assoc iid (d_iters d1) = Some it1 /\ it_tab it1 = it_tab it) \/
    step d (ONext iid SFresh (Some 1%nat)) =
      (set_iters d (assoc_set iid (drained_at it (t_rev cur)) (d_iters d)), OutChanges [] true).
Proof.
  intros Hit Hc. cbn [step src_committed]. rewrite Hit, Hc. fold (idle it cur).
  destruct (idle it cur); [reflexivity|].
  cbn [refresh it_tab it_rev it_delrev it_pending it_watchrev it_seq].
  match goal with |- context [consume _ ?l ?i d iid] => set (l0 := l) end.
  destruct l0 as [|[o del] r]; [right; reflexivity|left].
  match goal with |- context [consume _ _ ?i d iid] =>
    pose proof (consume1_frame o del r i d iid) as Hf;
    destruct (consume (Some 1%nat) ((o, del) :: r) i d iid) as [[out it1] d1] end.
  destruct Hf as [-> [A [B C]]]. cbn [it_tab] in A.
  exists (o, del), (set_iters d1 (assoc_set iid it1 (d_iters d1))), it1.
  cbn [set_iters d_root d_txn d_iters]. rewrite assoc_set_same. auto.
Qed.

Lemma observe_run_ends fuel : forall os d acc it cur,
  assoc (ov_iid os) (d_iters d) = Some it -> nth_error (d_root d) (it_tab it) = Some cur ->
  (rank it cur < fuel)%nat ->
  let r := observe_run fuel os d acc in
  exists ops1 it',
    snd r = acc ++ ops1 /\ d_root (fst (fst r)) = d_root d /\ d_txn (fst (fst r)) = d_txn d /\
    assoc (ov_iid os) (d_iters (fst (fst r))) = Some it' /\ it_tab it' = it_tab it /\
    ((exists c, snd (fst r) = oset os (OHold c) /\ delivered (ov_iid os) d ops1 = [c]) \/
     (snd (fst r) = oset os (OWait (it_watchrev it')) /\ delivered (ov_iid os) d ops1 = [] /\
      it_pending it' = None /\ t_rev cur = it_watchrev it')).
Proof.
  induction fuel as [|f IH]; intros os d acc it cur Hit Hc Hr; [lia|].
  cbv zeta. cbn [observe_run]. rewrite Hit. fold (in_seq it). unfold rank in Hr.
  destruct (in_seq it) eqn:Eb.
  - (* a sequence is in flight: Resume *)
    destruct (step_resume1 d (ov_iid os) it Hit Eb) as [[c [d1 [it1 [E [R [T [A Ht]]]]]]]|E]; rewrite E.
    + exists [OResume (ov_iid os) (Some 1%nat)], it1. cbn [fst snd]. repeat (split; [assumption || reflexivity|]).
      left. exists c. split; [reflexivity|]. cbn [delivered]. rewrite N.eqb_refl, E. reflexivity.
    + set (d1 := set_iters d (assoc_set (ov_iid os) (drained_at it (it_watchrev it)) (d_iters d))).
      assert (Hit1 : assoc (ov_iid os) (d_iters d1) = Some (drained_at it (it_watchrev it))) by apply assoc_set_same.
      destruct (IH os d1 (acc ++ [OResume (ov_iid os) (Some 1%nat)]) _ cur Hit1 Hc) as [ops1 [it' [H1 [H2 [H3 [H4 [H5 H6]]]]]]].
      { unfold rank. cbn. destruct (t_rev cur =? it_watchrev it); lia. }
      exists (OResume (ov_iid os) (Some 1%nat) :: ops1), it'.
      rewrite H1, <- app_assoc. split; [reflexivity|]. split; [exact H2|]. split; [exact H3|]. split; [exact H4|].
      split; [exact H5|]. cbn [delivered]. rewrite N.eqb_refl, E. cbn [fst snd out_changes app]. exact H6.
  - (* Next on a fresh read transaction *)
    pose proof (step_next1 d (ov_iid os) it cur Hit Hc) as Hn. destruct (idle it cur) eqn:Ei.
    + rewrite Hn, Hit. exists [ONext (ov_iid os) SFresh (Some 1%nat)], it. cbn [fst snd].
      repeat (split; [assumption || reflexivity|]). right. split; [reflexivity|].
      split; [cbn [delivered]; rewrite N.eqb_refl, Hn; reflexivity|].
      unfold idle in Ei. destruct (it_pending it); [discriminate|]. apply N.eqb_eq in Ei. auto.
    + destruct Hn as [[c [d1 [it1 [E [R [T [A Ht]]]]]]]|E]; rewrite E.
      * exists [ONext (ov_iid os) SFresh (Some 1%nat)], it1. cbn [fst snd]. repeat (split; [assumption || reflexivity|]).
        left. exists c. split; [reflexivity|]. cbn [delivered]. rewrite N.eqb_refl, E. reflexivity.
      * set (d1 := set_iters d (assoc_set (ov_iid os) (drained_at it (t_rev cur)) (d_iters d))).
        assert (Hit1 : assoc (ov_iid os) (d_iters d1) = Some (drained_at it (t_rev cur))) by apply assoc_set_same.
        destruct (IH os d1 (acc ++ [ONext (ov_iid os) SFresh (Some 1%nat)]) _ cur Hit1 Hc) as [ops1 [it' [H1 [H2 [H3 [H4 [H5 H6]]]]]]].
        { unfold rank. cbn. rewrite N.eqb_refl. lia. }
        exists (ONext (ov_iid os) SFresh (Some 1%nat) :: ops1), it'.
        rewrite H1, <- app_assoc. split; [reflexivity|]. split; [exact H2|]. split; [exact H3|]. split; [exact H4|].
        split; [exact H5|]. cbn [delivered]. rewrite N.eqb_refl, E. cbn [fst snd out_changes app]. exact H6.
Qed.

(* with the fuel of the model: four turns are more than enough *)
Lemma rank_lt4 it cur : (rank it cur < 4)%nat.
Proof. unfold rank. destruct (in_seq it); [lia|]. destruct (idle it cur); lia. Qed.

Lemma run_iters_frame iid l : forall d, forallb (fun o => negb (touches iid o)) l = true ->
  assoc iid (d_iters (fst (run d l))) = assoc iid (d_iters d).
Proof.
  induction l as [|o r IH]; intros d H; cbn [run]; [reflexivity|].
  cbn [forallb] in H. apply andb_true_iff in H. destruct H as [Ho Hr]. apply negb_true_iff in Ho.
  specialize (IH (fst (step d o)) Hr). rewrite (step_iters_frame d o iid Ho) in IH.
  destruct (step d o) as [d1 x]. cbn [fst] in *. destruct (run d1 r) as [d2 xs]. exact IH.
Qed.

Lemma reg_leg_iter n d tab iid sid : LInv n d -> d_txn d = None -> (tab < n)%nat ->
  exists it, assoc iid (d_iters (fst (run d [OBegin [tab]; OChanges iid tab; OCommit sid]))) = Some it /\ it_tab it = tab.
Proof.
  intros L Htx Htab. destruct (LInv_root n d tab L Htab) as [t Ht].
  change [OBegin [tab]; OChanges iid tab; OCommit sid] with ([OBegin [tab]] ++ [OChanges iid tab] ++ [OCommit sid]).
  rewrite !run_app, !run_single.
  rewrite (step_iters_frame _ (OCommit sid) iid eq_refl).
  rewrite (step_begin1 d tab Htx). cbn [step set_txn d_txn]. rewrite (lock1_same _ _ _ Ht).
  cbn [fst]. rewrite Ht. cbn [fst set_iters d_iters]. rewrite assoc_set_same. eexists. split; [reflexivity|reflexivity].
Qed.

(* what the harness has been told: the changes of the callbacks that have returned, in order *)
Definition reported (outs : list cout) : list (object * bool) :=
  flat_map (fun x => match x with CoDelivered _ (Some c) _ => [c] | _ => [] end) outs.

Definition ochange (r : option (object * bool)) : list (object * bool) := match r with Some c => [c] | None => [] end.

Lemma reported_snoc outs x : reported (outs ++ [x]) = reported outs ++ ochange (xchange x).
Proof.
  unfold reported. rewrite flat_map_app. cbn [flat_map]. rewrite app_nil_r.
  destruct x; reflexivity.
Qed.

(* the harness never uses the observer's iterator id, and observes a table that exists *)
Definition cop_ok' (n : nat) (c : cop) : bool :=
  match c with
  | CUser o => negb (touches observe_iid o)
  | CObserveStart tab => Nat.ltb tab n
  | _ => true
  end.

Lemma dop_untouched_o o : dop o = true -> negb (touches observe_iid o) = true.
Proof.
  destruct o; try discriminate; try reflexivity; cbn [dop]; try destruct s; try discriminate; try destruct take; try discriminate;
    intros E; apply N.eqb_eq in E; subst; reflexivity.
Qed.

Definition obs_state (d : db) (os : ostate) (dlv rep : list (object * bool)) : Prop :=
  match ov_phase os with
  | OReg => dlv = [] /\ rep = []
  | OHold c => (exists it, assoc observe_iid (d_iters d) = Some it /\ it_tab it = ov_tab os) /\ dlv = rep ++ [c]
  | OWait wr => (exists it cur, assoc observe_iid (d_iters d) = Some it /\ it_tab it = ov_tab os /\
                                it_pending it = None /\ it_watchrev it = wr /\
                                nth_error (d_root d) (ov_tab os) = Some cur) /\
                dlv = rep
  | ODone => exists tl, dlv = rep ++ tl /\ (length tl <= 1)%nat
  end.

Record HInv (n : nat) (s : csys) (outs : list cout) (ops : list op) : Prop := mkHInv {
  h_none : cs_o s = None -> delivered observe_iid (init_db n) ops = [] /\ reported outs = [];
  h_o : forall os, cs_o s = Some os -> (ov_tab os < n)%nat /\
        obs_state (cs_db s) os (delivered observe_iid (init_db n) ops) (reported outs)
}.

(* between two steps no wake-up is pending: a waiting observer waits on the watch channel of the CURRENT revision *)
Definition settled (s : csys) : Prop := forall os, cs_o s = Some os -> o_woken os (cs_db s) = false.

Lemma obs_state_quiet n d l os dlv rep :
  LInv n (fst (run d l)) -> (ov_tab os < n)%nat ->
  forallb (fun o => negb (touches observe_iid o)) l = true ->
  obs_state d os dlv rep -> obs_state (fst (run d l)) os dlv rep.
Proof.
  intros L Ht Hq. unfold obs_state. rewrite (run_iters_frame _ _ d Hq). destruct (ov_phase os); auto.
  intros [[it [cur [A [B [C [D E]]]]]] G]. split; [|exact G].
  destruct (LInv_root n _ _ L Ht) as [cur' Hc]. exists it, cur'. auto 10.
Qed.

Lemma HInv_quiet n s outs ops d' l sd x :
  creach n s ops -> HInv n s outs ops -> d' = fst (run (cs_db s) l) ->
  forallb (fun o => negb (touches observe_iid o)) l = true -> xchange x = None ->
  HInv n (mkCS d' sd (cs_o s) (cs_mode s)) (outs ++ [x]) (ops ++ l).
Proof.
  intros HR [I3 I4] -> Hq Hx. pose proof (r_db _ _ _ HR) as I1.
  assert (Hdl : delivered observe_iid (init_db n) (ops ++ l) = delivered observe_iid (init_db n) ops).
  { rewrite delivered_app, <- I1, (delivered_untouched _ _ _ Hq), app_nil_r. reflexivity. }
  constructor; cbn [cs_db cs_o]; rewrite Hdl, reported_snoc, Hx, app_nil_r; auto.
  intros os Eo. destruct (I4 _ Eo) as [B C]. split; [exact B|].
  eapply obs_state_quiet; eauto. rewrite I1, <- run_app. apply LInv_run, LInv_init.
Qed.

(* one run of the goroutine, from a state in which its iterator exists: it leaves no wake-up pending *)
Lemma HInv_observe_run n s outs outs' ops acc os d d' os' l rep_x ph :
  creach n s ops -> HInv n s outs ops -> cs_o s = Some os -> d = fst (run (cs_db s) acc) ->
  delivered observe_iid (cs_db s) acc = [] ->
  (exists it, assoc observe_iid (d_iters d) = Some it /\ it_tab it = ov_tab os) ->
  reported outs' = reported outs ++ rep_x ->
  delivered observe_iid (init_db n) ops = reported outs ++ rep_x ->
  observe_run 4 (oset os ph) d acc = (d', os', l) ->
  HInv n (mkCS d' (cs_d s) (Some os') (cs_mode s)) outs' (ops ++ l) /\ o_woken os' d' = false.
Proof.
  intros HR HI Eo Hd Hacc [it [Hit Htab]] Hx Hdlv H.
  destruct (h_o _ _ _ _ HI _ Eo) as [Hlt _]. pose proof (r_o _ _ _ HR _ Eo) as Hid. pose proof (r_db _ _ _ HR) as I1.
  assert (L : LInv n d) by (rewrite Hd, I1, <- run_app; apply LInv_run, LInv_init).
  destruct (LInv_root n d (ov_tab os) L Hlt) as [cur Hc].
  destruct (observe_run_ends 4 (oset os ph) d acc it cur) as [ops1 [it' [H1 [H2 [H3 [H4 [H5 H6]]]]]]].
  { cbn [oset ov_iid]. rewrite Hid. exact Hit. }
  { rewrite Htab. exact Hc. }
  { apply rank_lt4. }
  rewrite H in *. cbn [fst snd oset ov_iid ov_tab] in *. subst l. rewrite Hid in *.
  assert (Hdl : delivered observe_iid (init_db n) (ops ++ acc ++ ops1) =
                reported outs ++ rep_x ++ delivered observe_iid d ops1).
  { rewrite delivered_app, <- I1, delivered_app, Hacc, <- Hd, Hdlv, <- app_assoc. reflexivity. }
  split.
  - constructor; cbn [cs_db cs_o]; [discriminate|].
    intros os0 E0. injection E0 as <-. rewrite Hdl, Hx.
    destruct H6 as [[c [-> Hdc]]|[-> [Hdc [Hp Hw]]]]; cbn [oset ov_tab]; (split; [exact Hlt|]);
      unfold obs_state; cbn [oset ov_phase ov_tab]; rewrite Hdc.
    + split; [exists it'; split; [exact H4|congruence]|]. now rewrite app_assoc.
    + split; [|now rewrite app_nil_r]. exists it', cur. rewrite H2. repeat (split; [assumption || congruence|]). exact Hc.
  - destruct H6 as [[c [-> _]]|[-> [_ [_ Hw]]]]; unfold o_woken; cbn [oset ov_phase ov_tab]; [reflexivity|].
    now rewrite H2, Hc, Hw, N.eqb_refl.
Qed.

(* a leg of the observer; outs' = the outputs afterwards (the wake-up adds none) *)
Lemma HInv_oleg n s outs outs' ops os os' d' l r :
  creach n s ops -> HInv n s outs ops -> cs_o s = Some os -> oleg (cs_db s) os os' d' l r ->
  reported outs' = reported outs ++ ochange r ->
  HInv n (mkCS d' (cs_d s) (Some os') (cs_mode s)) outs' (ops ++ l) /\ o_woken os' d' = false.
Proof.
  intros HR HI Eo Ho Hx. destruct (h_o _ _ _ _ HI _ Eo) as [Hlt Hst]. pose proof (r_o _ _ _ HR _ Eo) as Hid.
  unfold obs_state in Hst.
  destruct Ho as [d1 os1 l1 Etx Eph E|c d1 os1 l1 Etx Eph E|Etx Hn1 Hn2|wr d1 os1 l1 Eph E].
  - (* registration, then the first run *)
    rewrite Eph in Hst. destruct Hst as [Hd Hr]. rewrite <- (oset_same _ _ Eph) in E at 1.
    eapply (HInv_observe_run n s outs outs' ops (observe_reg_ops os) os _ d1 os1 l1 [] OReg); eauto.
    + unfold observe_reg_ops. rewrite Hid. apply (reg_leg_iter n); auto. exact (creach_LInv _ _ _ HR).
    + now rewrite Hd, Hr.
  - (* the callback returns *)
    rewrite Eph in Hst. destruct Hst as [Hit Hd].
    eapply (HInv_observe_run n s outs outs' ops [] os _ d1 os1 l1 [c] (OWait 0)); eauto.
  - (* cancellation: at most the change of the callback in progress is never reported *)
    split; [|reflexivity].
    constructor; cbn [cs_db cs_o]; [discriminate|]. intros os0 E0. injection E0 as <-. cbn [oset ov_tab]. split; [exact Hlt|].
    unfold obs_state. cbn [oset ov_phase]. rewrite delivered_app, Hx. cbn [delivered ochange]. rewrite !app_nil_r.
    destruct (ov_phase os); try congruence.
    + exists [c]. split; [tauto|auto].
    + exists []. rewrite app_nil_r. split; [tauto|auto].
  - (* woken up in the select *)
    rewrite Eph in Hst. destruct Hst as [[it [cur [A [B _]]]] G]. rewrite <- (oset_same _ _ Eph) in E at 1. cbn [ochange] in Hx.
    eapply (HInv_observe_run n s outs outs' ops [] os _ d1 os1 l1 [] (OWait wr)); eauto; now rewrite app_nil_r.
Qed.

Lemma HInv_leg n s outs ops c s' x r l :
  creach n s ops -> HInv n s outs ops -> cop_ok' n c = true -> leg s c s' r l -> xchange x = r ->
  HInv n s' (outs ++ [x]) (ops ++ l).
Proof.
  intros HR HI Hc Hl Hx. revert Hc Hx.
  destruct Hl as [c0|o|c0 sd' d' l0 Hd|tab Eo|c0 os os' d' l0 r0 _ Eo Ho]; intros Hc Hx.
  - pose proof (HInv_quiet n s outs ops (cs_db s) [] (cs_d s) x HR HI eq_refl eq_refl Hx) as K. now destruct s.
  - apply HInv_quiet; auto; [now rewrite run_single|cbn [forallb cop_ok'] in *; now rewrite Hc].
  - destruct (dleg_run_dop _ _ _ _ _ _ _ Hd (fun ds E => proj1 (r_d _ _ _ HR ds E))) as [Hd' Hp].
    apply HInv_quiet; auto. exact (forallb_impl _ _ _ dop_untouched_o Hp).
  - destruct HI as [I3 _]. destruct (I3 Eo) as [A B]. apply Nat.ltb_lt in Hc.
    constructor; cbn [cs_db cs_o]; rewrite app_nil_r, reported_snoc, Hx, app_nil_r; [discriminate|].
    intros os E. injection E as <-. cbn. auto.
  - apply (HInv_oleg n s outs _ ops os os' d' l0 r0); auto. now rewrite reported_snoc, Hx.
Qed.

Lemma HInv_wake n s outs ops s' l :
  creach n s ops -> HInv n s outs ops -> wake s s' l -> HInv n s' outs (ops ++ l) /\ settled s'.
Proof.
  intros HR HI [Hno|os os' d' l0 Eo Ho]; [now rewrite app_nil_r|].
  destruct (HInv_oleg n s outs outs ops os os' d' l0 None HR HI Eo Ho) as [A B]; [now rewrite app_nil_r|].
  split; [exact A|]. intros os0 E0. injection E0 as <-. exact B.
Qed.

Lemma HInv_crun n cs s outs ops : forallb (cop_ok' n) cs = true -> crun (init_csys n 0) cs = (s, outs, ops) ->
  creach n s ops /\ HInv n s outs ops /\ settled s.
Proof.
  apply (crun_invariant n (cop_ok' n) (fun s outs ops => HInv n s outs ops /\ settled s) (HInv n)).
  - split; [constructor; cbn; auto; discriminate|intros os E; discriminate].
  - intros s0 outs0 ops0 c s' x r l HR [HI _]. now apply HInv_leg.
  - intros s0 outs0 ops0 s' l. apply HInv_wake.
Qed.

Definition held (os : ostate) : list (object * bool) := match ov_phase os with OHold c => [c] | _ => [] end.

(* In every run in which the harness does not use the observer's iterator id (Derive may run):
   - everything the observer's iterator has been handed has been reported by a returned callback, in order,
     except the change of the callback in progress; after cancellation at most that one change is missing;
   - once released the goroutine is always inside a callback or in the select, never where the
     fuel-exhaustion / not-applicable branches of observe_run would leave it; and when it is in the select, it
     waits on the watch channel of the observed table's CURRENT revision with its iterator exhausted. *)
Theorem observer_run_invariant n cs s outs ops os :
  forallb (cop_ok' n) cs = true -> crun (init_csys n 0) cs = (s, outs, ops) -> cs_o s = Some os ->
  cs_db s = fst (run (init_db n) ops) /\
  let dlv := delivered observe_iid (init_db n) ops in
  match ov_phase os with
  | OReg => dlv = [] /\ reported outs = []
  | OHold c => dlv = reported outs ++ [c] /\
               exists it, assoc observe_iid (d_iters (cs_db s)) = Some it /\ it_tab it = ov_tab os
  | OWait wr => dlv = reported outs /\
                exists it cur, assoc observe_iid (d_iters (cs_db s)) = Some it /\ it_tab it = ov_tab os /\
                               it_pending it = None /\ it_watchrev it = wr /\
                               nth_error (d_root (cs_db s)) (ov_tab os) = Some cur /\ t_rev cur = wr
  | ODone => exists tl, dlv = reported outs ++ tl /\ (length tl <= 1)%nat
  end.
Proof.
  intros Hc H Eo. destruct (HInv_crun n cs s outs ops Hc H) as [HR [[_ I4] Hs]].
  split; [exact (r_db _ _ _ HR)|]. destruct (I4 _ Eo) as [_ Hst]. specialize (Hs _ Eo). revert Hst Hs.
  unfold obs_state, o_woken. cbv zeta. destruct (ov_phase os); auto.
  - intros [A B] _. auto.
  - intros [[it [cur [A [B [C [D E]]]]]] G]. rewrite E. intros Hw. apply negb_false_iff, N.eqb_eq in Hw.
    split; [exact G|]. exists it, cur. auto 10.
Qed.

Corollary observer_reports_what_was_delivered n cs s outs ops os :
  forallb (cop_ok' n) cs = true -> crun (init_csys n 0) cs = (s, outs, ops) -> cs_o s = Some os ->
  ov_phase os <> ODone ->
  reported outs ++ held os = delivered observe_iid (init_db n) ops.
Proof.
  intros Hc H Eo Hd. destruct (observer_run_invariant n cs s outs ops os Hc H Eo) as [_ K]. cbv zeta in K.
  unfold held. destruct (ov_phase os).
  - destruct K as [-> ->]. reflexivity.
  - destruct K as [-> _]. reflexivity.
  - destruct K as [-> _]. now rewrite app_nil_r.
  - congruence.
Qed.

(* one release of the goroutine (`ogo`) always ends inside a callback or in the select on the watch
   channel of the current revision, with its iterator exhausted; the branches of observe_run that return the
   phase they were given (out of fuel, operation not applicable) are not taken *)
Theorem observe_go_ends n os d d' os' ops c :
  LInv n d -> (ov_tab os < n)%nat ->
  (ov_phase os <> OReg -> exists it, assoc (ov_iid os) (d_iters d) = Some it /\ it_tab it = ov_tab os) ->
  observe_go os d = (d', os', ops, c, true) ->
  (exists c', ov_phase os' = OHold c') \/
  (exists it' cur, ov_phase os' = OWait (it_watchrev it') /\ assoc (ov_iid os) (d_iters d') = Some it' /\
                   it_pending it' = None /\ nth_error (d_root d') (ov_tab os) = Some cur /\
                   t_rev cur = it_watchrev it').
Proof.
  intros L Hlt Hit. unfold observe_go. destruct (d_txn d) eqn:Etx; [intros H; discriminate|].
  assert (Hrun : forall d1 acc ph a b e, LInv n d1 ->
            (exists it, assoc (ov_iid os) (d_iters d1) = Some it /\ it_tab it = ov_tab os) ->
            observe_run 4 (oset os ph) d1 acc = (a, b, e) ->
            (exists c', ov_phase b = OHold c') \/
            (exists it' cur, ov_phase b = OWait (it_watchrev it') /\ assoc (ov_iid os) (d_iters a) = Some it' /\
                             it_pending it' = None /\ nth_error (d_root a) (ov_tab os) = Some cur /\
                             t_rev cur = it_watchrev it')).
  { intros d1 acc ph a b e L1 [it [A B]] E. destruct (LInv_root n d1 (ov_tab os) L1 Hlt) as [cur Hc].
    destruct (observe_run_ends 4 (oset os ph) d1 acc it cur) as [ops1 [it' [H1 [H2 [H3 [H4 [H5 H6]]]]]]]; auto.
    { rewrite B. exact Hc. }
    { apply rank_lt4. }
    rewrite E in *. cbn [fst snd oset ov_iid] in *.
    destruct H6 as [[c' [-> _]]|[-> [_ [Hp Hw]]]]; [left; eexists; reflexivity|right].
    exists it', cur. cbn [oset ov_phase]. rewrite H2. auto. }
  destruct (ov_phase os) eqn:Eph.
  - destruct (observe_run 4 os (fst (run d (observe_reg_ops os))) (observe_reg_ops os)) as [[a b] e] eqn:E.
    intros H; injection H as <- <- <- <- . 
    assert (Hos : os = oset os OReg) by (unfold oset; rewrite <- Eph; destruct os; reflexivity).
    pose proof (Hrun (fst (run d (observe_reg_ops os))) (observe_reg_ops os) OReg a b e) as K. rewrite <- Hos in K.
    apply K; [apply LInv_run; exact L| |exact E].
    unfold observe_reg_ops. apply reg_leg_iter with (n := n); auto.
  - destruct (observe_run 4 (oset os (OWait 0)) d []) as [[a b] e] eqn:E.
    intros H; injection H as <- <- <- <-. eapply Hrun; eauto. apply Hit. discriminate.
  - intros H; discriminate.
  - intros H; discriminate.
Qed.

(* ... and in a run of the system every release is of that kind *)
Corollary observer_release_ends n cs s outs ops os d' os' opsg c :
  forallb (cop_ok' n) cs = true -> crun (init_csys n 0) cs = (s, outs, ops) -> cs_o s = Some os ->
  observe_go os (cs_db s) = (d', os', opsg, c, true) ->
  (exists c', ov_phase os' = OHold c') \/
  (exists it' cur, ov_phase os' = OWait (it_watchrev it') /\ assoc observe_iid (d_iters d') = Some it' /\
                   it_pending it' = None /\ nth_error (d_root d') (ov_tab os) = Some cur /\
                   t_rev cur = it_watchrev it').
Proof.
  intros Hc H Eo Hgo. destruct (HInv_crun n cs s outs ops Hc H) as [HR [HI _]].
  destruct (h_o _ _ _ _ HI _ Eo) as [Hlt Hst]. pose proof (r_o _ _ _ HR _ Eo) as Hid. rewrite <- Hid.
  apply (observe_go_ends n os (cs_db s) d' os' opsg c (creach_LInv _ _ _ HR) Hlt); [|exact Hgo].
  intros Hne. unfold obs_state in Hst. rewrite Hid. destruct (ov_phase os) eqn:Eph; try congruence.
  - destruct Hst as [A _]. exact A.
  - destruct Hst as [[it [cur [A [B _]]]] _]. eauto.
  - revert Hgo. unfold observe_go. rewrite Eph. destruct (d_txn (cs_db s)); discriminate.
Qed.

(* insert a; the observer registers and is handed a (held in its callback), is released (a reported, Resume finds
   the sequence finished, Next finds the watch open: select); insert b and delete a in one transaction: the
   observer wakes up at the commit and is handed b; released: handed the deletion of a; released: select *)
Definition hx_run : list cop :=
  [CUser (OBegin [0%nat]); CUser (OInsert 0 (cx_pa 1)); CUser (OCommit 1); CObserveStart 0; CObserveGo; CObserveGo;
   CUser (OBegin [0%nat]); CUser (OInsert 0 (cx_pb 2)); CUser (ODelete 0 [97]); CUser (OCommit 2); CObserveGo; CObserveGo].
Definition hx_view (l : list (object * bool)) := map (fun c => (pk (fst c), o_rev (fst c), snd c)) l.

Example observer_run_invariant_nonvacuous :
  forallb (cop_ok' 1) hx_run = true /\
  (* at the end: in the select on revision 3, everything delivered has been reported *)
  (let r := crun (init_csys 1 0) hx_run in
   option_map ov_phase (cs_o (fst (fst r))) = Some (OWait 3) /\
   hx_view (reported (snd (fst r))) = [([97], 1, false); ([98], 2, false); ([97], 3, true)] /\
   hx_view (delivered observe_iid (init_db 1) (snd r)) = [([97], 1, false); ([98], 2, false); ([97], 3, true)] /\
   length (snd r) = 17%nat) /\
  (* one step earlier: inside the callback for the deletion of a, not yet reported *)
  (let r := crun (init_csys 1 0) (firstn 11 hx_run) in
   option_map (fun os => hx_view (held os)) (cs_o (fst (fst r))) = Some [([97], 3, true)] /\
   hx_view (reported (snd (fst r))) = [([97], 1, false); ([98], 2, false)] /\
   hx_view (delivered observe_iid (init_db 1) (snd r)) = [([97], 1, false); ([98], 2, false); ([97], 3, true)]) /\
  (* cancelled inside that callback: exactly that change is missing from the report *)
  (let r := crun (init_csys 1 0) (firstn 11 hx_run ++ [CObserveCancel]) in
   option_map ov_phase (cs_o (fst (fst r))) = Some ODone /\
   hx_view (reported (snd (fst r))) = [([97], 1, false); ([98], 2, false)] /\
   hx_view (delivered observe_iid (init_db 1) (snd r)) = [([97], 1, false); ([98], 2, false); ([97], 3, true)]).
Proof. vm_compute. repeat split; reflexivity. Qed.

Example observe_go_ends_nonvacuous :
  let s := fst (fst (crun (init_csys 1 0) (firstn 11 hx_run))) in
  match cs_o s with
  | Some os => (ov_tab os < 1)%nat /\ ov_phase os <> OReg /\
               (exists it, assoc (ov_iid os) (d_iters (cs_db s)) = Some it /\ it_tab it = ov_tab os) /\
               snd (observe_go os (cs_db s)) = true /\
               ov_phase (snd (fst (fst (fst (observe_go os (cs_db s)))))) = OWait 3 /\
               snd (fst (fst (observe_go os (cs_db s)))) = [OResume observe_iid (Some 1%nat); ONext observe_iid SFresh (Some 1%nat)]
  | None => False
  end.
Proof.
  vm_compute. split; [lia|]. split; [discriminate|]. split; [eexists; split; reflexivity|]. repeat split; reflexivity.
Qed.
