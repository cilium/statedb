(* Table/KeySetNil.v — index/keyset.go and index/string.go at the level where Go distinguishes a nil Key from the
   empty one. Table/Model.v takes an object's keys in an index as a `list bytes`; Properties/C04.v shows from these
   definitions that this is right for key sets built the usual way (index.String on each string, NewKeySet on the
   slice), and that it was wrong for NewKeySet as it was before 4c2d0ee (D17). *)
From Coq Require Import List.
Import ListNotations.
From SV Require Import Base.Bytes.

Definition gokey := option bytes.                                   (* None = a nil Key *)
Definition key_bytes (k : gokey) : bytes := match k with Some b => b | None => [] end.

(* index.String: unsafe.Slice(unsafe.StringData(s), len(s)) - nil for the empty string *)
Definition index_string (s : bytes) : gokey := match s with [] => None | _ => Some s end.

(* KeySet{head, tail}; Foreach returns at once when head == nil *)
Record keyset := mkKS { ks_head : gokey; ks_tail : list gokey; ks_some : bool (* false: KeySet{} *) }.
Definition foreach (ks : keyset) : list bytes :=
  if ks_some ks then match ks_head ks with
                     | None => []
                     | Some h => h :: map key_bytes (ks_tail ks) end
  else [].
(* NewKeySet before the fix: KeySet{keys[0], keys[1:]} *)
Definition new_keyset_old (keys : list gokey) : keyset :=
  match keys with [] => mkKS None [] false | k :: r => mkKS k r true end.
(* NewKeySet as it is: a nil first key is the empty key *)
Definition new_keyset (keys : list gokey) : keyset :=
  match keys with [] => mkKS None [] false | k :: r => mkKS (Some (key_bytes k)) r true end.

Lemma key_bytes_index_string s : key_bytes (index_string s) = s.
Proof. destruct s; reflexivity. Qed.
