(* Table/ChangesIter.v — one change iterator against the tables it is refreshed from:
   the ordering invariant (oinv), the replay/convergence invariant (cinv), their
   preservation by consume (the loop inside the sequence returned by Next) and by
   refresh against a later table. Database histories: Table/ChangesProofs.v. *)
From SV Require Import Base.Bytes Base.OrdMap KeyEnc.Model KeyEnc.Proofs
                       Table.Model Table.InvDefs Table.Proofs Table.Inv Table.ChangesStream.
From Coq Require Import ZifyN ZifyNat ZifyBool.
Open Scope N_scope.
#[local] Opaque rev_key.

Lemma assoc_set_same {A} k (v : A) l : assoc k (assoc_set k v l) = Some v.
Proof. unfold assoc_set. cbn [assoc]. now rewrite N.eqb_refl. Qed.

Definition pk (o : object) : bytes := p_id (o_data o).

(* "B is a later-or-equal state of the same table history as A": whatever B holds with a
   revision A had already assigned, A holds too *)
Definition tab_le (A B : table) : Prop :=
  t_rev A <= t_rev B /\
  (forall o, live B o -> o_rev o <= t_rev A -> live A o) /\
  (forall o, dead B o -> o_rev o <= t_rev A -> dead A o).

Lemma tab_le_refl A : tab_le A A.
Proof. repeat split; auto. lia. Qed.

Lemma tab_le_trans A B C : tab_le A B -> tab_le B C -> tab_le A C.
Proof.
  intros [R1 [L1 D1]] [R2 [L2 D2]]. repeat split; [exact (N.le_trans _ _ _ R1 R2)| |].
  - intros o H Hr. apply L1; auto. apply L2; auto. exact (N.le_trans _ _ _ Hr R1).
  - intros o H Hr. apply D1; auto. apply D2; auto. exact (N.le_trans _ _ _ Hr R1).
Qed.

(* replaying delivered changes: update sets the object, delete removes it *)
Definition absmap := omap (N * N).
Definition apply_change (m : absmap) (c : object * bool) : absmap :=
  if snd c then om_delete (pk (fst c)) m
  else om_insert (pk (fst c)) (p_val (o_data (fst c)), o_rev (fst c)) m.
Definition replay (l : list (object * bool)) : absmap := fold_left apply_change l [].
(* the objects and revisions of a table: primary key -> (value, revision) *)
Definition abs_of (t : table) : absmap :=
  map (fun kv => (fst kv, (p_val (o_data (snd kv)), o_rev (snd kv)))) (t_primary t).

Lemma apply_change_sorted m c : om_sorted m -> om_sorted (apply_change m c).
Proof. unfold apply_change. destruct (snd c); [apply om_delete_sorted|apply om_insert_sorted]. Qed.

Lemma fold_apply_sorted l : forall m, om_sorted m -> om_sorted (fold_left apply_change l m).
Proof. induction l as [|c r IH]; intros m H; simpl; auto. apply IH. now apply apply_change_sorted. Qed.

Lemma replay_sorted l : om_sorted (replay l).
Proof. apply fold_apply_sorted. exact I. Qed.

Lemma replay_snoc l c : replay (l ++ [c]) = apply_change (replay l) c.
Proof. unfold replay. now rewrite fold_left_app. Qed.

Lemma abs_of_sorted t : TInv t -> om_sorted (abs_of t).
Proof. intros HI. apply (om_map_sorted (fun o => (p_val (o_data o), o_rev o))). apply HI. Qed.

Lemma abs_of_get t k : om_get k (abs_of t) =
  option_map (fun o => (p_val (o_data o), o_rev o)) (om_get k (t_primary t)).
Proof. apply (om_map_get (fun o => (p_val (o_data o), o_rev o))). Qed.

Lemma dead_pk_fun t o1 o2 : TInv t -> dead t o1 -> dead t o2 -> pk o1 = pk o2 -> o1 = o2.
Proof.
  intros HI H1 H2 E. unfold dead, pk in *. rewrite E in H1.
  eapply om_in_fun; eauto. apply HI.
Qed.

Lemma live_dead_pk t o1 o2 : TInv t -> live t o1 -> dead t o2 -> pk o1 <> pk o2.
Proof.
  intros HI H1 H2 E. pose proof (dead_not_live_key t HI _ H2) as Hn.
  apply (live_get t HI) in H1. unfold pk in E. rewrite E in H1. congruence.
Qed.

Lemma pend_spec_tail G o b r R D : TInv G -> pend_spec ((o, b) :: r) G R D ->
  (if b then dead G o /\ D < o_rev o else live G o /\ R < o_rev o) /\
  (forall c, In c r -> o_rev o < crev c) /\
  pend_spec r G (if b then R else o_rev o) (if b then o_rev o else D).
Proof.
  intros HI [Ha Hm]. cbn [map] in Ha. apply asc_cons_inv in Ha. destruct Ha as [Ha Hlt].
  assert (Hh := proj1 (Hm o b) (or_introl eq_refl)).
  assert (Hr : forall c, In c r -> o_rev o < crev c).
  { intros c Hc. apply Hlt. now apply in_map. }
  split; [exact Hh|]. split; [exact Hr|]. split; [exact Ha|].
  intros o' b'. split.
  - intros Hin. pose proof (Hr _ Hin) as Hl. unfold crev in Hl. cbn [fst] in Hl.
    pose proof (proj1 (Hm o' b') (or_intror Hin)) as Hs.
    destruct b, b'; intuition lia.
  - intros Hs.
    assert (Hin : In (o', b') ((o, b) :: r)).
    { apply Hm. destruct b, b'; intuition lia. }
    destruct Hin as [E|Hin]; auto. injection E as -> ->. destruct b'; lia.
Qed.

(* whatever else of G lies beyond the cursors comes after the head *)
Lemma pend_spec_rest G o b r R D o' (b' : bool) : pend_spec ((o, b) :: r) G R D ->
  (if b' then dead G o' /\ D < o_rev o' else live G o' /\ R < o_rev o') ->
  (o', b') = (o, b) \/ o_rev o < o_rev o'.
Proof.
  intros [Ha Hm] H. apply Hm in H. destruct H as [E|Hin]; [now left|right].
  cbn [map] in Ha. apply asc_cons_inv in Ha. apply (proj2 Ha (crev (o', b'))). now apply in_map.
Qed.

Lemma pend_spec_nil G R D : pend_spec [] G R D ->
  (forall o, live G o -> o_rev o <= R) /\ (forall o, dead G o -> o_rev o <= D).
Proof.
  intros [_ Hm]. split; intros o Ho.
  - destruct (N.le_gt_cases (o_rev o) R); auto. exfalso. apply (Hm o false). auto.
  - destruct (N.le_gt_cases (o_rev o) D); auto. exfalso. apply (Hm o true). auto.
Qed.

(* iterator state after handing out one element (the loop body of the sequence) *)
Definition advance (it : iter) (c : object * bool) (r : list (object * bool)) : iter :=
  if snd c then mkI (it_tab it) (it_rev it) (o_rev (fst c)) (Some r) (it_watchrev it) true
  else mkI (it_tab it) (o_rev (fst c)) (it_delrev it) (Some r) (it_watchrev it) true.
(* the loop ended *)
Definition drained (it : iter) : iter :=
  mkI (it_tab it) (it_rev it) (it_delrev it) None (it_watchrev it) false.
(* Next: refresh and hand out a sequence *)
Definition next_iter (S : table) (it : iter) : iter :=
  mkI (it_tab it) (it_rev it) (it_delrev it) (it_pending (refresh S it)) (t_rev S) true.

(* ordering invariant: G = the table the iterator was last refreshed from (at creation: the
   creating transaction's table), acc = everything delivered so far *)
Record oinv (G : table) (it : iter) (acc : list (object * bool)) : Prop := mkOinv {
  oi_tinv : TInv G;
  oi_room : rev_room G;
  oi_asc : asc (map crev acc);
  oi_le : forall c, In c acc -> crev c <= t_rev G;
  (* nothing delivered so far is at or above a live object / retained deletion still to come *)
  oi_live : forall o c, live G o -> it_rev it < o_rev o -> In c acc -> crev c < o_rev o;
  oi_dead : forall o c, dead G o -> it_delrev it < o_rev o -> In c acc -> crev c < o_rev o;
  oi_rroom : it_rev it + 1 < B64 /\ it_delrev it + 1 < B64;
  oi_dle : it_delrev it <= t_rev G;
  (* a held sequence is exactly the undelivered rest of G's merged stream *)
  oi_pend : it_seq it = true -> forall l, it_pending it = Some l -> pend_spec l G (it_rev it) (it_delrev it);
  oi_watch : it_seq it = true \/ it_pending it = None -> it_watchrev it = t_rev G;
  (* exhausted: nothing of G is left to deliver *)
  oi_done : it_pending it = None ->
            (forall o, live G o -> o_rev o <= it_rev it) /\ (forall o, dead G o -> o_rev o <= it_delrev it)
}.

Record cinv (G : table) (it : iter) (acc : list (object * bool)) : Prop := mkCinv {
  ci_rle : it_rev it <= t_rev G;
  (* replay agrees with G on every object at or below the update cursor *)
  ci_a1 : forall o, live G o -> o_rev o <= it_rev it ->
          om_get (pk o) (replay acc) = Some (p_val (o_data o), o_rev o);
  (* whatever else replay holds will be overwritten or deleted by a change still to come *)
  ci_a2 : forall k v r, om_get k (replay acc) = Some (v, r) ->
          (exists o, live G o /\ pk o = k /\ ((p_val (o_data o) = v /\ o_rev o = r) \/ it_rev it < o_rev o)) \/
          (exists o, dead G o /\ pk o = k /\ it_delrev it < o_rev o)
}.

Lemma advance_fields it c r :
  it_tab (advance it c r) = it_tab it /\ it_pending (advance it c r) = Some r /\
  it_seq (advance it c r) = true /\ it_watchrev (advance it c r) = it_watchrev it /\
  it_rev (advance it c r) = (if snd c then it_rev it else o_rev (fst c)) /\
  it_delrev (advance it c r) = (if snd c then o_rev (fst c) else it_delrev it).
Proof. unfold advance. destruct (snd c); repeat split. Qed.

Lemma oinv_advance G it acc o b r :
  oinv G it acc -> it_pending it = Some ((o, b) :: r) -> it_seq it = true ->
  oinv G (advance it (o, b) r) (acc ++ [(o, b)]).
Proof.
  intros HO Hp Hs. destruct HO as [HI HR Ha Hle Hl Hd Hrr Hdle Hpend Hw Hdone].
  destruct (pend_spec_tail G o b r _ _ HI (Hpend Hs _ Hp)) as [Hh [Hr Ht]].
  destruct (advance_fields it (o, b) r) as [_ [F2 [F3 [F4 [F5 F6]]]]]. cbn [fst snd] in F5, F6.
  assert (Hob : o_rev o <= t_rev G).
  { destruct b; destruct Hh as [Hh _]; [apply (dead_rev G HI) in Hh|apply (live_rev G HI) in Hh]; lia. }
  assert (Hacc : forall c, In c acc -> crev c < o_rev o).
  { intros c Hc. destruct b; destruct Hh as [Hh1 Hh2]; eauto. }
  (* what lies beyond the new cursors is in the rest of the stream, hence above the head and all before it *)
  assert (Hnew : forall (b' : bool) o' c,
            (if b' then dead G o' /\ (if b then o_rev o else it_delrev it) < o_rev o'
             else live G o' /\ (if b then it_rev it else o_rev o) < o_rev o') ->
            In c (acc ++ [(o, b)]) -> crev c < o_rev o').
  { intros b' o' c Hb Hc. apply (proj2 Ht) in Hb. specialize (Hr _ Hb). unfold crev in Hr at 1. cbn [fst] in Hr.
    apply in_app_iff in Hc. destruct Hc as [Hc|[<-|[]]]; [specialize (Hacc _ Hc); lia|exact Hr]. }
  constructor; auto.
  - rewrite map_app. apply asc_app. split; [auto|]. split; [simpl; auto|].
    intros x y Hx [<-|[]]. apply in_map_iff in Hx. destruct Hx as [c [<- Hc]]. unfold crev at 2. simpl. auto.
  - intros c Hc. apply in_app_iff in Hc. destruct Hc as [Hc|[<-|[]]]; auto.
  - intros o' c Hlive Hlt Hc. rewrite F5 in Hlt. exact (Hnew false o' c (conj Hlive Hlt) Hc).
  - intros o' c Hdead Hlt Hc. rewrite F6 in Hlt. exact (Hnew true o' c (conj Hdead Hlt) Hc).
  - rewrite F5, F6. unfold rev_room, B64 in *. destruct b; lia.
  - rewrite F6. destruct b; auto.
  - intros _ l Hl'. rewrite F2 in Hl'. injection Hl' as <-. rewrite F5, F6. exact Ht.
  - intros _. rewrite F4. apply Hw. auto.
  - rewrite F2. discriminate.
Qed.

Lemma cinv_advance G it acc o b r :
  oinv G it acc -> it_pending it = Some ((o, b) :: r) -> it_seq it = true ->
  cinv G it acc -> cinv G (advance it (o, b) r) (acc ++ [(o, b)]).
Proof.
  intros HO Hp Hs [Hrle A1 A2]. destruct HO as [HI HR Ha Hle Hl Hd Hrr Hdle Hpend Hw Hdone].
  destruct (pend_spec_tail G o b r _ _ HI (Hpend Hs _ Hp)) as [Hh [Hr Ht]].
  pose proof (Hpend Hs _ Hp) as Hps.
  destruct (advance_fields it (o, b) r) as [_ [_ [_ [_ [F5 F6]]]]]. cbn [fst snd] in F5, F6.
  pose proof (replay_sorted acc) as Hsort.
  constructor.
  - rewrite F5. destruct b; auto. destruct Hh as [Hh _]. apply (live_rev G HI) in Hh. lia.
  - intros o' Hlive Hle'. rewrite F5 in Hle'. rewrite replay_snoc. unfold apply_change. cbn [fst snd].
    destruct b.
    + destruct Hh as [Hh _]. rewrite om_get_delete_other; auto.
      apply (live_dead_pk G o' o HI); auto.
    + destruct Hh as [Hh Hlt].
      destruct (bytes_eq_dec (pk o') (pk o)) as [E|Hne].
      * assert (o' = o) by (eapply live_same_id; eauto). subst o'. rewrite om_get_insert_same. reflexivity.
      * rewrite om_get_insert_other; auto. apply A1; auto.
        destruct (N.le_gt_cases (o_rev o') (it_rev it)) as [|Hgt]; auto. exfalso.
        destruct (pend_spec_rest _ _ _ _ _ _ o' false Hps (conj Hlive Hgt)) as [E|Hx]; [injection E as ->; congruence|lia].
  - intros k v rr Hg. rewrite replay_snoc in Hg. unfold apply_change in Hg. cbn [fst snd] in Hg.
    rewrite F5, F6. destruct b.
    + destruct Hh as [Hh Hlt].
      destruct (bytes_eq_dec k (pk o)) as [->|Hne]; [rewrite om_get_delete_same in Hg; auto; discriminate|].
      rewrite om_get_delete_other in Hg; auto.
      destruct (A2 _ _ _ Hg) as [H|[o' [Hd' [Hk Hgt]]]]; [left; exact H|]. right. exists o'. repeat split; auto.
      destruct (pend_spec_rest _ _ _ _ _ _ o' true Hps (conj Hd' Hgt)) as [E|Hx]; [injection E as ->; congruence|exact Hx].
    + destruct Hh as [Hh Hlt].
      destruct (bytes_eq_dec k (pk o)) as [->|Hne].
      * rewrite om_get_insert_same in Hg. injection Hg as <- <-. left. exists o. auto.
      * rewrite om_get_insert_other in Hg; auto.
        destruct (A2 _ _ _ Hg) as [[o' [Hl' [Hk [Hsame|Hgt]]]]|H]; [left; exists o'; auto| |right; exact H].
        left. exists o'. repeat split; auto. right.
        destruct (pend_spec_rest _ _ _ _ _ _ o' false Hps (conj Hl' Hgt)) as [E|Hx]; [injection E as ->; congruence|exact Hx].
Qed.

Lemma oinv_drained G it acc :
  oinv G it acc -> it_pending it = Some [] -> it_seq it = true -> oinv G (drained it) acc.
Proof.
  intros [HI HR Ha Hle Hl Hd Hrr Hdle Hpend Hw Hdone] Hp Hs.
  constructor; auto; cbn [drained it_seq it_pending it_rev it_delrev it_watchrev].
  - discriminate.
  - intros _. apply pend_spec_nil. apply Hpend; auto.
Qed.

Lemma cinv_drained G it acc : cinv G it acc -> cinv G (drained it) acc.
Proof. intros [H1 H2 H3]. constructor; auto. Qed.

(* dt.mark: handing out a deletion moves the tracker's watermark and pokes the collector *)
Definition mark (iid : N) (d : db) (c : object * bool) : db :=
  if snd c then gc_trigger (set_wm d (assoc_set iid (o_rev (fst c)) (d_wm d))) else d.

Lemma consume_cons take c r it d iid :
  consume take (c :: r) it d iid =
  match take with
  | Some (S O) => ([c], advance it c r, mark iid d c)
  | Some (S n) => let '(out, it2, d2) := consume (Some n) r (advance it c r) (mark iid d c) iid in (c :: out, it2, d2)
  | Some O => ([], it, d)
  | None => let '(out, it2, d2) := consume None r (advance it c r) (mark iid d c) iid in (c :: out, it2, d2)
  end.
Proof. destruct c as [o [|]]; reflexivity. Qed.

(* what a call of consume amounts to, whatever `take` is: the loop ends, or the consumer breaks off, or
   one element is handed out and the loop goes on *)
Inductive consumed (iid : N) : list (object * bool) -> iter -> db -> list (object * bool) -> iter -> db -> Prop :=
| cs_end it d : consumed iid [] it d [] (drained it) d
| cs_stop l it d : consumed iid l it d [] it d
| cs_step c r it d out it' d' : consumed iid r (advance it c r) (mark iid d c) out it' d' ->
    consumed iid (c :: r) it d (c :: out) it' d'.

Lemma consume_consumed iid l : forall take it d out it' d',
  consume take l it d iid = (out, it', d') -> consumed iid l it d out it' d'.
Proof.
  induction l as [|c r IH]; intros take it d out it' d' H.
  - cbn in H. injection H as <- <- <-. apply cs_end.
  - rewrite consume_cons in H. destruct take as [[|[|n]]|].
    1: injection H as <- <- <-; apply cs_stop.
    1: injection H as <- <- <-; apply cs_step, cs_stop.
    all: destruct (consume _ r _ _ iid) as [[out2 it2] d2] eqn:E; injection H as <- <- <-;
      apply cs_step, (IH _ _ _ _ _ _ E).
Qed.

Lemma consumed_inv G iid l it d out it' d' : consumed iid l it d out it' d' ->
  forall acc, oinv G it acc -> it_pending it = Some l -> it_seq it = true ->
  oinv G it' (acc ++ out) /\ (cinv G it acc -> cinv G it' (acc ++ out)) /\
  it_tab it' = it_tab it /\ it_delrev it <= it_delrev it'.
Proof.
  induction 1 as [it d|l it d|[o b] r it d out it' d' _ IH]; intros acc HO Hp Hs.
  - rewrite app_nil_r. split; [now apply oinv_drained|]. split; [apply cinv_drained|]. split; [reflexivity|apply N.le_refl].
  - rewrite app_nil_r. split; [exact HO|]. split; [auto|]. split; [reflexivity|apply N.le_refl].
  - destruct (advance_fields it (o, b) r) as [F1 [F2 [F3 [_ [_ F6]]]]]. cbn [fst snd] in F6.
    destruct (IH (acc ++ [(o, b)]) (oinv_advance G it acc o b r HO Hp Hs) F2 F3) as [H1 [H2 [H3 H5]]].
    rewrite <- app_assoc in H1, H2. split; [exact H1|]. split; [intros HC; now apply H2, cinv_advance|].
    split; [congruence|]. rewrite F6 in H5. destruct b; [|exact H5].
    (* a pending deletion lies above the delete cursor *)
    destruct (pend_spec_tail G o true r _ _ (oi_tinv _ _ _ HO) (oi_pend _ _ _ HO Hs _ Hp)) as [[_ Hh] _]. lia.
Qed.

Lemma gc_trigger_frame d :
  d_root (gc_trigger d) = d_root d /\ d_txn (gc_trigger d) = d_txn d /\ d_snaps (gc_trigger d) = d_snaps d /\
  d_iters (gc_trigger d) = d_iters d /\ d_wm (gc_trigger d) = d_wm d /\
  d_closedw (gc_trigger d) = d_closedw d /\ d_nextw (gc_trigger d) = d_nextw d.
Proof. unfold gc_trigger, gc_settle. cbn. destruct (d_gc d); repeat split. Qed.

Lemma consumed_frame iid l it d out it' d' : consumed iid l it d out it' d' ->
  d_root d' = d_root d /\ d_txn d' = d_txn d /\ d_snaps d' = d_snaps d /\ d_iters d' = d_iters d /\
  d_closedw d' = d_closedw d /\ d_nextw d' = d_nextw d.
Proof.
  induction 1 as [| |c r it d out it' d' _ [A [B [C [D [E F]]]]]]; [repeat split..|].
  rewrite A, B, C, D, E, F. unfold mark. destruct (snd c); [|repeat split].
  destruct (gc_trigger_frame (set_wm d (assoc_set iid (o_rev (fst c)) (d_wm d)))) as [A1 [B1 [C1 [D1 [_ [E1 F1]]]]]].
  rewrite A1, B1, C1, D1, E1, F1. repeat split.
Qed.

(* the collector does not reach "scanned" by being poked; watermarks of other trackers stay, the
   iterator's own follows its delete cursor *)
Lemma consumed_marks iid l it d out it' d' : consumed iid l it d out it' d' ->
  (forall keys, d_gc d' = GGate2 keys -> d_gc d = GGate2 keys) /\
  (forall i, i <> iid -> assoc i (d_wm d') = assoc i (d_wm d)) /\
  (assoc iid (d_wm d) = Some (it_delrev it) -> assoc iid (d_wm d') = Some (it_delrev it')).
Proof.
  induction 1 as [| |c r it d out it' d' _ [G [W1 W2]]]; [auto..|].
  destruct (advance_fields it c r) as [_ [_ [_ [_ [_ F6]]]]]. rewrite F6 in W2.
  unfold mark in *. destruct (snd c); [|auto].
  destruct (gc_trigger_frame (set_wm d (assoc_set iid (o_rev (fst c)) (d_wm d)))) as [_ [_ [_ [_ [E _]]]]].
  rewrite E in *. cbn [set_wm d_wm] in *. split; [|split].
  - intros keys H. now apply G, gc_trigger_gate2 in H.
  - intros i Hi. rewrite W1 by auto. now apply assoc_set_other.
  - intros _. apply W2, assoc_set_same.
Qed.

Lemma consume_frame l : forall take it d iid,
  let d' := snd (consume take l it d iid) in
  d_root d' = d_root d /\ d_txn d' = d_txn d /\ d_snaps d' = d_snaps d /\ d_iters d' = d_iters d /\
  d_closedw d' = d_closedw d /\ d_nextw d' = d_nextw d.
Proof.
  intros take it d iid. destruct (consume take l it d iid) as [[out it'] d'] eqn:E.
  exact (consumed_frame _ _ _ _ _ _ _ (consume_consumed _ _ _ _ _ _ _ _ E)).
Qed.

Lemma oinv_refresh G S it acc :
  oinv G it acc -> tab_le G S -> TInv S -> rev_room S -> oinv S (next_iter S it) acc.
Proof.
  intros [HI HR Ha Hle Hl Hd Hrr Hdle Hpend Hw Hdone] [Lr [Ll Ld]] HIS HRS.
  destruct (refresh_spec S it HIS (rev_room_bound _ HRS) (proj1 Hrr) (proj2 Hrr)) as [l [El [Hps _]]].
  constructor; auto; cbn [next_iter it_rev it_delrev it_seq it_pending it_watchrev].
  - intros c Hc. specialize (Hle _ Hc). lia.
  - intros o c Hlive Hlt Hc. destruct (N.le_gt_cases (o_rev o) (t_rev G)) as [Hb|Hb].
    + eapply Hl; eauto.
    + specialize (Hle _ Hc). lia.
  - intros o c Hdead Hlt Hc. destruct (N.le_gt_cases (o_rev o) (t_rev G)) as [Hb|Hb].
    + eapply Hd; eauto.
    + specialize (Hle _ Hc). lia.
  - lia.
  - intros _ l' E. rewrite El in E. injection E as <-. exact Hps.
  - rewrite El. discriminate.
Qed.

(* C08's obligation towards the iterator: every key the iterator may hold (live in A, or deleted in
   A above its delete cursor D) that is not live in B has a retained deletion above D in B *)
Definition has_live (t : table) (k : bytes) : Prop := exists o, live t o /\ pk o = k.
Definition has_dead_above (t : table) (k : bytes) (D : N) : Prop :=
  exists o, dead t o /\ pk o = k /\ D < o_rev o.
Definition retained (A B : table) (D : N) : Prop :=
  forall k, has_live A k \/ has_dead_above A k D -> ~ has_live B k -> has_dead_above B k D.

Lemma has_live_dec t k : TInv t -> has_live t k \/ ~ has_live t k.
Proof.
  intros HI. destruct (om_get k (t_primary t)) as [o|] eqn:E.
  - left. destruct (get_live t HI _ _ E) as [E1 H]. exists o. auto.
  - right. intros [o [H <-]]. apply (live_get t HI) in H. unfold pk in E. congruence.
Qed.

Lemma cinv_refresh G S it acc :
  oinv G it acc -> cinv G it acc -> tab_le G S -> TInv S -> retained G S (it_delrev it) ->
  cinv S (next_iter S it) acc.
Proof.
  intros HO [Hrle A1 A2] [Lr [Ll Ld]] HIS Hret. pose proof (oi_tinv _ _ _ HO) as HI.
  constructor; cbn [next_iter it_rev it_delrev].
  - lia.
  - intros o Hlive Hle. apply A1; auto. apply Ll; auto. lia.
  - intros k v r Hg.
    assert (Hseen : has_live G k \/ has_dead_above G k (it_delrev it)).
    { destruct (A2 _ _ _ Hg) as [[o [H1 [H2 _]]]|[o [H1 [H2 H3]]]]; [left|right]; exists o; auto. }
    destruct (has_live_dec S k HIS) as [[o' [Hl' Hk']]|Hnl].
    + left. exists o'. split; auto. split; auto.
      destruct (N.le_gt_cases (o_rev o') (t_rev G)) as [Hb|Hb]; [|right; lia].
      pose proof (Ll _ Hl' Hb) as HlG.
      destruct (A2 _ _ _ Hg) as [[o [H1 [H2 H3]]]|[o [H1 [H2 H3]]]].
      * assert (o = o') by (eapply live_same_id; eauto; change (pk o = pk o'); congruence). subst o'. exact H3.
      * exfalso. apply (live_dead_pk G o' o HI); auto. congruence.
    + right. destruct (Hret k Hseen Hnl) as [o' [H1 [H2 H3]]]. exists o'. auto.
Qed.

Theorem drained_replay_is_table G it acc :
  oinv G it acc -> cinv G it acc -> it_pending it = None -> replay acc = abs_of G.
Proof.
  intros HO [Hrle A1 A2] Hp. pose proof (oi_tinv _ _ _ HO) as HI.
  destruct (oi_done _ _ _ HO Hp) as [Dl Dd].
  apply om_ext; [apply replay_sorted|now apply abs_of_sorted|].
  intros k. rewrite abs_of_get.
  destruct (om_get k (t_primary G)) as [o|] eqn:E; cbn [option_map].
  - destruct (get_live G HI _ _ E) as [Ek Hl]. rewrite <- Ek. apply A1; auto.
  - destruct (om_get k (replay acc)) as [[v r]|] eqn:Eg; auto. exfalso.
    destruct (A2 _ _ _ Eg) as [[o [H1 [H2 _]]]|[o [H1 [H2 H3]]]].
    + apply (live_get G HI) in H1. unfold pk in H2. rewrite H2 in H1. congruence.
    + specialize (Dd _ H1). lia.
Qed.

(* partially consumed: replay is right for every object at or below the update cursor, and the held
   sequence is exactly the rest (oi_pend); stated for direct use *)
Theorem partial_replay_agrees G it acc o :
  cinv G it acc -> live G o -> o_rev o <= it_rev it ->
  om_get (pk o) (replay acc) = Some (p_val (o_data o), o_rev o).
Proof. intros HC. apply (ci_a1 _ _ _ HC). Qed.

Theorem partial_rest_is_exact G it acc l o b :
  oinv G it acc -> it_seq it = true -> it_pending it = Some l ->
  (In (o, b) l <-> (if b then dead G o /\ it_delrev it < o_rev o else live G o /\ it_rev it < o_rev o)).
Proof. intros HO Hs Hp. apply (oi_pend _ _ _ HO Hs _ Hp). Qed.

