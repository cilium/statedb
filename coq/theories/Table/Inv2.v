(* Table/Inv2.v — the shape of one `step` of the database model (one case analysis, reused by
   every history-level invariant), and the lifting of table invariants to histories:
   DInv = all_tables TInv is established by init_db and preserved by step / run. *)
From SV Require Import Base.Bytes Base.OrdMap KeyEnc.Model Table.Model Table.InvDefs
                       Table.Proofs Table.GcProofs Table.Inv.
From Coq Require Import ZifyN ZifyNat ZifyBool.
Open Scope N_scope.

Lemma nth_error_upd_nth {A} (f : A -> A) l : forall n m,
  nth_error (upd_nth n f l) m = if Nat.eqb n m then option_map f (nth_error l m) else nth_error l m.
Proof.
  induction l as [|y r IH]; intros [|n] [|m]; simpl; auto. now destruct (Nat.eqb n m).
Qed.

Lemma nth_error_upd_nth_same {A} (f : A -> A) : forall n l x,
  nth_error l n = Some x -> nth_error (upd_nth n f l) n = Some (f x).
Proof. intros n l x H. now rewrite nth_error_upd_nth, Nat.eqb_refl, H. Qed.

Lemma nth_error_upd_nth_other {A} (f : A -> A) : forall n m l, n <> m ->
  nth_error (upd_nth n f l) m = nth_error l m.
Proof. intros n m l H. rewrite nth_error_upd_nth. now destruct (Nat.eqb_spec n m). Qed.

Lemma nth_error_upd_nth_none {A} (f : A -> A) : forall n l, nth_error l n = None -> upd_nth n f l = l.
Proof.
  induction n as [|n IH]; intros [|y r] H; simpl in *; auto; try discriminate. f_equal. now apply IH.
Qed.

Lemma length_upd_nth {A} (f : A -> A) : forall n l, length (upd_nth n f l) = length l.
Proof. induction n as [|n IH]; intros [|y r]; simpl; auto. Qed.

Lemma Forall_upd_nth {A} (P : A -> Prop) (f : A -> A) : forall n l,
  Forall P l -> (forall x, nth_error l n = Some x -> P (f x)) -> Forall P (upd_nth n f l).
Proof.
  induction n as [|n IH]; intros [|y r] H Hf; simpl; auto; inversion H; subst; constructor; auto.
  all: try (apply (Hf y); reflexivity).
  all: apply IH; auto.
Qed.

Lemma Forall_nth_error {A} (P : A -> Prop) l n x : Forall P l -> nth_error l n = Some x -> P x.
Proof. intros H Hn. rewrite Forall_forall in H. apply H. eapply nth_error_In; eauto. Qed.

Lemma Forall_zip_with {A B C} (f : A -> B -> C) (P : C -> Prop) : forall l1 l2,
  (forall i a b, nth_error l1 i = Some a -> nth_error l2 i = Some b -> P (f a b)) -> Forall P (zip_with f l1 l2).
Proof.
  induction l1 as [|a r1 IH]; intros [|b r2] H; simpl; constructor.
  - apply (H O); reflexivity.
  - apply IH. intros i. apply (H (S i)).
Qed.

Lemma nth_error_zip_with {A B C} (f : A -> B -> C) : forall l1 l2 i,
  nth_error (zip_with f l1 l2) i =
  match nth_error l1 i, nth_error l2 i with Some a, Some b => Some (f a b) | _, _ => None end.
Proof.
  induction l1 as [|a r1 IH]; intros [|b r2] [|i]; simpl; auto.
  - destruct (nth_error r1 i); reflexivity.
Qed.

Lemma in_assoc_set {A} k (v : A) k' v' l : In (k, v) (assoc_set k' v' l) -> (k = k' /\ v = v') \/ In (k, v) l.
Proof.
  unfold assoc_set. intros [H|H]; [injection H as <- <-; auto|]. apply filter_In in H. tauto.
Qed.

(* Commit: a locked table whose initializers are all done drops its tableInitialization *)
Definition fin_table (t : table) : table :=
  match t_init t with Some (w, []) => set_meta t (t_trackers t) None | _ => t end.
Definition commit_root (es : list (table * bool)) (root : list table) : list table :=
  zip_with (fun e cur => match e with (t, true) => fin_table t | (_, false) => cur end) es root.
Definition commit_closing (es : list (table * bool)) : list N :=
  flat_map (fun e => match e with
                     | (t, true) => match t_init t with Some (w, []) => [w] | _ => [] end
                     | _ => [] end) es.
(* deleteTracker.close *)
Definition untrack (iid : N) (t : table) : table :=
  set_meta t (filter (fun x => negb (x =? iid)) (t_trackers t)) (t_init t).

(* what a write transaction can do to one of its locked table entries *)
Inductive tupd : table -> table -> Prop :=
| tu_id t : tupd t t
| tu_modify g m p t : tupd t (fst (modify g m p t))
| tu_delete g id t : tupd t (fst (delete g id t))
| tu_delete_all t : tupd t (delete_all t)
| tu_track t iid : tupd t (set_meta t (t_trackers t ++ [iid]) (t_init t))
| tu_done t w p name : t_init t = Some (w, p) ->
    tupd t (set_meta t (t_trackers t) (Some (w, filter (fun n => negb (n =? name)) p))).
(* RegisterInitializer, nw = the next fresh watch id *)
Inductive treg (nw : N) : table -> table -> Prop :=
| tr_id t : treg nw t t
| tr_new t name : t_init t = None -> treg nw t (set_meta t (t_trackers t) (Some (nw, [name])))
| tr_more t w p name : t_init t = Some (w, p) -> treg nw t (set_meta t (t_trackers t) (Some (w, p ++ [name]))).

(* the part of the database state the invariants talk about *)
Definition core5 (d : db) := (d_root d, d_txn d, d_snaps d, d_closedw d, d_nextw d).

Inductive sshape (d : db) (o : op) (d' : db) : Prop :=
| ss_same : core5 d' = (d_root d, d_txn d, d_snaps d, d_closedw d, d_nextw d) -> sshape d o d'
| ss_begin es : d_txn d = None -> map fst es = d_root d ->
    core5 d' = (d_root d, Some (es, d_root d), d_snaps d, d_closedw d, d_nextw d) -> sshape d o d'
| ss_write es old tab t t' : d_txn d = Some (es, old) -> nth_error es tab = Some (t, true) -> tupd t t' ->
    (forall tb nm, o <> ORegInit tb nm) -> (forall sid, o <> OCommit sid) ->
    core5 d' = (d_root d, Some (upd_nth tab (fun _ => (t', true)) es, old), d_snaps d, d_closedw d, d_nextw d) ->
    sshape d o d'
| ss_reg tab name es old t t' : o = ORegInit tab name ->
    d_txn d = Some (es, old) -> nth_error es tab = Some (t, true) -> treg (d_nextw d) t t' ->
    core5 d' = (d_root d, Some (upd_nth tab (fun _ => (t', true)) es, old), d_snaps d, d_closedw d, d_nextw d + 1) ->
    sshape d o d'
(* a rejected RegisterInitializer still consumes a watch id (Model.step bumps d_nextw whatever
   with_locked answers): ids need only be fresh *)
| ss_reg_fail tab name : o = ORegInit tab name ->
    core5 d' = (d_root d, d_txn d, d_snaps d, d_closedw d, d_nextw d + 1) -> sshape d o d'
| ss_commit sid es old : o = OCommit sid -> d_txn d = Some (es, old) ->
    core5 d' = (commit_root es (d_root d), None, assoc_set sid (commit_root es (d_root d)) (d_snaps d),
                commit_closing es ++ d_closedw d, d_nextw d) -> sshape d o d'
| ss_abort : core5 d' = (d_root d, None, d_snaps d, d_closedw d, d_nextw d) -> sshape d o d'
| ss_snap sid : core5 d' = (d_root d, d_txn d, assoc_set sid (d_root d) (d_snaps d), d_closedw d, d_nextw d) ->
    sshape d o d'
| ss_close iid tab : d_txn d = None ->
    core5 d' = (upd_nth tab (untrack iid) (d_root d), None, d_snaps d, d_closedw d, d_nextw d) -> sshape d o d'
| ss_gc keys : d_gc d = GGate2 keys -> d_txn d = None ->
    core5 d' = (zip_with gc_apply_table keys (d_root d), None, d_snaps d, d_closedw d, d_nextw d) -> sshape d o d'.

Lemma core5_inv d r x s c n : core5 d = (r, x, s, c, n) ->
  d_root d = r /\ d_txn d = x /\ d_snaps d = s /\ d_closedw d = c /\ d_nextw d = n.
Proof. unfold core5. intros H. injection H. auto. Qed.

Lemma core5_gc_settle d : core5 (gc_settle d) = core5 d.
Proof. unfold gc_settle. destruct (d_gc d), (d_gcchan d); reflexivity. Qed.

Lemma core5_gc_trigger d : core5 (gc_trigger d) = core5 d.
Proof. unfold gc_trigger. now rewrite core5_gc_settle. Qed.

Lemma core5_consume take l it d iid : core5 (snd (consume take l it d iid)) = core5 d.
Proof.
  apply (consume_db (fun d' => core5 d' = core5 d)); auto.
  intros d' r H. now rewrite core5_gc_trigger.
Qed.

Lemma map_fst_lock_fold tabs : forall es : list (table * bool),
  map fst (fold_left (fun es i => upd_nth i (fun e => (fst e, true)) es) tabs es) = map fst es.
Proof.
  induction tabs as [|i r IH]; intros es; simpl; auto. rewrite IH.
  clear. revert es. induction i as [|i IH]; intros [|e es]; simpl; auto. now rewrite IH.
Qed.

Lemma write_shape d o tab f a b : (forall t, tupd t (fst (f t))) ->
  (forall tb nm, o <> ORegInit tb nm) -> (forall sid, o <> OCommit sid) ->
  sshape d o (fst (with_locked d tab f a b)).
Proof.
  intros Hf H1 H2. destruct (with_locked_cases d tab f a b) as [->|[es [old [t [E1 [E2 ->]]]]]].
  - now apply ss_same.
  - eapply ss_write; eauto.
Qed.

Theorem step_shape d o : sshape d o (fst (step d o)).
Proof.
  destruct o; cbn [step].
  - (* OBegin *)
    destruct (d_txn d) eqn:E; [now apply ss_same|].
    eapply ss_begin; [exact E| |reflexivity]. rewrite map_fst_lock_fold, map_map. simpl. apply map_id.
  - apply write_shape; try discriminate. intros t. rewrite fst_wr. constructor.
  - apply write_shape; try discriminate. intros t. rewrite fst_wr. constructor.
  - apply write_shape; try discriminate. intros t. rewrite fst_wr. constructor.
  - apply write_shape; try discriminate. intros t. rewrite fst_wr. constructor.
  - apply write_shape; try discriminate. intros t. rewrite fst_wr. constructor.
  - (* ODeleteAll *)
    destruct (d_txn d) as [[es old]|] eqn:E; [|now apply ss_same].
    assert (Hw : sshape d (ODeleteAll tab) (fst (with_locked d tab (fun t => (delete_all t, OutErr EOk)) OutNone (OutErr ENotLocked)))).
    { apply write_shape; try discriminate. intros t. simpl. constructor. }
    destruct (nth_error es tab) as [[t [|]]|] eqn:E2; try exact Hw.
    destruct (t_primary t); now apply ss_same.
  - (* OCommit *)
    destruct (d_txn d) as [[es old]|] eqn:E; [|now apply ss_same].
    eapply ss_commit; [reflexivity|exact E|reflexivity].
  - (* OAbort *)
    destruct (d_txn d) eqn:E; [|now apply ss_same]. now apply ss_abort.
  - (* OSnap *) now eapply ss_snap.
  - (* OQuery *)
    destruct (src_root d s); [|now apply ss_same]. destruct (nth_error l tab); now apply ss_same.
  - (* OChanges *)
    destruct (d_txn d) as [[es old]|] eqn:E; [|now apply ss_same].
    destruct (nth_error es tab) as [[t [|]]|] eqn:E2; try now apply ss_same.
    destruct (nth_error old tab) eqn:E3; [|now apply ss_same].
    eapply ss_write; [exact E|exact E2|apply (tu_track t iid)|discriminate|discriminate|].
    reflexivity.
  - (* ONext *)
    destruct (assoc iid (d_iters d)) as [it|]; [|now apply ss_same].
    destruct (src_committed d s) as [rt|]; [|now apply ss_same].
    destruct (nth_error rt (it_tab it)) as [t|]; [|now apply ss_same].
    destruct (nth_error (d_root d) (it_tab it)) as [cur|]; [|now apply ss_same].
    match goal with |- context [if ?c then _ else _] => destruct c end; [now apply ss_same|].
    match goal with |- context [consume ?a ?b ?c ?dd ?e] =>
      pose proof (core5_consume a b c dd e) as Hc; destruct (consume a b c dd e) as [[x y] z] end.
    apply ss_same. apply (core5_inv z) in Hc. destruct Hc as [A [B [C [D F]]]].
    unfold core5. cbn. now rewrite A, B, C, D, F.
  - (* OResume *)
    destruct (assoc iid (d_iters d)) as [it|]; [|now apply ss_same].
    destruct (it_pending it) as [l|]; [|now apply ss_same]. destruct (it_seq it); [|now apply ss_same].
    match goal with |- context [consume ?a ?b ?c ?dd ?e] =>
      pose proof (core5_consume a b c dd e) as Hc; destruct (consume a b c dd e) as [[x y] z] end.
    apply ss_same. apply (core5_inv z) in Hc. destruct Hc as [A [B [C [D F]]]].
    unfold core5. cbn. now rewrite A, B, C, D, F.
  - (* OClose *)
    destruct (assoc iid (d_iters d)) as [it|]; [|now apply ss_same].
    destruct (d_txn d) eqn:E; [now apply ss_same|].
    apply (ss_close d _ _ iid (it_tab it)); [exact E|].
    cbn [fst]. rewrite core5_gc_trigger. unfold core5. simpl. rewrite E. reflexivity.
  - (* OGcScan *) destruct (d_gc d); now apply ss_same.
  - (* OGcApply *)
    destruct (d_gc d) eqn:Eg; try now apply ss_same. destruct (d_txn d) eqn:E; [now apply ss_same|].
    apply (ss_gc d _ _ keys); [exact Eg|exact E|].
    cbn [fst]. rewrite core5_gc_settle. unfold core5. simpl. rewrite E. reflexivity.
  - (* ORegInit *)
    match goal with |- context [with_locked d tab ?f ?a ?b] =>
      destruct (with_locked_cases d tab f a b) as [Hw|[es [old [t [E1 [E2 Hw]]]]]];
      destruct (with_locked d tab f a b) as [d' x] end; simpl in Hw; subst d'; cbn [fst].
    + eapply ss_reg_fail; reflexivity.
    + eapply ss_reg; [reflexivity|exact E1|exact E2| |reflexivity].
      destruct (t_init t) as [[w p]|] eqn:Ei.
      * destruct (existsb (N.eqb name) p); [apply tr_id|]. cbn [fst]. now apply (tr_more _ t w p name).
      * cbn [fst]. now apply (tr_new _ t name).
  - (* OInitDone *)
    apply write_shape; try discriminate. intros t.
    destruct (t_init t) as [[w p]|] eqn:Ei; cbn [fst]; [|constructor]. now apply (tu_done t w p name).
Qed.

(* Case analysis on what `step d o` does to the fields the invariants talk about: one goal per
   constructor of sshape, in its order; in each, Er, Et, Es, Ec, En give d_root, d_txn, d_snaps,
   d_closedw, d_nextw of d' := fst (step d o). The constructor's arguments are named es0 old0
   tab0 t0 t0' name0 sid0 iid0 keys0, its premises E1 (d_txn d), E2 (nth_error / map fst),
   Hu (tupd / treg), Eo (o = ...), Eg (d_gc d). *)
Ltac step_cases d o :=
  pose proof (step_shape d o) as Sh; set (d' := fst (step d o)) in *;
  inversion Sh as [E|es0 E1 E2 E|es0 old0 tab0 t0 t0' E1 E2 Hu _ _ E|tab0 name0 es0 old0 t0 t0' Eo E1 E2 Hu E
                   |tab0 name0 Eo E|sid0 es0 old0 Eo E1 E|E|sid0 E|iid0 tab0 E1 E|keys0 Eg E1 E];
  apply (core5_inv d') in E; destruct E as (Er & Et & Es & Ec & En).

Section Lift.
Variables P Q : table -> Prop.
Hypothesis Hmod : forall g m p t, P t -> Q (fst (modify g m p t)) -> P (fst (modify g m p t)).
Hypothesis Hdel : forall g id t, P t -> Q (fst (delete g id t)) -> P (fst (delete g id t)).
Hypothesis Hdall : forall t, P t -> Q (delete_all t) -> P (delete_all t).
Hypothesis Hgc : forall keys t, P t -> Q (gc_apply_table keys t) -> P (gc_apply_table keys t).
Hypothesis Hmeta : forall t trk ini, P t -> P (set_meta t trk ini).

Lemma lift_tupd t t' : tupd t t' -> P t -> Q t' -> P t'.
Proof. intros H; inversion H; subst; auto. Qed.

Lemma lift_treg nw t t' : treg nw t t' -> P t -> P t'.
Proof. intros H; inversion H; subst; auto. Qed.

Lemma lift_fin t : P t -> P (fin_table t).
Proof. unfold fin_table. destruct (t_init t) as [[w [|n p]]|]; auto. Qed.

Lemma all_tables_step d o : all_tables P d -> all_tables Q (fst (step d o)) -> all_tables P (fst (step d o)).
Proof.
  intros [HR [HT HS]] [QR [QT QS]]. step_cases d o; unfold all_tables; rewrite Er, Es in *.
  - rewrite Et. auto.
  - (split; [|split]); auto. intros es' old' He. rewrite Et in He. injection He as <- <-. split; auto.
    rewrite <- E2 in HR. rewrite Forall_map in HR. exact HR.
  - (split; [|split]); auto. intros es' old' He. rewrite Et in He. injection He as <- <-.
    destruct (HT _ _ E1) as [H1 H2]. split; auto.
    apply Forall_upd_nth; auto. intros x Hx. cbn [fst]. eapply lift_tupd; eauto.
    + apply (Forall_nth_error _ _ _ _ H1 E2).
    + destruct (QT _ _ Et) as [Q1 _].
      apply (Forall_nth_error _ _ tab0 _ Q1 (nth_error_upd_nth_same _ _ _ _ E2)).
  - (split; [|split]); auto. intros es' old' He. rewrite Et in He. injection He as <- <-.
    destruct (HT _ _ E1) as [H1 H2]. split; auto.
    apply Forall_upd_nth; auto. intros x Hx. cbn [fst]. eapply lift_treg; eauto.
    apply (Forall_nth_error _ _ _ _ H1 E2).
  - rewrite Et. auto.
  - destruct (HT _ _ E1) as [H1 H2].
    assert (HC : Forall P (commit_root es0 (d_root d))).
    { apply Forall_zip_with. intros i [a [|]] b Ha Hb.
      - apply lift_fin. apply (Forall_nth_error _ _ _ _ H1 Ha).
      - apply (Forall_nth_error _ _ _ _ HR Hb). }
    (split; [|split]); auto.
    + intros es' old' He. rewrite Et in He. discriminate.
    + intros sid' r Hin. apply in_assoc_set in Hin. destruct Hin as [[_ ->]|Hin]; eauto.
  - (split; [|split]); auto. intros es' old' He. rewrite Et in He. discriminate.
  - rewrite Et. (split; [|split]); auto.
    intros sid' r Hin. apply in_assoc_set in Hin. destruct Hin as [[_ ->]|Hin]; eauto.
  - (split; [|split]); auto.
    + apply Forall_upd_nth; auto. intros x Hx. apply Hmeta. apply (Forall_nth_error _ _ _ _ HR Hx).
    + intros es' old' He. rewrite Et in He. discriminate.
  - (split; [|split]); auto.
    + apply Forall_zip_with. intros i a b Ha Hb. apply Hgc.
      * apply (Forall_nth_error _ _ _ _ HR Hb).
      * apply (Forall_nth_error _ _ i _ QR). rewrite nth_error_zip_with, Ha, Hb. reflexivity.
    + intros es' old' He. rewrite Et in He. discriminate.
Qed.
End Lift.

Definition DInv (d : db) : Prop := all_tables TInv d.
Definition DBound (d : db) : Prop := all_tables rev_bound d.

(* revisions stay below 2^64 along the whole run *)
Fixpoint run_bounded (d : db) (ops : list op) : Prop :=
  match ops with
  | [] => True
  | o :: r => DBound (fst (step d o)) /\ run_bounded (fst (step d o)) r
  end.

Theorem DInv_init n : DInv (init_db n).
Proof.
  unfold DInv, all_tables, init_db. simpl. repeat split.
  - apply Forall_forall. intros t Ht. apply repeat_spec in Ht. subst. apply TInv_empty.
  - discriminate.
  - discriminate.
  - tauto.
Qed.

Lemma gc_apply_rev keys t : t_rev (gc_apply_table keys t) = t_rev t.
Proof. apply (gc_apply_frame keys t). Qed.

Theorem DInv_step d o : DInv d -> DBound (fst (step d o)) -> DInv (fst (step d o)).
Proof.
  apply all_tables_step.
  - apply TInv_modify.
  - apply TInv_delete.
  - apply TInv_delete_all.
  - intros keys t HI Hb. apply TInv_gc_apply; auto. unfold rev_bound in *. now rewrite gc_apply_rev in Hb.
  - intros. now apply TInv_set_meta.
Qed.

Theorem DInv_run ops : forall d, DInv d -> run_bounded d ops -> DInv (fst (run d ops)).
Proof.
  induction ops as [|o r IH]; intros d HI Hb; [exact HI|].
  rewrite run_cons_fst. destruct Hb as [Hb1 Hb2]. apply IH; auto. now apply DInv_step.
Qed.

Corollary DInv_reachable n ops : run_bounded (init_db n) ops -> DInv (fst (run (init_db n) ops)).
Proof. apply DInv_run, DInv_init. Qed.

(* a computable sufficient check for run_bounded (used to show the hypothesis satisfiable) *)
Definition all_tables_b (f : table -> bool) (d : db) : bool :=
  forallb f (d_root d) &&
  match d_txn d with
  | Some (es, old) => forallb (fun e => f (fst e)) es && forallb f old
  | None => true
  end &&
  forallb (fun sr => forallb f (snd sr)) (d_snaps d).

Lemma all_tables_b_ok (f : table -> bool) (P : table -> Prop) d :
  (forall t, f t = true -> P t) -> all_tables_b f d = true -> all_tables P d.
Proof.
  intros Hf H. unfold all_tables_b in H. apply andb_true_iff in H. destruct H as [H H3].
  apply andb_true_iff in H. destruct H as [H1 H2].
  assert (HF : forall l, forallb f l = true -> Forall P l).
  { intros l Hl. rewrite forallb_forall in Hl. apply Forall_forall. auto. }
  split; [auto|split].
  - intros es old E. rewrite E in H2. apply andb_true_iff in H2. destruct H2 as [A B]. split; auto.
    rewrite forallb_forall in A. apply Forall_forall. auto.
  - intros sid r Hin. rewrite forallb_forall in H3. apply HF. apply (H3 _ Hin).
Qed.

Definition rev_bound_b (t : table) : bool := t_rev t <? 18446744073709551616.

Fixpoint run_bounded_b (d : db) (ops : list op) : bool :=
  match ops with
  | [] => true
  | o :: r => all_tables_b rev_bound_b (fst (step d o)) && run_bounded_b (fst (step d o)) r
  end.

Lemma run_bounded_b_ok ops : forall d, run_bounded_b d ops = true -> run_bounded d ops.
Proof.
  induction ops as [|o r IH]; intros d H; simpl in *; auto.
  apply andb_true_iff in H. destruct H as [H1 H2]. split; auto.
  apply (all_tables_b_ok rev_bound_b); auto. intros t Ht. unfold rev_bound_b, rev_bound in *.
  now apply N.ltb_lt.
Qed.
