(* Table/AgreeN.v — the part-index `reindex` (part_index.go partIndexTxn.reindex) characterised
   extensionally, and preservation of the agreement of the unique / non-unique secondary
   indexes with the set of live objects by one write step. *)
From SV Require Import Base.Bytes Base.OrdMap KeyEnc.Model KeyEnc.Proofs Table.Model Table.InvDefs Table.Proofs
  Table.Inv Table.AgreeDefs.
From Coq Require Import ZifyN ZifyNat ZifyBool.
Open Scope N_scope.

Lemma existsb_bytes_In (K : bytes) (f : bytes -> bytes) ks :
  existsb (fun k => bytes_eqb K (f k)) ks = true <-> exists k, In k ks /\ K = f k.
Proof.
  rewrite existsb_exists. split; intros [k [H1 H2]]; exists k; split; auto; now apply bytes_eqb_spec.
Qed.

Lemma ks_exists_In ks k : ks_exists ks k = true <-> In k ks.
Proof.
  unfold ks_exists. rewrite existsb_exists. split.
  - intros [x [H1 H2]]. apply bytes_eqb_spec in H2. now subst.
  - intros H. exists k. split; auto. apply bytes_eqb_refl.
Qed.

Section Folds.
Context {V : Type}.
Variable f : bytes -> bytes.

Lemma fold_insert_sorted (v : V) ks : forall m : omap V, om_sorted m ->
  om_sorted (fold_left (fun t k => om_insert (f k) v t) ks m).
Proof. induction ks as [|k r IH]; simpl; intros m Hs; auto. apply IH. now apply om_insert_sorted. Qed.

Lemma fold_insert_get (v : V) ks : forall (m : omap V) K, om_sorted m ->
  om_get K (fold_left (fun t k => om_insert (f k) v t) ks m) =
  if existsb (fun k => bytes_eqb K (f k)) ks then Some v else om_get K m.
Proof.
  induction ks as [|k r IH]; intros m K Hs; cbn [fold_left existsb]; auto.
  rewrite IH by now apply om_insert_sorted.
  destruct (existsb (fun k0 => bytes_eqb K (f k0)) r); [now rewrite orb_true_r|]. rewrite orb_false_r.
  destruct (bytes_eqb K (f k)) eqn:E.
  - apply bytes_eqb_spec in E. subst. apply om_get_insert_same.
  - apply om_get_insert_other; auto. intros ->. now rewrite bytes_eqb_refl in E.
Qed.

Lemma fold_delete_sorted (c : bytes -> bool) ks : forall m : omap V, om_sorted m ->
  om_sorted (fold_left (fun t k => if c k then t else om_delete (f k) t) ks m).
Proof.
  induction ks as [|k r IH]; simpl; intros m Hs; auto. apply IH. destruct (c k); auto. now apply om_delete_sorted.
Qed.

Lemma fold_delete_get (c : bytes -> bool) ks : forall (m : omap V) K, om_sorted m ->
  om_get K (fold_left (fun t k => if c k then t else om_delete (f k) t) ks m) =
  if existsb (fun k => negb (c k) && bytes_eqb K (f k)) ks then None else om_get K m.
Proof.
  induction ks as [|k r IH]; intros m K Hs; cbn [fold_left existsb]; auto.
  rewrite IH by (destruct (c k); auto; now apply om_delete_sorted).
  destruct (existsb (fun k0 => negb (c k0) && bytes_eqb K (f k0)) r); [now rewrite orb_true_r|]. rewrite orb_false_r.
  destruct (c k); cbn [negb andb]; auto.
  destruct (bytes_eqb K (f k)) eqn:E.
  - apply bytes_eqb_spec in E. subst. now apply om_get_delete_same.
  - apply om_get_delete_other; auto. intros ->. now rewrite bytes_eqb_refl in E.
Qed.
End Folds.

Definition new_keys (keys : payload -> list bytes) (new : object) : list bytes :=
  if o_rev new =? 0 then [] else keys (o_data new).

Lemma reindex_sorted unique keys idKey old new t :
  om_sorted t -> om_sorted (reindex unique keys idKey old new t).
Proof.
  intros Hs. unfold reindex, reindex_with.
  destruct (o_rev old =? 0); [now apply fold_insert_sorted|].
  apply (fold_delete_sorted (ikey unique idKey)). now apply fold_insert_sorted.
Qed.

Lemma reindex_get unique keys idKey old new t K : om_sorted t ->
  om_get K (reindex unique keys idKey old new t) =
  if existsb (fun k => bytes_eqb K (ikey unique idKey k)) (new_keys keys new) then Some new
  else if negb (o_rev old =? 0) &&
          existsb (fun k => negb (ks_exists (new_keys keys new) k) && bytes_eqb K (ikey unique idKey k)) (keys (o_data old))
       then None
       else om_get K t.
Proof.
  intros Hs. unfold reindex, reindex_with. fold (new_keys keys new).
  destruct (o_rev old =? 0); cbn [negb andb].
  - now rewrite (fold_insert_get (ikey unique idKey)).
  - rewrite (fold_delete_get (ikey unique idKey)) by now apply fold_insert_sorted.
    rewrite (fold_insert_get (ikey unique idKey)) by assumption.
    destruct (existsb (fun k => negb (ks_exists (new_keys keys new) k) && bytes_eqb K (ikey unique idKey k)) (keys (o_data old))) eqn:E1;
      destruct (existsb (fun k => bytes_eqb K (ikey unique idKey k)) (new_keys keys new)) eqn:E2; auto.
    (* both: impossible, a key deleted is not a new key *)
    exfalso. apply existsb_exists in E1. destruct E1 as [k [Hk E1]]. apply andb_true_iff in E1. destruct E1 as [E1 E3].
    apply bytes_eqb_spec in E3. subst K. apply existsb_bytes_In in E2. destruct E2 as [k2 [Hk2 E2]].
    apply negb_true_iff in E1.
    assert (k = k2).
    { destruct unique; cbn [ikey] in E2; [exact E2|]. apply nuk_inj in E2. tauto. }
    subst k2. apply ks_exists_In in Hk2. congruence.
Qed.

Lemma new_keys_In keys new k : In k (new_keys keys new) <-> o_rev new <> 0 /\ In k (keys (o_data new)).
Proof.
  unfold new_keys. destruct (N.eqb_spec (o_rev new) 0) as [E|E]; simpl; [tauto|tauto].
Qed.

(* The extensional characterisation. Entries of the new object are inserted under every
   one of its keys; entries under keys of the old object that are not keys of the new one are
   removed; everything else is untouched. Duplicate keys, empty key lists, a missing old object
   (revision 0) and a missing new object (revision 0, i.e. a delete) are all covered. *)
Theorem reindex_spec unique keys idKey old new t K o' : om_sorted t ->
  (In (K, o') (reindex unique keys idKey old new t) <->
    (o_rev new <> 0 /\ o' = new /\ exists k, In k (keys (o_data new)) /\ K = ikey unique idKey k) \/
    (In (K, o') t /\
     ~ (o_rev new <> 0 /\ exists k, In k (keys (o_data new)) /\ K = ikey unique idKey k) /\
     ~ (o_rev old <> 0 /\ exists k, In k (keys (o_data old)) /\ K = ikey unique idKey k))).
Proof.
  intros Hs. rewrite om_in_get by now apply reindex_sorted. rewrite reindex_get by assumption.
  assert (Hnew : existsb (fun k => bytes_eqb K (ikey unique idKey k)) (new_keys keys new) = true <->
                 (o_rev new <> 0 /\ exists k, In k (keys (o_data new)) /\ K = ikey unique idKey k)).
  { rewrite existsb_bytes_In. split.
    - intros [k [H1 H2]]. apply new_keys_In in H1. destruct H1. split; eauto.
    - intros [H0 [k [H1 H2]]]. exists k. split; auto. apply new_keys_In. auto. }
  destruct (existsb (fun k => bytes_eqb K (ikey unique idKey k)) (new_keys keys new)) eqn:E2.
  - destruct Hnew as [Hnew _]. specialize (Hnew eq_refl). destruct Hnew as [H0 Hex]. split.
    + intros H; injection H as <-. left; auto.
    + intros [[_ [-> _]]|[_ [Hc _]]]; [reflexivity|]. exfalso; apply Hc; auto.
  - assert (Hnn : ~ (o_rev new <> 0 /\ exists k, In k (keys (o_data new)) /\ K = ikey unique idKey k)).
    { intros Hc. apply Hnew in Hc. discriminate. }
    match goal with |- context [negb ?a && ?b] => destruct (negb a && b) eqn:E1 end.
    + apply andb_true_iff in E1. destruct E1 as [E0 E1]. apply negb_true_iff in E0. apply N.eqb_neq in E0.
      apply existsb_exists in E1. destruct E1 as [k [Hk E1]]. apply andb_true_iff in E1. destruct E1 as [_ E3].
      apply bytes_eqb_spec in E3. split; [discriminate|].
      intros [[H0 [_ Hex]]|[_ [_ Hc]]]; [exfalso; apply Hnn; auto|]. exfalso. apply Hc. split; eauto.
    + rewrite <- om_in_get by assumption. split.
      * intros Hin. right. split; auto. split; auto.
        intros [H0 [k [Hk HK]]]. apply andb_false_iff in E1. destruct E1 as [E1|E1].
        -- apply negb_false_iff in E1. apply N.eqb_eq in E1. contradiction.
        -- assert (Ht : existsb (fun k0 => negb (ks_exists (new_keys keys new) k0) && bytes_eqb K (ikey unique idKey k0)) (keys (o_data old)) = true); [|congruence].
           apply existsb_exists. exists k. split; auto. apply andb_true_iff. split; [|subst K; apply bytes_eqb_refl].
           apply negb_true_iff. destruct (ks_exists (new_keys keys new) k) eqn:E4; auto.
           apply ks_exists_In in E4. apply new_keys_In in E4. exfalso. apply Hnn. destruct E4. split; eauto.
      * intros [[H0 [_ Hex]]|[Hin _]]; [exfalso; apply Hnn; auto|auto].
Qed.

(* both kinds of index at once: one entry per (key, object of L), stored under ikey *)
Definition p_agree_on (unique : bool) (L : object -> Prop) (keys : payload -> list bytes) (m : idx) : Prop :=
  om_sorted m /\
  forall K o, In (K, o) m <-> (exists k, In k (keys (o_data o)) /\ K = ikey unique (p_id (o_data o)) k /\ L o).

Lemma p_agree_u L keys m : p_agree_on true L keys m <-> u_agree_on L keys m.
Proof.
  unfold p_agree_on, u_agree_on. cbn [ikey]. split; intros [Hs Ha]; split; auto; intros K o; rewrite Ha.
  - split; [intros (k & Hk & -> & HL); auto|intros [Hk HL]; eauto].
  - split; [intros [Hk HL]; eauto|intros (k & Hk & -> & HL); auto].
Qed.

(* For a unique index the new object owes something: none of its keys is a key of another
   object that stays live. Composite keys cannot collide (nuk_inj). An entry of another object
   under a key of the old one is excluded by the index being a map. *)
Theorem reindex_agree unique L L' keys idKey old new m :
  step_ok L L' idKey old new ->
  (unique = true -> o_rev new <> 0 ->
   forall o k, L' o -> In k (keys (o_data new)) -> In k (keys (o_data o)) -> o = new) ->
  p_agree_on unique L keys m ->
  p_agree_on unique L' keys (reindex unique keys idKey old new m).
Proof.
  intros S Hfresh [Hs Ha]. split; [now apply reindex_sorted|]. intros K o'.
  rewrite reindex_spec by assumption. split.
  - intros [[H0 [-> [k [Hk ->]]]]|[Hin [Hnn Hno]]].
    + exists k. rewrite (so_new _ _ _ _ _ S H0). repeat split; auto. apply (so_live _ _ _ _ _ S). left; auto.
    + apply Ha in Hin. destruct Hin as [k [Hk [HK HL]]]. exists k. repeat split; auto.
      apply (so_live _ _ _ _ _ S). right. split; auto. intros Hid.
      destruct (so_only _ _ _ _ _ S o' HL Hid) as [H0 ->]. apply Hno. split; auto.
      exists k. split; auto. now rewrite <- Hid.
  - intros [k [Hk [HK HL']]]. pose proof HL' as HL'0. apply (so_live _ _ _ _ _ S) in HL'.
    destruct HL' as [[H0 ->]|[HL Hid]].
    + left. repeat split; auto. exists k. split; auto. now rewrite <- (so_new _ _ _ _ _ S H0).
    + right. split; [apply Ha; eauto|]. split.
      * intros [H0 [k2 [Hk2 E]]]. rewrite HK in E. destruct unique; cbn [ikey] in E.
        -- subst k2. apply Hid. rewrite (Hfresh eq_refl H0 o' k HL'0 Hk2 Hk). now apply (so_new _ _ _ _ _ S).
        -- apply nuk_inj in E. tauto.
      * intros [H0 [k2 [Hk2 E]]]. destruct (so_old _ _ _ _ _ S H0) as [HLo Hido].
        apply Hid. rewrite <- Hido. do 2 f_equal.
        apply (om_in_fun K _ _ m Hs); apply Ha; [exists k; auto|exists k2; rewrite Hido; auto].
Qed.

Theorem reindex_agree_n L L' keys idKey old new m :
  step_ok L L' idKey old new -> n_agree_on L keys m ->
  n_agree_on L' keys (reindex false keys idKey old new m).
Proof. intros S. apply (reindex_agree false); auto. discriminate. Qed.

Theorem reindex_agree_u' L L' keys idKey old new m :
  step_ok L L' idKey old new ->
  (o_rev new <> 0 -> forall o k, L' o -> In k (keys (o_data new)) -> In k (keys (o_data o)) -> o = new) ->
  u_agree_on L keys m ->
  u_agree_on L' keys (reindex true keys idKey old new m).
Proof. intros S Hwf A. apply p_agree_u, (reindex_agree true L); auto. now apply p_agree_u. Qed.

Theorem reindex_agree_u L L' keys idKey old new m :
  step_ok L L' idKey old new -> wf_on L' keys -> u_agree_on L keys m ->
  u_agree_on L' keys (reindex true keys idKey old new m).
Proof.
  intros S Hwf. apply reindex_agree_u'; auto. intros H0 o k HL Hk1 Hk2.
  apply (Hwf o new k); auto. apply (so_live _ _ _ _ _ S). left; auto.
Qed.

(* an agreeing unique index is itself the evidence that the live objects are well-formed *)
Lemma u_agree_on_wf L keys m : u_agree_on L keys m -> wf_on L keys.
Proof.
  intros [Hs Ha] o1 o2 k H1 H2 K1 K2. eapply om_in_fun; [exact Hs| |]; apply Ha; eauto.
Qed.

Lemma old_object_facts t id : TInv t ->
  (o_rev (old_object id t) <> 0 -> live t (old_object id t) /\ p_id (o_data (old_object id t)) = id) /\
  (forall o, live t o -> p_id (o_data o) = id -> o_rev (old_object id t) <> 0 /\ o = old_object id t).
Proof.
  intros I. unfold old_object. split.
  - destruct (om_get id (t_primary t)) as [o|] eqn:E; [|cbn; congruence].
    intros _. destruct (get_live _ I _ _ E); auto.
  - intros o HL <-. pose proof (live_rev _ I _ HL). apply (live_get _ I) in HL. rewrite HL. split; auto. lia.
Qed.

(* insert / Modify / CompareAndSwap that went through *)
Lemma insert_step_ok t t' id obj : TInv t ->
  t_primary t' = om_insert id obj (t_primary t) -> p_id (o_data obj) = id -> o_rev obj <> 0 ->
  step_ok (live t) (live t') id (old_object id t) obj.
Proof.
  intros I Hp Hid Hr. destruct (old_object_facts t id I) as [F1 F2].
  constructor; auto. intros o. unfold live at 1. rewrite Hp.
  rewrite om_in_insert by apply (ti_sorted_primary _ I). split.
  - intros [[_ ->]|[Hne Hin]]; [left; auto|right; auto].
  - intros [[_ ->]|[HL Hne]]; [left; auto|right; auto].
Qed.

(* Delete / CompareAndDelete that went through *)
Lemma delete_step_ok t t' id : TInv t ->
  t_primary t' = om_delete id (t_primary t) ->
  step_ok (live t) (live t') id (old_object id t) noobj.
Proof.
  intros I Hp. destruct (old_object_facts t id I) as [F1 F2].
  constructor; auto.
  - cbn. congruence.
  - intros o. unfold live at 1. rewrite Hp.
    rewrite om_in_delete by apply (ti_sorted_primary _ I). cbn [noobj o_rev]. split.
    + intros [Hne Hin]. right; auto.
    + intros [[Hc _]|[HL Hne]]; [congruence|auto].
Qed.
