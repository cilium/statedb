(* Table/Clients.v — the two in-tree clients of change iterators, as coded:
     derive.go      Derive / derive.loop   (a table derived from another through a transform function)
     observable.go  Observable / Observe   (a table's changes as a stream of callbacks)
   Both are written as PROGRAMS OVER Table/Model.v's operations: every client step is the execution of a
   list of `op`s chosen from the current state, and the function returns that list, so that a run of user
   operations interleaved with client steps is literally `run d ops` for the concatenated list
   (`crun_is_run`, Table/ClientsProofs.v) and every theorem about runs (C03, C07, C08, C19) applies to it.
   No proofs in this file. *)
From Coq Require Import List NArith Bool.
Import ListNotations.
From SV Require Import Base.Bytes Base.OrdMap Table.Model.
Local Open Scope N_scope.

(* ---- derive.go --------------------------------------------------------------------------------------------- *)
Inductive dres := DInsert | DUpdate | DDelete | DSkip.          (* DeriveResult *)
Definition transform := object -> bool -> payload * dres.        (* func(obj In, deleted bool) (Out, DeriveResult) *)

(* where the loop goroutine is *)
Inductive dphase :=
| DReg                                        (* before `txn := d.DB.WriteTxn(d.InTable); iter := Changes(txn); txn.Commit()` *)
| DReady                                      (* at the top of the for loop (before `wtxn := d.DB.WriteTxn(out)`) *)
| DWait (watchrev : N) (initw : option N).    (* in the select: watch = revision-index root watch of the in-table version
                                                 with revision watchrev; init = the in-table's initialization watch *)
Record dstate := mkDS {
  dv_in : nat; dv_out : nat; dv_iid : N; dv_name : N; dv_sid : N;
  dv_marked : bool;                            (* d.markInit == nil *)
  dv_phase : dphase
}.
Definition set_phase (ds : dstate) (marked : bool) (ph : dphase) : dstate :=
  mkDS (dv_in ds) (dv_out ds) (dv_iid ds) (dv_name ds) (dv_sid ds) marked ph.

(* Derive(): wtxn := DB.WriteTxn(OutTable); markInit := OutTable.RegisterInitializer(wtxn, jobName); wtxn.Commit() *)
Definition derive_start_ops (ds : dstate) : list op :=
  [OBegin [dv_out ds]; ORegInit (dv_out ds) (dv_name ds); OCommit (dv_sid ds)].

(* loop prologue *)
Definition derive_reg_ops (ds : dstate) : list op :=
  [OBegin [dv_in ds]; OChanges (dv_iid ds) (dv_in ds); OCommit (dv_sid ds)].

(* the body of `for change := range changes`: the write (if any) one delivered change turns into. DeriveUpdate
   reads the out table through the open transaction: out.Get(wtxn, PrimaryIndexer().QueryFromObject(outObj)) *)
Definition change_ops (tr : transform) (out : nat) (d : db) (c : object * bool) : list op :=
  let '(p, r) := tr (fst c) (snd c) in
  match r with
  | DInsert => [OInsert out p]
  | DUpdate => match src_root d STxn with
               | Some root => match nth_error root out with
                              | Some t => match q_get IPrimary (p_id p) t with
                                          | Some _ => [OInsert out p]
                                          | None => [] end
                              | None => [] end
               | None => [] end
  | DDelete => [ODelete out (p_id p)]
  | DSkip => []
  end.

Fixpoint apply_changes (tr : transform) (out : nat) (d : db) (l : list (object * bool)) : db * list op :=
  match l with
  | [] => (d, [])
  | c :: r => let ops := change_ops tr out d c in
              let d1 := fst (run d ops) in
              let '(d2, ops2) := apply_changes tr out d1 r in
              (d2, ops ++ ops2)
  end.

(* `if d.markInit != nil { if ok, ch := d.InTable.Initialized(wtxn); ok { d.markInit(wtxn); d.markInit = nil } else { init = ch } }`
   evaluated in the open transaction (the in-table is not locked: its entry is the root's at WriteTxn time) *)
Definition init_ops (ds : dstate) (d : db) : list op * bool * option N :=
  if dv_marked ds then ([], true, None)
  else match src_root d STxn with
       | Some root => match nth_error root (dv_in ds) with
                      | Some t => let '(i, _, w) := q_init t in
                                  if i then ([OInitDone (dv_out ds) (dv_name ds)], true, None)
                                  else ([], false, w)
                      | None => ([], false, None) end
       | None => ([], false, None) end.

(* one iteration of the for loop up to the select *)
Definition derive_iter (tr : transform) (ds : dstate) (d : db) : db * dstate * list op :=
  let o1 := [OBegin [dv_out ds]; ONext (dv_iid ds) STxn None] in
  let '(d1, outs) := run d o1 in
  match outs with
  | [_; OutChanges l wclosed] =>
    let '(d2, o2) := apply_changes tr (dv_out ds) d1 l in
    let '(o3, marked, initw) := init_ops ds d2 in
    let d3 := fst (run d2 o3) in
    let o4 := [OCommit (dv_sid ds)] in
    let d4 := fst (run d3 o4) in
    let wr := match assoc (dv_iid ds) (d_iters d4) with Some it => it_watchrev it | None => 0 end in
    (d4, set_phase ds marked (if wclosed then DReady else DWait wr initw), o1 ++ o2 ++ o3 ++ o4)
  | _ => (d, ds, [])          (* iterator not registered: not reachable from CDeriveStart / DReg *)
  end.

(* is the loop goroutine runnable: not in the select, or one of the select's channels is closed *)
Definition d_ready (ds : dstate) (d : db) : bool :=
  match dv_phase ds with
  | DReg | DReady => true
  | DWait wr iw =>
    negb (match nth_error (d_root d) (dv_in ds) with Some t => t_rev t =? wr | None => true end)
    || match iw with Some w => existsb (N.eqb w) (d_closedw d) | None => false end
  end.

(* `dgo`: let the goroutine run from where it is to its next WriteTxn / select *)
Definition derive_go (tr : transform) (ds : dstate) (d : db) : db * dstate * list op * bool :=
  match d_txn d with
  | Some _ => (d, ds, [], false)         (* the harness never runs the loop while it holds a transaction itself *)
  | None =>
    if negb (d_ready ds d) then (d, ds, [], false)
    else match dv_phase ds with
         | DReg => let ops := derive_reg_ops ds in
                   (fst (run d ops), set_phase ds (dv_marked ds) DReady, ops, true)
         | _ => let '(d', ds', ops) := derive_iter tr ds d in (d', ds', ops, true)
         end
  end.

(* the transform of the harness: behaviour selected by the object's value
     live object   : val mod 4   = 0 insert | 1 update | 2 delete | 3 skip
     deleted object: val/4 mod 4 = 0 delete | 1 update | 2 skip   | 3 insert
   mode 0 (mirror): insert live objects, delete deleted ones. The out object copies id and value. *)
Definition tr_std (mode : N) (o : object) (deleted : bool) : payload * dres :=
  let p := mkP (p_id (o_data o)) (p_val (o_data o)) [] [] [] [] in
  if mode =? 0 then (p, if deleted then DDelete else DInsert)
  else
    let v := p_val (o_data o) in
    if deleted then
      (p, match (v / 4) mod 4 with 0 => DDelete | 1 => DUpdate | 2 => DSkip | _ => DInsert end)
    else
      (p, match v mod 4 with 0 => DInsert | 1 => DUpdate | 2 => DDelete | _ => DSkip end).

(* ---- observable.go ----------------------------------------------------------------------------------------- *)
(* The observer goroutine cannot be held back between waking up and taking its read transaction (ReadTxn has no
   hook point), so the model is eager: whenever the watch channel it waits on has been closed it runs at once, up
   to its first `next(change)` callback, where the harness holds it. *)
Inductive ophase :=
| OReg                           (* before WriteTxn / Changes / Commit (held at the hook point of WriteTxn) *)
| OHold (c : object * bool)      (* inside `next(c)`: the callback has been entered and has not returned yet *)
| OWait (watchrev : N)           (* in the select on ctx.Done() and the watch channel returned by Next *)
| ODone.                         (* returned: complete(nil) called, iterator closed *)
Record ostate := mkOS { ov_tab : nat; ov_iid : N; ov_sid : N; ov_phase : ophase }.
Definition oset (os : ostate) (ph : ophase) : ostate := mkOS (ov_tab os) (ov_iid os) (ov_sid os) ph.

Definition observe_reg_ops (os : ostate) : list op :=
  [OBegin [ov_tab os]; OChanges (ov_iid os) (ov_tab os); OCommit (ov_sid os)].

(* can the goroutine be released by the harness (it is held at a hook point / inside the callback) *)
Definition o_held (os : ostate) : bool :=
  match ov_phase os with OReg | OHold _ => true | _ => false end.

(* has the select's watch channel been closed *)
Definition o_woken (os : ostate) (d : db) : bool :=
  match ov_phase os with
  | OWait wr => negb (match nth_error (d_root d) (ov_tab os) with Some t => t_rev t =? wr | None => true end)
  | _ => false
  end.

(* run from "the callback has returned" / "about to call iter.Next(db.ReadTxn())" until the next callback is
   entered (OHold) or the goroutine blocks in the select (OWait). Each turn of the fuel is one of: continue the
   sequence in flight (OResume .. (Some 1)), or call Next and start consuming (ONext .. SFresh (Some 1)). *)
Fixpoint observe_run (fuel : nat) (os : ostate) (d : db) (acc : list op) : db * ostate * list op :=
  match fuel with
  | O => (d, os, acc)
  | S f =>
    let in_seq := match assoc (ov_iid os) (d_iters d) with
                  | Some it => it_seq it && match it_pending it with Some _ => true | None => false end
                  | None => false end in
    let o := if in_seq then OResume (ov_iid os) (Some 1%nat) else ONext (ov_iid os) SFresh (Some 1%nat) in
    let '(d1, out) := step d o in
    match out with
    | OutChanges (c :: _) _ => (d1, oset os (OHold c), acc ++ [o])
    | OutChanges [] true => observe_run f os d1 (acc ++ [o])     (* sequence ended / refreshed and empty: closed watch, loop *)
    | OutChanges [] false =>                                       (* open watch returned: select blocks *)
      let wr := match assoc (ov_iid os) (d_iters d1) with Some it => it_watchrev it | None => 0 end in
      (d1, oset os (OWait wr), acc ++ [o])
    | _ => (d1, os, acc ++ [o])
    end
  end.

(* `ogo`: release the held goroutine: the callback returns (its change is now reported) / registration runs;
   it then runs to its next callback or to the select *)
Definition observe_go (os : ostate) (d : db) : db * ostate * list op * option (object * bool) * bool :=
  match d_txn d, ov_phase os with
  | None, OReg => let ops := observe_reg_ops os in
                  let '(d', os', ops') := observe_run 4 os (fst (run d ops)) ops in
                  (d', os', ops', None, true)
  | None, OHold c =>
    (* c is reported now; should the run below not reach a callback or the select (out of fuel: never, three turns
       suffice), the goroutine counts as still running: a waiter on an already closed channel *)
    let '(d', os', ops) := observe_run 4 (oset os (OWait 0)) d [] in (d', os', ops, Some c, true)
  | _, _ => (d, os, [], None, false)
  end.

(* after every step of anybody: a waiting observer whose watch channel has been closed runs *)
Definition observe_wake (os : ostate) (d : db) : db * ostate * list op :=
  if o_woken os d then observe_run 4 os d [] else (d, os, []).

(* ctx cancelled: whatever the goroutine is doing it enters no further callback (ctx.Err() is checked before
   every `next`), leaves through `case <-ctx.Done()` and runs the deferred iter.Close() *)
Definition observe_cancel (os : ostate) (d : db) : db * ostate * list op * bool :=
  match d_txn d, ov_phase os with
  | Some _, _ => (d, os, [], false)
  | None, ODone => (d, os, [], false)
  | None, OReg => (d, os, [], false)          (* the harness cancels only after registration *)
  | None, _ => let ops := [OClose (ov_iid os)] in (fst (run d ops), oset os ODone, ops, true)
  end.

(* ---- a system of the database, one Derive job and one observer, driven by the harness ---------------------- *)
Inductive cop :=
| CUser (o : op)
| CDeriveStart (inn out : nat)      (* statedb.Derive(...)(params) + the job starts: goroutine parked before its first WriteTxn *)
| CDeriveGo
| CDeriveStat
| CObserveStart (tab : nat)
| CObserveGo
| CObserveCancel
| CObserveStat.

Inductive cout :=
| CoOut (o : out)
| CoRan (ran : bool) (ready_after : bool)
| CoDelivered (ran : bool) (c : option (object * bool)) (ready_after : bool)
| CoStat (ready : bool).

Record csys := mkCS { cs_db : db; cs_d : option dstate; cs_o : option ostate; cs_mode : N }.

(* ids reserved for the clients (the harness' own iterators / snapshots / initializers use small numbers) *)
Definition derive_iid : N := 9001.  Definition derive_name : N := 9002.  Definition derive_sid : N := 9003.
Definition observe_iid : N := 9011. Definition observe_sid : N := 9013.

(* one harness action, without the observer's eager wake-up *)
Definition cstep0 (s : csys) (c : cop) : csys * cout * list op :=
  match c with
  | CUser o => let '(d', x) := step (cs_db s) o in (mkCS d' (cs_d s) (cs_o s) (cs_mode s), CoOut x, [o])
  | CDeriveStart inn out =>
    match cs_d s, d_txn (cs_db s) with
    | None, None =>
      let ds := mkDS inn out derive_iid derive_name derive_sid false DReg in
      let ops := derive_start_ops ds in
      (mkCS (fst (run (cs_db s) ops)) (Some ds) (cs_o s) (cs_mode s), CoRan true true, ops)
    | _, _ => (s, CoRan false false, [])
    end
  | CDeriveGo =>
    match cs_d s with
    | Some ds => let '(d', ds', ops, ran) := derive_go (tr_std (cs_mode s)) ds (cs_db s) in
                 (mkCS d' (Some ds') (cs_o s) (cs_mode s), CoRan ran (d_ready ds' d'), ops)
    | None => (s, CoRan false false, [])
    end
  | CDeriveStat =>
    match cs_d s with
    | Some ds => (s, CoStat (d_ready ds (cs_db s)), [])
    | None => (s, CoStat false, [])
    end
  | CObserveStart tab =>
    match cs_o s with
    | None => (mkCS (cs_db s) (cs_d s) (Some (mkOS tab observe_iid observe_sid OReg)) (cs_mode s), CoRan true true, [])
    | Some _ => (s, CoRan false false, [])
    end
  | CObserveGo =>
    match cs_o s with
    | Some os => let '(d', os', ops, c, ran) := observe_go os (cs_db s) in
                 (mkCS d' (cs_d s) (Some os') (cs_mode s), CoDelivered ran c (o_held os'), ops)
    | None => (s, CoDelivered false None false, [])
    end
  | CObserveCancel =>
    match cs_o s with
    | Some os => let '(d', os', ops, ran) := observe_cancel os (cs_db s) in
                 (mkCS d' (cs_d s) (Some os') (cs_mode s), CoRan ran false, ops)
    | None => (s, CoRan false false, [])
    end
  | CObserveStat =>
    match cs_o s with
    | Some os => (s, CoStat (o_held os), [])
    | None => (s, CoStat false, [])
    end
  end.

Definition cstep (s : csys) (c : cop) : csys * cout * list op :=
  let '(s1, x, ops1) := cstep0 s c in
  match cs_o s1 with
  | Some os => let '(d', os', ops2) := observe_wake os (cs_db s1) in
               (mkCS d' (cs_d s1) (Some os') (cs_mode s1), x, ops1 ++ ops2)
  | None => (s1, x, ops1)
  end.

Definition init_csys (ntab : nat) (mode : N) : csys := mkCS (init_db ntab) None None mode.

(* a run of the system; third component: the Table/Model.v operations it executed, in order *)
Fixpoint crun (s : csys) (cs : list cop) : csys * list cout * list op :=
  match cs with
  | [] => (s, [], [])
  | c :: r => let '(s1, x, ops1) := cstep s c in
              let '(s2, xs, ops2) := crun s1 r in
              (s2, x :: xs, ops1 ++ ops2)
  end.
